(* Bit operations on Z as arithmetic: masks are mod, shifts are * and /,
   a lor of fields that do not overlap is a sum. *)
From Coq Require Import ZArith Lia Bool List.
Open Scope Z_scope.

Lemma land_pow2_mask a n : 0 <= n -> Z.land a (2 ^ n - 1) = a mod 2 ^ n.
Proof.
  intros Hn. rewrite <- Z.land_ones by exact Hn.
  rewrite Z.ones_equiv, <- Z.sub_1_r. reflexivity.
Qed.

Lemma shiftr_div a n : 0 <= n -> Z.shiftr a n = a / 2 ^ n.
Proof. intros; apply Z.shiftr_div_pow2; assumption. Qed.

Lemma shiftl_mul a n : 0 <= n -> Z.shiftl a n = a * 2 ^ n.
Proof. intros; apply Z.shiftl_mul_pow2; assumption. Qed.

Lemma land_low_high a b n : 0 <= n -> 0 <= a < 2 ^ n -> Z.land a (b * 2 ^ n) = 0.
Proof.
  intros Hn Ha. apply Z.bits_inj'. intros k Hk.
  rewrite Z.land_spec, Z.bits_0.
  destruct (Z_lt_le_dec k n) as [Hlt|Hge].
  - rewrite <- Z.shiftl_mul_pow2 by lia. rewrite Z.shiftl_spec_low by lia.
    apply andb_false_r.
  - replace (Z.testbit a k) with false; [reflexivity|].
    symmetry. destruct (Z.eq_dec a 0) as [->|Hne]; [apply Z.bits_0|].
    apply Z.bits_above_log2; [lia|].
    apply Z.log2_lt_pow2; [lia|].
    assert (2 ^ n <= 2 ^ k) by (apply Z.pow_le_mono_r; lia). lia.
Qed.

Lemma lor_low_high a b n : 0 <= n -> 0 <= a < 2 ^ n -> Z.lor a (b * 2 ^ n) = a + b * 2 ^ n.
Proof.
  intros Hn Ha.
  rewrite <- Z.lxor_lor by (apply land_low_high; assumption).
  symmetry. apply Z.add_nocarry_lxor. apply land_low_high; assumption.
Qed.

Lemma lor_shiftl_low a b n : 0 <= n -> 0 <= a < 2 ^ n -> Z.lor a (Z.shiftl b n) = a + b * 2 ^ n.
Proof. intros. rewrite shiftl_mul by assumption. apply lor_low_high; assumption. Qed.

Lemma lxor_ones_compl a w : 0 <= w -> 0 <= a < 2 ^ w -> Z.lxor a (2 ^ w - 1) = 2 ^ w - 1 - a.
Proof.
  intros Hw Ha.
  assert (Hs : Z.ldiff (2 ^ w - 1) a = Z.lxor a (2 ^ w - 1)).
  { apply Z.bits_inj'. intros k Hk. rewrite Z.ldiff_spec, Z.lxor_spec.
    replace (2 ^ w - 1) with (Z.ones w) by (rewrite Z.ones_equiv; lia).
    destruct (Z_lt_le_dec k w).
    - rewrite Z.ones_spec_low by lia. destruct (Z.testbit a k); reflexivity.
    - rewrite Z.ones_spec_high by lia.
      replace (Z.testbit a k) with false; [reflexivity|].
      symmetry. destruct (Z.eq_dec a 0) as [->|Hne]; [apply Z.bits_0|].
      apply Z.bits_above_log2; [lia|]. apply Z.log2_lt_pow2; [lia|].
      assert (2 ^ w <= 2 ^ k) by (apply Z.pow_le_mono_r; lia). lia. }
  rewrite <- Hs. symmetry. apply Z.sub_nocarry_ldiff.
  apply Z.bits_inj'. intros k Hk. rewrite Z.ldiff_spec, Z.bits_0.
  replace (2 ^ w - 1) with (Z.ones w) by (rewrite Z.ones_equiv; lia).
  destruct (Z_lt_le_dec k w).
  - rewrite Z.ones_spec_low by lia. destruct (Z.testbit a k); reflexivity.
  - replace (Z.testbit a k) with false; [reflexivity|].
    symmetry. destruct (Z.eq_dec a 0) as [->|Hne]; [apply Z.bits_0|].
    apply Z.bits_above_log2; [lia|]. apply Z.log2_lt_pow2; [lia|].
    assert (2 ^ w <= 2 ^ k) by (apply Z.pow_le_mono_r; lia). lia.
Qed.

Lemma lxor_0_r' a : Z.lxor a 0 = a.
Proof. apply Z.lxor_0_r. Qed.

Definition wrap_u (w : Z) (z : Z) : Z := z mod 2 ^ w.
Definition to_signed (w : Z) (u : Z) : Z := if u <? 2 ^ (w - 1) then u else u - 2 ^ w.
Definition wrap_s (w : Z) (z : Z) : Z := to_signed w (wrap_u w z).
Definition to_unsigned (w : Z) (s : Z) : Z := s mod 2 ^ w.

Definition all_bytes : list Z := map Z.of_nat (seq 0 256).
Lemma in_all_bytes b : 0 <= b < 256 -> In b all_bytes.
Proof.
  intros H. unfold all_bytes. apply in_map_iff. exists (Z.to_nat b). split; [lia|].
  apply in_seq. lia.
Qed.
Lemma byte_sweep (P : Z -> bool) : forallb P all_bytes = true -> forall b, 0 <= b < 256 -> P b = true.
Proof. intros H b Hb. rewrite forallb_forall in H. apply H, in_all_bytes, Hb. Qed.

(* The generated bit-field code (Gen/Bits6.v, Gen/Bits7.v) uses literal masks and shift counts.
   [pow2 d] holds of a literal power of two by reflexivity, so e.g.
   [rewrite (land_field _ 240 16 16) by reflexivity] turns [Z.land x 240] into [x / 16 mod 16 * 16]. *)
Definition pow2 (d : Z) : Prop := d = 2 ^ Z.log2 d.

Lemma land_field_pow x a n : 0 <= a -> 0 <= n ->
  Z.land x ((2 ^ n - 1) * 2 ^ a) = x / 2 ^ a mod 2 ^ n * 2 ^ a.
Proof.
  intros Ha Hn.
  replace ((2 ^ n - 1) * 2 ^ a) with (Z.shiftl (Z.ones n) a)
    by (rewrite Z.shiftl_mul_pow2, Z.ones_equiv by assumption; lia).
  rewrite <- Z.shiftr_div_pow2, <- Z.land_ones, <- (Z.shiftl_mul_pow2 (Z.land _ _)) by assumption.
  apply Z.bits_inj'. intros k Hk.
  rewrite !Z.shiftl_spec, !Z.land_spec, Z.shiftl_spec by assumption.
  destruct (Z_lt_le_dec k a).
  - rewrite (Z.testbit_neg_r (Z.ones n)) by lia. rewrite !andb_false_r. reflexivity.
  - rewrite Z.shiftr_spec by lia. replace (k - a + a) with k by lia. reflexivity.
Qed.

(* the mask m selects the field of e values whose unit is d *)
Lemma land_field x m d e : pow2 d -> pow2 e -> m = (e - 1) * d -> Z.land x m = x / d mod e * d.
Proof. intros -> -> ->. apply land_field_pow; apply Z.log2_nonneg. Qed.

Lemma land_low x m e : pow2 e -> m = e - 1 -> Z.land x m = x mod e.
Proof. intros -> ->. apply land_pow2_mask, Z.log2_nonneg. Qed.

Lemma shiftr_lit x k d : (0 <=? k) = true -> d = 2 ^ k -> Z.shiftr x k = x / d.
Proof. intros Hk ->. apply Z.shiftr_div_pow2. lia. Qed.
Lemma shiftl_lit x k d : (0 <=? k) = true -> d = 2 ^ k -> Z.shiftl x k = x * d.
Proof. intros Hk ->. apply Z.shiftl_mul_pow2. lia. Qed.

Lemma lor_high_low q d lo : pow2 d -> 0 <= lo < d -> Z.lor (q * d) lo = q * d + lo.
Proof.
  intros -> H. rewrite Z.lor_comm, Z.add_comm. apply lor_low_high; [apply Z.log2_nonneg|exact H].
Qed.

(* two fields that overlap above d: the low part passes, the high parts are or-ed *)
Lemma lor_mul_add a b c d : pow2 d -> 0 <= c < d -> Z.lor (a * d) (b * d + c) = Z.lor a b * d + c.
Proof.
  intros Hd Hc. rewrite <- (lor_high_low b d c), Z.lor_assoc, <- (lor_high_low (Z.lor a b)) by assumption.
  f_equal. rewrite Hd, <- !Z.shiftl_mul_pow2 by apply Z.log2_nonneg. symmetry. apply Z.shiftl_lor.
Qed.

Lemma lor_mod_absorb q e : pow2 e -> Z.lor q (q mod e) = q.
Proof.
  intros ->. rewrite <- Z.land_ones by apply Z.log2_nonneg.
  apply Z.bits_inj'. intros k _. rewrite Z.lor_spec, Z.land_spec. destruct (Z.testbit q k); reflexivity.
Qed.

Lemma lor_small a b e : pow2 e -> 0 <= a < e -> 0 <= b < e -> 0 <= Z.lor a b < e.
Proof.
  intros He Ha Hb. rewrite He in *. pose proof (Z.log2_nonneg e) as Hn.
  replace (Z.lor a b) with (Z.lor a b mod 2 ^ Z.log2 e); [apply Z.mod_pos_bound; lia|].
  rewrite <- !Z.land_ones, Z.land_lor_distr_l, !Z.land_ones, !Z.mod_small by assumption. reflexivity.
Qed.

Lemma land_small a b e : pow2 e -> 0 <= a < e -> 0 <= Z.land a b < e.
Proof.
  intros He Ha. rewrite He in *. pose proof (Z.log2_nonneg e) as Hn.
  replace (Z.land a b) with (Z.land a b mod 2 ^ Z.log2 e); [apply Z.mod_pos_bound; lia|].
  rewrite <- Z.land_ones, <- Z.land_assoc, (Z.land_comm b), Z.land_assoc, Z.land_ones, Z.mod_small by assumption.
  reflexivity.
Qed.

Ltac divmod := Z.div_mod_to_equations; lia.
