(* C16 -- datafile and map readers are total; accepted files are fully traversable.
   Only the property theorems, each closed by lemmas proved in Proofs/Datafile*.v and
   Proofs/Map*.v; statements are about the executable models Model/Datafile.v and
   Model/MapReader.v (tied to the Rust code by the correspondence run). *)
From LibTw2 Require Import Base.Res Model.Datafile Model.MapReader
  Proofs.DatafileBase Proofs.DatafileCheck Proofs.DatafileAccess
  Proofs.DatafileShape Proofs.DatafileRoundtrip Proofs.MapViews Proofs.MapProofs.
From Coq Require Import ZArith List.
Import ListNotations.
Open Scope Z_scope.

(* Opening: for EVERY byte string, Reader::new returns a reader or an error -- it never
   panics (no index / slice / assert / cast / overflow site fires) and never runs out of
   fuel (every loop is bounded by the tables just read). *)
Theorem C16_open_total : forall bs, bytes_ok bs = true ->
  match reader_new bs with
  | Ok _ | Err _ => True
  | Panic _ | OutOfFuel => False
  end.
Proof.
  intros bs H. pose proof (reader_new_spec bs H) as S.
  destruct (reader_new bs); cbn in S; auto.
Qed.

(* Accessors: on every accepted file, every API call with in-range arguments (indices below
   the announced counts, u16 type ids -- any zlib behaviour whatsoever) returns a value or
   an error, and every item view returned is the sub-slice [off, off+len) of the item area
   behind a two-word header; index ranges lie inside 0..num_items. *)
Theorem C16_accessors_total : forall bs r uncompress c, bytes_ok bs = true ->
  reader_new bs = Ok r -> valid_call r c = true ->
  match run_call uncompress r c with
  | Ok v => value_inside r v
  | Err _ => True
  | Panic _ | OutOfFuel => False
  end.
Proof.
  intros bs r unc c Hok Hnew Hv.
  pose proof (reader_new_spec bs Hok) as S. rewrite Hnew in S. cbn in S.
  exact (run_call_spec unc r c S Hv).
Qed.

(* Data blocks: read_data(i) reads exactly the bytes [off, off+len) of the data section,
   off being the i-th data offset and off+len the next one (or the section size); they lie
   inside the section announced by the header, which lies inside the file; in version 3 the
   result is that slice, in version 4 it is whatever zlib makes of that slice with the
   announced size as capacity, accepted only if the size matches. *)
Theorem C16_data_inside : forall bs r uncompress i, bytes_ok bs = true ->
  reader_new bs = Ok r -> 0 <= i < h_num_data (r_hdr r) ->
  exists off len,
    read_data_src r i = Ok (off, len) /\ 0 <= off /\ 0 <= len
    /\ off + len <= h_size_data (r_hdr r) /\ h_size_data (r_hdr r) <= zlen (r_data r)
    /\ znth (r_data_offsets r) i = Some off
    /\ (if i <? h_num_data (r_hdr r) - 1 then znth (r_data_offsets r) (i + 1) = Some (off + len)
        else off + len = h_size_data (r_hdr r))
    /\ let raw := firstn (Z.to_nat len) (skipn (Z.to_nat off) (r_data r)) in
       match r_uds r with
       | None => read_data uncompress r i = Ok raw
       | Some uds => exists u, znth uds i = Some u /\ 0 <= u <= 2147483647
                               /\ read_data uncompress r i = zcase u (uncompress u raw)
       end.
Proof.
  intros bs r unc i Hok Hnew Hi.
  pose proof (reader_new_spec bs Hok) as S. rewrite Hnew in S. cbn in S.
  exact (read_data_spec unc r i S Hi).
Qed.

(* Well-formed files: for both versions (and the "crude" size convention), every item set
   (grouped by ascending u16 type id, u16 ids, i32 words) and every list of data items
   whose serialization stays below 2 GiB: the reader accepts the file the writer
   specification (doc/datafile.md) prescribes and returns exactly the items, in order,
   exactly the data, the item types in order and for each type exactly the index range of
   its items. Version 4 under the one hypothesis uncompress (compress d) = d. *)
Theorem C16_wellformed : forall compress uncompress ver crude gs datas,
  ver = 3 \/ ver = 4 -> wf_input compress ver gs datas = true ->
  (ver = 4 -> forall d, In d datas -> uncompress (zlen d) (compress d) = ZOk d) ->
  exists r, reader_new (serialize compress ver crude gs datas) = Ok r
    /\ r_version r = (if ver =? 3 then V3 else if crude && negb (zlen datas =? 0) then V4Crude else V4)
    /\ (exists vs, items r = Ok vs
          /\ map (fun v => (iv_type v, (iv_id v, iv_data v))) vs
             = flat_map (fun g : dgroup => map (pair (fst g)) (snd g)) gs
          /\ Forall (view_inside r) vs)
    /\ num_data r = Ok (zlen datas)
    /\ (forall i d, nth_error datas i = Some d -> read_data uncompress r (Z.of_nat i) = Ok d)
    /\ item_types r = Ok (map fst gs)
    /\ (forall before g after, gs = before ++ g :: after ->
          item_type_indices r (fst g) = Ok (zlen (all_ditems before), zlen (all_ditems before) + zlen (snd g))).
Proof.
  intros compress unc ver crude gs datas Hver Hwf Hunc.
  destruct (wellformed_roundtrip compress unc ver crude gs datas Hver Hwf Hunc) as (r & H1 & H2 & H3 & H4 & H5 & H6 & H7).
  exists r. split; [exact H1|]. split; [exact H2|]. split; [exact H3|]. split; [exact H4|].
  split; [|split; [exact H6|]].
  - intros i d Hi. apply nth_error_split in Hi. destruct Hi as (pre & post & Hd & Hlen).
    rewrite <- Hlen. exact (H5 pre d post Hd).
  - intros before g after Hg. rewrite <- (zlen_titems before). exact (H7 before g after Hg).
Qed.

(* Map layer: on every accepted datafile, every map accessor returns a value or an error --
   version, check_version, info, group_indices, game_layers unconditionally; group / layer /
   image for the indices the reader itself hands out (group_indices, the layer range a decoded
   group names, the image item range); string / image_name / settings (+ its iterator) / the
   five tile accessors (raw and shaped) / image_data for every data index. Every index a
   decoded value carries lies inside its range: a group's layers inside the layer item range,
   the data indices of layers / images / info inside 0..num_data -- so the traversal
   groups -> layers -> tiles, images -> names/pixels, info -> strings/settings never leaves
   the file. (no_panic r := r is a value or an error; ok_with r P := additionally P holds of
   the value.) *)
Theorem C16_map_total : forall bs r uncompress, bytes_ok bs = true -> reader_new bs = Ok r ->
  let nd := h_num_data (r_hdr r) in
  no_panic (map_version r) /\ no_panic (map_check_version r)
  /\ ok_with (map_info r) (info_ok (0, nd))
  /\ (exists s e, map_group_indices r = Ok (s, e))
  /\ no_panic (map_game_layers r)
  /\ (forall s e i, map_group_indices r = Ok (s, e) -> s <= i < e ->
        ok_with (map_group r i)
          (fun g => exists ls le, item_type_indices r MAP_ITEMTYPE_LAYER = Ok (ls, le)
                     /\ ls <= fst (g_layers g) /\ fst (g_layers g) <= snd (g_layers g) /\ snd (g_layers g) <= le))
  /\ (forall s e k, item_type_indices r MAP_ITEMTYPE_LAYER = Ok (s, e) -> s <= k < e ->
        ok_with (map_layer r k) (layer_ok (0, nd)))
  /\ (forall s e i, item_type_indices r MAP_ITEMTYPE_IMAGE = Ok (s, e) -> s <= i < e ->
        ok_with (map_image r i) (fun im => in_rg (0, nd) (im_name im) /\ opt_in (0, nd) (im_data im)))
  /\ (forall i, 0 <= i < nd ->
        no_panic (map_string uncompress r i) /\ no_panic (map_image_name uncompress r i)
        /\ ok_with (map_settings uncompress r i) (fun raw => exists l, map_settings_list raw = Ok l)
        /\ (forall size bad, no_panic (map_tiles_raw uncompress size bad r i))
        /\ (forall size bad w h, no_panic (map_tiles uncompress size bad r i w h))).
Proof.
  intros bs r unc Hok Hnew nd.
  pose proof (reader_new_spec bs Hok) as S. rewrite Hnew in S. cbn in S.
  split; [apply map_version_total; exact S|].
  split; [apply map_check_version_total; exact S|].
  split; [apply map_info_total; exact S|].
  split.
  { destruct (indices_range r MAP_ITEMTYPE_GROUP S) as (s & e & Hse & _). exists s, e.
    unfold map_group_indices. rewrite Hse. reflexivity. }
  split; [apply map_game_layers_total; exact S|].
  split; [intros s e i; apply map_group_total; exact S|].
  split; [intros s e k; apply map_layer_total; exact S|].
  split; [intros s e i; apply map_image_total; exact S|].
  intros i Hi. apply map_data_total; assumption.
Qed.

(* the generic view: MapItemExt::from_slice_rest over every struct of the translated table
   never panics and a view it hands out has exactly the struct's length *)
Theorem C16_from_slice_rest_total : forall mi s, In mi all_map_items -> Forall (fun w => is_i32 w = true) s ->
  match from_slice_rest (E := unit) mi s with
  | Ok (FsSome item rest) => zlen item = mi_len mi
  | Ok _ | Err _ => True
  | Panic _ | OutOfFuel => False
  end.
Proof.
  intros mi s Hin Hs. pose proof all_map_items_ok as Hall. rewrite Forall_forall in Hall.
  pose proof (from_slice_rest_spec (E := unit) mi s (Hall mi Hin) Hs) as H.
  destruct (from_slice_rest mi s) as [[| |item rest]| | |]; cbn in *; auto. destruct H as [[H _] _]. exact H.
Qed.

(* the two repaired defects: these inputs made Reader::new panic before the fix commits
   (assert in relative_size_of_mult; `num_items - start` overflow) *)
Example C16_fixed_unaligned_sizes :
  reader_new [68; 65; 84; 65; 4; 0; 0; 0; 68; 0; 0; 0; 68; 0; 0; 0; 1; 0; 0; 0; 2; 0; 0; 0; 0; 0; 0; 0; 28; 0; 0; 0;
              0; 0; 0; 0; 1; 0; 0; 0; 0; 0; 0; 0; 2; 0; 0; 0; 0; 0; 0; 0; 13; 0; 0; 0; 0; 0; 1; 0; 5; 0; 0; 0;
              1; 2; 3; 4; 5; 1; 0; 1; 0; 7; 0; 0; 0; 1; 2; 3; 4; 5; 6; 7] = Err Malformed.
Proof. vm_compute. reflexivity. Qed.
Example C16_fixed_start_min :
  reader_new [68; 65; 84; 65; 4; 0; 0; 0; 48; 0; 0; 0; 48; 0; 0; 0; 1; 0; 0; 0; 1; 0; 0; 0; 0; 0; 0; 0; 12; 0; 0; 0;
              0; 0; 0; 0; 1; 0; 0; 0; 0; 0; 0; 128; 1; 0; 0; 0; 0; 0; 0; 0; 0; 0; 1; 0; 4; 0; 0; 0; 7; 0; 0; 0]
  = Err Malformed.
Proof. vm_compute. reflexivity. Qed.

(* non-vacuity: a concrete item/data set meets wf_input in both versions (with a toy
   compress/uncompress pair that satisfies the hypothesis), the serialized file opens, and
   the empty string is rejected *)
Definition ex_groups : list dgroup := [(0, [(0, [1])]); (5, [(0, [7; -3]); (1, [])]); (65535, [(9, [2147483647])])].
Definition ex_datas : list bytes := [[1; 2; 3]; []; [255]].
Definition ex_compress (d : bytes) : bytes := 120 :: d.
Definition ex_uncompress (cap : Z) (s : bytes) : zres := match s with 120 :: d => ZOk d | _ => ZErr (-3) end.
Example C16_nonvacuous :
  reader_new [] = Err TooShortHeaderVersion
  /\ wf_input ex_compress 3 ex_groups ex_datas = true /\ wf_input ex_compress 4 ex_groups ex_datas = true
  /\ (forall d, ex_uncompress (zlen d) (ex_compress d) = ZOk d)
  /\ (match reader_new (serialize ex_compress 4 true ex_groups ex_datas) with
      | Ok r => r_version r = V4Crude /\ item_types r = Ok [0; 5; 65535]
                /\ find_item r 5 1 = Ok (Some {| iv_type := 5; iv_id := 1; iv_off := 9; iv_len := 0; iv_data := [] |})
                /\ read_data ex_uncompress r 0 = Ok [1; 2; 3]
      | _ => False end).
Proof. vm_compute. repeat split; reflexivity. Qed.

Print Assumptions C16_open_total.
Print Assumptions C16_accessors_total.
Print Assumptions C16_data_inside.
Print Assumptions C16_wellformed.
Print Assumptions C16_map_total.
Print Assumptions C16_from_slice_rest_total.
Print Assumptions C16_fixed_unaligned_sizes.
Print Assumptions C16_fixed_start_min.
Print Assumptions C16_nonvacuous.
