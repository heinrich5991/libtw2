(* C05 -- packet encoding and decoding are mutually inverse (0.6 / DDNet: net/src/protocol.rs,
   0.7: net/src/protocol7.rs). Only the property theorems are here, each closed by lemmas of
   Proofs/Pkt*.v, Proofs/Packet*.v. The header functions are the GENERATED ones (Gen/Bits6.v,
   Gen/Bits7.v: regenerated from the Rust source on every run), the reader and writer are the
   models Model/Packet6.v, Model/Packet7.v; the Huffman coder is a parameter of the packet
   theorems, its round trip an explicit hypothesis (property C07). *)
From LibTw2 Require Import Base.Res Model.PacketTypes Model.PacketBase.
From LibTw2 Require Gen.Consts6 Gen.Bits6 Gen.Consts7 Gen.Bits7 Model.Packet6 Model.Packet7.
From LibTw2 Require Proofs.PktBits6 Proofs.PktBits7 Proofs.Packet6Write Proofs.Packet6Read Proofs.Packet6Chunks
  Proofs.Packet7Write Proofs.Packet7Read Proofs.Packet7Chunks Proofs.PktToy.
From LibTw2 Require Model.PacketInst Proofs.PacketInstProofs.
From Coq Require Import ZArith List.
Import Gen.Bits6 Gen.Bits7 Proofs.PktBits6 Proofs.PktBits7.
Open Scope Z_scope.

(* ---- headers: pack then unpack_warn, for EVERY in-range field tuple ---- *)
Theorem C05_hdr_pack_unpack :
  (forall h, ph6_in_range h = true -> exists p, PacketHeader6_pack h = Ok p
       /\ PacketHeaderPacked6_unpack_warn p = (h, []) /\ ph6_canonical p = true)
  /\ (forall h, ch6_in_range h = true -> exists p, ChunkHeader6_pack h = Ok p
       /\ ChunkHeaderPacked6_unpack_warn p = (h, []) /\ ch6_canonical p = true)
  /\ (forall h, chv6_in_range h = true -> exists p, ChunkHeaderVital6_pack h = Ok p
       /\ ChunkHeaderVitalPacked6_unpack_warn p = (h, []) /\ chv6_canonical p = true)
  /\ (forall h, ph7_in_range h = true -> exists p, PacketHeader7_pack h = Ok p
       /\ PacketHeaderPacked7_unpack_warn p = (h, []) /\ ph7_canonical p = true)
  /\ (forall h, phc7_in_range h = true -> exists p, PacketHeaderConnless7_pack h = Ok p
       /\ PacketHeaderConnlessPacked7_unpack_warn p = (h, []) /\ phc7_canonical p = true)
  /\ (forall h, ch7_in_range h = true -> exists p, ChunkHeader7_pack h = Ok p
       /\ ChunkHeaderPacked7_unpack_warn p = (h, []) /\ ch7_canonical p = true)
  /\ (forall h, chv7_in_range h = true -> exists p, ChunkHeaderVital7_pack h = Ok p
       /\ ChunkHeaderVitalPacked7_unpack_warn p = (h, [])).
Proof.
  split; [|split; [|split; [|split; [|split; [|split]]]]]; intros h Hr.
  - destruct (ph6_pack_unpack h Hr) as (p & A & B & _ & C). exists p. auto.
  - destruct (ch6_pack_unpack h Hr) as (p & A & B & _ & C). exists p. auto.
  - destruct (chv6_pack_unpack h Hr) as (p & A & B & _ & C). exists p. auto.
  - destruct (ph7_pack_unpack h Hr) as (p & A & B & _ & C & _). exists p. auto.
  - destruct (phc7_pack_unpack h Hr) as (p & A & B & _ & C & _). exists p. auto.
  - destruct (ch7_pack_unpack h Hr) as (p & A & B & _ & C). exists p. auto.
  - destruct (chv7_pack_unpack h Hr) as (p & A & B & _). exists p. auto.
Qed.

(* ---- headers: unpack_warn then pack, for EVERY canonical bit pattern (all bytes 0..255) ---- *)
Theorem C05_hdr_unpack_pack :
  (forall p, php6_bytes_ok p = true -> ph6_canonical p = true ->
     PacketHeader6_pack (fst (PacketHeaderPacked6_unpack_warn p)) = Ok p /\ snd (PacketHeaderPacked6_unpack_warn p) = [])
  /\ (forall p, chp6_bytes_ok p = true -> ch6_canonical p = true ->
     ChunkHeader6_pack (fst (ChunkHeaderPacked6_unpack_warn p)) = Ok p /\ snd (ChunkHeaderPacked6_unpack_warn p) = [])
  /\ (forall p, chvp6_bytes_ok p = true -> chv6_canonical p = true ->
     ChunkHeaderVital6_pack (fst (ChunkHeaderVitalPacked6_unpack_warn p)) = Ok p /\ snd (ChunkHeaderVitalPacked6_unpack_warn p) = [])
  /\ (forall p, php7_bytes_ok p = true -> ph7_canonical p = true ->
     PacketHeader7_pack (fst (PacketHeaderPacked7_unpack_warn p)) = Ok p /\ snd (PacketHeaderPacked7_unpack_warn p) = [])
  /\ (forall p, phcp7_bytes_ok p = true -> phc7_canonical p = true ->
     PacketHeaderConnless7_pack (fst (PacketHeaderConnlessPacked7_unpack_warn p)) = Ok p /\ snd (PacketHeaderConnlessPacked7_unpack_warn p) = [])
  /\ (forall p, chp7_bytes_ok p = true -> ch7_canonical p = true ->
     ChunkHeader7_pack (fst (ChunkHeaderPacked7_unpack_warn p)) = Ok p /\ snd (ChunkHeaderPacked7_unpack_warn p) = [])
  /\ (forall p, chvp7_bytes_ok p = true ->
     ChunkHeaderVital7_pack (fst (ChunkHeaderVitalPacked7_unpack_warn p)) = Ok p /\ snd (ChunkHeaderVitalPacked7_unpack_warn p) = []).
Proof.
  split; [exact ph6_unpack_pack|]. split; [exact ch6_unpack_pack|]. split; [exact chv6_unpack_pack|].
  split; [exact ph7_unpack_pack|]. split; [exact phc7_unpack_pack|]. split; [exact ch7_unpack_pack|].
  intros p Hb. exact (chv7_unpack_pack p Hb eq_refl).
Qed.

(* ---- unpack_warn is silent exactly on the canonical patterns, and exactly those re-pack to
   themselves. One exception, stated: the 0.6 packet header does not warn about its padding
   bits when the connless bit is set (read_impl then compares the first bytes with ff ff ff). ---- *)
Theorem C05_warn_iff_noncanonical :
  (forall p, php6_bytes_ok p = true ->
     (ph6_canonical p = true <-> PacketHeader6_pack (fst (PacketHeaderPacked6_unpack_warn p)) = Ok p)
     /\ (snd (PacketHeaderPacked6_unpack_warn p) = [] <-> (ph6_canonical p = true \/ ph6_connless_bit p = true)))
  /\ (forall p, chp6_bytes_ok p = true ->
     (snd (ChunkHeaderPacked6_unpack_warn p) = [] <-> ChunkHeader6_pack (fst (ChunkHeaderPacked6_unpack_warn p)) = Ok p)
     /\ (snd (ChunkHeaderPacked6_unpack_warn p) = [] <-> ch6_canonical p = true))
  /\ (forall p, chvp6_bytes_ok p = true ->
     (snd (ChunkHeaderVitalPacked6_unpack_warn p) = [] <-> ChunkHeaderVital6_pack (fst (ChunkHeaderVitalPacked6_unpack_warn p)) = Ok p)
     /\ (snd (ChunkHeaderVitalPacked6_unpack_warn p) = [] <-> chv6_canonical p = true))
  /\ (forall p, php7_bytes_ok p = true ->
     (snd (PacketHeaderPacked7_unpack_warn p) = [] <-> PacketHeader7_pack (fst (PacketHeaderPacked7_unpack_warn p)) = Ok p)
     /\ (snd (PacketHeaderPacked7_unpack_warn p) = [] <-> ph7_canonical p = true))
  /\ (forall p, phcp7_bytes_ok p = true ->
     (snd (PacketHeaderConnlessPacked7_unpack_warn p) = [] <-> PacketHeaderConnless7_pack (fst (PacketHeaderConnlessPacked7_unpack_warn p)) = Ok p)
     /\ (snd (PacketHeaderConnlessPacked7_unpack_warn p) = [] <-> phc7_canonical p = true))
  /\ (forall p, chp7_bytes_ok p = true ->
     (snd (ChunkHeaderPacked7_unpack_warn p) = [] <-> ChunkHeader7_pack (fst (ChunkHeaderPacked7_unpack_warn p)) = Ok p)
     /\ (snd (ChunkHeaderPacked7_unpack_warn p) = [] <-> ch7_canonical p = true))
  /\ (forall p, chvp7_bytes_ok p = true ->
     (snd (ChunkHeaderVitalPacked7_unpack_warn p) = [] <-> ChunkHeaderVital7_pack (fst (ChunkHeaderVitalPacked7_unpack_warn p)) = Ok p)).
Proof.
  split; [exact ph6_warn_iff|]. split; [exact ch6_warn_iff|]. split; [exact chv6_warn_iff|].
  split; [exact ph7_warn_iff|]. split; [exact phc7_warn_iff|]. split; [exact ch7_warn_iff|].
  intros p Hb. exact (proj1 (chv7_warn_iff p Hb)).
Qed.

(* ---- whole packets, 0.6: what write returns, read (told the true token mode) turns back
   into the same value with no warning -- in both branches of the compression choice ---- *)
Theorem C05_read_write6 : forall (comp decomp : Packet6.HuffC),
  (forall x c y, bytes_ok x = true -> comp x c = Some y -> forall c', (length x <= c')%nat -> decomp y c' = Some x) ->
  forall p cap out cap2, Packet6.expressible6 p = true -> Packet6.packet_bytes_ok6 p = true -> Packet6.K05_6 p = false ->
  Packet6.write6 comp p cap = Ok out -> (1400 <= cap2)%nat ->
  (length out <= cap)%nat
  /\ Packet6.read6 decomp out (Packet6.true_hint6 p) cap2
     = ([], Ok (p, Packet6Read.views_of6 p (Packet6Read.enc_compressed6 comp p))).
Proof.
  intros comp decomp Hrt p cap out cap2 Hx Hb Hk Hw Hcap.
  destruct (Packet6Read.read_write6 comp decomp Hrt p cap out cap2 Hx Hb Hw Hcap) as [Hl ->]. split; [exact Hl|].
  unfold Packet6Read.k05_warnings6. rewrite Hk. reflexivity.
Qed.

(* class K05: the value comes back unchanged, with exactly the warning ChunksNoChunks *)
Theorem C05_K05_exact6 : forall (comp decomp : Packet6.HuffC),
  (forall x c y, bytes_ok x = true -> comp x c = Some y -> forall c', (length x <= c')%nat -> decomp y c' = Some x) ->
  forall p cap out cap2, Packet6.expressible6 p = true -> Packet6.packet_bytes_ok6 p = true -> Packet6.K05_6 p = true ->
  Packet6.write6 comp p cap = Ok out -> (1400 <= cap2)%nat ->
  Packet6.read6 decomp out (Packet6.true_hint6 p) cap2
  = ([Consts6.W6ChunksNoChunks], Ok (p, Packet6Read.views_of6 p (Packet6Read.enc_compressed6 comp p))).
Proof.
  intros comp decomp Hrt p cap out cap2 Hx Hb Hk Hw Hcap.
  destruct (Packet6Read.read_write6 comp decomp Hrt p cap out cap2 Hx Hb Hw Hcap) as [_ ->].
  unfold Packet6Read.k05_warnings6. rewrite Hk. reflexivity.
Qed.

(* ---- whole packets, 0.7 ---- *)
Theorem C05_read_write7 : forall (comp decomp : Packet7.HuffC7),
  (forall x c y, bytes_ok x = true -> comp x c = Some y -> forall c', (length x <= c')%nat -> decomp y c' = Some x) ->
  forall p cap out cap2, Packet7.expressible7 p = true -> Packet7.packet_bytes_ok7 p = true -> Packet7.K05_7 p = false ->
  Packet7.write7 comp p cap = Ok out -> (1400 <= cap2)%nat ->
  (length out <= cap)%nat
  /\ Packet7.read7 decomp out cap2
     = ([], Ok (p, Packet7Read.views_of7 p (Packet7Read.enc_compressed7 comp p))).
Proof.
  intros comp decomp Hrt p cap out cap2 Hx Hb Hk Hw Hcap.
  destruct (Packet7Read.read_write7 comp decomp Hrt p cap out cap2 Hx Hb Hw Hcap) as [Hl ->]. split; [exact Hl|].
  unfold Packet7Read.k05_warnings7. rewrite Hk. reflexivity.
Qed.

Theorem C05_K05_exact7 : forall (comp decomp : Packet7.HuffC7),
  (forall x c y, bytes_ok x = true -> comp x c = Some y -> forall c', (length x <= c')%nat -> decomp y c' = Some x) ->
  forall p cap2, Packet7.expressible7 p = true -> Packet7.packet_bytes_ok7 p = true -> Packet7.K05_7 p = true -> (1400 <= cap2)%nat ->
  Packet7.write7 comp p 1400 = Ok (Packet7Write.encoding7 comp p)
  /\ Packet7.read7 decomp (Packet7Write.encoding7 comp p) cap2
     = ([Consts7.W7ChunksNoChunks], Ok (p, Packet7Read.views_of7 p (Packet7Read.enc_compressed7 comp p))).
Proof.
  intros comp decomp Hrt p cap2 Hx Hb Hk Hcap.
  assert (Hkt : Packet7.K06T_7 p = false) by (destruct p as [? ? ?|? ? [? ? ?|?]]; try discriminate Hk; reflexivity).
  assert (Hk6 : Packet7.K06_7 p = false) by (destruct p as [? ? ?|? ? [? ? ?|?]]; try discriminate Hk; reflexivity).
  split; [exact (proj1 (Packet7Write.write7_ok comp p 1400 Hx Hk6 Hkt (le_n _)))|].
  rewrite (Packet7Read.read_encoding7 comp decomp Hrt p cap2 Hx Hb Hkt Hcap).
  unfold Packet7Read.k05_warnings7. rewrite Hk. reflexivity.
Qed.

(* ---- the same two theorems with the parameter instantiated by the model of the real coder over
   the built-in table (Model/PacketInst.v): the coder hypothesis is discharged by C07's round trip
   (Proofs/PacketInstProofs.tw_rt), nothing is assumed any more ---- *)
Theorem C05_read_write6_huffman : forall p cap out cap2,
  Packet6.expressible6 p = true -> Packet6.packet_bytes_ok6 p = true -> Packet6.K05_6 p = false ->
  PacketInst.write6_tw p cap = Ok out -> (1400 <= cap2)%nat ->
  (length out <= cap)%nat
  /\ PacketInst.read6_tw out (Packet6.true_hint6 p) cap2
     = ([], Ok (p, Packet6Read.views_of6 p (Packet6Read.enc_compressed6 PacketInst.tw_comp p))).
Proof. exact (C05_read_write6 PacketInst.tw_comp PacketInst.tw_decomp PacketInstProofs.tw_rt). Qed.

Theorem C05_read_write7_huffman : forall p cap out cap2,
  Packet7.expressible7 p = true -> Packet7.packet_bytes_ok7 p = true -> Packet7.K05_7 p = false ->
  PacketInst.write7_tw p cap = Ok out -> (1400 <= cap2)%nat ->
  (length out <= cap)%nat
  /\ PacketInst.read7_tw out cap2
     = ([], Ok (p, Packet7Read.views_of7 p (Packet7Read.enc_compressed7 PacketInst.tw_comp p))).
Proof. exact (C05_read_write7 PacketInst.tw_comp PacketInst.tw_decomp PacketInstProofs.tw_rt). Qed.

(* ---- chunks: what write_chunk writes, ChunksIter yields back, in order, without warnings ---- *)
Theorem C05_chunks_roundtrip6 : forall cs, forallb Packet6Chunks.chunk_wf6 cs = true ->
  (forall c cap, In c cs -> (length (Packet6Chunks.chunk_enc6 c) <= cap)%nat ->
     Packet6.write_chunk6 (ch_data c) (ch_vital c) cap = Ok (Packet6Chunks.chunk_enc6 c))
  /\ exists cvs it', Packet6.chunks_iter_all6 (flat_map Packet6Chunks.chunk_enc6 cs) (Z.of_nat (length cs))
                     = Ok (cvs, [], it') /\ map fst cvs = cs.
Proof. exact Packet6Chunks.chunks_roundtrip6. Qed.

Theorem C05_chunks_roundtrip7 : forall cs, forallb Packet7Chunks.chunk_wf7 cs = true ->
  (forall c cap, In c cs -> (length (Packet7Chunks.chunk_enc7 c) <= cap)%nat ->
     Packet7.write_chunk7 (ch_data c) (ch_vital c) cap = Ok (Packet7Chunks.chunk_enc7 c))
  /\ exists cvs it', Packet7.chunks_iter_all7 (flat_map Packet7Chunks.chunk_enc7 cs) (Z.of_nat (length cs))
                     = Ok (cvs, [], it') /\ map fst cvs = cs.
Proof. exact Packet7Chunks.chunks_roundtrip7. Qed.

(* ---- non-vacuity: concrete values meet the hypotheses; with the toy coder of PktToy.v (which
   satisfies the coder hypothesis) the writer takes the compression branch on 40 zero bytes and the
   plain branch on [1;2;3]; the generated masks give the documented bytes ---- *)
Example C05_nonvacuous :
  (forall x c y, bytes_ok x = true -> PktToy.toy_comp x c = Some y -> forall c', (length x <= c')%nat -> PktToy.toy_decomp y c' = Some x)
  /\ Packet6.expressible6 (P6Connected 1023 (Some [18; 52; 86; 120]) (P6Chunks true 2 (repeat 0 40%nat))) = true
  /\ Packet6.write6 PktToy.toy_comp (P6Connected 1023 (Some [18; 52; 86; 120]) (P6Chunks true 2 [1; 2; 3])) 2048
     = Ok [67; 255; 2; 1; 2; 3; 18; 52; 86; 120]
  /\ Packet6.write6 PktToy.toy_comp (P6Connected 5 None (P6Chunks false 1 (repeat 0 40%nat))) 2048
     = Ok [128; 5; 1; 40]
  /\ Packet6.read6 PktToy.toy_decomp [128; 5; 1; 40] (Some false) 1400
     = ([], Ok (P6Connected 5 None (P6Chunks false 1 (repeat 0 40%nat)), [{| v_src := Scratch; v_off := 3; v_len := 40 |}]))
  /\ Packet7.write7 PktToy.toy_comp (P7Connected 256 [1; 2; 3; 4] (P7Control (C7Close [98; 121; 101]))) 2048
     = Ok [5; 0; 0; 1; 2; 3; 4; 4; 98; 121; 101; 0]
  /\ ph6_in_range {| ph6_flags := 15; ph6_ack := 1023; ph6_num_chunks := 255 |} = true
  /\ PacketHeader6_pack {| ph6_flags := 15; ph6_ack := 1023; ph6_num_chunks := 255 |}
     = Ok {| php6_flags_padding_ack := 243; php6_ack := 255; php6_num_chunks := 255 |}
  /\ ChunkHeaderPacked7_unpack_warn {| chp7_flags_size := 0; chp7_padding_size := 16 |}
     = ({| ch7_flags := 0; ch7_size := 16 |}, [])
  /\ PacketInst.write6_tw (P6Connected 0 None (P6Chunks false 1 (repeat 0 40%nat))) 2048
     = Ok [128; 0; 1; 255; 255; 255; 255; 255; 138; 27]
  /\ Packet6Read.enc_compressed6 PacketInst.tw_comp (P6Connected 0 None (P6Chunks false 1 [1; 2; 3])) = false.
Proof. split; [intros x c y _; exact (PktToy.toy_rt x c y)|]. vm_compute. repeat split. Qed.

Print Assumptions C05_hdr_pack_unpack.
Print Assumptions C05_hdr_unpack_pack.
Print Assumptions C05_warn_iff_noncanonical.
Print Assumptions C05_read_write6.
Print Assumptions C05_K05_exact6.
Print Assumptions C05_read_write7.
Print Assumptions C05_K05_exact7.
Print Assumptions C05_read_write6_huffman.
Print Assumptions C05_read_write7_huffman.
Print Assumptions C05_chunks_roundtrip6.
Print Assumptions C05_chunks_roundtrip7.
Print Assumptions C05_nonvacuous.
