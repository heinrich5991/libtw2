(* C01 -- vital chunks are delivered exactly once, in order, uncorrupted (0.6 with and without
   token; 0.7 is Props/C01v7.v).
   The world is two endpoints (Model/Conn6.v, the model the correspondence check ties to
   net/src/connection.rs) and a network that may lose, duplicate, reorder and delay datagrams
   (Model/Link6.v). `admissible_run` is the property's own assumption, as a predicate on the
   history: valid API calls, (W) fewer than 512 vital chunks unacknowledged, (F) no datagram
   delayed across the 10-bit sequence space, a usable random token for the acceptor. *)
From LibTw2 Require Import Base.Res Model.PacketTypes Model.ConnCore Model.Conn6 Model.LinkGhost Model.Link6
  Proofs.LinkArith Proofs.Link6Inv.
From Coq Require Import ZArith List Lia.
Open Scope Z_scope.

(* what the receiving application was handed is a prefix of what the sending application
   submitted: nothing skipped, duplicated, reordered or altered -- in both directions, for
   every admissible history *)
Theorem C01_prefix6 : forall ra rb ls, admissible_run (link_new ra rb) ls ->
  exists w, link_run (link_new ra rb) ls = Ok w /\
    l_del (k_b w) = firstn (length (l_del (k_b w))) (l_sub (k_a w)) /\
    l_del (k_a w) = firstn (length (l_del (k_a w))) (l_sub (k_b w)).
Proof.
  intros ra rb ls Ha. destruct (link_run_inv ls _ (link_new_inv ra rb) Ha) as [w [Hr [HA [HB _]]]].
  exists w. split; [exact Hr|]. split.
  - rewrite <- to_nat_zlen. exact (sv_prefix _ _ _ _ _ HB).
  - rewrite <- to_nat_zlen. exact (sv_prefix _ _ _ _ _ HA).
Qed.

(* non-vital chunks that are delivered are chunks that were really sent *)
Theorem C01_nonvital_genuine6 : forall ra rb ls, admissible_run (link_new ra rb) ls ->
  exists w, link_run (link_new ra rb) ls = Ok w /\
    incl (l_nvr (k_b w)) (l_nvs (k_a w)) /\ incl (l_nvr (k_a w)) (l_nvs (k_b w)).
Proof.
  intros ra rb ls Ha. destruct (link_run_inv ls _ (link_new_inv ra rb) Ha) as [w [Hr [HA [HB _]]]].
  exists w. split; [exact Hr|]. split; [exact (sv_nvr _ _ _ _ _ HB)|exact (sv_nvr _ _ _ _ _ HA)].
Qed.

(* 'ready' is reported at most once, and never before the accepting side has answered *)
Theorem C01_ready6 : forall ra rb ls, admissible_run (link_new ra rb) ls ->
  exists w, link_run (link_new ra rb) ls = Ok w /\
    0 <= l_ready (k_a w) <= 1 /\ 0 <= l_ready (k_b w) <= 1 /\
    (1 <= l_ready (k_a w) -> l_answered (k_b w) = true) /\
    (1 <= l_ready (k_b w) -> l_answered (k_a w) = true).
Proof.
  intros ra rb ls Ha. destruct (link_run_inv ls _ (link_new_inv ra rb) Ha) as [w [Hr [HA [HB _]]]].
  exists w. split; [exact Hr|].
  split; [exact (sv_ready _ _ _ _ _ HA)|]. split; [exact (sv_ready _ _ _ _ _ HB)|].
  split; [exact (sv_ans _ _ _ _ _ HA)|exact (sv_ans _ _ _ _ _ HB)].
Qed.

(* the invariant behind the three statements, for reuse *)
Theorem C01_invariant6 : forall ra rb ls, admissible_run (link_new ra rb) ls ->
  exists w, link_run (link_new ra rb) ls = Ok w /\ link_inv w.
Proof. intros ra rb ls Ha. exact (link_run_inv ls _ (link_new_inv ra rb) Ha). Qed.

(* non-vacuity: a concrete history with a lost datagram, a resend, a duplicate delivery and a
   reordering satisfies the assumptions, and delivers both chunks exactly once *)
Definition demo_trace : list llabel :=
  [ LApp SA OpConnect; LDeliver SA 0;           (* Connect reaches B: B answers *)
    LDeliver SB 0;                               (* ConnectAccept reaches A: A is online, Ready *)
    LApp SA (OpSend [11] true); LApp SA (OpSend [22] true); LApp SA (OpSend [33] false);
    LApp SA OpFlush; LDrop SA 2;                 (* the datagram with both chunks is lost *)
    LTime 1100000; LApp SA OpTick; LApp SA OpFlush;   (* resend deadline: chunks are queued and sent again *)
    LDeliver SA 2; LDeliver SA 2;                (* ... and arrive twice *)
    LApp SB (OpSend [44] true); LApp SB OpFlush; LDeliver SB 1; LDeliver SB 0 ].  (* stale duplicate last *)

Example C01_nonvacuous :
  admissible_run (link_new [[9; 9; 9; 9]] [[1; 2; 3; 4]; [5; 6; 7; 8]]) demo_trace /\
  match link_run (link_new [[9; 9; 9; 9]] [[1; 2; 3; 4]; [5; 6; 7; 8]]) demo_trace with
  | Ok w => l_sub (k_a w) = [[11]; [22]] /\ l_del (k_b w) = [[11]; [22]] /\
            l_del (k_a w) = [[44]] /\ l_ready (k_a w) = 1 /\ l_answered (k_b w) = true
  | _ => False
  end.
Proof.
  split; [apply admissible_runb_ok; vm_compute; reflexivity|].
  vm_compute. repeat split.
Qed.

Print Assumptions C01_prefix6.
Print Assumptions C01_nonvital_genuine6.
Print Assumptions C01_ready6.
Print Assumptions C01_invariant6.
Print Assumptions C01_nonvacuous.
