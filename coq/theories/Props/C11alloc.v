(* C11, allocation clause - on the cost-instrumented readers of Model/SnapCost.v.

   Every reader of Model/Snap.v has a twin that threads a meter through the same computation:
   the number of words held by every container the Rust code has grown so far (the receiver's
   buffers / maps / sets, the scratch Vec<i32> of the byte readers; one event per `push`,
   `extend`, `insert` in the source, with the requested size) and its high-water mark, returned
   on success AND on every error path.  `peak` is that high-water mark.
     C11_alloc_erasure : dropping the meter from a twin gives the reader of Model/Snap.v (the
                         function that the correspondence check runs against the code).
     C11_alloc         : the high-water mark is at most c x (input length), for ALL inputs -
                         failing reads included; for read_with_delta: c x (what the accepted
                         snapshot and delta hold).  No additive constant is needed.
   The harness compares the allocation meter of the real code against the model's peak on every
   hostile reader case (real peak live bytes <= 16 x model peak words + 512). *)
From LibTw2 Require Import Base.Res Model.Varint Model.Packer Model.Snap Model.SnapCost
  Proofs.SnapC11 Proofs.SnapAlloc Proofs.SnapCostProofs.
From Coq Require Import ZArith List Lia.
Import ListNotations.
Open Scope Z_scope.

Theorem C11_alloc_erasure :
  (forall ints, fst (raw_read_from_ints_cost ints) = raw_read_from_ints ints)
  /\ (forall bs, fst (raw_read_bytes_cost bs) = raw_read_bytes bs)
  /\ (forall ints, fst (snap_read_from_ints_cost ints) = snap_read_from_ints ints)
  /\ (forall bs, fst (snap_read_bytes_cost bs) = snap_read_bytes bs)
  /\ (forall sz ints, fst (delta_read_from_ints_cost sz ints) = delta_read_from_ints sz ints)
  /\ (forall sz bs, fst (delta_read_bytes_cost sz bs) = delta_read_bytes sz bs)
  /\ (forall R d, fst (raw_read_with_delta_cost R d) = raw_read_with_delta R d)
  /\ (forall S d, fst (snap_read_with_delta_cost S d) = snap_read_with_delta S d).
Proof.
  split; [exact (fun x => runs_erase (raw_read_from_ints_m_runs x))|].
  split; [exact (fun x => runs_erase (raw_read_bytes_m_runs x))|].
  split; [exact (fun x => runs_erase (snap_read_from_ints_m_runs x))|].
  split; [exact (fun x => runs_erase (snap_read_bytes_m_runs x))|].
  split; [exact (fun sz x => runs_erase (delta_read_from_ints_m_runs sz x))|].
  split; [exact (fun sz x => runs_erase (delta_read_bytes_m_runs sz x))|].
  split; [exact (fun R d => runs_erase (raw_read_with_delta_m_runs R d))|].
  exact (fun S d => runs_erase (snap_read_with_delta_m_runs S d)).
Qed.

(* ints: any list of Z; bytes: any list of Z (no u8 / i32 hypothesis is needed for the bound);
   sz: any object-size table *)
Theorem C11_alloc :
  (forall ints, peak (raw_read_from_ints_cost ints) <= 3 * Z.of_nat (length ints))
  /\ (forall bs, peak (raw_read_bytes_cost bs) <= 4 * Z.of_nat (length bs))
  /\ (forall ints, peak (snap_read_from_ints_cost ints) <= 8 * Z.of_nat (length ints))
  /\ (forall bs, peak (snap_read_bytes_cost bs) <= 9 * Z.of_nat (length bs))
  /\ (forall sz ints, peak (delta_read_from_ints_cost sz ints) <= 2 * Z.of_nat (length ints))
  /\ (forall sz bs, peak (delta_read_bytes_cost sz bs) <= 2 * Z.of_nat (length bs))
  /\ (forall S d, snap_accepted S -> delta_accepted d ->
        peak (raw_read_with_delta_cost (sn_raw S) d) <= 3 * (held (sn_raw S) + dheld d)
        /\ peak (snap_read_with_delta_cost S d) <= 8 * (held (sn_raw S) + dheld d)).
Proof.
  split; [exact (fun x => runs_peak (raw_read_from_ints_m_runs x))|].
  split; [exact (fun x => runs_peak (raw_read_bytes_m_runs x))|].
  split; [exact (fun x => runs_peak (snap_read_from_ints_m_runs x))|].
  split; [exact (fun x => runs_peak (snap_read_bytes_m_runs x))|].
  split; [exact (fun sz x => runs_peak (delta_read_from_ints_m_runs sz x))|].
  split; [exact (fun sz x => runs_peak (delta_read_bytes_m_runs sz x))|].
  intros S d HS Hd. destruct (snap_read_with_delta_cost_accepted S d HS Hd) as [H1 H2]. split; assumption.
Qed.

(* applying ANY delta value to ANY snapshot value (accepted or not): linear in the sizes of the
   two key maps and the lengths of their ranges *)
Theorem C11_alloc_apply_any : forall S d,
  peak (snap_read_with_delta_cost S d)
  <= wsum (rs_offs (sn_raw S)) + wsum (d_upd d) + 5 * Z.of_nat (length (rs_offs (sn_raw S)) + length (d_upd d)).
Proof. exact (fun S d => runs_peak (snap_read_with_delta_m_runs S d)). Qed.

(* the meter only grows: on every path the high-water mark is the count at the moment of return *)
Theorem C11_alloc_peak_is_final :
  (forall ints, peak (snap_read_from_ints_cost ints) = m_cur (snd (snap_read_from_ints_cost ints)))
  /\ (forall bs, peak (snap_read_bytes_cost bs) = m_cur (snd (snap_read_bytes_cost bs)))
  /\ (forall sz ints, peak (delta_read_from_ints_cost sz ints) = m_cur (snd (delta_read_from_ints_cost sz ints)))
  /\ (forall sz bs, peak (delta_read_bytes_cost sz bs) = m_cur (snd (delta_read_bytes_cost sz bs)))
  /\ (forall S d, peak (snap_read_with_delta_cost S d) = m_cur (snd (snap_read_with_delta_cost S d))).
Proof.
  split; [exact (fun x => runs_peak_final (snap_read_from_ints_m_runs x))|].
  split; [exact (fun x => runs_peak_final (snap_read_bytes_m_runs x))|].
  split; [exact (fun sz x => runs_peak_final (delta_read_from_ints_m_runs sz x))|].
  split; [exact (fun sz x => runs_peak_final (delta_read_bytes_m_runs sz x))|].
  exact (fun S d => runs_peak_final (snap_read_with_delta_m_runs S d)).
Qed.

(* hostile inputs whose read fails late.  A delta that announces one update of 2^31-1 ints and
   carries two: the read fails with ItemDiffsUnpacking after two pushes - 2 words were held, not
   2^31.  The same delta as bytes (the size is the 5-byte varint bf ff ff ff 0f).  A snapshot
   header that announces 2^31-1 offsets: nothing is held at all. *)
Definition hostile_delta : list Z := [0; 1; 0; 3; 3; 2147483647; 1; 2].
Definition hostile_delta_bytes : list Z := [0; 1; 0; 3; 3; 191; 255; 255; 255; 15; 1; 2].

Example C11_alloc_hostile :
  delta_read_from_ints_cost (fun _ => None) hostile_delta
    = ((Err ItemDiffsUnpacking, []), {| m_cur := 2; m_peak := 2 |})
  /\ delta_read_bytes_cost (fun _ => None) hostile_delta_bytes
    = ((Err ItemDiffsUnpacking, []), {| m_cur := 2; m_peak := 2 |})
  /\ snap_read_from_ints_cost [0; 2147483647; 1; 2; 3]
    = ((Err OffsetsUnpacking, []), {| m_cur := 0; m_peak := 0 |})
  /\ peak (snap_read_from_ints_cost [2147483644; 0; 5; 6; 7]) = 0.
Proof. vm_compute. repeat split. Qed.

(* the meter is not trivially zero, and the hypotheses of the last clause are met: an accepted
   snapshot with a UUID registry item (16 words in buf + offsets, 5 for the registry entry), an
   accepted delta, and the delta applied (a failing apply: the sizes differ; 16 words were copied
   before the update was refused) *)
Definition exInts : list Z := [40; 3; 0; 20; 32; 16384; 1; 2; 3; 4; 327681; 9; 9; 1073741831; 7].
Definition exDelta : list Z := [0; 1; 0; 5; 1; 3; 1; 2; 3].

Example C11_alloc_nonvacuous :
  match snap_read_from_ints_cost exInts, delta_read_from_ints_cost (fun _ => None) exDelta with
  | ((Ok X, []), mX), ((Ok d, []), md) =>
    mX = {| m_cur := 21; m_peak := 21 |} /\ md = {| m_cur := 6; m_peak := 6 |}
    /\ held (sn_raw X) = 10 /\ dheld d = 4
    /\ fst (fst (snap_read_with_delta_cost X d)) = Err DeltaDifferingSizes
    /\ peak (snap_read_with_delta_cost X d) = 16
  | _, _ => False
  end.
Proof. vm_compute. repeat split. Qed.

Print Assumptions C11_alloc_erasure.
Print Assumptions C11_alloc.
Print Assumptions C11_alloc_apply_any.
Print Assumptions C11_alloc_peak_is_final.
Print Assumptions C11_alloc_hostile.
Print Assumptions C11_alloc_nonvacuous.
