(* C13 - client and server snapshot state never diverge silently.
   Model: Model/Storage.v (Storage and Manager of libtw2-snapshot, the sender loop of
   server/src/main.rs, and a link with a lossy / duplicating / reordering channel in each direction)
   on top of Model/Snap.v and Model/Receiver.v.  Only the property theorems, each closed by lemmas of
   Proofs/Storage*.v.

   Vocabulary:
     label            World w | SendTick | Deliver k | Drop k | SendAck | DeliverAck k | DropAck k | ForgeAck v
                      | ResetMgr (Manager::reset)
                      (Deliver / DeliverAck leave the message in the channel: duplication; k is any
                      position: reordering; ForgeAck: any i32 appears on the ack channel);
                      Inject m (a message nobody sent) is outside follows_api - it exists to run the
                      error paths of the Manager against the code
     lrun sz s tr     the link after the labels tr (Panic / OutOfFuel if either side panics / the model gives up)
     follows_api      at every SendTick the caller's obligations hold (Model/Storage.v send_api_ok):
                      a fresh larger i32 tick, items Builder::add_item accepts and does not refuse,
                      pre-agreed sizes respected, the packed delta fits the 64 KiB buffer of the sender
                      loop, and K09: no item keeps its (raw) key and changes its length against the
                      snapshot the delta is taken from - the known-finding class of C09, a hypothesis here
     hist_snap s t    ghost: the snapshot the sender built for tick t
     l_accepted s     ghost: every (tick, snapshot) a Manager::snap* call has returned Ok(Some(_)) for
     sz               the table of pre-agreed object sizes (the same on both sides)
     feed_all sz m ms the answers of Manager m to the messages ms, fed in order (Proofs/StorageTotal.v)
     msg_ok m         the data of m are bytes, at most 65536 of them *)
From LibTw2 Require Import Base.Res Model.Receiver Proofs.ReceiverBase Proofs.ReceiverChunks
  Proofs.ReceiverSteps Proofs.ReceiverXfer Proofs.ReceiverProofs Proofs.StorageRecv.
From LibTw2 Require Import Model.Varint Model.Packer Model.Snap Proofs.SnapBase Proofs.SnapRep
  Proofs.SnapObs Proofs.SnapBuilder Proofs.SnapC10.
From LibTw2 Require Import Model.Storage Proofs.StorageSnap Proofs.StorageBase Proofs.StorageInv Proofs.StorageTotal.
From Coq Require Import ZArith List Lia Bool.
Import ListNotations.
Open Scope Z_scope.

(* AGREEMENT.  For every table of sizes, every start tick, every history of worlds and every pattern
   of loss, duplication and reordering on both channels (forged acknowledgements included): every
   snapshot the receiving Manager has accepted for a tick t is, item for item, the snapshot the sender
   built for t - same enumeration (type, id, data in order), same lookups by ordinal or UUID type,
   same checksum, same UUID registry. *)
Theorem C13_agree : forall sz t0 tr s,
  follows_api sz (link_init t0) tr = true -> lrun sz (link_init t0) tr = Ok s ->
  forall t X, In (t, X) (l_accepted s) ->
  exists H, hist_snap s t = Some H
    /\ (forall E, @snap_items E X = @snap_items E H)
    /\ (forall E ty id, @snap_item E X ty id = @snap_item E H ty id)
    /\ Snap.crc (sn_raw X) = Snap.crc (sn_raw H)
    /\ sn_ext X = sn_ext H.
Proof.
  intros sz t0 tr s Hf Hr t X Hin.
  destruct (li_acc sz s (reachable_linv sz t0 tr s Hf Hr) t X Hin) as (e & He & HL). exists (h_snap e).
  split; [unfold hist_snap; rewrite He; reflexivity|]. apply (like_same _ _ HL).
Qed.

(* the same for what the Manager keeps: every stored snapshot (the bases of later deltas) is a copy *)
Theorem C13_stored_agree : forall sz t0 tr s,
  follows_api sz (link_init t0) tr = true -> lrun sz (link_init t0) tr = Ok s ->
  forall t X, In (t, X) (st_snaps (m_store (l_mgr s))) ->
  exists H, hist_snap s t = Some H
    /\ (forall E, @snap_items E X = @snap_items E H)
    /\ Snap.crc (sn_raw X) = Snap.crc (sn_raw H).
Proof.
  intros sz t0 tr s Hf Hr t X Hin.
  destruct (mi_snaps _ _ (li_mgr sz s (reachable_linv sz t0 tr s Hf Hr)) t X Hin) as (e & He & HL). exists (h_snap e).
  split; [unfold hist_snap; rewrite He; reflexivity|]. destruct (like_same _ _ HL) as (O1 & _ & O3 & _). auto.
Qed.

(* the two ghosts are what they are said to be: an accepting Deliver is logged under the tick of the
   message, a SendTick records the snapshot it built under its tick, no other label touches either *)
Theorem C13_ghosts : forall sz s l s' o, lstep sz s l = Ok (s', o) ->
  match l, o with
  | Deliver _, ODeliver tick (Ok (Some X), _) _ => l_accepted s' = (tick, X) :: l_accepted s
  | Inject _, ODeliver tick (Ok (Some X), _) _ =>
      l_accepted s' = (tick, X) :: l_accepted s /\ sd_hist (l_sender s') = sd_hist (l_sender s)
  | SendTick, OSent x =>
      sd_hist (l_sender s') = (sn_tick x, {| h_snap := sn_snap x; h_base := sn_base x; h_bytes := sn_bytes x |})
                              :: sd_hist (l_sender s)
      /\ l_accepted s' = l_accepted s
  | SendTick, _ => False
  | _, _ => l_accepted s' = l_accepted s /\ sd_hist (l_sender s') = sd_hist (l_sender s)
  end.
Proof.
  intros sz s l s' o H. destruct l as [w| |k|k| |k|k|v| |mi]; cbn [lstep] in H.
  - injection H as <- <-. split; reflexivity.
  - destruct (sender_send sz _ _ _) as [[st' x]| | |]; cbn [bind] in H; try discriminate.
    injection H as <- <-. split; reflexivity.
  - destruct (nth_error (l_chan s) k) as [m|]; [|injection H as <- <-; split; reflexivity].
    unfold deliver in H. destruct (manager_feed sz (l_mgr s) m) as [mg' [r ws]].
    destruct r as [[X|]|e|p|]; try discriminate; injection H as <- <-; cbn [l_accepted l_sender]; try reflexivity; split; reflexivity.
  - injection H as <- <-. split; reflexivity.
  - injection H as <- <-. split; reflexivity.
  - destruct (nth_error (l_acks s) k) as [v|]; [|injection H as <- <-; split; reflexivity].
    destruct (set_delta_tick _ v) as [st' [r weird]]. injection H as <- <-. split; reflexivity.
  - injection H as <- <-. split; reflexivity.
  - injection H as <- <-. split; reflexivity.
  - injection H as <- <-. split; reflexivity.
  - unfold deliver in H. destruct (manager_feed sz (l_mgr s) mi) as [mg' [r ws]].
    destruct r as [[X|]|e|p|]; try discriminate; injection H as <- <-; cbn [l_accepted l_sender]; split; reflexivity.
Qed.

(* ON ERROR THE ACKNOWLEDGED TICK DOES NOT ADVANCE.  For every Manager state and every message
   (hostile ones included): when the call returns an error, the acknowledged tick afterwards is
   cleared exactly for Storage::UnknownSnap and Storage::InvalidCrc and unchanged for every other
   error (errors of the DeltaReceiver, a delta that does not parse, Storage::OldDelta, a delta that
   does not apply) - in particular it can be the tick of the failing message only if it already was. *)
Theorem C13_error_no_advance : forall sz m msg m' e ws,
  manager_feed sz m msg = (m', (Err e, ws)) ->
  (clears_ack e = true -> manager_ack m' = None)
  /\ (clears_ack e = false -> manager_ack m' = manager_ack m)
  /\ (manager_ack m' = manager_ack m \/ manager_ack m' = None)
  /\ (manager_ack m' = Some (msg_tick msg) -> manager_ack m = Some (msg_tick msg)).
Proof.
  intros sz m msg m' e ws H. destruct (feed_error_ack sz m msg m' e ws H) as [H1 H2].
  split; [exact H1|]. split; [exact H2|].
  destruct (clears_ack e); [specialize (H1 eq_refl)|specialize (H2 eq_refl)].
  - split; [right; exact H1|]. rewrite H1. discriminate.
  - split; [left; exact H2|]. rewrite H2. auto.
Qed.

(* the other two answers, for every Manager state and every message: Ok(None) (a part was stored)
   leaves the Storage - and with it the acknowledged tick - untouched; Ok(Some(snap)) sets the
   acknowledged tick to the tick under which `snap` is now the newest stored snapshot *)
Theorem C13_ok_answers : forall sz m msg m' o ws,
  manager_feed sz m msg = (m', (Ok o, ws)) ->
  match o with
  | None => m_store m' = m_store m
  | Some X => exists t rest, manager_ack m' = Some t /\ st_snaps (m_store m') = (t, X) :: rest
  end.
Proof. exact feed_ok_ack. Qed.

(* NOT SILENTLY, AND NOT NEEDLESSLY.  In every reachable state, whatever a delivered message of the
   sender is answered with is an accepted snapshot, "part stored", or one of five refusals: an old
   tick, a duplicate part, a transfer of more than 32 parts, Storage::OldDelta, or a base the Manager
   does not (any longer) hold - never InvalidCrc, never a delta that fails to parse or to apply; and
   the only warnings are the DeltaReceiver's. *)
Theorem C13_genuine_refusals : forall sz t0 tr s k s' tick r ws ack,
  follows_api sz (link_init t0) tr = true -> lrun sz (link_init t0) tr = Ok s ->
  lstep sz s (Deliver k) = Ok (s', ODeliver tick (r, ws) ack) ->
  (forall e, r = Err e -> refusal e = true) /\ only_receiver_warnings ws = true.
Proof.
  intros sz t0 tr s k s' tick r ws ack Hf Hr Hs.
  apply (deliver_refusals sz s k s' tick r ws ack (reachable_linv sz t0 tr s Hf Hr) Hs).
Qed.

(* PROGRESS (beyond the property; it shows that agreement is not kept by refusing everything, and
   that the link recovers).  In every reachable state: a SendTick whose delta is taken against the
   empty snapshot - nothing acknowledged yet, or the acknowledgement was cleared by an error and the
   client's -1 has reached the sender, or the acknowledged snapshot was unknown - and fits one message
   is accepted by the Manager as soon as that message is delivered, whatever was lost, duplicated or
   reordered before; the acknowledged tick becomes its tick. *)
Theorem C13_full_snapshot_accepted : forall sz t0 tr s s1 x,
  follows_api sz (link_init t0) tr = true -> lrun sz (link_init t0) tr = Ok s ->
  api_ok sz s SendTick = true -> lstep sz s SendTick = Ok (s1, OSent x) ->
  sn_base x = -1 -> (length (sn_bytes x) <= 900)%nat ->
  exists s2 X ws,
    lstep sz s1 (Deliver (length (l_chan s))) = Ok (s2, ODeliver (sn_tick x) (Ok (Some X), ws) (Some (sn_tick x)))
    /\ (forall E, @snap_items E X = @snap_items E (sn_snap x)).
Proof.
  intros sz t0 tr s s1 x Hf Hr Hapi Hs Hb Hl.
  destruct (fresh_single_accepted sz s s1 x (reachable_linv sz t0 tr s Hf Hr) Hapi Hs Hb Hl) as (s2 & X & ws & E & HL).
  exists s2, X, ws. split; [exact E|]. apply (like_same _ _ HL).
Qed.

(* The stronger clause of DESIGN.md ("after an error the acknowledged tick is never the tick of the
   failing message") is false, and harmlessly so: a duplicate of a message that was accepted is
   answered Err(Receiver(OldDelta)) and the acknowledged tick stays at that tick. *)
Definition dup_w : world := [(Ordinal 5, 1, [9; 9])].
Definition dup_tr : list label := [World dup_w; SendTick; Deliver 0%nat].
Theorem C13_error_never_own_tick_refuted : exists s m m' e ws,
  lrun (fun _ => None) (link_init 0) dup_tr = Ok s /\ nth_error (l_chan s) 0 = Some m
  /\ manager_feed (fun _ => None) (l_mgr s) m = (m', (Err e, ws))
  /\ e = MReceiver OldDelta /\ manager_ack m' = Some (msg_tick m) /\ manager_ack (l_mgr s) = Some (msg_tick m).
Proof.
  eexists _, _, _, _, _. split; [vm_compute; reflexivity|]. split; [vm_compute; reflexivity|].
  split; [vm_compute; reflexivity|]. repeat split.
Qed.

(* NO PANIC.  As long as the sender follows the storage API, neither side panics (and the model never
   gives up), for every loss / duplication / reordering pattern on both channels, including
   acknowledgements for snapshots the sender has dropped and acknowledgements nobody sent. *)
Theorem C13_no_panic : forall sz t0 tr, follows_api sz (link_init t0) tr = true ->
  exists s, lrun sz (link_init t0) tr = Ok s.
Proof.
  intros sz t0 tr Hf. destruct (lrun_linv sz tr (link_init t0) (linv_init sz t0) Hf) as (s & Hr & _).
  exists s. exact Hr.
Qed.

(* Beyond the property: the receiving side does not panic on ANY stream of messages - any ticks,
   part numbers and checksums, any bytes as data (at most 64 KiB per message), in any order - fed
   into a new Manager: every call ends with a value or an error. *)
Theorem C13_manager_total : forall sz msgs, forallb msg_ok msgs = true ->
  Forall (fun r => match r with Ok _ | Err _ => True | _ => False end) (feed_all sz manager_new msgs).
Proof. intros sz msgs H. apply (feed_all_total sz msgs manager_new mgood_new H). Qed.

(* K09 is a real precondition: a snapshot in which an item keeps its raw key and changes its length
   against the acknowledged base makes Delta::create panic inside Storage::add_snap.  Second witness:
   at the level of (UUID type, id) every item keeps its length, but a fresh Builder numbers the UUID
   types in order of first use, so the raw key 0x4000/1 changes its meaning and its length. *)
Definition k09_tr : list label :=
  [World [(Ordinal 5, 1, [9; 9])]; SendTick; Deliver 0%nat; SendAck; DeliverAck 0%nat;
   World [(Ordinal 5, 1, [9; 9; 9])]; SendTick].
Definition k09_uuid_tr : list label :=
  [World [(Uuid 10, 1, [1; 2]); (Uuid 11, 1, [1; 2; 3])]; SendTick; Deliver 0%nat; SendAck; DeliverAck 0%nat;
   World [(Uuid 11, 1, [1; 2; 3])]; SendTick].
Theorem C13_K09_panics :
  lrun (fun _ => None) (link_init 0) k09_tr = Panic site_create_mismatch
  /\ follows_api (fun _ => None) (link_init 0) k09_tr = false
  /\ lrun (fun _ => None) (link_init 0) k09_uuid_tr = Panic site_create_mismatch
  /\ follows_api (fun _ => None) (link_init 0) k09_uuid_tr = false.
Proof.
  destruct (lrun_api_spec (fun _ => None) k09_tr (link_init 0)) as [-> ->].
  destruct (lrun_api_spec (fun _ => None) k09_uuid_tr (link_init 0)) as [-> ->].
  vm_compute. repeat split.
Qed.

(* non-vacuity: ordinal and UUID items appearing, changing and vanishing; a two-part snapshot; loss,
   duplication and reordering on both channels; an acknowledgement for a snapshot the sender has
   dropped; a forged acknowledgement; an UnknownSnap that clears the acknowledged tick *)
Definition nv_sz : osize := fun ty => if ty =? 5 then Some 2 else None.
Definition nv_big : list Z := repeat 100000 320.
Definition nv_w1 : world := [(Ordinal 5, 1, [9; 9]); (Uuid 77, 3, [1; 2; 3])].
Definition nv_w2 : world := [(Ordinal 5, 1, [9; 10]); (Ordinal 6, 1, nv_big)].
Definition nv_w3 : world := [(Uuid 78, 3, [4]); (Uuid 77, 3, [1; 2; 4]); (Ordinal 6, 1, nv_big)].
Definition nv_tr : list label :=
  [World nv_w1; SendTick; Deliver 0%nat; Deliver 0%nat; SendAck; DeliverAck 0%nat;
   World nv_w2; World nv_w2; SendTick;           (* tick 3, two parts, against tick 1 *)
   Deliver 2%nat; Deliver 2%nat; Deliver 1%nat;  (* reordered, with a duplicate part *)
   SendAck; SendAck; DropAck 1%nat; DeliverAck 1%nat;   (* ack 3: the sender drops tick 1 *)
   DeliverAck 0%nat;                             (* the old ack 1 again: unknown by now, back to full snapshots *)
   World nv_w3; SendTick; Drop 3%nat;            (* tick 4, first part lost *)
   World nv_w3; SendTick;                        (* tick 5 *)
   Deliver 3%nat; Deliver 5%nat; Deliver 4%nat;  (* half of tick 4, then tick 5 replaces it *)
   SendAck;
   ForgeAck 4; DeliverAck 3%nat;                 (* an ack for tick 4, which the client never got *)
   World nv_w1; SendTick; Deliver 6%nat;         (* tick 6 against 4: UnknownSnap, ack cleared *)
   SendAck; DeliverAck 4%nat;                    (* ack -1 *)
   World nv_w1; SendTick; Deliver 7%nat;         (* tick 7, full *)
   Deliver 1%nat].                               (* an old part: OldDelta *)
Example C13_nonvacuous :
  follows_api nv_sz (link_init 0) nv_tr = true
  /\ match lrun nv_sz (link_init 0) nv_tr with
     | Ok s =>
       map fst (l_accepted s) = [7; 5; 3; 1]
       /\ map (fun ts => @snap_items unit (snd ts)) (l_accepted s)
          = [Ok (2, [(Ordinal 5, 1, [9; 9]); (Uuid 77, 3, [1; 2; 3])]);
             Ok (3, [(Ordinal 6, 1, nv_big); (Uuid 78, 3, [4]); (Uuid 77, 3, [1; 2; 4])]);
             Ok (2, [(Ordinal 5, 1, [9; 10]); (Ordinal 6, 1, nv_big)]);
             Ok (2, [(Ordinal 5, 1, [9; 9]); (Uuid 77, 3, [1; 2; 3])])]
       /\ length (l_chan s) = 8%nat
       /\ l_acks s = [1; 3; 5; 4; -1]
       /\ map fst (st_snaps (m_store (l_mgr s))) = [7; 5]
       /\ map fst (st_snaps (sd_store (l_sender s))) = [7; 6; 5; 4]
       /\ manager_ack (l_mgr s) = Some 7
     | _ => False
     end.
Proof.
  (* the API check and the final state come from one pass over the trace; as the argument of a
     beta-redex the run is evaluated once when the proof is checked again *)
  destruct (lrun_api_spec nv_sz nv_tr (link_init 0)) as [-> ->].
  pattern (lrun_api nv_sz (link_init 0) nv_tr). vm_compute. repeat split.
Qed.

Print Assumptions C13_agree.
Print Assumptions C13_stored_agree.
Print Assumptions C13_ghosts.
Print Assumptions C13_error_no_advance.
Print Assumptions C13_ok_answers.
Print Assumptions C13_genuine_refusals.
Print Assumptions C13_full_snapshot_accepted.
Print Assumptions C13_error_never_own_tick_refuted.
Print Assumptions C13_no_panic.
Print Assumptions C13_manager_total.
Print Assumptions C13_K09_panics.
Print Assumptions C13_nonvacuous.
