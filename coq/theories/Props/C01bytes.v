(* C01 over BYTES (0.6 / DDNet): vital chunks are delivered exactly once, in order, uncorrupted,
   when what the network loses, duplicates, reorders and delays is the byte strings that
   PacketBuilder::send really hands to the socket.
   Model/LinkBytes6.v is the link of Model/Link6.v with byte strings in the two bags: every
   datagram an endpoint emits goes through the packet writer model (Packet::write into 1400
   bytes, Huffman coder of Model/PacketInst.v), every delivery goes through the packet reader
   model with the token hint of the receiver's state and then into Connection::feed
   (feed_bytes6). This file transports the statements of Props/C01.v to that link.
   Scope: both endpoints are this library, whose connector always offers the DDNet token and
   whose acceptor always takes it; so every connection-oriented datagram in flight carries a
   token (Proofs/LinkBytes6Wire.v) -- Props/C01.v does not distinguish the token-less mode
   either (it only arises with a foreign peer that sends a Connect without token).
   Extra assumption over Props/C01.v: what the application submits and the random tokens are
   byte strings (the model keeps bytes as Z). *)
From LibTw2 Require Import Base.Res Model.PacketTypes Model.ConnCore Model.Conn6 Model.LinkGhost Model.Link6
  Model.LinkBytes6 Proofs.Conn6Inv Proofs.ConnInert Proofs.LinkArith Proofs.Link6Inv
  Proofs.LinkBytes6Wire Proofs.LinkBytes6Sim.
From Coq Require Import ZArith List Lia.
Open Scope Z_scope.

(* (1) the byte-level link and the abstract link run in lockstep on every admissible history:
   neither fails, the endpoint states and ghost histories are the same, and the byte bags are
   the abstract bags pushed through the writer, datagram by datagram (each at most 1400 bytes) *)
Theorem C01_bytes_simulation6 : forall ra rb ls,
  tokens_bytes ra -> tokens_bytes rb -> Forall bytes_label ls ->
  admissible_run (link_new ra rb) ls ->
  exists w wb,
    link_run (link_new ra rb) ls = Ok w /\
    link_bytes_run (link_bytes_new ra rb) ls = Ok wb /\
    kb_a wb = k_a w /\ kb_b wb = k_b w /\ kb_now wb = k_now w /\
    kb_ab wb = map wire_flight_of (k_ab w) /\ kb_ba wb = map wire_flight_of (k_ba w) /\
    Forall (fun f => exists bs, wire6 (f_d f) = Ok bs /\ (length bs <= 1400)%nat) (k_ab w ++ k_ba w).
Proof.
  intros ra rb ls Hra Hrb Hbl Ha.
  pose proof (link_bytes_run_sim ls _ (link_new_inv ra rb) (link_new_wire ra rb Hra Hrb) Ha Hbl)
    as (w & E1 & E2 & _ & Hw).
  exists w, (link_bytes_of w). split; [exact E1|]. split; [exact E2|].
  repeat (split; [reflexivity|]). apply wire_inv_wired, Hw.
Qed.

(* the property's assumptions can be stated on the byte-level link alone (the freshness
   condition reads the chunks out of the bytes with the receiver's reader): that is the same as
   the abstract history being admissible and the application data being bytes *)
Theorem C01_bytes_admissible6 : forall ra rb ls, tokens_bytes ra -> tokens_bytes rb ->
  (admissible_bytes_run (link_bytes_new ra rb) ls <->
   admissible_run (link_new ra rb) ls /\ Forall bytes_label ls).
Proof.
  intros ra rb ls Hra Hrb.
  exact (admissible_bytes_run_iff ls _ (link_new_inv ra rb) (link_new_wire ra rb Hra Hrb)).
Qed.

(* every admissible byte-level history runs through, in lockstep with an abstract one *)
Lemma bytes_run_inv ra rb ls : tokens_bytes ra -> tokens_bytes rb ->
  admissible_bytes_run (link_bytes_new ra rb) ls ->
  exists w wb, link_bytes_run (link_bytes_new ra rb) ls = Ok wb /\ link_inv w /\
    kb_a wb = k_a w /\ kb_b wb = k_b w.
Proof.
  intros Hra Hrb Hab.
  pose proof (link_bytes_run_inv _ ls (link_new_inv ra rb) (link_new_wire ra rb Hra Hrb) Hab) as (w & E & Hinv & _).
  exists w, (link_bytes_of w). split; [exact E|]. split; [exact Hinv|]. split; reflexivity.
Qed.

(* (2) the statements of Props/C01.v on the byte-level link, for every admissible history:
   what the receiving application was handed is a prefix of what the sending application
   submitted -- nothing skipped, duplicated, reordered or altered -- in both directions *)
Theorem C01_bytes_prefix6 : forall ra rb ls, tokens_bytes ra -> tokens_bytes rb ->
  admissible_bytes_run (link_bytes_new ra rb) ls ->
  exists wb, link_bytes_run (link_bytes_new ra rb) ls = Ok wb /\
    l_del (kb_b wb) = firstn (length (l_del (kb_b wb))) (l_sub (kb_a wb)) /\
    l_del (kb_a wb) = firstn (length (l_del (kb_a wb))) (l_sub (kb_b wb)).
Proof.
  intros ra rb ls Hra Hrb Hab.
  pose proof (bytes_run_inv ra rb ls Hra Hrb Hab) as (w & wb & E & [HA [HB _]] & Sa & Sb).
  exists wb. split; [exact E|]. rewrite Sa, Sb. split.
  - rewrite <- to_nat_zlen. exact (sv_prefix _ _ _ _ _ HB).
  - rewrite <- to_nat_zlen. exact (sv_prefix _ _ _ _ _ HA).
Qed.

(* non-vital chunks that are delivered are chunks that were really sent *)
Theorem C01_bytes_nonvital_genuine6 : forall ra rb ls, tokens_bytes ra -> tokens_bytes rb ->
  admissible_bytes_run (link_bytes_new ra rb) ls ->
  exists wb, link_bytes_run (link_bytes_new ra rb) ls = Ok wb /\
    incl (l_nvr (kb_b wb)) (l_nvs (kb_a wb)) /\ incl (l_nvr (kb_a wb)) (l_nvs (kb_b wb)).
Proof.
  intros ra rb ls Hra Hrb Hab.
  pose proof (bytes_run_inv ra rb ls Hra Hrb Hab) as (w & wb & E & [HA [HB _]] & Sa & Sb).
  exists wb. split; [exact E|]. rewrite Sa, Sb.
  split; [exact (sv_nvr _ _ _ _ _ HB)|exact (sv_nvr _ _ _ _ _ HA)].
Qed.

(* 'ready' is reported at most once, and never before the accepting side has answered *)
Theorem C01_bytes_ready6 : forall ra rb ls, tokens_bytes ra -> tokens_bytes rb ->
  admissible_bytes_run (link_bytes_new ra rb) ls ->
  exists wb, link_bytes_run (link_bytes_new ra rb) ls = Ok wb /\
    0 <= l_ready (kb_a wb) <= 1 /\ 0 <= l_ready (kb_b wb) <= 1 /\
    (1 <= l_ready (kb_a wb) -> l_answered (kb_b wb) = true) /\
    (1 <= l_ready (kb_b wb) -> l_answered (kb_a wb) = true).
Proof.
  intros ra rb ls Hra Hrb Hab.
  pose proof (bytes_run_inv ra rb ls Hra Hrb Hab) as (w & wb & E & [HA [HB _]] & Sa & Sb).
  exists wb. split; [exact E|]. rewrite Sa, Sb.
  split; [exact (sv_ready _ _ _ _ _ HA)|]. split; [exact (sv_ready _ _ _ _ _ HB)|].
  split; [exact (sv_ans _ _ _ _ _ HA)|exact (sv_ans _ _ _ _ _ HB)].
Qed.

(* (3) corruption, partial: the property's quantifier is about loss, duplication, reordering and
   delay, not corruption; what the existing inertness result (C03_inert6_bytes) gives for a
   datagram whose bytes the network replaced ARBITRARILY: once the receiver's token is fixed
   (acceptor pending, or online), unless the reader still finds exactly that token in the bytes
   (or reads them as a connectionless packet), delivering them changes nothing at all -- same
   endpoint, same histories, nothing emitted. NOT covered: corrupted bytes that keep the token. *)
Theorem C01_bytes_corruption6_partial : forall wb from bs t,
  let x := getb wb (other from) in
  token_fixed6 (l_conn x) t -> bytes_ok bs = true ->
  reads_connless6 (l_conn x) bs = false -> carried_token6 (l_conn x) bs <> Some t ->
  bside_finish x None (feed_bytes6 (l_conn x) {| e_now := kb_now wb; e_rand := l_rand x |} bs) = Ok (x, []).
Proof. intros wb from bs t x. apply bside_finish_inert. reflexivity. Qed.

(* (4) a concrete byte-level history: handshake, a vital chunk, a duplicate delivery; the
   bytes in flight at the end (nothing was dropped, so every datagram ever sent is still there) *)
Definition demo_bytes_trace : list llabel :=
  [ LApp SA OpConnect; LDeliver SA 0;        (* Connect reaches B: B answers ConnectAccept with its token *)
    LDeliver SB 0;                            (* ... reaches A: A is online, Ready, sends Accept *)
    LApp SA (OpSend [11; 12; 13] true); LApp SA OpFlush;
    LDeliver SA 2; LDeliver SA 2 ].           (* the chunk datagram arrives twice *)

Example C01_bytes_example :
  admissible_bytes_run (link_bytes_new [[9; 9; 9; 9]] [[1; 2; 3; 4]; [5; 6; 7; 8]]) demo_bytes_trace /\
  match link_bytes_run (link_bytes_new [[9; 9; 9; 9]] [[1; 2; 3; 4]; [5; 6; 7; 8]]) demo_bytes_trace with
  | Ok wb =>
    map bf_bytes (kb_ab wb) =
      [ [16; 0; 0; 1; 84; 75; 69; 78; 255; 255; 255; 255];   (* control, Connect, "TKEN", token NONE *)
        [16; 0; 0; 3; 1; 2; 3; 4];                           (* control, Accept, token 01020304 *)
        [0; 0; 1; 64; 3; 1; 11; 12; 13; 1; 2; 3; 4] ] /\     (* 1 chunk: vital, size 3, seq 1, data, token *)
    map bf_bytes (kb_ba wb) =
      [ [16; 0; 0; 2; 84; 75; 69; 78; 1; 2; 3; 4] ] /\       (* control, ConnectAccept, "TKEN", token *)
    l_sub (kb_a wb) = [[11; 12; 13]] /\ l_del (kb_b wb) = [[11; 12; 13]] /\
    l_ready (kb_a wb) = 1 /\ l_answered (kb_b wb) = true
  | _ => False
  end.
Proof.
  split.
  - apply C01_bytes_admissible6; try (apply tokens_bytesb_ok; vm_compute; reflexivity).
    split; [apply admissible_runb_ok; vm_compute; reflexivity|apply bytes_labelb_ok; vm_compute; reflexivity].
  - vm_compute. repeat split.
Qed.

Print Assumptions C01_bytes_simulation6.
Print Assumptions C01_bytes_admissible6.
Print Assumptions C01_bytes_prefix6.
Print Assumptions C01_bytes_nonvital_genuine6.
Print Assumptions C01_bytes_ready6.
Print Assumptions C01_bytes_corruption6_partial.
Print Assumptions C01_bytes_example.
