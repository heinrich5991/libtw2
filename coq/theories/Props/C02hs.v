(* C02 (0.6), progress at the level of the link, the handshake half.

   The world is the two-endpoint link of C01 (Model/Link6.v). Props/C02heal.v proves: from every
   state with BOTH ends online there is a healing schedule (ticks, flushes, time, the network losing
   what is in flight and then delivering every datagram once, oldest first) that ends quiescent. This
   file proves the part before that: the connecting side A is mid-handshake (Connecting), the
   accepting side B has not seen a Connect (Unconnected) or has answered and waits (Pending).

   C02_handshake6 / C02_handshake_reachable6
     For EVERY such state w satisfying the C01 invariant (so every state reachable by an admissible
     history) with usable random streams there is a schedule
         drops SA na ++ drops SB nb ++ [LTime dt; LApp s OpTick] ++ (each new datagram delivered once)
     -- the network loses what is in flight; the side whose turn it is (A if B has not seen a
     Connect, else B) lets its 500 ms handshake timer run out and ticks; the Connect / ConnectAccept /
     Accept datagrams emitted from then on are delivered exactly once, oldest first -- that is a
     legal continuation, contains ONE tick and no application call that is not a tick or a flush, and
     ends with: A online with a fresh online record (nothing queued, nothing to send), A told Ready
     exactly once, B pending with the token A uses (so B has answered), no history touched, nothing
     in flight.

   B does NOT end online, and cannot: in net/src/connection.rs the acceptor leaves Pending only when
   the first CHUNK datagram arrives (`Control(Accept) => return none`; Pending -> Online happens in
   the `Chunks` arm of feed), and a connector that has nothing to send emits only control datagrams.
   C02_acceptor_waits6
     From every reachable handshake state, after ANY continuation made of ticks, flushes, time,
     deliveries and losses only (admissible or not, as long as no call panics), B is still
     Unconnected or Pending and A is
     Connecting or online-with-nothing-to-send. So "both ends online" needs one send by A's
     application; the C02 property itself does not demand it (it speaks of the connecting side
     becoming ready and of submitted chunks; none can be submitted before Ready).

   C02_progress6 / C02_progress_reachable6   (composition with the online half)
     For every such state and every payload d (< 1024 bytes, vital or not) the schedule
         handshake ++ [A sends d; A flushes; the datagram is delivered] ++ healing schedule
     is a legal continuation with 4 ticks and exactly one send, losses only in the prefix, and ends
     quiescent: both ends online, Ready reported exactly once, d delivered (if vital: l_del B =
     l_sub A = [d]), queues and packets empty, nothing in flight.

   C02_late_accept6 / C02_late_accept_reachable6   (the states in between)
     A is online (any history) and has something to send or resend, B is still pending (A's first
     chunk datagrams were lost): the schedule
         losses ++ [time; A ticks; A flushes] ++ (A's datagrams delivered once each) ++ healing schedule
     contains only ticks and flushes (4 ticks), and ends quiescent with both ends online and every
     chunk A's application submitted delivered.

   The other starting states (A = the side that called connect), covered or not:
   - A Unconnected: connect has not been called, nothing is pending; the property demands nothing.
   - A Disconnected (timeout handling by the application, OpDisconnect, or a Close from B), or B
     Disconnected (B's application refused: OpDisconnect while Pending): the handshake has failed
     for good (there is no reset in the link model); nothing is pending; out of scope.
   - A Connecting, B Online: UNREACHABLE -- C02_connecting_peer_offline6 (B goes online only on a
     chunk datagram or a ConnectAccept from A, and an endpoint that has not got past Connecting has
     emitted only Connects).
   - A Connecting, B Connecting (both applications called connect): reachable; each side ignores
     the other's Connect for ever -- C02_simultaneous_open_stuck6 (after any continuation of ticks,
     flushes, time, deliveries and losses both are still Connecting); the protocol has no
     simultaneous open; out of scope.
   - A Pending (A is the acceptor): the mirror image; the theorems are stated with A as the
     connector only (the model is symmetric in A and B, the proofs are not repeated).
   - A Online, B Pending (A went online, B has not yet seen a chunk datagram): COVERED by
     C02_late_accept6 when A has something to send or resend (the resend of A's queue plays the role
     of the first send: losses, A ticks and flushes, its datagrams are delivered, then the healing
     schedule; 4 ticks, no application call besides ticks and flushes), and by C02_pending_idle6
     otherwise (A's resend queue is empty: then nothing was ever submitted, there is nothing to
     deliver; this is the end state of C02_handshake6, B stays pending until A's first send).
   - random streams: B's stream must still be usable after B has drawn its token (every delivery
     in the link model asks for a usable stream: hs_rand_ok). *)
From LibTw2 Require Import Base.Res Model.PacketTypes Model.ConnCore Model.Conn6 Model.LinkGhost Model.Link6
  Proofs.ConnCoreInv Proofs.Conn6Inv Proofs.LinkArith Proofs.LinkCore Proofs.Link6Inv Proofs.ConnProgress
  Proofs.Link6Heal Proofs.Link6Tok Proofs.LinkHsCore Proofs.Link6Handshake Props.C02heal.
From Coq Require Import ZArith List Lia.
Open Scope Z_scope.

(* the state the handshake schedule ends in *)
Definition connected (w : link) (tok : option token) : Prop :=
  c_state (l_conn (k_a w)) = Online (online_new tok tok) /\ c_state (l_conn (k_b w)) = Pending tok /\
  l_ready (k_a w) = 1 /\ l_answered (k_b w) = true /\
  l_sub (k_a w) = [] /\ l_sub (k_b w) = [] /\ l_del (k_a w) = [] /\ l_del (k_b w) = [] /\
  k_ab w = [] /\ k_ba w = [].

Lemma reached ra rb ls0 w :
  admissible_run (link_new ra rb) ls0 -> link_run (link_new ra rb) ls0 = Ok w ->
  link_inv w /\ forall ls w', admissible_run w ls -> link_run w ls = Ok w' ->
    admissible_run (link_new ra rb) (ls0 ++ ls) /\ link_run (link_new ra rb) (ls0 ++ ls) = Ok w'.
Proof.
  intros Hadm Hrun. destruct (link_run_inv ls0 _ (link_new_inv ra rb) Hadm) as [w0 [Hrun0 Hi]].
  rewrite Hrun in Hrun0. injection Hrun0 as <-. split; [exact Hi|]. intros ls w' A R.
  split; [eapply admissible_run_app; eassumption|rewrite (link_run_app ls0 _ w ls Hrun); exact R].
Qed.

(* (H1) the handshake completes: one tick *)
Theorem C02_handshake6 : forall w,
  link_inv w -> handshake_start w -> hs_rand_ok w ->
  exists ls w' tok,
    admissible_run w ls /\ link_run w ls = Ok w' /\ link_inv w' /\
    Forall heal_label ls /\ ticks ls = 1%nat /\
    (exists na nb post, ls = drops SA na ++ drops SB nb ++ post /\ orderly post) /\
    l_ready (k_a w) = 0 /\ l_sub (k_a w) = [] /\ l_sub (k_b w) = [] /\
    connected w' tok /\
    rand_ok {| e_now := k_now w'; e_rand := l_rand (k_a w') |} /\
    rand_ok {| e_now := k_now w'; e_rand := l_rand (k_b w') |}.
Proof.
  intros w Hi Hs Hr. pose proof Hs as [Ca Wb].
  destruct (handshake_link w Hi Hs Hr) as [fresh [na [nb [dt [w' [tok [Hdt [S [E [Ra Rb]]]]]]]]]].
  destruct (hs_schedule_shape fresh na nb dt Hdt) as [L [T P]].
  destruct (never_online_blank w SA Hi) as [SubA [_ RdyA]]; [cbn [get]; rewrite Ca; exact I|].
  destruct (never_online_blank w SB Hi (acceptor_waits_never _ Wb)) as [SubB _].
  exists (hs_schedule fresh na nb dt), w', tok.
  split; [exact (proj1 S)|]. split; [exact (proj2 S)|]. split; [exact (sched_inv _ _ _ Hi S)|].
  repeat (split; [assumption|]). assumption.
Qed.

Theorem C02_handshake_reachable6 : forall ra rb ls0 w,
  admissible_run (link_new ra rb) ls0 -> link_run (link_new ra rb) ls0 = Ok w ->
  handshake_start w -> hs_rand_ok w ->
  exists ls w' tok,
    admissible_run (link_new ra rb) (ls0 ++ ls) /\ link_run (link_new ra rb) (ls0 ++ ls) = Ok w' /\
    Forall heal_label ls /\ ticks ls = 1%nat /\
    (exists na nb post, ls = drops SA na ++ drops SB nb ++ post /\ orderly post) /\
    l_ready (k_a w) = 0 /\ connected w' tok.
Proof.
  intros ra rb ls0 w Hadm Hrun Hs Hr. destruct (reached ra rb ls0 w Hadm Hrun) as [Hi Hext].
  destruct (C02_handshake6 w Hi Hs Hr) as [ls [w' [tok [A [R [_ [L [T [S [Y [_ [_ [C _]]]]]]]]]]]]].
  destruct (Hext ls w' A R) as [A' R']. exists ls, w', tok. repeat (split; [assumption|]). exact C.
Qed.

(* ticks and flushes alone never take the acceptor online: it waits for the connector's first chunk *)
Theorem C02_acceptor_waits6 : forall ra rb ls0 w ls w',
  admissible_run (link_new ra rb) ls0 -> link_run (link_new ra rb) ls0 = Ok w ->
  handshake_start w -> Forall heal_label ls -> link_run w ls = Ok w' ->
  acceptor_waits (c_state (l_conn (k_b w'))) /\ connector_idle (c_state (l_conn (k_a w'))) /\
  forall ob, c_state (l_conn (k_b w')) <> Online ob.
Proof.
  intros ra rb ls0 w ls w' Hadm Hrun [Ca Wb] Hl Hr.
  pose proof (role_inv6_reach ra rb ls0 w Hadm Hrun) as R.
  assert (Hn : no_chunks w).
  { intros []; (split; [|apply (r6_never _ _ _ (R _))]); cbn [get]; try assumption; try (rewrite Ca; exact I).
    exact (acceptor_waits_never _ Wb). }
  pose proof (no_chunks_run ls w w' Hn Hl Hr) as Hn'. destruct (Hn' SA) as [Ha _]. destruct (Hn' SB) as [Hb _].
  cbn [get] in Ha, Hb. split; [exact Hb|]. split; [exact Ha|]. intros ob E. rewrite E in Hb. exact Hb.
Qed.

(* (H2) handshake, A's first send, healing: both ends online and the link quiescent, four ticks *)
Theorem C02_progress6 : forall w d v,
  link_inv w -> handshake_start w -> hs_rand_ok w -> Z.of_nat (length d) < 1024 ->
  exists ls w',
    admissible_run w ls /\ link_run w ls = Ok w' /\ link_inv w' /\
    Forall (progress_label d v) ls /\ ticks ls = 4%nat /\ sends ls = 1%nat /\
    (exists na nb post, ls = drops SA na ++ drops SB nb ++ post /\ orderly post) /\
    l_ready (k_a w) = 0 /\ l_ready (k_a w') = 1 /\
    l_sub (k_a w') = (if v then [d] else []) /\ l_sub (k_b w') = [] /\ quiescent w'.
Proof.
  intros w d v Hi Hs Hr Hl. pose proof Hs as [Ca _].
  destruct (progress_link w d v Hi Hs Hr Hl) as
    [fresh [na [nb [dt [dt1 [n1 [dt2 [n2 [dt3 [n3 [w' [D0 [D1 [D2 [D3 [S [I' [Ry [Sa [Sb Q]]]]]]]]]]]]]]]]]]]].
  destruct (progress_shape fresh na nb dt d v dt1 n1 dt2 n2 dt3 n3 D0 D1 D2 D3) as [L [T [N P]]].
  destruct (never_online_blank w SA Hi) as [_ [_ RdyA]]; [cbn [get]; rewrite Ca; exact I|].
  exists (progress_schedule fresh na nb dt d v dt1 n1 dt2 n2 dt3 n3), w'.
  split; [exact (proj1 S)|]. split; [exact (proj2 S)|]. repeat (split; [assumption|]). exact Q.
Qed.

Theorem C02_progress_reachable6 : forall ra rb ls0 w d v,
  admissible_run (link_new ra rb) ls0 -> link_run (link_new ra rb) ls0 = Ok w ->
  handshake_start w -> hs_rand_ok w -> Z.of_nat (length d) < 1024 ->
  exists ls w',
    admissible_run (link_new ra rb) (ls0 ++ ls) /\ link_run (link_new ra rb) (ls0 ++ ls) = Ok w' /\
    Forall (progress_label d v) ls /\ ticks ls = 4%nat /\ sends ls = 1%nat /\
    (exists na nb post, ls = drops SA na ++ drops SB nb ++ post /\ orderly post) /\
    l_ready (k_a w) = 0 /\ l_ready (k_a w') = 1 /\
    l_sub (k_a w') = (if v then [d] else []) /\ l_sub (k_b w') = [] /\ quiescent w'.
Proof.
  intros ra rb ls0 w d v Hadm Hrun Hs Hr Hl. destruct (reached ra rb ls0 w Hadm Hrun) as [Hi Hext].
  destruct (C02_progress6 w d v Hi Hs Hr Hl) as [ls [w' [A [R [_ [L [T [N [S [Y0 [Y1 [Sa [Sb Q]]]]]]]]]]]]].
  destruct (Hext ls w' A R) as [A' R']. exists ls, w'. repeat (split; [assumption|]). exact Q.
Qed.

(* a starting state that is not covered because it cannot occur: while one side has not got past
   Connecting, the other side is not online *)
Theorem C02_connecting_peer_offline6 : forall ra rb ls0 w,
  admissible_run (link_new ra rb) ls0 -> link_run (link_new ra rb) ls0 = Ok w ->
  (early (c_state (l_conn (k_a w))) -> forall ob, c_state (l_conn (k_b w)) <> Online ob) /\
  (early (c_state (l_conn (k_b w))) -> forall oa, c_state (l_conn (k_a w)) <> Online oa).
Proof.
  intros ra rb ls0 w Hadm Hrun. pose proof (role_inv6_reach ra rb ls0 w Hadm Hrun) as R.
  split; intros He o E.
  - destruct (r6_early _ _ _ (R SA) He) as [_ Ho]. cbn [get other] in Ho. rewrite E in Ho. exact Ho.
  - destruct (r6_early _ _ _ (R SB) He) as [_ Ho]. cbn [get other] in Ho. rewrite E in Ho. exact Ho.
Qed.

(* ... and one that is out of scope because the protocol has no simultaneous open: if both
   applications have called connect, both sides stay Connecting whatever the network and the timers do *)
Theorem C02_simultaneous_open_stuck6 : forall ra rb ls0 w ls w',
  admissible_run (link_new ra rb) ls0 -> link_run (link_new ra rb) ls0 = Ok w ->
  c_state (l_conn (k_a w)) = Connecting -> c_state (l_conn (k_b w)) = Connecting ->
  Forall heal_label ls -> link_run w ls = Ok w' ->
  c_state (l_conn (k_a w')) = Connecting /\ c_state (l_conn (k_b w')) = Connecting.
Proof.
  intros ra rb ls0 w ls w' Hadm Hrun Ca Cb Hl Hr.
  pose proof (role_inv6_reach ra rb ls0 w Hadm Hrun) as R.
  assert (Hb : both_connecting w).
  { intros []; (split; [|apply (r6_early _ _ _ (R _))]); cbn [get]; try assumption; [rewrite Ca|rewrite Cb]; exact I. }
  pose proof (both_connecting_run ls w w' Hb Hl Hr) as Hb'. split; [apply (Hb' SA)|apply (Hb' SB)].
Qed.

(* A is online with something to send or resend, B is still pending: B goes online with A's resend *)
Theorem C02_late_accept6 : forall w oa t,
  link_inv w -> c_state (l_conn (k_a w)) = Online oa -> c_state (l_conn (k_b w)) = Pending t ->
  o_own oa = t -> (o_queue oa <> [] \/ can_send oa = true) ->
  rand_ok {| e_now := k_now w; e_rand := l_rand (k_a w) |} ->
  rand_ok {| e_now := k_now w; e_rand := l_rand (k_b w) |} ->
  exists ls w',
    admissible_run w ls /\ link_run w ls = Ok w' /\ link_inv w' /\
    Forall heal_label ls /\ ticks ls = 4%nat /\
    (exists na nb post, ls = drops SA na ++ drops SB nb ++ post /\ orderly post) /\
    l_sub (k_a w') = l_sub (k_a w) /\ l_sub (k_b w') = l_sub (k_b w) /\ quiescent w'.
Proof.
  intros w oa t Hi Hoa Hpb Htok Hbusy Hra Hrb.
  destruct (late_accept_link w oa t Hi Hoa Hpb Htok Hbusy Hra Hrb) as
    [na [nb [dt [n [dt1 [n1 [dt2 [n2 [dt3 [n3 [w' [D0 [D1 [D2 [D3 [S [I' [Sa [Sb Q]]]]]]]]]]]]]]]]]]].
  destruct (late_shape na nb dt n dt1 n1 dt2 n2 dt3 n3 D0 D1 D2 D3) as [L [T P]].
  exists (late_schedule na nb dt n dt1 n1 dt2 n2 dt3 n3), w'.
  split; [exact (proj1 S)|]. split; [exact (proj2 S)|]. repeat (split; [assumption|]). exact Q.
Qed.

Theorem C02_late_accept_reachable6 : forall ra rb ls0 w oa t,
  admissible_run (link_new ra rb) ls0 -> link_run (link_new ra rb) ls0 = Ok w ->
  c_state (l_conn (k_a w)) = Online oa -> c_state (l_conn (k_b w)) = Pending t ->
  (o_queue oa <> [] \/ can_send oa = true) ->
  rand_ok {| e_now := k_now w; e_rand := l_rand (k_a w) |} ->
  rand_ok {| e_now := k_now w; e_rand := l_rand (k_b w) |} ->
  exists ls w',
    admissible_run (link_new ra rb) (ls0 ++ ls) /\ link_run (link_new ra rb) (ls0 ++ ls) = Ok w' /\
    Forall heal_label ls /\ ticks ls = 4%nat /\
    (exists na nb post, ls = drops SA na ++ drops SB nb ++ post /\ orderly post) /\
    l_sub (k_a w') = l_sub (k_a w) /\ l_sub (k_b w') = l_sub (k_b w) /\ quiescent w'.
Proof.
  intros ra rb ls0 w oa t Hadm Hrun Hoa Hpb Hbusy Hra Hrb. destruct (reached ra rb ls0 w Hadm Hrun) as [Hi Hext].
  pose proof (pending_token ra rb ls0 w oa t Hadm Hrun Hoa Hpb) as Htok.
  destruct (C02_late_accept6 w oa t Hi Hoa Hpb Htok Hbusy Hra Hrb) as [ls [w' [A [R [_ [L [T [S [Sa [Sb Q]]]]]]]]]].
  destruct (Hext ls w' A R) as [A' R']. exists ls, w'. repeat (split; [assumption|]). exact Q.
Qed.

(* ... and if A's resend queue is empty while B is still pending, nothing was ever submitted *)
Theorem C02_pending_idle6 : forall ra rb ls0 w oa t,
  admissible_run (link_new ra rb) ls0 -> link_run (link_new ra rb) ls0 = Ok w ->
  c_state (l_conn (k_a w)) = Online oa -> c_state (l_conn (k_b w)) = Pending t -> o_queue oa = [] ->
  l_sub (k_a w) = [] /\ l_del (k_a w) = [] /\ l_sub (k_b w) = [] /\ l_del (k_b w) = [] /\ o_own oa = t.
Proof.
  intros ra rb ls0 w oa t Hadm Hrun Hoa Hpb Hq. destruct (reached ra rb ls0 w Hadm Hrun) as [Hi _].
  destruct (pending_idle_nothing w oa t Hi Hoa Hpb Hq) as [H1 [H2 [H3 H4]]].
  repeat (split; [assumption|]). exact (pending_token ra rb ls0 w oa t Hadm Hrun Hoa Hpb).
Qed.

(* (H3) non-vacuity: two concrete histories end in states that meet every hypothesis of the theorems
   above -- A has called connect and (1) its Connect is still in flight / will be lost, B has seen
   nothing; (2) B has got the Connect and answered, its ConnectAccept is in flight / will be lost *)
Definition hs_demo_start : link := link_new [[9; 9; 9; 9]] [[1; 2; 3; 4]; [5; 6; 7; 8]].
Definition hs_demo_lost : list llabel := [LApp SA OpConnect; LTime 100000].
Definition hs_demo_answered : list llabel := [LApp SA OpConnect; LDeliver SA 0; LTime 100000].
(* (3) A is online and has submitted three chunks; the datagram is in flight / will be lost; B is pending *)
Definition hs_demo_late : list llabel :=
  [LApp SA OpConnect; LDeliver SA 0; LDeliver SB 0;
   LApp SA (OpSend [11] true); LApp SA (OpSend [22] true); LApp SA (OpSend [33] false); LApp SA OpFlush; LTime 300000].

Lemma demo_reached ls w (P : Prop) :
  admissible_runb hs_demo_start ls = true -> link_run hs_demo_start ls = Ok w -> P ->
  admissible_run hs_demo_start ls /\ link_run hs_demo_start ls = Ok w /\ link_inv w /\ P.
Proof.
  unfold hs_demo_start. intros Hb Hr Hp. pose proof (admissible_runb_ok _ _ Hb) as Ha.
  destruct (link_run_inv ls _ (link_new_inv _ _) Ha) as [w0 [Hr0 Hi]]. rewrite Hr in Hr0. injection Hr0 as <-. auto.
Qed.

Example C02_hs_nonvacuous :
  (exists w, admissible_run hs_demo_start hs_demo_lost /\ link_run hs_demo_start hs_demo_lost = Ok w /\
     link_inv w /\ handshake_start w /\ hs_rand_ok w /\
     c_state (l_conn (k_b w)) = Unconnected /\ length (k_ab w) = 1%nat /\ k_ba w = []) /\
  (exists w, admissible_run hs_demo_start hs_demo_answered /\ link_run hs_demo_start hs_demo_answered = Ok w /\
     link_inv w /\ handshake_start w /\ hs_rand_ok w /\
     c_state (l_conn (k_b w)) = Pending (Some [1; 2; 3; 4]) /\ length (k_ab w) = 1%nat /\ length (k_ba w) = 1%nat) /\
  (exists w oa, admissible_run hs_demo_start hs_demo_late /\ link_run hs_demo_start hs_demo_late = Ok w /\
     link_inv w /\ c_state (l_conn (k_a w)) = Online oa /\ c_state (l_conn (k_b w)) = Pending (Some [1; 2; 3; 4]) /\
     o_own oa = Some [1; 2; 3; 4] /\ (o_queue oa <> [] \/ can_send oa = true) /\
     rand_ok {| e_now := k_now w; e_rand := l_rand (k_a w) |} /\
     rand_ok {| e_now := k_now w; e_rand := l_rand (k_b w) |} /\
     length (o_queue oa) = 2%nat /\ l_sub (k_a w) = [[11]; [22]] /\ length (k_ab w) = 3%nat /\ length (k_ba w) = 1%nat).
Proof.
  split; [|split].
  - eexists. apply demo_reached; [vm_compute; reflexivity..|].
    split; [split; [reflexivity|exact I]|]. split; [|repeat split].
    split; [apply rand_okb_ok; reflexivity|]. split; [apply rand_okb_ok; reflexivity|].
    intros _ t r E. vm_compute in E. injection E as <- <-. apply rand_okb_ok. reflexivity.
  - eexists. apply demo_reached; [vm_compute; reflexivity..|].
    split; [split; [reflexivity|exact I]|]. split; [|repeat split].
    split; [apply rand_okb_ok; reflexivity|]. split; [apply rand_okb_ok; reflexivity|]. intros E. discriminate E.
  - eexists. eexists. apply demo_reached; [vm_compute; reflexivity..|].
    do 3 (split; [reflexivity|]). split; [left; discriminate|].
    split; [apply rand_okb_ok; reflexivity|]. split; [apply rand_okb_ok; reflexivity|]. repeat split.
Qed.

(* ... and the schedules computed for these two states.
   (1) the Connect is lost; A's timer runs out 0.4 s later, A repeats the Connect, B draws the token
       1.2.3.4 and answers, A is online and Ready; A's application submits the vital chunk [42]; B is
       online and has it; healing: A resends after 1 s, B acknowledges, A sends a keep-alive.
   (2) Connect and ConnectAccept are lost; B's timer runs out, B repeats the ConnectAccept; A's
       application submits the non-vital chunk [42]; healing with keep-alives only.
   (3) the three datagrams of A and B's ConnectAccept are lost; A's resend timer runs out 0.7 s later,
       A resends [11] [22] in one datagram, B is online and has both; healing as in (1). *)
Definition hs_demo_schedule1 : list llabel := progress_schedule true 1 0 400000 [42] true 1000000 1 0 1 500000 1.
Definition hs_demo_schedule2 : list llabel := progress_schedule false 1 1 400000 [42] false 500000 1 0 1 500000 1.

Definition hs_demo_schedule3 : list llabel := late_schedule 3 1 700000 1 1000000 1 0 1 500000 1.

Definition demo_quiescent (w : link) (sub nvr : list bytes) (now : Z) : Prop :=
  l_sub (k_a w) = sub /\ l_del (k_b w) = sub /\ l_nvr (k_b w) = nvr /\ l_sub (k_b w) = [] /\ l_del (k_a w) = [] /\
  l_ready (k_a w) = 1 /\ l_ready (k_b w) = 0 /\ k_ab w = [] /\ k_ba w = [] /\ k_now w = now /\
  match c_state (l_conn (k_a w)), c_state (l_conn (k_b w)) with
  | Online oa, Online ob =>
    o_own oa = Some [1; 2; 3; 4] /\ o_own ob = Some [1; 2; 3; 4] /\
    o_queue oa = [] /\ o_queue ob = [] /\ o_packet oa = pc_empty /\ o_packet ob = pc_empty /\
    o_rr oa = false /\ o_rr ob = false
  | _, _ => False
  end.

Example C02_hs_demo_run :
  (admissible_run hs_demo_start (hs_demo_lost ++ hs_schedule true 1 0 400000) /\
   match link_run hs_demo_start (hs_demo_lost ++ hs_schedule true 1 0 400000) with
   | Ok w => connected w (Some [1; 2; 3; 4]) /\ k_now w = 500000
   | _ => False
   end) /\
  (admissible_run hs_demo_start (hs_demo_answered ++ hs_schedule false 1 1 400000) /\
   match link_run hs_demo_start (hs_demo_answered ++ hs_schedule false 1 1 400000) with
   | Ok w => connected w (Some [1; 2; 3; 4]) /\ k_now w = 500000
   | _ => False
   end) /\
  (admissible_run hs_demo_start (hs_demo_lost ++ hs_demo_schedule1) /\
   match link_run hs_demo_start (hs_demo_lost ++ hs_demo_schedule1) with
   | Ok w => demo_quiescent w [[42]] [] 2000000
   | _ => False
   end) /\
  (admissible_run hs_demo_start (hs_demo_answered ++ hs_demo_schedule2) /\
   match link_run hs_demo_start (hs_demo_answered ++ hs_demo_schedule2) with
   | Ok w => demo_quiescent w [] [[42]] 1500000
   | _ => False
   end) /\
  (admissible_run hs_demo_start (hs_demo_late ++ hs_demo_schedule3) /\
   match link_run hs_demo_start (hs_demo_late ++ hs_demo_schedule3) with
   | Ok w => demo_quiescent w [[11]; [22]] [] 2500000
   | _ => False
   end).
Proof.
  split; [|split; [|split; [|split]]]; (split; [apply admissible_runb_ok; vm_compute; reflexivity|]);
    vm_compute; repeat split.
Qed.

Print Assumptions C02_handshake6.
Print Assumptions C02_handshake_reachable6.
Print Assumptions C02_acceptor_waits6.
Print Assumptions C02_progress6.
Print Assumptions C02_progress_reachable6.
Print Assumptions C02_connecting_peer_offline6.
Print Assumptions C02_simultaneous_open_stuck6.
Print Assumptions C02_late_accept6.
Print Assumptions C02_late_accept_reachable6.
Print Assumptions C02_pending_idle6.
Print Assumptions C02_hs_nonvacuous.
Print Assumptions C02_hs_demo_run.
