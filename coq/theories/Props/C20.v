(* C20 -- the multi-peer endpoint (net/src/net.rs) keeps peers isolated.

   Model/NetEndpoint.v is the endpoint over the single-connection model of Conn6.v. A history is
   any list of labels: clock advances and calls (datagrams from any address -- given as the packet
   reader's answer under each token hint --, connect / accept / reject / disconnect / ignore / send /
   flush / send_connless, ticks), each call with the values `secure_random` returns during it.
   `valid_net_api` is the contract net.rs' own asserts impose (live pids, accept/reject on pending
   peers, disconnect on others, send/flush on online peers, one live peer per remote address, what
   the reader can return, NUL-free reasons, not all 2^32 peer ids in use).

   For one address `a`, Proofs/NetEndpointSpec.v defines the address in isolation: a slot holding at
   most one `conn6`, driven through Conn6.step by the labels that concern `a` only (`label_for a`:
   datagrams from `a`, connect to `a`, calls on the pid that currently belongs to `a` -- accept is the
   feed of the canonical connect packet, exactly as net.rs does it --, every tick; all other calls are
   `ASkip`, a stutter). `obs_for a` restricts what the endpoint showed at a step to `a`: events of
   a's peer, datagrams whose destination is `a`, warnings about `a`, the result of a call about `a`,
   and a's deadline.

   The statements are about the code after the two repairs found with this check (fix commits
   b23a063: packets from a not yet accepted peer do not reach its connection -- defect #21;
   e2e7a4f: Net::reject sends the close message itself instead of panicking). *)
From LibTw2 Require Import Base.Res Model.PacketTypes Model.ConnCore Model.Conn6 Model.NetEndpoint
  Proofs.ConnCoreInv Proofs.Conn6Inv Proofs.NetEndpointSpec Proofs.NetEndpointSim Proofs.NetEndpointInv
  Proofs.NetEndpointPids.
From Coq Require Import ZArith List Bool.
Open Scope Z_scope.

(* Inside the contract no call panics or fails to return, in any history: in particular no remote
   address can take the endpoint down. Every datagram handed to Callback::send is well-formed. *)
Theorem C20_no_panic : forall tr acc, valid_net_api (net_new acc) 0 tr ->
  exists n' now' recs, run_net (net_new acc) 0 tr = Ok (n', now', recs) /\ net_ok n' /\
    Forall (fun r => match nr_out r with Some out => sent_ok (no_sent out) | None => True end) recs.
Proof. intros tr acc Hv. exact (run_net_ok tr (net_new acc) 0 (net_new_ok acc) Hv). Qed.

(* Isolation. For every valid history and every address a: the endpoint's run, projected onto a
   (events, outgoing datagrams WITH destination a, warnings, results, a's deadline after every step,
   and the final connection of a's peer), IS the run of the isolated address on the sub-history
   that concerns a. *)
Theorem C20_simulation : forall tr acc a, valid_net_api (net_new acc) 0 tr ->
  exists n' now' recs, run_net (net_new acc) 0 tr = Ok (n', now', recs) /\
    run_addr acc None 0 (map (label_for a) recs) = Ok (view n' a, now', map (obs_for a) recs).
Proof.
  intros tr acc a Hv. destruct (run_net_ok tr _ 0 (net_new_ok acc) Hv) as [n' [now' [recs [Hr _]]]].
  exists n', now', recs. split; [exact Hr|].
  exact (proj2 (proj2 (run_sim tr _ 0 _ _ _ a (proj1 (net_new_ok acc)) (valid_one_peer tr _ _ Hv) Hr))).
Qed.

(* The same for every history that ran to its end, under the only part of the contract isolation
   needs: the application does not connect twice to one address. *)
Theorem C20_simulation_any_run : forall tr acc a n' now' recs,
  one_peer_per_addr (net_new acc) 0 tr ->
  run_net (net_new acc) 0 tr = Ok (n', now', recs) ->
  run_addr acc None 0 (map (label_for a) recs) = Ok (view n' a, now', map (obs_for a) recs).
Proof.
  intros tr acc a n' now' recs Hc Hr.
  exact (proj2 (proj2 (run_sim tr _ 0 _ _ _ a (proj1 (net_new_ok acc)) Hc Hr))).
Qed.

(* One call, from any state with distinct pids and addresses: for each address either one step of
   its isolated slot with the same outputs, or nothing at all (no event, no datagram to it, no
   warning, the slot -- state machine, queues, timers -- unchanged). *)
Theorem C20_step_isolation : forall n e o out, tab_ok (n_peers n) -> connect_ok n o -> net_step n e o = Ok out ->
  tab_ok (n_peers (no_net out)) /\ forall a, sim_at n e o out a.
Proof. intros n e o out Hok Hc H. destruct (step_sim n e o out Hok Hc H) as [H1 [_ H2]]. split; assumption. Qed.

(* Calls that concern other addresses are stutters of the isolated run: dropping them changes nothing
   but the positions in the observation list. *)
Definition is_skip (l : alabel) : bool := match l with ASkip => true | _ => false end.
Theorem C20_skips_are_stutters : forall acc tr s now s' now' obs,
  run_addr acc s now tr = Ok (s', now', obs) ->
  run_addr acc s now (filter (fun l => negb (is_skip l)) tr) =
    Ok (s', now', map snd (filter (fun x => negb (is_skip (fst x))) (combine tr obs))).
Proof.
  intros acc tr. induction tr as [|l tr IH]; intros s now s' now' obs H.
  - cbn [run_addr] in H. injection H as <- <- <-. reflexivity.
  - destruct l as [dt|rnd o|]; cbn [run_addr filter is_skip negb] in *.
    + destruct (run_addr acc s (now + dt) tr) as [[[s1 now1] obs1]| | |] eqn:Er; try discriminate.
      injection H as <- <- <-. rewrite (IH _ _ _ _ _ Er). reflexivity.
    + destruct (astep acc s (mkenv now rnd) o) as [out| | |]; try discriminate.
      destruct (run_addr acc (ao_slot out) now tr) as [[[s1 now1] obs1]| | |] eqn:Er; try discriminate.
      injection H as <- <- <-. rewrite (IH _ _ _ _ _ Er). reflexivity.
    + destruct (run_addr acc s now tr) as [[[s1 now1] obs1]| | |] eqn:Er; try discriminate.
      injection H as <- <- <-. cbn [combine filter fst is_skip negb]. exact (IH _ _ _ _ _ Er).
Qed.

(* The endpoint's deadline is the minimum of the deadlines of the addresses it holds peers for. *)
Theorem C20_needs_tick : forall n, tab_ok (n_peers n) ->
  net_needs_tick n = fold_right tmin None (map (fun a => slot_tick (view n a)) (addrs (n_peers n))).
Proof. intros n [_ Ha]. exact (needs_tick_min (n_peers n) Ha). Qed.

(* A datagram from an address with no peer changes the peer table iff it is a Connect on an
   accepting endpoint, and then adds exactly one pending peer (fresh connection, unused pid,
   announced by one Connect event); nothing is ever sent in answer. *)
Theorem C20_unknown_addr : forall n e a r out, view n a = None -> net_step n e (NFeed a r) = Ok out ->
  match is_connect r, n_accept n with
  | Some tok, true =>
    exists pid, get_peer (n_peers n) pid = None /\
      n_peers (no_net out) = n_peers n ++ [(pid, peer_new a tok)] /\
      no_events out = [{| ne_addr := a; ne_pid := Some pid; ne_kind := NKConnect |}] /\ no_sent out = []
  | _, _ =>
    n_peers (no_net out) = n_peers n /\ no_sent out = [] /\
    forall ev, In ev (no_events out) -> exists payload, ev = {| ne_addr := a; ne_pid := None; ne_kind := NKConn (EvConnless payload) |}
  end.
Proof. exact unknown_addr. Qed.

(* Peer ids of live peers are distinct in every state any history reaches (valid or not). *)
Theorem C20_pids_distinct : forall tr acc n' now' recs,
  run_net (net_new acc) 0 tr = Ok (n', now', recs) ->
  NoDup (pids (n_peers n')) /\ Forall (fun r => NoDup (pids (n_peers (nr_post r)))) recs.
Proof. intros tr acc n' now' recs H. apply (run_pids tr (net_new acc) 0 n' now' recs); [constructor|exact H]. Qed.

(* A peer is gone after it was disconnected by either side. *)
Theorem C20_gone_after_disconnect : forall n e o out pid, NoDup (pids (n_peers n)) -> net_step n e o = Ok out ->
  (exists r, o = NDisconnect pid r) \/ (exists r, o = NReject pid r) \/ o = NIgnore pid ->
  pid_live (no_net out) pid = false.
Proof. exact gone_after_call. Qed.

Theorem C20_gone_after_close : forall n e a r out pid reason, NoDup (pids (n_peers n)) ->
  net_step n e (NFeed a r) = Ok out ->
  In {| ne_addr := a; ne_pid := Some pid; ne_kind := NKConn (EvDisconnect reason) |} (no_events out) ->
  pid_live (no_net out) pid = false.
Proof. exact gone_after_close. Qed.

(* "The calls on the pid that belongs to address a" is well-defined: a live pid keeps its address and
   token flag across every call (`keeps`), and every event carries the pid under which the table holds
   the event's address (before the call for what a peer's connection reports, after it for the Connect
   event of a new pending peer). *)
Theorem C20_pid_owner_stable : forall n e o out, NoDup (pids (n_peers n)) -> net_step n e o = Ok out ->
  forall pid p p', get_peer (n_peers n) pid = Some p -> get_peer (n_peers (no_net out)) pid = Some p' ->
    p_addr p' = p_addr p /\ p_token p' = p_token p.
Proof.
  intros n e o out Hnd H pid p p' Hg Hg'. pose proof (step_keeps n e o out Hnd H pid p' Hg') as Hk.
  rewrite Hg in Hk. exact Hk.
Qed.

Theorem C20_event_pids : forall n e o out, NoDup (pids (n_peers n)) -> net_step n e o = Ok out ->
  Forall (event_pid_ok n (no_net out)) (no_events out).
Proof. exact step_event_pids. Qed.

(* #21: with the routing before fix b23a063 a repeated Connect makes the pending peer's connection
   answer before the application accepted, and Net::accept then panics *)
Example C20_defect21_before_fix_refuted :
  exists e a r pid, raw_ok r /\ rand_ok e /\
    match net_feed_before_fix (net_new true) e a r with
    | Ok o1 =>
      no_events o1 = [{| ne_addr := a; ne_pid := Some pid; ne_kind := NKConnect |}] /\ no_sent o1 = [] /\
      match net_feed_before_fix (no_net o1) e a r with
      | Ok o2 => no_sent o2 = [(a, DControl (Some [1; 2; 3; 4]) 0 ConnectAccept)] /\
                 net_step (no_net o2) e (NAccept pid) = Panic site_accept_not_pending
      | _ => False
      end
    | _ => False
    end.
Proof.
  exists (mkenv 0 [[1; 2; 3; 4]]), 7, (fun _ => Some (DControl (Some TOKEN_NONE) 0 (Connect None))), 0.
  split; [intros h d H; injection H as <-; cbn; split; [reflexivity|unfold SEQ_MOD; split; [apply Z.le_refl|reflexivity]]|].
  split; [split; [repeat constructor|eexists _, _; reflexivity]|].
  vm_compute. repeat split; reflexivity.
Qed.

(* Net::reject before fix e2e7a4f panicked on every pending peer, whatever the reason *)
Theorem C20_reject_before_fix_refuted : forall n e pid p reason,
  get_peer (n_peers n) pid = Some p -> is_unconnected (p_conn p) = true ->
  exists s, net_reject_before_fix n e pid reason = Panic s.
Proof.
  intros n e pid p reason Hg Hu. unfold net_reject_before_fix. rewrite Hg, Hu. cbn [negb].
  unfold peer_call, step. unfold is_unconnected in Hu. destruct (c_state (p_conn p)); try discriminate.
  destruct (existsb (fun b => b =? 0) reason); cbn [bind]; eexists; reflexivity.
Qed.

(* address 7 sends Connect twice before the application decides (the history on which
   Net::accept panics before fix b23a063), address 9 connects too; 7 is accepted, 9 rejected; a tick. *)
Definition connect_raw : raw := fun _ => Some (DControl (Some TOKEN_NONE) 0 (Connect None)).
Definition rnd1 : list token := [[1; 2; 3; 4]].
Definition demo : list nlabel :=
  [ NCall rnd1 (NFeed 7 connect_raw); NCall rnd1 (NFeed 7 connect_raw); NCall rnd1 (NFeed 9 connect_raw);
    NClock 500000; NCall rnd1 NTick;
    NCall rnd1 (NAccept 0); NCall rnd1 (NReject 1 [102; 117; 108; 108]);
    NClock 500000; NCall rnd1 NTick ].

Lemma connect_raw_ok : raw_ok connect_raw.
Proof.
  intros h d H. injection H as <-. cbn. split; [reflexivity|]. unfold SEQ_MOD. split; [apply Z.le_refl|reflexivity].
Qed.
Lemma rnd1_ok now : rand_ok (mkenv now rnd1).
Proof. split; [repeat constructor|]. eexists _, _. reflexivity. Qed.

Ltac run_step :=
  match goal with
  | |- context [net_step ?n ?e ?o] =>
    let v := eval vm_compute in (net_step n e o) in change (net_step n e o) with v; cbn iota; cbn [no_net]
  end.

Example C20_nonvacuous :
  valid_net_api (net_new true) 0 demo /\
  match run_net (net_new true) 0 demo with
  | Ok (n', _, recs) =>
    map (fun r => match nr_out r with Some out => (no_sent out, map ne_pid (no_events out)) | None => ([], []) end) recs =
      [ ([], [Some 0]); ([], []); ([], [Some 1]); ([], []); ([], []);
        ([(7, DControl (Some [1; 2; 3; 4]) 0 ConnectAccept)], []);
        ([(9, DControl None 0 (Close [102; 117; 108; 108]))], []);
        ([], []);
        ([(7, DControl (Some [1; 2; 3; 4]) 0 ConnectAccept)], []) ]
    /\ pids (n_peers n') = [0]
  | _ => False
  end.
Proof.
  split.
  - unfold demo. cbn [valid_net_api valid_nop].
    split; [split; [exact connect_raw_ok|split; [apply rnd1_ok|vm_compute; reflexivity]]|]. run_step.
    split; [split; [exact connect_raw_ok|split; [apply rnd1_ok|vm_compute; reflexivity]]|]. run_step.
    split; [split; [exact connect_raw_ok|split; [apply rnd1_ok|vm_compute; reflexivity]]|]. run_step.
    split; [exact I|]. run_step.
    split; [eexists; split; [reflexivity|split; [reflexivity|apply rnd1_ok]]|]. run_step.
    split; [eexists; split; [reflexivity|split; [reflexivity|split; [reflexivity|cbn; repeat constructor]]]|]. run_step.
    split; [exact I|]. run_step. exact I.
  - vm_compute. split; reflexivity.
Qed.

Print Assumptions C20_no_panic.
Print Assumptions C20_simulation.
Print Assumptions C20_simulation_any_run.
Print Assumptions C20_step_isolation.
Print Assumptions C20_skips_are_stutters.
Print Assumptions C20_needs_tick.
Print Assumptions C20_unknown_addr.
Print Assumptions C20_pids_distinct.
Print Assumptions C20_gone_after_disconnect.
Print Assumptions C20_gone_after_close.
Print Assumptions C20_pid_owner_stable.
Print Assumptions C20_event_pids.
Print Assumptions C20_defect21_before_fix_refuted.
Print Assumptions C20_reject_before_fix_refuted.
Print Assumptions C20_nonvacuous.
