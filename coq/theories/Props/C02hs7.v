(* C02 (0.7), progress at the level of the link, the handshake half. Mirror of Props/C02hs.v (0.6).

   The world is the two-endpoint link of C01 for 0.7 (Model/Link7.v). Props/C02heal7.v proves: from every
   state with BOTH ends online there is a healing schedule that ends quiescent. This file proves the
   part before that. The 0.7 handshake (net/src/connection7.rs) has one more round than the 0.6 one:

     A (connector)                                      B (acceptor)
     Token7 oa         -- TokenMsg oa, header NONE -->  Unconnected7 / PendingConnect7 ob
                       <-- TokenMsg ob, header oa  --   PendingConnect7 ob     (no timer: never repeated)
     Connecting7 oa ob -- Connect oa, header ob    -->  Pending7 ob oa
                       <-- Accept, header oa       --
     Online7 (Ready)   -- first chunk datagram     -->  Online7

   Starting states: handshake_start7 w -- A is Token7 or Connecting7, B is Unconnected7, PendingConnect7
   or Pending7. In a reachable state only four of the six combinations occur, and the tokens the two
   ends hold for each other match (hs_pair7: (Token7, Unconnected7), (Token7, PendingConnect7),
   (Connecting7 oa ob, PendingConnect7 ob), (Connecting7 oa ob, Pending7 ob oa)); the theorems that
   are stated for every state satisfying the C01 invariant take hs_pair7 as their hypothesis, the
   *_reachable7 ones derive it (hs_pair_reachable7, from Link7Tok.tok_inv7 and role_inv7).

   C02_handshake7 / C02_handshake_reachable7
     For EVERY such state with usable random streams (hs_rand_ok7: rand_ok7 for A, for B, and for B
     after it has drawn its token) there is a schedule
         drops7 SA7 na ++ drops7 SB7 nb ++ [L7Time dt; L7App s Op7Tick] ++ (each new datagram delivered once)
     -- the network loses what is in flight; the side whose turn it is (B if it is Pending7, else A: an
     acceptor in PendingConnect7 has no timer and repeats nothing) lets its 500 ms handshake timer run
     out and ticks; the TokenMsg / Connect / Accept datagrams emitted from then on are delivered
     exactly once, oldest first -- that is a legal continuation, contains ONE tick and no
     application call that is not a tick or a flush, and ends with: A online with a fresh online
     record (own token oa, peer token ob, nothing queued, nothing to send), A told Ready exactly once,
     B Pending7 ob oa (so B has sent its Accept), no history touched, nothing in flight.

   B does NOT end online, and cannot: as in 0.6 the acceptor leaves Pending7 only when the first CHUNK
   datagram arrives (Pending7 -> Online7 happens in the DChunks arm of feed), and a connector that
   has nothing to send emits only control datagrams.
   C02_acceptor_waits7
     From every reachable handshake state, after ANY continuation made of ticks, flushes, time,
     deliveries and losses only (admissible or not, as long as no call panics), B is still
     Unconnected7, PendingConnect7 or Pending7 and A is Token7, Connecting7 or online-with-nothing-to-send.

   C02_progress7 / C02_progress_reachable7   (composition with the online half)
     For every such state and every payload d (at most MAX_PAYLOAD = 1390 bytes, vital or not) the schedule
         handshake ++ [A sends d; A flushes; the datagram is delivered] ++ healing schedule
     is a legal continuation with 4 ticks and exactly one send, losses only in the prefix, and ends
     quiescent7: both ends online, Ready reported exactly once, d delivered (if vital: l7_del B =
     l7_sub A = [d]), queues and packets empty, nothing in flight.

   C02_late_accept7 / C02_late_accept_reachable7   (the states in between)
     A is online (any history) and has something to send or resend, B is still Pending7 (A's first
     chunk datagrams were lost): the schedule
         losses ++ [time; A ticks; A flushes] ++ (A's datagrams delivered once each) ++ healing schedule
     contains only ticks and flushes (4 ticks), and ends quiescent7 with both ends online and every
     chunk A's application submitted delivered.

   C02_settle_reachable7   (summary)
     From EVERY reachable state in which A has called connect and is not disconnected (Token7,
     Connecting7, Online7) and B has not called connect and is not disconnected (Unconnected7,
     PendingConnect7, Pending7, Online7), with usable random streams, there is a continuation made of
     ticks, flushes, time, losses (only in the prefix) and deliveries (each datagram once, oldest
     first), with at most 4 ticks, that touches no history and ends settled7: quiescent7, or -- if
     A's application has never had anything to send -- A online and idle, B Pending7, nothing
     submitted, nothing in flight.

   The other starting states (A = the side that called connect), covered or not:
   - A Unconnected7: connect has not been called, nothing is pending; the property demands nothing.
   - A Disconnected7 (timeout handling by the application, Op7Disconnect, or a Close from B), or B
     Disconnected7: the handshake has failed for good (there is no reset in the link model); out of scope.
   - A Token7, B Pending7 or Online7 or Connecting7;  A Connecting7, B Unconnected7 or Token7 or
     Connecting7 or Online7;  A Online7, B Unconnected7 or Token7 or PendingConnect7 or Connecting7:
     UNREACHABLE -- C02_handshake_peers7 (and, in the 0.6 wording, C02_connecting_peer_offline7).
   - A Connecting7 oa ta, B PendingConnect7 ob with ta <> ob, or B Pending7 ob tb with ta <> ob or
     tb <> oa: UNREACHABLE (tok_inv7, used in hs_pair_reachable7).
   - A Token7, B Token7 (both applications called connect): reachable; each side ignores the other's
     token request for ever -- C02_simultaneous_open_stuck7; the protocol has no simultaneous open;
     out of scope. (Token7 / Connecting7 and Connecting7 / Connecting7 are unreachable, see above.)
   - A PendingConnect7 / Pending7 (A is the acceptor): the mirror image; the theorems are stated with
     A as the connector only.
   - A Online7, B Pending7: COVERED by C02_late_accept7 when A has something to send or resend, and
     by C02_pending_idle7 otherwise (nothing was ever submitted; this is the end state of
     C02_handshake7, B stays pending until A's first send).
   - random streams: A's and B's must be usable, and B's still usable after B has drawn its token
     (every delivery in the link model asks for a usable stream: hs_rand_ok7). *)
From LibTw2 Require Import Base.Res Model.PacketTypes Model.ConnCore Model.Conn7 Model.LinkGhost Model.Link7
  Proofs.ConnCoreInv Proofs.Conn7Inv Proofs.LinkArith Proofs.LinkCore Proofs.Link7Inv Proofs.ConnProgress
  Proofs.Link7Heal Proofs.Link7Tok Proofs.LinkHsCore Proofs.Link7Handshake Props.C02heal7.
From Coq Require Import ZArith List Lia.
Open Scope Z_scope.

(* the state the handshake schedule ends in: A online with a fresh online record (own token oa, peer
   token ob), told Ready once; B pending with the mirrored pair (so B has sent its Accept) *)
Definition connected7 (w : link7) (oa ob : token) : Prop :=
  c7_state (l7_conn (k7_a w)) = Online7 (online_new (Some oa) (Some ob)) /\
  c7_state (l7_conn (k7_b w)) = Pending7 ob oa /\
  l7_ready (k7_a w) = 1 /\ l7_answered (k7_b w) = true /\
  l7_sub (k7_a w) = [] /\ l7_sub (k7_b w) = [] /\ l7_del (k7_a w) = [] /\ l7_del (k7_b w) = [] /\
  k7_ab w = [] /\ k7_ba w = [].

(* a state reached by an admissible history satisfies the invariants, and a legal continuation of it
   is a legal continuation of the history *)
Lemma reached7 ra rb ls0 w :
  admissible_run7 (link7_new ra rb) ls0 -> link_run7 (link7_new ra rb) ls0 = Ok w ->
  link_inv7 w /\ tok_inv7 w /\ role_inv7 w /\
  forall ls w', admissible_run7 w ls -> link_run7 w ls = Ok w' ->
    admissible_run7 (link7_new ra rb) (ls0 ++ ls) /\ link_run7 (link7_new ra rb) (ls0 ++ ls) = Ok w'.
Proof.
  intros Hadm Hrun. destruct (reach_inv7 ra rb ls0 w Hadm Hrun) as [Hi [Ht Hr]]. do 3 (split; [assumption|]).
  intros ls w' A R. split; [eapply admissible_run_app7; eassumption|rewrite (link_run_app7 ls0 _ w ls Hrun); exact R].
Qed.

(* (H1) the handshake completes: one tick *)
Theorem C02_handshake7 : forall w,
  link_inv7 w -> hs_pair7 (c7_state (l7_conn (k7_a w))) (c7_state (l7_conn (k7_b w))) -> hs_rand_ok7 w ->
  exists ls w' oa ob,
    admissible_run7 w ls /\ link_run7 w ls = Ok w' /\ link_inv7 w' /\
    Forall heal_label7 ls /\ ticks7 ls = 1%nat /\
    (exists na nb post, ls = drops7 SA7 na ++ drops7 SB7 nb ++ post /\ orderly7 post) /\
    l7_ready (k7_a w) = 0 /\ l7_sub (k7_a w) = [] /\ l7_sub (k7_b w) = [] /\
    own_token (c7_state (l7_conn (k7_a w))) = Some oa /\
    connected7 w' oa ob /\
    rand_ok7 {| e_now := k7_now w'; e_rand := l7_rand (k7_a w') |} /\
    rand_ok7 {| e_now := k7_now w'; e_rand := l7_rand (k7_b w') |}.
Proof.
  intros w Hi Hp Hr.
  destruct (handshake_link7 w Hi Hp Hr) as [ph [na [nb [dt [w' [oa [ob [Hdt [S [Own [E [Ra Rb]]]]]]]]]]]].
  destruct (hs_schedule_shape7 ph na nb dt Hdt) as [L [T P]].
  destruct (hs_pair7_start _ _ Hp) as [Ma Wb].
  destruct (never_online_blank7 w SA7 Hi (connector_mid7_never _ Ma)) as [SubA [_ RdyA]].
  destruct (never_online_blank7 w SB7 Hi (acceptor_waits7_never _ Wb)) as [SubB _].
  exists (hs_schedule7 ph na nb dt), w', oa, ob.
  split; [exact (proj1 S)|]. split; [exact (proj2 S)|]. split; [exact (sched_inv7 _ _ _ Hi S)|].
  repeat (split; [assumption|]). assumption.
Qed.

Theorem C02_handshake_reachable7 : forall ra rb ls0 w,
  admissible_run7 (link7_new ra rb) ls0 -> link_run7 (link7_new ra rb) ls0 = Ok w ->
  handshake_start7 w -> hs_rand_ok7 w ->
  exists ls w' oa ob,
    admissible_run7 (link7_new ra rb) (ls0 ++ ls) /\ link_run7 (link7_new ra rb) (ls0 ++ ls) = Ok w' /\
    Forall heal_label7 ls /\ ticks7 ls = 1%nat /\
    (exists na nb post, ls = drops7 SA7 na ++ drops7 SB7 nb ++ post /\ orderly7 post) /\
    l7_ready (k7_a w) = 0 /\ own_token (c7_state (l7_conn (k7_a w))) = Some oa /\ connected7 w' oa ob.
Proof.
  intros ra rb ls0 w Hadm Hrun Hs Hr. destruct (reached7 ra rb ls0 w Hadm Hrun) as [Hi [Ht [Hro Hext]]].
  destruct (C02_handshake7 w Hi (hs_pair_reachable7 w Ht Hro Hs) Hr)
    as [ls [w' [oa [ob [A [R [_ [L [T [S [Y [_ [_ [O [C _]]]]]]]]]]]]]]].
  destruct (Hext ls w' A R) as [A' R']. exists ls, w', oa, ob. repeat (split; [assumption|]). exact C.
Qed.

(* ticks and flushes alone never take the acceptor online: it waits for the connector's first chunk *)
Theorem C02_acceptor_waits7 : forall ra rb ls0 w ls w',
  admissible_run7 (link7_new ra rb) ls0 -> link_run7 (link7_new ra rb) ls0 = Ok w ->
  handshake_start7 w -> Forall heal_label7 ls -> link_run7 w ls = Ok w' ->
  acceptor_waits7 (c7_state (l7_conn (k7_b w'))) /\ connector_idle7 (c7_state (l7_conn (k7_a w'))) /\
  forall ob, c7_state (l7_conn (k7_b w')) <> Online7 ob.
Proof.
  intros ra rb ls0 w ls w' Hadm Hrun [Ca Wb] Hl Hr. destruct (reached7 ra rb ls0 w Hadm Hrun) as [_ [_ [R _]]].
  assert (Hn : no_chunks7 w).
  { intros s. split; [|apply (r7_sent _ _ _ _ (R s) StNever)]; destruct s; cbn [get7]; try assumption.
    - destruct (c7_state (l7_conn (k7_a w))); try contradiction; exact I.
    - exact (connector_mid7_never _ Ca).
    - exact (acceptor_waits7_never _ Wb). }
  pose proof (no_chunks7_run ls w w' Hn Hl Hr) as Hn'. destruct (Hn' SA7) as [Ha _]. destruct (Hn' SB7) as [Hb _].
  cbn [get7] in Ha, Hb. split; [exact Hb|]. split; [exact Ha|]. intros ob E. rewrite E in Hb. exact Hb.
Qed.

(* (H2) handshake, A's first send, healing: both ends online and the link quiescent, four ticks *)
Theorem C02_progress7 : forall w d v,
  link_inv7 w -> hs_pair7 (c7_state (l7_conn (k7_a w))) (c7_state (l7_conn (k7_b w))) -> hs_rand_ok7 w ->
  Z.of_nat (length d) <= MAX_PAYLOAD ->
  exists ls w',
    admissible_run7 w ls /\ link_run7 w ls = Ok w' /\ link_inv7 w' /\
    Forall (progress_label7 d v) ls /\ ticks7 ls = 4%nat /\ sends7 ls = 1%nat /\
    (exists na nb post, ls = drops7 SA7 na ++ drops7 SB7 nb ++ post /\ orderly7 post) /\
    l7_ready (k7_a w) = 0 /\ l7_ready (k7_a w') = 1 /\
    l7_sub (k7_a w') = (if v then [d] else []) /\ l7_sub (k7_b w') = [] /\ quiescent7 w'.
Proof.
  intros w d v Hi Hp Hr Hl.
  destruct (progress_link7 w d v Hi Hp Hr Hl) as
    [ph [na [nb [dt [dt1 [n1 [dt2 [n2 [dt3 [n3 [w' [D0 [D1 [D2 [D3 [S [I' [Ry [Sa [Sb Q]]]]]]]]]]]]]]]]]]]].
  destruct (progress_shape7 ph na nb dt d v dt1 n1 dt2 n2 dt3 n3 D0 D1 D2 D3) as [L [T [N P]]].
  destruct (never_online_blank7 w SA7 Hi (connector_mid7_never _ (proj1 (hs_pair7_start _ _ Hp)))) as [_ [_ RdyA]].
  exists (progress_schedule7 ph na nb dt d v dt1 n1 dt2 n2 dt3 n3), w'.
  split; [exact (proj1 S)|]. split; [exact (proj2 S)|]. repeat (split; [assumption|]). exact Q.
Qed.

Theorem C02_progress_reachable7 : forall ra rb ls0 w d v,
  admissible_run7 (link7_new ra rb) ls0 -> link_run7 (link7_new ra rb) ls0 = Ok w ->
  handshake_start7 w -> hs_rand_ok7 w -> Z.of_nat (length d) <= MAX_PAYLOAD ->
  exists ls w',
    admissible_run7 (link7_new ra rb) (ls0 ++ ls) /\ link_run7 (link7_new ra rb) (ls0 ++ ls) = Ok w' /\
    Forall (progress_label7 d v) ls /\ ticks7 ls = 4%nat /\ sends7 ls = 1%nat /\
    (exists na nb post, ls = drops7 SA7 na ++ drops7 SB7 nb ++ post /\ orderly7 post) /\
    l7_ready (k7_a w) = 0 /\ l7_ready (k7_a w') = 1 /\
    l7_sub (k7_a w') = (if v then [d] else []) /\ l7_sub (k7_b w') = [] /\ quiescent7 w'.
Proof.
  intros ra rb ls0 w d v Hadm Hrun Hs Hr Hl. destruct (reached7 ra rb ls0 w Hadm Hrun) as [Hi [Ht [Hro Hext]]].
  destruct (C02_progress7 w d v Hi (hs_pair_reachable7 w Ht Hro Hs) Hr Hl)
    as [ls [w' [A [R [_ [L [T [N [S [Y0 [Y1 [Sa [Sb Q]]]]]]]]]]]]].
  destruct (Hext ls w' A R) as [A' R']. exists ls, w'. repeat (split; [assumption|]). exact Q.
Qed.

(* the starting states that are not covered because they cannot occur: in every reachable state
   - the peer of an end that is Unconnected7 or waits for a token (Token7) is Unconnected7, Token7,
     PendingConnect7 or Disconnected7 (never Connecting7, Pending7, Online7);
   - the peer of an end that waits for the Accept (Connecting7) is PendingConnect7, Pending7 or
     Disconnected7 (never Unconnected7, Token7, Connecting7, Online7);
   - the peer of an online end is Pending7, Online7 or Disconnected7 *)
Theorem C02_handshake_peers7 : forall ra rb ls0 w,
  admissible_run7 (link7_new ra rb) ls0 -> link_run7 (link7_new ra rb) ls0 = Ok w ->
  let a := c7_state (l7_conn (k7_a w)) in let b := c7_state (l7_conn (k7_b w)) in
  ((early7 a -> token_peer7 b) /\ (is_connecting7 a -> connecting_peer7 b) /\ (~ offline7 a -> online_peer7 b)) /\
  ((early7 b -> token_peer7 a) /\ (is_connecting7 b -> connecting_peer7 a) /\ (~ offline7 b -> online_peer7 a)).
Proof.
  intros ra rb ls0 w Hadm Hrun a b. destruct (reached7 ra rb ls0 w Hadm Hrun) as [_ [_ [R _]]].
  split; [exact (role7_peer _ _ _ _ (R SA7) (R SB7))|exact (role7_peer _ _ _ _ (R SB7) (R SA7))].
Qed.

(* in particular (the 0.6 statement): while one side has not got past Connecting7 / PendingConnect7
   -- it has emitted neither an Accept nor a chunk -- the other side is not online *)
Theorem C02_connecting_peer_offline7 : forall ra rb ls0 w,
  admissible_run7 (link7_new ra rb) ls0 -> link_run7 (link7_new ra rb) ls0 = Ok w ->
  (pre_accept7 (c7_state (l7_conn (k7_a w))) -> forall ob, c7_state (l7_conn (k7_b w)) <> Online7 ob) /\
  (pre_accept7 (c7_state (l7_conn (k7_b w))) -> forall oa, c7_state (l7_conn (k7_a w)) <> Online7 oa).
Proof.
  intros ra rb ls0 w Hadm Hrun. destruct (reached7 ra rb ls0 w Hadm Hrun) as [_ [_ [R _]]].
  split; intros He o E.
  - destruct (r7_sent _ _ _ _ (R SA7) StPre He) as [_ Ho]. cbn [get7 other7] in Ho. rewrite E in Ho. exact Ho.
  - destruct (r7_sent _ _ _ _ (R SB7) StPre He) as [_ Ho]. cbn [get7 other7] in Ho. rewrite E in Ho. exact Ho.
Qed.

(* ... and one that is out of scope because the protocol has no simultaneous open: if both applications
   have called connect, both sides keep asking for a token whatever the network and the timers do
   (a token request carries the header token NONE, which a side that has called connect ignores) *)
Theorem C02_simultaneous_open_stuck7 : forall ra rb ls0 w oa ob ls w',
  admissible_run7 (link7_new ra rb) ls0 -> link_run7 (link7_new ra rb) ls0 = Ok w ->
  c7_state (l7_conn (k7_a w)) = Token7 oa -> c7_state (l7_conn (k7_b w)) = Token7 ob ->
  Forall heal_label7 ls -> link_run7 w ls = Ok w' ->
  c7_state (l7_conn (k7_a w')) = Token7 oa /\ c7_state (l7_conn (k7_b w')) = Token7 ob.
Proof.
  intros ra rb ls0 w oa ob ls w' Hadm Hrun Ca Cb Hl Hr. destruct (reached7 ra rb ls0 w Hadm Hrun) as [_ [_ [R _]]].
  assert (Hb : both_token7 oa ob w).
  { intros s. pose proof (r7_tok _ _ _ _ (R s)) as K. pose proof (r7_sent _ _ _ _ (R s) StEarly) as E.
    destruct s; cbn [get7] in *; [rewrite Ca in *|rewrite Cb in *]; (split; [split; [reflexivity|exact K]|apply E; exact I]). }
  pose proof (both_token7_run oa ob ls w w' Hb Hl Hr) as Hb'. split; [apply (Hb' SA7)|apply (Hb' SB7)].
Qed.

(* A is online with something to send or resend, B is still pending: B goes online with A's resend *)
Theorem C02_late_accept7 : forall w oa ob tb,
  link_inv7 w -> c7_state (l7_conn (k7_a w)) = Online7 oa -> c7_state (l7_conn (k7_b w)) = Pending7 ob tb ->
  o_own oa = Some tb -> o_their oa = Some ob -> (o_queue oa <> [] \/ can_send oa = true) ->
  rand_ok7 {| e_now := k7_now w; e_rand := l7_rand (k7_a w) |} ->
  rand_ok7 {| e_now := k7_now w; e_rand := l7_rand (k7_b w) |} ->
  exists ls w',
    admissible_run7 w ls /\ link_run7 w ls = Ok w' /\ link_inv7 w' /\
    Forall heal_label7 ls /\ ticks7 ls = 4%nat /\
    (exists na nb post, ls = drops7 SA7 na ++ drops7 SB7 nb ++ post /\ orderly7 post) /\
    l7_sub (k7_a w') = l7_sub (k7_a w) /\ l7_sub (k7_b w') = l7_sub (k7_b w) /\ quiescent7 w'.
Proof.
  intros w oa ob tb Hi Hoa Hpb Hown Hth Hbusy Hra Hrb.
  destruct (late_accept_link7 w oa tb ob Hi Hoa Hpb Hown Hth Hbusy Hra Hrb) as
    [na [nb [dt [n [dt1 [n1 [dt2 [n2 [dt3 [n3 [w' [D0 [D1 [D2 [D3 [S [I' [Sa [Sb Q]]]]]]]]]]]]]]]]]]].
  destruct (late_shape7 na nb dt n dt1 n1 dt2 n2 dt3 n3 D0 D1 D2 D3) as [L [T P]].
  exists (late_schedule7 na nb dt n dt1 n1 dt2 n2 dt3 n3), w'.
  split; [exact (proj1 S)|]. split; [exact (proj2 S)|]. repeat (split; [assumption|]). exact Q.
Qed.

(* in a reachable state the two ends hold each other's tokens *)
Lemma late_tokens7 : forall ra rb ls0 w oa ob tb,
  admissible_run7 (link7_new ra rb) ls0 -> link_run7 (link7_new ra rb) ls0 = Ok w ->
  c7_state (l7_conn (k7_a w)) = Online7 oa -> c7_state (l7_conn (k7_b w)) = Pending7 ob tb ->
  o_own oa = Some tb /\ o_their oa = Some ob.
Proof.
  intros ra rb ls0 w oa ob tb Hadm Hrun Hoa Hpb. destruct (reached7 ra rb ls0 w Hadm Hrun) as [Hi [[TA TB] _]].
  pose proof (sv7_conn _ _ _ _ _ (linv_side7 w SA7 Hi)) as Hc. cbn [get7] in Hc. unfold conn_ok7 in Hc. rewrite Hoa in Hc.
  destruct Hc as [_ [_ [[b [Eb _]] _]]].
  pose proof (pj7_their _ _ _ TA b) as H1. rewrite Hoa, Hpb in H1. cbn in H1. specialize (H1 Eb).
  pose proof (pj7_their _ _ _ TB tb) as H2. rewrite Hoa, Hpb in H2. cbn in H2. specialize (H2 eq_refl).
  split; congruence.
Qed.

Theorem C02_late_accept_reachable7 : forall ra rb ls0 w oa ob tb,
  admissible_run7 (link7_new ra rb) ls0 -> link_run7 (link7_new ra rb) ls0 = Ok w ->
  c7_state (l7_conn (k7_a w)) = Online7 oa -> c7_state (l7_conn (k7_b w)) = Pending7 ob tb ->
  (o_queue oa <> [] \/ can_send oa = true) ->
  rand_ok7 {| e_now := k7_now w; e_rand := l7_rand (k7_a w) |} ->
  rand_ok7 {| e_now := k7_now w; e_rand := l7_rand (k7_b w) |} ->
  exists ls w',
    admissible_run7 (link7_new ra rb) (ls0 ++ ls) /\ link_run7 (link7_new ra rb) (ls0 ++ ls) = Ok w' /\
    Forall heal_label7 ls /\ ticks7 ls = 4%nat /\
    (exists na nb post, ls = drops7 SA7 na ++ drops7 SB7 nb ++ post /\ orderly7 post) /\
    l7_sub (k7_a w') = l7_sub (k7_a w) /\ l7_sub (k7_b w') = l7_sub (k7_b w) /\ quiescent7 w'.
Proof.
  intros ra rb ls0 w oa ob tb Hadm Hrun Hoa Hpb Hbusy Hra Hrb. destruct (reached7 ra rb ls0 w Hadm Hrun) as [Hi [_ [_ Hext]]].
  destruct (late_tokens7 ra rb ls0 w oa ob tb Hadm Hrun Hoa Hpb) as [Hown Hth].
  destruct (C02_late_accept7 w oa ob tb Hi Hoa Hpb Hown Hth Hbusy Hra Hrb) as [ls [w' [A [R [_ [L [T [S [Sa [Sb Q]]]]]]]]]].
  destruct (Hext ls w' A R) as [A' R']. exists ls, w'. repeat (split; [assumption|]). exact Q.
Qed.

(* ... and if A's resend queue is empty while B is still pending, nothing was ever submitted *)
Theorem C02_pending_idle7 : forall ra rb ls0 w oa ob tb,
  admissible_run7 (link7_new ra rb) ls0 -> link_run7 (link7_new ra rb) ls0 = Ok w ->
  c7_state (l7_conn (k7_a w)) = Online7 oa -> c7_state (l7_conn (k7_b w)) = Pending7 ob tb -> o_queue oa = [] ->
  l7_sub (k7_a w) = [] /\ l7_del (k7_a w) = [] /\ l7_sub (k7_b w) = [] /\ l7_del (k7_b w) = [] /\
  o_own oa = Some tb /\ o_their oa = Some ob.
Proof.
  intros ra rb ls0 w oa ob tb Hadm Hrun Hoa Hpb Hq. destruct (reached7 ra rb ls0 w Hadm Hrun) as [Hi _].
  destruct (pending_idle_nothing7 w oa ob tb Hi Hoa Hpb Hq) as [H1 [H2 [H3 H4]]].
  repeat (split; [assumption|]). exact (late_tokens7 ra rb ls0 w oa ob tb Hadm Hrun Hoa Hpb).
Qed.

(* where a schedule of ticks and flushes can get: quiescent7 (both ends online, everything delivered,
   nothing queued, nothing in flight), or -- if A's application has never had anything to send --
   the end state of the handshake (A online and idle, B pending, nothing submitted, nothing in flight) *)
Definition settled7 (w : link7) : Prop :=
  quiescent7 w \/
  exists oa ob tb, c7_state (l7_conn (k7_a w)) = Online7 oa /\ c7_state (l7_conn (k7_b w)) = Pending7 ob tb /\
    o_queue oa = [] /\ can_send oa = false /\
    l7_sub (k7_a w) = [] /\ l7_sub (k7_b w) = [] /\ l7_del (k7_a w) = [] /\ l7_del (k7_b w) = [] /\
    k7_ab w = [] /\ k7_ba w = [].

Definition connector_side7 (st : state7) : Prop :=
  match st with Token7 _ | Connecting7 _ _ | Online7 _ => True | _ => False end.
Definition acceptor_side7 (st : state7) : Prop :=
  match st with Unconnected7 | PendingConnect7 _ | Pending7 _ _ | Online7 _ => True | _ => False end.

Lemma connected_settled7 w oa ob : connected7 w oa ob -> settled7 w.
Proof.
  intros [Ha [Hb [_ [_ [S1 [S2 [D1 [D2 [B1 B2]]]]]]]]]. right. eexists _, _, _. split; [exact Ha|]. split; [exact Hb|].
  split; [reflexivity|]. split; [reflexivity|]. repeat (split; [assumption|]). assumption.
Qed.

Theorem C02_settle_reachable7 : forall ra rb ls0 w,
  admissible_run7 (link7_new ra rb) ls0 -> link_run7 (link7_new ra rb) ls0 = Ok w ->
  connector_side7 (c7_state (l7_conn (k7_a w))) -> acceptor_side7 (c7_state (l7_conn (k7_b w))) ->
  hs_rand_ok7 w ->
  exists ls w',
    admissible_run7 (link7_new ra rb) (ls0 ++ ls) /\ link_run7 (link7_new ra rb) (ls0 ++ ls) = Ok w' /\
    Forall heal_label7 ls /\ (ticks7 ls <= 4)%nat /\
    (exists pre na nb post, ls = pre ++ drops7 SA7 na ++ drops7 SB7 nb ++ post /\
       (pre = [] \/ pre = [L7App SA7 Op7Flush]) /\ orderly7 post) /\
    l7_sub (k7_a w') = l7_sub (k7_a w) /\ l7_sub (k7_b w') = l7_sub (k7_b w) /\ settled7 w'.
Proof.
  intros ra rb ls0 w Hadm Hrun Hca Hcb Hr. destruct (reached7 ra rb ls0 w Hadm Hrun) as [Hi [Ht [R Hext]]].
  destruct (role7_peer _ _ _ _ (R SA7) (R SB7)) as [Pe [Pc Po]]. cbn [get7 other7] in Pe, Pc, Po.
  match goal with |- ?G => assert (Fin : forall ls w' pre na nb post,
    admissible_run7 (link7_new ra rb) (ls0 ++ ls) -> link_run7 (link7_new ra rb) (ls0 ++ ls) = Ok w' ->
    Forall heal_label7 ls -> (ticks7 ls <= 4)%nat -> ls = pre ++ drops7 SA7 na ++ drops7 SB7 nb ++ post ->
    pre = [] \/ pre = [L7App SA7 Op7Flush] -> orderly7 post ->
    l7_sub (k7_a w') = l7_sub (k7_a w) -> l7_sub (k7_b w') = l7_sub (k7_b w) -> settled7 w' -> G);
    [|assert (Hhs : handshake_start7 w -> G)] end.
  { intros ls w' pre na nb post A R' L T E P O Sa Sb Q. exists ls, w'. repeat (split; [assumption|]).
    split; [exists pre, na, nb, post; repeat split; assumption|]. repeat (split; [assumption|]). exact Q. }
  { intros Hs. destruct (C02_handshake7 w Hi (hs_pair_reachable7 w Ht R Hs) Hr)
      as [ls [w' [oa' [ob [A [R' [_ [L [T [[na [nb [post [E O]]]] [_ [SubA [SubB [_ [C _]]]]]]]]]]]]]]].
    destruct (Hext ls w' A R') as [A' R'']. pose proof C as [_ [_ [_ [_ [S1 [S2 _]]]]]].
    apply (Fin ls w' [] na nb post); try assumption; [lia|left; reflexivity|congruence|congruence|eapply connected_settled7, C]. }
  destruct (c7_state (l7_conn (k7_a w))) as [|oa|oa|oa ta|oa ta|oa|] eqn:Ca; try contradiction.
  - (* A waits for the token *)
    apply Hhs. split; [rewrite Ca; exact I|]. specialize (Pe I). destruct (c7_state (l7_conn (k7_b w))); try contradiction; exact I.
  - (* A waits for the Accept *)
    apply Hhs. split; [rewrite Ca; exact I|]. specialize (Pc I). destruct (c7_state (l7_conn (k7_b w))); try contradiction; exact I.
  - (* A is online *)
    clear Hhs. specialize (Po (fun H => H)). destruct Hr as [HrA [HrB _]].
    destruct (c7_state (l7_conn (k7_b w))) as [|ob|ob|ob tb|ob tb|ob|] eqn:Cb; try contradiction.
    + (* B is still pending *)
      assert (Hb : (o_queue oa <> [] \/ can_send oa = true) \/ (o_queue oa = [] /\ can_send oa = false)).
      { destruct (o_queue oa); [destruct (can_send oa); auto|left; left; discriminate]. }
      destruct Hb as [Hb|[Eq Ecs]].
      * destruct (C02_late_accept_reachable7 ra rb ls0 w oa ob tb Hadm Hrun Ca Cb Hb HrA HrB)
          as [ls [w' [A [R' [L [T [[na [nb [post [E O]]]] [Sa [Sb Q]]]]]]]]].
        apply (Fin ls w' [] na nb post); try assumption; [lia|left; reflexivity|left; exact Q].
      * (* nothing was ever submitted: the network loses what is in flight *)
        destruct (pending_idle_nothing7 w oa ob tb Hi Ca Cb Eq) as [S1 [D1 [S2 D2]]].
        destruct (lose_all7 w Hi) as [na [nb [A0 R0]]]. destruct (Hext _ _ A0 R0) as [A R'].
        apply (Fin _ _ [] na nb [] A R'); try reflexivity; [|rewrite ticks_app7, !ticks_drops7; lia|rewrite app_nil_r; reflexivity|left; reflexivity|].
        { apply Forall_app; split; apply heal_labels_drops7. }
        right. exists oa, ob, tb. cbn. repeat split; assumption.
    + (* both ends are online *)
      destruct (C02_heal_reachable7 ra rb ls0 w oa ob Hadm Hrun Ca Cb HrA HrB)
        as [ls [w' [A [R' [L [T [[na [nb [post [E O]]]] [Sa [Sb Q]]]]]]]]].
      apply (Fin ls w' [L7App SA7 Op7Flush] na nb post); try assumption; [lia|right; reflexivity|left; exact Q].
Qed.

(* (H3) non-vacuity: concrete histories end in states that meet every hypothesis of the theorems above.
   A has called connect and
   (1) its token request is still in flight / will be lost, B has seen nothing;
   (2) B has drawn its token 1.2.3.4 and answered; the answer is in flight / will be lost;
   (3) A has got the token and sent its Connect; the Connect is in flight / will be lost;
   (4) B has got the Connect and sent its Accept; the Accept is in flight / will be lost *)
Definition hs_demo_start7 : link7 := link7_new [[9; 9; 9; 9]; [8; 8; 8; 8]] [[1; 2; 3; 4]; [5; 6; 7; 8]].
Definition hs_demo_request7 : list llabel7 := [L7App SA7 Op7Connect; L7Time 100000].
Definition hs_demo_token7 : list llabel7 := [L7App SA7 Op7Connect; L7Deliver SA7 0; L7Time 100000].
Definition hs_demo_connect7 : list llabel7 := [L7App SA7 Op7Connect; L7Deliver SA7 0; L7Deliver SB7 0; L7Time 100000].
Definition hs_demo_accept7 : list llabel7 :=
  [L7App SA7 Op7Connect; L7Deliver SA7 0; L7Deliver SB7 0; L7Deliver SA7 1; L7Time 100000].
(* (5) A is online and has submitted three chunks; the datagram is in flight / will be lost; B is pending *)
Definition hs_demo_late7 : list llabel7 :=
  [L7App SA7 Op7Connect; L7Deliver SA7 0; L7Deliver SB7 0; L7Deliver SA7 1; L7Deliver SB7 1;
   L7App SA7 (Op7Send [11] true); L7App SA7 (Op7Send [22] true); L7App SA7 (Op7Send [33] false); L7App SA7 Op7Flush;
   L7Time 300000].

Lemma demo_reached7 ls w (P : Prop) :
  admissible_runb7 hs_demo_start7 ls = true -> link_run7 hs_demo_start7 ls = Ok w -> P ->
  admissible_run7 hs_demo_start7 ls /\ link_run7 hs_demo_start7 ls = Ok w /\ link_inv7 w /\ P.
Proof.
  unfold hs_demo_start7. intros Hb Hr Hp. pose proof (admissible_runb_ok7 _ _ Hb) as Ha.
  destruct (link_run_inv7 ls _ (link7_new_inv _ _) Ha) as [w0 [Hr0 Hi]]. rewrite Hr in Hr0. injection Hr0 as <-. auto.
Qed.

Example C02_hs_nonvacuous7 :
  (exists w, admissible_run7 hs_demo_start7 hs_demo_request7 /\ link_run7 hs_demo_start7 hs_demo_request7 = Ok w /\
     link_inv7 w /\ handshake_start7 w /\ hs_rand_ok7 w /\
     c7_state (l7_conn (k7_a w)) = Token7 [9; 9; 9; 9] /\ c7_state (l7_conn (k7_b w)) = Unconnected7 /\
     length (k7_ab w) = 1%nat /\ k7_ba w = []) /\
  (exists w, admissible_run7 hs_demo_start7 hs_demo_token7 /\ link_run7 hs_demo_start7 hs_demo_token7 = Ok w /\
     link_inv7 w /\ handshake_start7 w /\ hs_rand_ok7 w /\
     c7_state (l7_conn (k7_a w)) = Token7 [9; 9; 9; 9] /\ c7_state (l7_conn (k7_b w)) = PendingConnect7 [1; 2; 3; 4] /\
     length (k7_ab w) = 1%nat /\ length (k7_ba w) = 1%nat) /\
  (exists w, admissible_run7 hs_demo_start7 hs_demo_connect7 /\ link_run7 hs_demo_start7 hs_demo_connect7 = Ok w /\
     link_inv7 w /\ handshake_start7 w /\ hs_rand_ok7 w /\
     c7_state (l7_conn (k7_a w)) = Connecting7 [9; 9; 9; 9] [1; 2; 3; 4] /\
     c7_state (l7_conn (k7_b w)) = PendingConnect7 [1; 2; 3; 4] /\
     length (k7_ab w) = 2%nat /\ length (k7_ba w) = 1%nat) /\
  (exists w, admissible_run7 hs_demo_start7 hs_demo_accept7 /\ link_run7 hs_demo_start7 hs_demo_accept7 = Ok w /\
     link_inv7 w /\ handshake_start7 w /\ hs_rand_ok7 w /\
     c7_state (l7_conn (k7_a w)) = Connecting7 [9; 9; 9; 9] [1; 2; 3; 4] /\
     c7_state (l7_conn (k7_b w)) = Pending7 [1; 2; 3; 4] [9; 9; 9; 9] /\
     length (k7_ab w) = 2%nat /\ length (k7_ba w) = 2%nat) /\
  (exists w oa, admissible_run7 hs_demo_start7 hs_demo_late7 /\ link_run7 hs_demo_start7 hs_demo_late7 = Ok w /\
     link_inv7 w /\ c7_state (l7_conn (k7_a w)) = Online7 oa /\
     c7_state (l7_conn (k7_b w)) = Pending7 [1; 2; 3; 4] [9; 9; 9; 9] /\
     o_own oa = Some [9; 9; 9; 9] /\ o_their oa = Some [1; 2; 3; 4] /\ (o_queue oa <> [] \/ can_send oa = true) /\
     rand_ok7 {| e_now := k7_now w; e_rand := l7_rand (k7_a w) |} /\
     rand_ok7 {| e_now := k7_now w; e_rand := l7_rand (k7_b w) |} /\
     length (o_queue oa) = 2%nat /\ l7_sub (k7_a w) = [[11]; [22]] /\ length (k7_ab w) = 3%nat /\ length (k7_ba w) = 2%nat).
Proof.
  split; [|split; [|split; [|split]]].
  1-4: eexists; apply demo_reached7; [vm_compute; reflexivity..|]; split; [split; exact I|];
    split; [split; [|split]; apply rand_okb7_ok; reflexivity|repeat split].
  eexists. eexists. apply demo_reached7; [vm_compute; reflexivity..|].
  do 4 (split; [reflexivity|]). split; [left; discriminate|].
  split; [apply rand_okb7_ok; reflexivity|]. split; [apply rand_okb7_ok; reflexivity|]. repeat split.
Qed.

(* ... and the schedules computed for these states.
   (1) the token request is lost; A's timer runs out 0.4 s later, A repeats the request, B draws the
       token 1.2.3.4 and answers, A sends its Connect, B its Accept, A is online and Ready; A's
       application submits the vital chunk [42]; B is online and has it; healing: A resends after 1 s,
       B acknowledges, A sends a keep-alive.
   (2) request and answer are lost; the same schedule (B repeats its token instead of drawing one).
   (3) both requests / the answer / the Connect are lost; A's timer runs out, A repeats the Connect;
       A's application submits the non-vital chunk [42]; healing with keep-alives only.
   (4) everything including B's Accept is lost; B's timer runs out, B repeats the Accept.
   (5) the three datagrams of A and the two of B are lost; A's resend timer runs out 0.7 s later, A
       resends [11] [22] in one datagram, B is online and has both; healing as in (1). *)
Definition hs_demo_schedule1_7 : list llabel7 := progress_schedule7 PhRequest 1 0 400000 [42] true 1000000 1 0 1 500000 1.
Definition hs_demo_schedule3_7 : list llabel7 := progress_schedule7 PhConnect 2 1 400000 [42] false 500000 1 0 1 500000 1.
Definition hs_demo_schedule5_7 : list llabel7 := late_schedule7 3 2 700000 1 1000000 1 0 1 500000 1.

Definition demo_quiescent7 (w : link7) (sub nvr : list bytes) (now : Z) : Prop :=
  l7_sub (k7_a w) = sub /\ l7_del (k7_b w) = sub /\ l7_nvr (k7_b w) = nvr /\ l7_sub (k7_b w) = [] /\ l7_del (k7_a w) = [] /\
  l7_ready (k7_a w) = 1 /\ l7_ready (k7_b w) = 0 /\ k7_ab w = [] /\ k7_ba w = [] /\ k7_now w = now /\
  match c7_state (l7_conn (k7_a w)), c7_state (l7_conn (k7_b w)) with
  | Online7 oa, Online7 ob =>
    o_own oa = Some [9; 9; 9; 9] /\ o_their oa = Some [1; 2; 3; 4] /\
    o_own ob = Some [1; 2; 3; 4] /\ o_their ob = Some [9; 9; 9; 9] /\
    o_queue oa = [] /\ o_queue ob = [] /\ o_packet oa = pc_empty /\ o_packet ob = pc_empty /\
    o_rr oa = false /\ o_rr ob = false
  | _, _ => False
  end.

Definition demo_connected7 (ls : list llabel7) : Prop :=
  admissible_run7 hs_demo_start7 ls /\
  match link_run7 hs_demo_start7 ls with
  | Ok w => connected7 w [9; 9; 9; 9] [1; 2; 3; 4] /\ k7_now w = 500000
  | _ => False
  end.

Example C02_hs_demo_run7 :
  demo_connected7 (hs_demo_request7 ++ hs_schedule7 PhRequest 1 0 400000) /\
  demo_connected7 (hs_demo_token7 ++ hs_schedule7 PhRequest 1 1 400000) /\
  demo_connected7 (hs_demo_connect7 ++ hs_schedule7 PhConnect 2 1 400000) /\
  demo_connected7 (hs_demo_accept7 ++ hs_schedule7 PhAnswer 2 2 400000) /\
  (admissible_run7 hs_demo_start7 (hs_demo_request7 ++ hs_demo_schedule1_7) /\
   match link_run7 hs_demo_start7 (hs_demo_request7 ++ hs_demo_schedule1_7) with
   | Ok w => demo_quiescent7 w [[42]] [] 2000000
   | _ => False
   end) /\
  (admissible_run7 hs_demo_start7 (hs_demo_connect7 ++ hs_demo_schedule3_7) /\
   match link_run7 hs_demo_start7 (hs_demo_connect7 ++ hs_demo_schedule3_7) with
   | Ok w => demo_quiescent7 w [] [[42]] 1500000
   | _ => False
   end) /\
  (admissible_run7 hs_demo_start7 (hs_demo_late7 ++ hs_demo_schedule5_7) /\
   match link_run7 hs_demo_start7 (hs_demo_late7 ++ hs_demo_schedule5_7) with
   | Ok w => demo_quiescent7 w [[11]; [22]] [] 2500000
   | _ => False
   end).
Proof.
  split; [|split; [|split; [|split; [|split; [|split]]]]]; (split; [apply admissible_runb_ok7; vm_compute; reflexivity|]);
    vm_compute; repeat split.
Qed.

Print Assumptions C02_handshake7.
Print Assumptions C02_handshake_reachable7.
Print Assumptions C02_acceptor_waits7.
Print Assumptions C02_progress7.
Print Assumptions C02_progress_reachable7.
Print Assumptions C02_handshake_peers7.
Print Assumptions C02_connecting_peer_offline7.
Print Assumptions C02_simultaneous_open_stuck7.
Print Assumptions C02_late_accept7.
Print Assumptions C02_late_accept_reachable7.
Print Assumptions C02_pending_idle7.
Print Assumptions C02_settle_reachable7.
Print Assumptions C02_hs_nonvacuous7.
Print Assumptions C02_hs_demo_run7.
