(* C02 -- every call returns; a deadline is reported while work is pending; one resend and flush,
   delivered in order, bring the receiver up to date (Proofs/ConnProgress.v). *)
From LibTw2 Require Import Base.Res Model.PacketTypes Model.ConnCore Model.Conn6 Model.Conn7
  Model.LinkGhost Model.Link6
  Proofs.ConnCoreInv Proofs.Conn6Inv Proofs.Conn7Inv Proofs.LinkArith Proofs.LinkCore Proofs.Link6Inv
  Proofs.ConnProgress.
From Coq Require Import ZArith List.
Open Scope Z_scope.

(* every call returns: from every reachable state every valid call yields Ok -- in particular not
   OutOfFuel, the model's outcome for a loop that does not end. The only loop with a data-dependent
   bound is resend; its fuel is the explicit bound resend_fuel = 2 * |resend queue| + 2. *)
Theorem C02_calls_return6 : forall ls e o, valid_run6 conn6_new e (ls ++ [LOp o]) ->
  exists c' e' ds, run6 conn6_new e (ls ++ [LOp o]) = Ok (c', e', ds).
Proof.
  intros ls e o Hv. destruct (run_ok6 _ conn6_new e conn6_new_ok Hv) as [c' [e' [ds [H _]]]].
  exists c', e', ds. exact H.
Qed.
Theorem C02_calls_return7 : forall ls e o, valid_run7 conn7_new e (ls ++ [L7Op o]) ->
  exists c' e' ds, run7 conn7_new e (ls ++ [L7Op o]) = Ok (c', e', ds).
Proof.
  intros ls e o Hv. destruct (run_ok7 _ conn7_new e conn7_new_ok Hv) as [c' [e' [ds [H _]]]].
  exists c', e', ds. exact H.
Qed.

(* the resend loop itself: with the fuel the model gives it, it terminates from every state
   satisfying the invariant, whatever is queued (all accepted chunk sizes included) *)
Theorem C02_resend_terminates : forall pp now o, pp_ok pp -> online_ok pp o -> tok_ok (o_their o) ->
  exists o' ds ts, online_resend pp now o = Ok (o', ds, ts).
Proof.
  intros pp now o Hpp Hok Ht. destruct (online_resend_ok pp now o Hpp Hok Ht) as [o' [ds [ts [H _]]]].
  exists o', ds, ts. exact H.
Qed.

(* while the endpoint is mid-handshake or online, the reported deadline is finite; for every
   reachable state *)
Theorem C02_deadline_finite6 : forall ls e c' e' ds, valid_run6 conn6_new e ls ->
  run6 conn6_new e ls = Ok (c', e', ds) -> active6 c' -> needs_tick c' <> None.
Proof.
  intros ls e c' e' ds Hv Hr Ha. destruct (run_ok6 ls conn6_new e conn6_new_ok Hv) as [c2 [e2 [ds2 [H [Hok _]]]]].
  rewrite Hr in H. injection H as <- <- <-. exact (deadline6 c' Hok Ha).
Qed.
Theorem C02_deadline_finite7 : forall ls e c' e' ds, valid_run7 conn7_new e ls ->
  run7 conn7_new e ls = Ok (c', e', ds) -> active7 c' -> needs_tick7 c' <> None.
Proof.
  intros ls e c' e' ds Hv Hr Ha. destruct (run_ok7 ls conn7_new e conn7_new_ok Hv) as [c2 [e2 [ds2 [H [Hok _]]]]].
  rewrite Hr in H. injection H as <- <- <-. exact (deadline7 c' Hok Ha).
Qed.

(* chunks get through (the step that does the work, both protocol versions): the sender has
   submitted |sub| vital chunks and still holds a+1..|sub| in its resend queue, the receiver has been
   handed d of them (a <= d). When the resend deadline passes (online_resend) and the packet is
   flushed (online_flush: the next tick / flush), then whatever these two calls emit, delivered in
   order, leaves the receiver's acknowledgement at |sub| -- every submitted chunk is delivered -- and
   nothing stays in the sender's packet. *)
Theorem C02_catch_up : forall pp now o sub nvs a d rr o1 ds ts o2 ds2,
  snd_inv o sub nvs a -> pk_count_ok (o_packet_nv o) -> o_queue o <> [] ->
  a <= d <= zlen sub ->
  online_resend pp now o = Ok (o1, ds, ts) -> online_flush pp o1 = Ok (o2, ds2) ->
  exists rr' evs, recv_chunks (seqof d) rr (flat (ds ++ ds2)) = Ok (seqof (zlen sub), rr', evs)
                  /\ pc_chunks (o_packet o2) = [].
Proof. exact catch_up. Qed.

(* ... and its hypotheses hold in every reachable state of the 0.6 link of property C01: if A is
   online with unacknowledged chunks and B is online, one resend + flush at A, delivered in order
   to B, completes the delivery of everything A's application submitted *)
Theorem C02_catch_up_reachable6 : forall ra rb ls w oa ob now o1 ds ts o2 ds2,
  admissible_run (link_new ra rb) ls -> link_run (link_new ra rb) ls = Ok w ->
  c_state (l_conn (k_a w)) = Online oa -> c_state (l_conn (k_b w)) = Online ob ->
  o_queue oa <> [] ->
  online_resend params6 now oa = Ok (o1, ds, ts) -> online_flush params6 o1 = Ok (o2, ds2) ->
  exists rr' evs, recv_chunks (o_ack ob) (o_rr ob) (flat (ds ++ ds2))
                  = Ok (seqof (zlen (l_sub (k_a w))), rr', evs).
Proof.
  intros ra rb ls w oa ob now o1 ds ts o2 ds2 Hadm Hrun Hoa Hob Hq Hr Hf.
  destruct (link_run_inv ls _ (link_new_inv ra rb) Hadm) as [w' [Hrun' [HA [HB _]]]].
  rewrite Hrun in Hrun'. injection Hrun' as <-.
  destruct (online_parts _ _ _ _ _ _ HA Hoa) as [_ [Hcnv [a [Hsnd [Ha _]]]]].
  destruct (sv_online _ _ _ _ _ HB ob Hob) as [_ [_ [_ Hackb]]].
  pose proof (sv_dle _ _ _ _ _ HB) as Hdle.
  rewrite Hackb.
  destruct (catch_up params6 now oa _ _ a (zlen (l_del (k_b w))) (o_rr ob) o1 ds ts o2 ds2 Hsnd Hcnv Hq
              (conj Ha Hdle) Hr Hf) as [rr' [evs [E _]]].
  exists rr', evs. exact E.
Qed.

(* non-vacuity, and the witness of the repaired defect 8ebb95a: a 0.7 endpoint with a 1390-byte
   vital chunk in its resend queue; the resend returns and emits the chunk in a 1400-byte datagram *)
Example C02_nonvacuous :
  let big := repeat 65 1390 in
  let o := online_new (Some [1;1;1;1]) (Some [2;2;2;2]) in
  match online_send params7 0 o big true with
  | Ok (o1, _, SendOk) =>
    match online_flush params7 o1 with
    | Ok (o2, [DChunks _ _ _ 1 _]) =>
      match online_resend params7 2000000 o2 with
      | Ok (o3, [], false) => pc_len (o_packet o3) = 1393 /\ chunks_dgram_size params7 (o_their o3) 1393 = 1400
      | _ => False
      end
    | _ => False
    end
  | _ => False
  end.
Proof. vm_compute. split; reflexivity. Qed.

Print Assumptions C02_calls_return6.
Print Assumptions C02_calls_return7.
Print Assumptions C02_resend_terminates.
Print Assumptions C02_deadline_finite6.
Print Assumptions C02_deadline_finite7.
Print Assumptions C02_catch_up.
Print Assumptions C02_catch_up_reachable6.
Print Assumptions C02_nonvacuous.
