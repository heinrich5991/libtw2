(* C08 — variable-length integers and packed fields round-trip canonically.
   This file holds only the property theorems (about the bit-level model
   Model/Varint.v, Model/Packer.v), each closed by a lemma proved elsewhere,
   its axioms printed. *)
From LibTw2 Require Import Base.Res Model.Varint Model.Packer
  Proofs.VarintArith Proofs.VarintProofs Proofs.PackerProofs.
From Coq Require Import ZArith List.
Open Scope Z_scope.

(* every i32 packs into 1..5 bytes that unpack to it, warning-free, nothing left over *)
Theorem C08_roundtrip : forall v rest, is_i32 v = true -> bytes_ok rest = true ->
  exists bs, write_int v = Ok bs
    /\ read_int (bs ++ rest) = Ok (v, [], rest)
    /\ (1 <= length bs <= 5)%nat.
Proof. exact varint_roundtrip. Qed.

(* no shorter encoding exists: whatever byte string decodes to v consumed at least as many bytes *)
Theorem C08_shortest : forall bs v ws rest, bytes_ok bs = true ->
  read_int bs = Ok (v, ws, rest) ->
  exists enc, write_int v = Ok enc /\ (length enc <= length (consumed_of bs rest))%nat.
Proof.
  intros bs v ws rest Hok H. rewrite read_int_arith in H by exact Hok.
  exists (write_int_a v). split.
  - apply write_int_arith. exact (proj2 (proj2 (read_int_a_consumes _ _ _ _ H))).
  - exact (shortest_a _ _ _ _ Hok H).
Qed.

(* decoding fails only because the string ends too early; it never panics or loops *)
Theorem C08_fails_only_by_end : forall bs, bytes_ok bs = true ->
  (read_int bs = Err tt <-> ((length bs < 5)%nat /\ all_ext bs = true))
  /\ ok_or_err (read_int bs).
Proof.
  intros bs Hok. rewrite read_int_arith by exact Hok.
  split; [apply read_int_a_fails_iff|apply read_int_a_total].
Qed.

(* the decoded value is the one doc/int.md prescribes (zero padding bits) *)
Theorem C08_doc : forall bs, bytes_ok bs = true -> padding_zero bs = true ->
  match read_int bs with
  | Ok (v, _, _) => doc_value bs = Some v
  | _ => doc_value bs = None
  end.
Proof. intros bs Hok Hp. rewrite read_int_arith by exact Hok. exact (doc_a bs Hok Hp). Qed.

(* warning-free exactly when the consumed bytes are the canonical encoding *)
Theorem C08_warnfree_iff_canonical : forall bs v ws rest, bytes_ok bs = true ->
  read_int bs = Ok (v, ws, rest) ->
  bs = consumed_of bs rest ++ rest
  /\ (ws = [] <-> write_int v = Ok (consumed_of bs rest)).
Proof.
  intros bs v ws rest Hok H. rewrite read_int_arith in H by exact Hok.
  destruct (read_int_a_consumes _ _ _ _ H) as [Hsplit [_ Hv]].
  split; [exact Hsplit|]. rewrite write_int_arith by exact Hv. split.
  - intros ->. f_equal. symmetry. exact (warnfree_canonical_a _ _ _ Hok H).
  - intros Hc. injection Hc as Hc. apply (canonical_warnfree_a bs v ws rest H Hv).
    rewrite Hc. exact Hsplit.
Qed.

(* strings, data, raw bytes and ints written by the packer are read back identically,
   with no warning and nothing left over, and reading stays within what was written *)
Theorem C08_fields : forall fs cap out, fields_wf fs = true -> pack fs cap = (out, Ok tt) ->
  out = encoding fs /\ (length out <= cap)%nat
  /\ unpack (map kind_of fs) out = Ok (fs, [], []).
Proof. exact pack_unpack. Qed.

(* too small a buffer: CapacityError exactly when the encoding does not fit, and the
   buffer then holds exactly the fitting prefix *)
Theorem C08_capacity : forall fs cap, forallb field_wf fs = true ->
  pack fs cap = (firstn cap (encoding fs),
                 if (length (encoding fs) <=? cap)%nat then Ok tt else Err CapacityError).
Proof. exact pack_spec. Qed.

(* demo-mode padding *)
Theorem C08_demo_finish : forall rest, finish_warns true rest = true <->
  ((4 <= length rest)%nat \/ exists b, In b rest /\ b <> 0).
Proof. exact finish_demo. Qed.

(* non-vacuity: the hypotheses are met by concrete non-trivial values *)
Example C08_nonvacuous :
  is_i32 (-2147483648) = true /\ write_int (-2147483648) = Ok [255; 255; 255; 255; 15]
  /\ read_int [255; 255; 255; 255; 255] = Ok (0, [NonZeroIntPadding], [])
  /\ fields_wf [FInt (-65); FStr [97; 98]; FData [1; 2; 3]; FRaw [9]; FRest [7; 7]] = true
  /\ pack [FInt (-65); FStr [97; 98]; FData [1; 2; 3]; FRaw [9]; FRest [7; 7]] 12
     = ([192; 1; 97; 98; 0; 3; 1; 2; 3; 9; 7; 7], Ok tt)
  /\ pack [FInt (-65); FStr [97; 98]] 4 = ([192; 1; 97; 98], Err CapacityError).
Proof. vm_compute. repeat split. Qed.

Print Assumptions C08_roundtrip.
Print Assumptions C08_shortest.
Print Assumptions C08_fails_only_by_end.
Print Assumptions C08_doc.
Print Assumptions C08_warnfree_iff_canonical.
Print Assumptions C08_fields.
Print Assumptions C08_capacity.
Print Assumptions C08_demo_finish.
Print Assumptions C08_nonvacuous.
