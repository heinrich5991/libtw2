(* C15 - a recorded demo plays back what was recorded.
   Only the property theorems (about Model/Demo.v and Model/DemoHL.v), each closed by lemmas
   proved in Proofs/Demo*.v.  The Huffman layer is C07's round-trip theorem
   (Proofs/HuffmanDecode.roundtrip = C07_roundtrip) on the built-in table, the int layer of
   messages is C08's (Proofs/VarintProofs.varint_roundtrip = C08_roundtrip). *)
From LibTw2 Require Import Base.Res Model.Varint Model.Huffman Model.Demo Model.DemoHL
  Proofs.DemoBase Proofs.DemoChunk Proofs.DemoFile Proofs.DemoHLProofs Proofs.DemoTyped Proofs.DemoBuilder.
From LibTw2 Require Model.Snap.
From Coq Require Import ZArith List Lia Bool ZifyBool.
Import ListNotations.
Open Scope Z_scope.

(* For every header Writer::new is meant for (winput_ok: NUL-free strings below their capacity,
   a 32-byte digest, a non-negative length) and EVERY chunk sequence (any ticks, key frames,
   payloads of any content, messages of any length) without a payload above MAX_SNAPSHOT_SIZE:
   if the writer accepts everything (no panic: ticks increase, the compressed / int-packed sizes
   fit), then reading the file yields the header fields as given, no header warning, the same
   chunks in the same order with messages zero-padded to a multiple of four bytes, no warning on
   any chunk, and a clean end of file. *)
Theorem C15_raw : forall i cs file,
  winput_ok i = true -> forallb chunk_ok cs = true -> existsb k15_chunk cs = false ->
  write_all i cs = Ok file ->
  exists h, read_all file = Ok (h, [], (map (fun c => (pad4_chunk c, [])) cs, (Ok tt, [])))
    /\ header_view h = expected_view i.
Proof. exact raw_roundtrip. Qed.

(* the header alone, in front of anything: Reader::new returns what Writer::new was given,
   version 6 exactly when a SHA-256 was given, without warnings *)
Theorem C15_header : forall i hb rest, winput_ok i = true -> writer_new i = Ok hb ->
  exists h, reader_new (hb ++ rest) = Ok (h, rest, [])
    /\ header_view h = expected_view i
    /\ rh_version h = match wi_sha256 i with Some _ => V6 | None => V5 end.
Proof.
  intros i hb rest Hi Hw. destruct (header_roundtrip i hb rest Hi Hw) as [h (Hr & Hv & Hws & _ & Hver)].
  exists h. unfold reader_new. rewrite Hr, Hws. repeat split; assumption.
Qed.

(* ChunkHeader::write / read for every tick marker (inline delta 0..31, absolute tick anywhere in
   i32, key frame or not) and every size 0..65535: read back identically in front of any
   continuation, with no warning (UnknownChunkType for the kind the writer never uses), in both
   versions the writer produces; the encoding has 1 byte for sizes below 30, 2 up to 255, 3 above;
   1 byte for an inline tick, 5 for an absolute one *)
Theorem C15_chunk_header : forall h v rest, chdr_ok h = true -> version_ge v V5 = true ->
  exists bs, chdr_write h v = Ok bs
    /\ chdr_read v (bs ++ rest) = (Ok (Some (h, rest)), chdr_warns h)
    /\ zlen bs = chdr_len h.
Proof. exact chdr_roundtrip. Qed.

(* which ticks are written inline: exactly the non-key-frame ticks at most 31 above the previous
   one; all others (first tick, key frames, larger gaps up to the whole i32 range) are absolute *)
Theorem C15_tick_encoding : forall p keyframe tick, is_i32 p = true -> is_i32 tick = true -> p < tick ->
  exists bs, write_tick (Some p) keyframe tick = Ok (bs, Some tick)
    /\ zlen bs = if negb keyframe && (tick - p <=? 31) then 1 else 5.
Proof.
  intros p kf tick _ Ht Hlt. exact (write_tick_next p kf tick Ht Hlt).
Qed.

(* one chunk behind any writer / reader state in step, in front of any continuation *)
Theorem C15_chunk : forall v prev c bs prev' rest,
  version_ge v V5 = true -> chunk_ok c = true -> k15_chunk c = false ->
  write_chunk prev c = Ok (bs, prev') ->
  read_chunk v {| ds_rest := bs ++ rest; ds_tick := prev |}
    = (Ok (Some (pad4_chunk c, {| ds_rest := rest; ds_tick := prev' |})), [])
  /\ 1 <= zlen bs.
Proof. exact chunk_roundtrip. Qed.

Definition k15_header : winput :=
  {| wi_net_version := [48; 46; 54]; wi_map_name := [100; 109; 49]; wi_sha256 := None; wi_map_crc := 1;
     wi_kind := Client; wi_length := 0; wi_timestamp := [50; 48]; wi_map := [] |}.

(* K15's witnesses: a key-frame tick and a message of n zero bytes.  The writer accepts them for
   every n up to 87000 (Proofs/DemoChunk.write_message_zeros); what the reader makes of them are
   cases of long_message_file and raw_roundtrip, so the codec is never run on 64 KiB of input *)
Lemma k15_accepted n : 3 * Z.of_nat n + 25 <= 4 * 65535 ->
  exists file, write_all k15_header [CTick 1 true; CMessage (repeat 0 n)] = Ok file.
Proof.
  intros Hn. destruct (write_message_zeros n Hn) as [mb Em]. unfold zeros in Em.
  unfold write_all. cbn [write_chunks write_chunk]. rewrite Em.
  vm_compute (writer_new k15_header). vm_compute (write_tick None true 1). eexists. reflexivity.
Qed.

Lemma k15_too_long n file : 65536 < Z.of_nat n ->
  write_all k15_header [CTick 1 true; CMessage (repeat 0 n)] = Ok file ->
  exists h, read_all file = Ok (h, [], ([(CTick 1 true, [])], (Err EMsgTooLong, []))).
Proof.
  intros Hn Hf. apply (long_message_file k15_header [CTick 1 true] (zeros n) file); try reflexivity;
    [apply bytes_ok_zeros|rewrite zlen_zeros; exact Hn|exact Hf].
Qed.

Lemma k15_fits n file : Z.of_nat n <= 65536 -> (n mod 4 = 0)%nat ->
  write_all k15_header [CTick 1 true; CMessage (repeat 0 n)] = Ok file ->
  exists h, read_all file = Ok (h, [], ([(CTick 1 true, []); (CMessage (repeat 0 n), [])], (Ok tt, []))).
Proof.
  intros Hn H4 Hf. apply raw_roundtrip in Hf as (h & -> & _); [|reflexivity| |].
  - exists h. cbn [map pad4_chunk]. unfold pad4. rewrite repeat_length, H4, app_nil_r. reflexivity.
  - cbn [forallb chunk_ok]. rewrite (bytes_ok_zeros n : bytes_ok (repeat 0 n) = true). reflexivity.
  - cbn [existsb k15_chunk]. unfold DEMO_MAX_SIZE. rewrite zlen_length, repeat_length.
    replace (_ <? _) with false by lia. reflexivity.
Qed.

(* K15 (known finding, DESIGN.md #14): without the size hypothesis C15_raw is false for the code
   as it is - a message of 65537 zero bytes is accepted by the writer, the reader stops at it with
   MessageVarIntTooLong (its 16384 four-byte groups are used up); 65536 bytes are fine *)
Theorem C15_K15_refuted :
  winput_ok k15_header = true
  /\ match write_all k15_header [CTick 1 true; CMessage (repeat 0 (Z.to_nat 65537))] with
     | Ok file =>
       match read_all file with
       | Ok (_, _, (chunks, (Err EMsgTooLong, _))) => chunks = [(CTick 1 true, [])]
       | _ => False
       end
     | _ => False
     end
  /\ match write_all k15_header [CTick 1 true; CMessage (repeat 0 (Z.to_nat 65536))] with
     | Ok file =>
       match read_all file with
       | Ok (_, _, ([(CTick 1 true, []); (CMessage m, [])], (Ok _, []))) =>
         zlen m = 65536 /\ forallb (Z.eqb 0) m = true
       | _ => False
       end
     | _ => False
     end.
Proof.
  (* the lengths are kept as variables: with the numerals in place a conversion can start unfolding
     `repeat` 65537 times *)
  split; [reflexivity|]. split.
  - remember (Z.to_nat 65537) as n eqn:En. destruct (k15_accepted n) as [file Hf]; [lia|]. rewrite Hf.
    destruct (k15_too_long n file ltac:(lia) Hf) as [h ->]. reflexivity.
  - remember (Z.to_nat 65536) as n eqn:En. destruct (k15_accepted n) as [file Hf]; [lia|]. rewrite Hf.
    destruct (k15_fits n file ltac:(lia) ltac:(lia) Hf) as [h ->]. split.
    + rewrite zlen_length, repeat_length. lia.
    + apply forallb_forall. intros x Hx. apply repeat_spec in Hx. subst x. reflexivity.
Qed.

(* K15H (known finding): Writer::new also accepts header values the format cannot hold - a NUL
   inside a string comes back truncated with a warning, a negative length makes the file
   unreadable *)
Theorem C15_K15H_refuted :
  (exists file h rest,
     writer_new {| wi_net_version := [97; 0; 98]; wi_map_name := []; wi_sha256 := None; wi_map_crc := 0;
                   wi_kind := Server; wi_length := 0; wi_timestamp := []; wi_map := [] |} = Ok file
     /\ reader_new file = Ok (h, rest, [WeirdNetVersion]) /\ hv_net_version (header_view h) = [97])
  /\ (exists file,
     writer_new {| wi_net_version := [97]; wi_map_name := []; wi_sha256 := None; wi_map_crc := 0;
                   wi_kind := Server; wi_length := -1; wi_timestamp := []; wi_map := [] |} = Ok file
     /\ reader_new file = Err EAssert).
Proof.
  split.
  - eexists. eexists. eexists. split; [vm_compute; reflexivity|]. split; vm_compute; reflexivity.
  - eexists. split; [vm_compute; reflexivity|vm_compute; reflexivity].
Qed.

(* a tick that does not strictly increase is refused with TooLowTickNumber: nothing is written and
   the writer state is unchanged (so the recording stays usable); a negative first tick is one *)
Theorem C15_refuse_tick : forall sz w t items, t <= hw_last_tick w ->
  write_snap sz w t items = (w, [], Err HTooLowTickNumber).
Proof. exact refuse_tick. Qed.

(* ... and only such ticks are refused for their number *)
Theorem C15_accept_tick : forall sz w t items, hw_last_tick w < t ->
  snd (write_snap sz w t items) <> Err HTooLowTickNumber.
Proof. exact accept_tick. Qed.

(* what the refusal protects from (and what an equal tick ran into before the repair of defect
   #13, when the test was `<`): the raw writer panics on a tick that does not increase *)
Theorem C15_raw_tick_panics : forall p keyframe t, t <= p ->
  write_tick (Some p) keyframe t = Panic site_tick_order.
Proof. exact raw_tick_not_increasing_panics. Qed.

(* Typed layer, first half: the demo layers between DemoWriter and DemoReader are transparent.
   For every header and EVERY history of write_snap / write_msg calls that run without panic
   (results Ok or any Err), the reader is given exactly the raw chunks the calls emitted - per
   accepted write_snap a tick marker carrying the key-frame flag of the 250-tick rule and ONE
   payload, which is the Snap::write encoding of the snapshot built from the items (key frame) or
   the Delta::write encoding of Delta::create(last written snapshot, it) (otherwise); per accepted
   write_msg the message bytes zero-padded; nothing for a refused tick - and decodes them one
   after the other with the snapshot decoders (hdecode = DemoReader::next_chunk without the
   file), with no warning from the demo layer. *)
Theorem C15_transport : forall sz i ops w b rs hb,
  winput_ok i = true -> forallb hop_ok ops = true -> writer_new i = Ok hb ->
  hrun sz hwriter_new ops = (w, b, rs) -> no_failure rs = true ->
  exists h cs,
    hread_all sz (hb ++ b) = Ok (h, [], hdecode sz Snap.snap_empty (map pad4_chunk cs))
    /\ header_view h = expected_view i
    /\ hist_shape sz hwriter_new ops cs.
Proof. exact hl_transport. Qed.

(* Typed layer: object_sets (hl_read (hl_write hdr hist)) = object_sets hist.
   An object is what the writer hands to the snapshot builder - its type id (ordinal or UUID),
   its id and the words of encode() - and a game message is the bytes msg.encode writes (the
   SnapObj / Game codecs themselves are C14's; here they are covered by the harness).
   For every header and EVERY history of write_snap / write_msg calls each of which is accepted
   or is a refused tick (objects with type ids and ids in range and i32 words; any number of
   key-frame intervals; ordinal and UUID types appearing and vanishing in any order), DemoReader
   reads the file to a clean end with no warning at all and reports exactly (`reports`):
     - for every accepted write_snap(tick, objects): Tick(tick), then a Snapshot whose items are
       `objects` in some order - nothing stale, missing or altered, key frame or delta;
     - for every accepted write_msg: the message bytes, zero-padded to a multiple of four;
     - nothing for a refused tick.
   Proved by induction over the history with the invariant "the reader's snapshot holds the same
   items and the same type registry as the writer's", through Snap::write / read, Delta::create /
   write / read / read_with_delta (Proofs/DemoTyped.v, on the lemmas of the snapshot block) and
   Snap::recycle, and "the builder holds nothing but its registry" (Proofs/DemoBuilder.v). *)
Theorem C15_typed : forall sz i ops w b rs hb,
  winput_ok i = true -> forallb hop_typed_ok ops = true -> writer_new i = Ok hb ->
  hrun sz hwriter_new ops = (w, b, rs) -> forallb accepted_res rs = true ->
  exists h chunks,
    hread_all sz (hb ++ b) = Ok (h, [], (map (fun c => (c, [])) chunks, (Ok tt, [])))
    /\ header_view h = expected_view i
    /\ reports ops rs chunks.
Proof. exact hl_typed_full. Qed.

(* K15W (known finding): an error other than the tick refusal leaves the writer corrupted.  A
   duplicate key is refused, but the items added before it stay in the builder and come back
   with the next accepted snapshot *)
Theorem C15_K15W_refuted :
  let sz := osize_of [(5, 3)] in
  let ops := [HSnap 1 [(Snap.Ordinal 5, 1, [1; 2; 3]); (Snap.Ordinal 5, 1, [7; 7; 7])];
              HSnap 2 [(Snap.Ordinal 5, 2, [4; 5; 6])]] in
  match hrun sz hwriter_new ops, writer_new k15_header with
  | (_, b, rs), Ok hb =>
    rs = [Err (HSnapBuilder Snap.BDuplicateKey); Ok tt]
    /\ match hread_all sz (hb ++ b) with
       | Ok (_, _, (chunks, (Ok _, _))) =>
         map fst chunks = [HCTick 2; HCSnapshot [(Snap.Ordinal 5, 1, [1; 2; 3]); (Snap.Ordinal 5, 2, [4; 5; 6])]]
       | _ => False
       end
  | _, _ => False
  end.
Proof. vm_compute. repeat split. Qed.

(* non-vacuity: a header that meets winput_ok; the chunk bytes the real writer produces for a
   small recording (key-frame tick 5, a snapshot, inline tick +1, a 5-byte message, absolute tick
   40 because 34 > 31) and their read-back; a 30-byte-compressed payload takes the one-byte size
   form, an empty one compresses to two bytes *)
Example C15_nonvacuous :
  winput_ok k15_header = true
  /\ write_chunks None [CTick 5 true; CSnapshot [1; 2; 3]; CTick 6 false; CMessage [1; 2; 3; 4; 5]; CTick 40 false]
     = Ok [192; 0; 0; 0; 5;  36; 40; 44; 20; 55;  161;  72; 126; 106; 161; 169; 100; 87; 220; 0;  128; 0; 0; 0; 40]
  /\ read_chunks (repeat 0 30) V5
       {| ds_rest := [192; 0; 0; 0; 5;  36; 40; 44; 20; 55;  161;  72; 126; 106; 161; 169; 100; 87; 220; 0;  128; 0; 0; 0; 40];
          ds_tick := None |}
     = ([(CTick 5 true, []); (CSnapshot [1; 2; 3], []); (CTick 6 false, []);
         (CMessage [1; 2; 3; 4; 5; 0; 0; 0], []); (CTick 40 false, [])], (Ok tt, []))
  /\ write_chunk_impl KSnapshot [] = Ok [34; 138; 27]
  /\ chdr_write (HData KMessage 30) V5 = Ok [94; 30]
  /\ chdr_write (HData KSnapshotDelta 256) V5 = Ok [127; 0; 1]
  /\ chdr_read V3 [130; 9] = (Ok (Some (HTick (TDelta 2) false, [9])), [])
  /\ write_tick (Some 5) false 5 = Panic site_tick_order
  /\ (let w := fst (fst (write_snap (osize_of []) hwriter_new 5 [])) in
      hw_last_tick w = 5 /\ write_snap (osize_of []) w 5 [] = (w, [], Err HTooLowTickNumber))
  /\ (let ops := [HSnap 3 [(Snap.Ordinal 5, 1, [1; 2; 3]); (Snap.Uuid 1000, 0, [9])];
                  HSnap 3 []; HMsg [7; 8];
                  HSnap 4 [(Snap.Uuid 77, 0, [4; 4]); (Snap.Ordinal 5, 1, [1; 2; 4])]] in
      forallb hop_typed_ok ops = true
      /\ snd (hrun (osize_of [(5, 3)]) hwriter_new ops) = [Ok tt; Err HTooLowTickNumber; Ok tt; Ok tt]
      /\ expected (osize_of [(5, 3)]) hwriter_new ops
         = [HCTick 3; HCSnapshot [(Snap.Ordinal 5, 1, [1; 2; 3]); (Snap.Uuid 1000, 0, [9])];
            HCMessage [7; 8; 0; 0];
            HCTick 4; HCSnapshot [(Snap.Ordinal 5, 1, [1; 2; 4]); (Snap.Uuid 77, 0, [4; 4])]]).
Proof. vm_compute. repeat split. Qed.

Print Assumptions C15_raw.
Print Assumptions C15_header.
Print Assumptions C15_chunk_header.
Print Assumptions C15_tick_encoding.
Print Assumptions C15_chunk.
Print Assumptions C15_K15_refuted.
Print Assumptions C15_K15H_refuted.
Print Assumptions C15_refuse_tick.
Print Assumptions C15_accept_tick.
Print Assumptions C15_raw_tick_panics.
Print Assumptions C15_transport.
Print Assumptions C15_typed.
Print Assumptions C15_K15W_refuted.
Print Assumptions C15_nonvacuous.
