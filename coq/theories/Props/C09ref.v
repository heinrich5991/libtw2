(* C09, second half - the bundled DDNet reference implementation (snapshot/reference):
   "A delta produced by the bundled DDNet reference implementation for the same pair, applied
    here, also yields B, and a snapshot serializes to the same integers as the reference builder
    produces for the same items."
   The C++ (CSnapshotBuilder, CSnapshotDelta::CreateDelta) is modelled in Model/SnapRef.v, which is
   itself run against the real C++ on every `./check run C09` (refbuild / refdelta cases).  Only
   the property theorems, each closed by lemmas of Proofs/SnapRefProofs.v (and SnapRefCreate.v).

   ref_of_raw S is the reference snapshot (its int array) the reference builder makes of the items
   of S handed over in key order - what the harness (ref_build) does.  Conditions, all boolean:
     raw_ok, k09             as in Props/C09.v
     ref_types_ok            every type <= 0x7fff (snapshotbuilder_add_item aborts above: CSnapshot::MAX_TYPE)
     ref_buckets_ok          at most 64 keys per CalcHashId bucket (HASHLIST_BUCKET_SIZE; further keys are not found)
     ref_table_ok sz         the table of pre-agreed sizes only has types < 64 with 0 < size, 4 * size <= INT16_MAX
                             (SetStaticsize aborts otherwise; size 0 means `no static size` to the reference)
     sizes_respected sz B    as in C09_end_to_end
     ref_delta_fits A B      3 + |A| + 3 |B| + data(B) <= 16384: CreateDelta writes into int32_t[16384] unchecked *)
From LibTw2 Require Import Base.Res Model.Varint Model.Packer Model.Snap Model.SnapRef
  Proofs.SnapBase Proofs.SnapRep Proofs.SnapDelta Proofs.SnapOk Proofs.SnapRefCreate Proofs.SnapRefProofs.
From Coq Require Import ZArith List Lia.
Import ListNotations.
Open Scope Z_scope.

(* The reference's delta for the pair is read by Delta::read_from_ints without a warning and applied
   by RawSnap::read_with_delta to A gives the target: the same items in the same (key) order, the
   same lookups, the same checksum - although the reference omits every unchanged item.  When
   nothing changed the reference writes NO ints at all (CreateDelta returns 0); then A already
   is B. *)
Theorem C09_ref_delta : forall sz A B,
  raw_ok A = true -> raw_ok B = true -> k09 A B = false ->
  ref_types_ok A = true -> ref_types_ok B = true ->
  ref_buckets_ok A = true -> ref_buckets_ok B = true ->
  ref_table_ok sz = true -> sizes_respected sz B = true -> ref_delta_fits A B = true ->
  exists fa fb ints,
    ref_of_raw A = Ok fa /\ ref_of_raw B = Ok fb /\ ref_delta sz fa fb = Ok ints
    /\ ((ints = [] /\ @raw_items unit A = raw_items B /\ crc A = crc B)
        \/ (exists d B',
              delta_read_from_ints sz ints = (Ok d, [])
              /\ raw_read_with_delta A d = (Ok B', [])
              /\ @raw_items unit B' = raw_items B
              /\ (forall ty id, @raw_item unit B' ty id = raw_item B ty id)
              /\ crc B' = crc B)).
Proof.
  intros sz A B OA OB Hk TA TB BA BB Hsz Hsr Hfit.
  destruct (c09_ref_delta sz A B OA OB Hk TA TB BA BB Hsz Hsr Hfit) as (fa & fb & ints & H1 & H2 & H3 & H4).
  exists fa, fb, ints. repeat (split; [assumption|]). exact (H4 unit).
Qed.

(* The same for ANY order of the items: both builders (libtw2's RawBuilder, the reference's
   CSnapshotBuilder) are fed the same two lists ia, ib; the reference's delta between ITS two
   snapshots, read and applied by libtw2 to ITS snapshot of ia, gives its snapshot of ib.  (The
   delta then lists keys in the reference's item order; Delta::read_from_ints sorts them.) *)
Theorem C09_ref_delta_items : forall sz ia ib A B,
  ritems_ok ia = true -> ritems_ok ib = true -> raw_build ia = Ok A -> raw_build ib = Ok B ->
  k09 A B = false -> ref_buckets_ok A = true -> ref_buckets_ok B = true ->
  ref_table_ok sz = true -> sizes_respected sz B = true -> ref_delta_fits A B = true ->
  exists fa fb ints,
    ref_builder_ints ia = Ok fa /\ ref_builder_ints ib = Ok fb /\ ref_delta sz fa fb = Ok ints
    /\ ((ints = [] /\ @raw_items unit A = raw_items B /\ crc A = crc B)
        \/ (exists d B',
              delta_read_from_ints sz ints = (Ok d, [])
              /\ raw_read_with_delta A d = (Ok B', [])
              /\ @raw_items unit B' = raw_items B
              /\ (forall ty id, @raw_item unit B' ty id = raw_item B ty id)
              /\ crc B' = crc B)).
Proof.
  intros sz ia ib A B Hoa Hob Hba Hbb Hk BA BB Hsz Hsr Hfit.
  destruct (c09_ref_delta_items sz ia ib A B Hoa Hob Hba Hbb Hk BA BB Hsz Hsr Hfit) as (fa & fb & ints & H1 & H2 & H3 & H4).
  exists fa, fb, ints. repeat (split; [assumption|]). exact (H4 unit).
Qed.

(* A snapshot serializes to the integers the reference builder produces for its items (handed
   over in key order): Snap::write_to_ints = RawSnap::write_to_ints = the reference's Finish *)
Theorem C09_ref_builder : forall S, raw_ok S = true -> ref_types_ok S = true ->
  exists l, ref_of_raw S = Ok l /\ snap_ints S = Ok l
    /\ (forall cap, (length l <= cap)%nat -> raw_write_to_ints S cap = Ok l).
Proof. exact c09_ref_builder. Qed.

(* the same list of items through both builders (RawBuilder::add_item accepted all of them; types
   <= 0x7fff): in ascending key order the integers are the same ... *)
Theorem C09_ref_builder_items : forall its S, ritems_ok its = true -> raw_build its = Ok S ->
  sortedb (map ritem_key its) = true ->
  exists l, ref_builder_ints its = Ok l /\ snap_ints S = Ok l
    /\ (forall cap, (length l <= cap)%nat -> raw_write_to_ints S cap = Ok l).
Proof. exact c09_ref_builder_items. Qed.

(* ... in ANY order the reference's integers are read by RawSnap::read_from_ints, without a warning,
   as the snapshot libtw2's own builder makes: same items (in key order), lookups, checksum ... *)
Theorem C09_ref_builder_any_order : forall its S, ritems_ok its = true -> raw_build its = Ok S ->
  exists l S', ref_builder_ints its = Ok l /\ raw_read_from_ints l = (Ok S', [])
    /\ @raw_items unit S' = raw_items S
    /\ (forall ty id, @raw_item unit S' ty id = raw_item S ty id)
    /\ crc S' = crc S.
Proof.
  intros its S Hok Hb. destruct (c09_ref_builder_any_order its S Hok Hb) as (l & S' & H1 & H2 & H3 & H4 & H5).
  exists l, S'. repeat split; auto.
Qed.

(* ... but the integers themselves differ as soon as the items are not handed over in key order
   (the reference keeps insertion order, libtw2 writes in key order).  That a type above 0x7fff
   makes the reference abort is a clause of C09ref_nonvacuous. *)
Definition exU : list ritem := [(5, 1, [9]); (1, 0, [7; 7])].
Theorem C09_ref_builder_order_refuted : exists its S l l',
  ritems_ok its = true /\ raw_build its = Ok S /\ ref_builder_ints its = Ok l /\ snap_ints S = Ok l' /\ l <> l'.
Proof.
  exists exU.
  destruct (raw_build exU) as [R0| | |] eqn:E; [|vm_compute in E; discriminate..].
  exists R0, [20; 2; 0; 8; 327681; 9; 65536; 7; 7], [20; 2; 0; 12; 65536; 7; 7; 327681; 9].
  vm_compute in E. injection E as <-. vm_compute. repeat split; discriminate.
Qed.

(* the two conditions on the reference's side are needed.  65 keys in one CalcHashId bucket: the
   65th is not found in either hash list, so the reference both deletes and re-adds it although
   nothing changed, and libtw2 reads that delta with the warning DeleteUpdate ... *)
Definition bk_ids : list Z :=
  [0; 287; 574; 861; 1148; 1435; 1722; 2009; 2296; 2327; 2614; 2901; 3188; 3475; 3762; 4049; 4336; 4367; 4654; 4941;
   5228; 5515; 5802; 6089; 6376; 6407; 6694; 6981; 7268; 7555; 7842; 8129; 8416; 8703; 8734; 9021; 9308; 9595; 9882;
   10169; 10456; 10743; 10774; 11061; 11348; 11635; 11922; 12209; 12496; 12783; 12814; 13101; 13388; 13675; 13962;
   14249; 14536; 14823; 14854; 15141; 15428; 15715; 16002; 16289; 16576].
Definition bkA : rawsnap :=
  match raw_build (map (fun id => (100, id, [id])) bk_ids) with Ok R0 => R0 | _ => raw_empty end.
Definition no_table : osize := fun _ => None.
Theorem C09_ref_delta_buckets_refuted : exists sz A,
  raw_ok A = true /\ k09 A A = false /\ ref_types_ok A = true /\ ref_table_ok sz = true
  /\ sizes_respected sz A = true /\ ref_delta_fits A A = true
  /\ ref_buckets_ok A = false
  /\ match ref_of_raw A with
     | Ok fa => match ref_delta sz fa fa with
                | Ok ints => ints = [1; 1; 0; 6570176; 100; 16576; 1; 16576]
                             /\ snd (delta_read_from_ints sz ints) = [DeleteUpdate]
                | _ => False
                end
     | _ => False
     end.
Proof.
  exists no_table, bkA.
  assert (Hsz : ref_table_ok no_table = true) by (apply all_types_intro; reflexivity).
  unfold ref_delta. rewrite (table_sizes_ok _ Hsz), Hsz.
  (* all 65 keys fall into bucket 105; ref_buckets_ok itself hashes every key once per bucket *)
  rewrite (ref_buckets_ok_full bkA 105) by (vm_compute; reflexivity).
  vm_compute. repeat split.
Qed.

(* ... and a pre-agreed size of 0 is `no static size` to the reference: it writes the size field
   libtw2 does not expect, and Delta::read_from_ints fails *)
Definition sz0 : osize := fun ty => if ty =? 5 then Some 0 else None.
Definition sz0B : rawsnap := match raw_build [(5, 1, [])] with Ok R0 => R0 | _ => raw_empty end.
Theorem C09_ref_delta_size0_refuted : exists sz A B,
  raw_ok A = true /\ raw_ok B = true /\ k09 A B = false /\ ref_types_ok A = true /\ ref_types_ok B = true
  /\ ref_buckets_ok A = true /\ ref_buckets_ok B = true /\ sizes_respected sz B = true /\ ref_delta_fits A B = true
  /\ ref_sizes_ok sz = true /\ ref_table_ok sz = false
  /\ match ref_of_raw A, ref_of_raw B with
     | Ok fa, Ok fb => match ref_delta sz fa fb with
                       | Ok ints => ints = [0; 1; 0; 5; 1; 0]
                                    /\ fst (delta_read_from_ints sz ints) = Err ItemDiffsUnpacking
                       | _ => False
                       end
     | _, _ => False
     end.
Proof.
  exists sz0, raw_empty, sz0B.
  assert (Hs : ref_sizes_ok sz0 = true).
  { apply all_types_intro. intros ty _. unfold sz0. destruct (Z.eqb_spec ty 5) as [->|]; reflexivity. }
  unfold ref_delta. rewrite Hs, !ref_buckets_ok_few by (vm_compute; discriminate).
  vm_compute. repeat split.
Qed.

(* concrete pair: an item changed with wrap-around under an id >= 0x8000, one changed under a type
   with a pre-agreed size, two untouched (one of them under the largest key), one removed, two added
   (one empty); and the inputs the reference cannot take *)
Definition rxT : osize := fun ty => if ty =? 5 then Some 2 else if ty =? 63 then Some 1 else None.
Definition rxA_items : list ritem :=
  [(1, 0, []); (5, 1, [9; 9]); (5, 2, [1; 2]); (7, 32768, [i32_min; 7]); (32767, 65535, [4])].
Definition rxB_items : list ritem :=
  [(5, 1, [9; 10]); (5, 2, [1; 2]); (7, 32768, [i32_max; 7]); (64, 0, []); (100, 3, [1; 2; 3]); (32767, 65535, [4])].
Definition rxA : rawsnap := match raw_build rxA_items with Ok R0 => R0 | _ => raw_empty end.
Definition rxB : rawsnap := match raw_build rxB_items with Ok R0 => R0 | _ => raw_empty end.

Definition rxB_ints : list Z :=
  [64; 6; 0; 12; 24; 36; 40; 56; 327681; 9; 10; 327682; 1; 2; 491520; i32_max; 7; 4194304; 6553603; 1; 2; 3; i32_max; 4].

Example C09ref_nonvacuous :
  raw_ok rxA = true /\ raw_ok rxB = true /\ k09 rxA rxB = false
  /\ ref_types_ok rxA = true /\ ref_types_ok rxB = true /\ ref_buckets_ok rxA = true /\ ref_buckets_ok rxB = true
  /\ ref_table_ok rxT = true /\ sizes_respected rxT rxB = true /\ ref_delta_fits rxA rxB = true
  /\ ritems_ok rxB_items = true /\ sortedb (map ritem_key rxB_items) = true
  /\ ref_of_raw rxA = Ok [48; 5; 0; 4; 16; 28; 40; 65536; 327681; 9; 9; 327682; 1; 2; 491520; i32_min; 7; i32_max; 4]
  /\ ref_of_raw rxB = ref_builder_ints rxB_items
  /\ ref_builder_ints rxB_items = Ok rxB_ints
  /\ raw_write_to_ints rxB 24 = Ok rxB_ints
  /\ match ref_of_raw rxA, ref_of_raw rxB with
     | Ok fa, Ok fb =>
       ref_delta rxT fa fb = Ok [1; 4; 0; 65536; 5; 1; 0; 1; 7; 32768; 2; -1; 0; 64; 0; 0; 100; 3; 3; 1; 2; 3]
       /\ ref_delta rxT fa fa = Ok []
       /\ match ref_delta rxT fa fb with
          | Ok ints =>
            match delta_read_from_ints rxT ints with
            | (Ok d, []) =>
              match raw_read_with_delta rxA d with
              | (Ok X, []) => @raw_items unit X = raw_items rxB /\ crc X = crc rxB
              | _ => False
              end
            | _ => False
            end
          | _ => False
          end
     | _, _ => False
     end
  /\ match raw_build (rev rxA_items), ref_builder_ints (rev rxA_items), ref_builder_ints (rev rxB_items) with
     | Ok A', Ok fa, Ok fb =>
       ref_delta rxT fa fb = Ok [1; 4; 0; 65536; 100; 3; 3; 1; 2; 3; 64; 0; 0; 7; 32768; 2; -1; 0; 5; 1; 0; 1]
       /\ match ref_delta rxT fa fb with
          | Ok ints =>
            match delta_read_from_ints rxT ints with
            | (Ok d, []) =>
              match raw_read_with_delta A' d with
              | (Ok X, []) => @raw_items unit X = raw_items rxB /\ crc X = crc rxB
              | _ => False
              end
            | _ => False
            end
          | _ => False
          end
     | _, _, _ => False
     end
  /\ ref_builder_ints [(32768, 0, [])] = Panic site_ref_assert
  /\ ref_sizes_ok (fun ty => if ty =? 64 then Some 1 else None) = false.
Proof.
  assert (HT : ref_table_ok rxT = true).
  { apply all_types_intro. intros ty _. unfold rxT.
    destruct (Z.eqb_spec ty 5) as [->|]; [reflexivity|]. destruct (Z.eqb_spec ty 63) as [->|]; reflexivity. }
  unfold ref_delta. rewrite (table_sizes_ok _ HT), HT, !ref_buckets_ok_few by (vm_compute; discriminate).
  vm_compute. repeat split.
Qed.

Print Assumptions C09_ref_delta.
Print Assumptions C09_ref_delta_items.
Print Assumptions C09_ref_builder.
Print Assumptions C09_ref_builder_items.
Print Assumptions C09_ref_builder_any_order.
Print Assumptions C09_ref_builder_order_refuted.
Print Assumptions C09_ref_delta_buckets_refuted.
Print Assumptions C09_ref_delta_size0_refuted.
Print Assumptions C09ref_nonvacuous.
