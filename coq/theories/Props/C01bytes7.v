(* C01 over BYTES, Teeworlds 0.7: vital chunks are delivered exactly once, in order,
   uncorrupted, when what the network loses, duplicates, reorders and delays is the byte strings
   that PacketBuilder::send really hands to the socket. Twin of Props/C01bytes.v.
   Model/LinkBytes7.v is the link of Model/Link7.v with byte strings in the two bags: every
   datagram an endpoint emits goes through the packet writer model (Packet::write into 1400
   bytes, Huffman coder of Model/PacketInst.v), every delivery goes through the packet reader
   model and then into Connection::feed (feed_bytes7). This file transports the statements of
   Props/C01v7.v to that link.
   Extra assumption over Props/C01v7.v: what the application submits and the random tokens are
   byte strings (the model keeps bytes as Z). *)
From LibTw2 Require Import Base.Res Model.PacketTypes Model.ConnCore Model.Conn7 Model.LinkGhost Model.Link7
  Model.LinkBytes7 Proofs.Conn7Inv Proofs.ConnInert Proofs.LinkArith Proofs.Link7Inv
  Proofs.LinkBytes7Wire Proofs.LinkBytes7Sim.
From Coq Require Import ZArith List Lia.
Open Scope Z_scope.

(* (1) the byte-level link and the abstract link run in lockstep on every admissible history:
   neither fails, the endpoint states and ghost histories are the same, and the byte bags are
   the abstract bags pushed through the writer, datagram by datagram (each at most 1400 bytes) *)
Theorem C01_bytes_simulation7 : forall ra rb ls,
  tokens_bytes7 ra -> tokens_bytes7 rb -> Forall bytes_label7 ls ->
  admissible_run7 (link7_new ra rb) ls ->
  exists w wb,
    link_run7 (link7_new ra rb) ls = Ok w /\
    link_bytes_run7 (link_bytes7_new ra rb) ls = Ok wb /\
    kb7_a wb = k7_a w /\ kb7_b wb = k7_b w /\ kb7_now wb = k7_now w /\
    kb7_ab wb = map wire_flight_of7 (k7_ab w) /\ kb7_ba wb = map wire_flight_of7 (k7_ba w) /\
    Forall (fun f => exists bs, wire7 (f_d f) = Ok bs /\ (length bs <= 1400)%nat) (k7_ab w ++ k7_ba w).
Proof.
  intros ra rb ls Hra Hrb Hbl Ha.
  pose proof (link_bytes_run_sim7 ls _ (link7_new_inv ra rb) (link7_new_wire ra rb Hra Hrb) Ha Hbl)
    as (w & E1 & E2 & _ & Hw).
  exists w, (link_bytes_of7 w). split; [exact E1|]. split; [exact E2|].
  repeat (split; [reflexivity|]). apply wire_inv7_wired, Hw.
Qed.

(* the property's assumptions can be stated on the byte-level link alone (the freshness
   condition reads the chunks out of the bytes with the reader): that is the same as the
   abstract history being admissible and the application data being bytes *)
Theorem C01_bytes_admissible7 : forall ra rb ls, tokens_bytes7 ra -> tokens_bytes7 rb ->
  (admissible_bytes_run7 (link_bytes7_new ra rb) ls <->
   admissible_run7 (link7_new ra rb) ls /\ Forall bytes_label7 ls).
Proof.
  intros ra rb ls Hra Hrb.
  exact (admissible_bytes_run7_iff ls _ (link7_new_inv ra rb) (link7_new_wire ra rb Hra Hrb)).
Qed.

(* every admissible byte-level history runs through, in lockstep with an abstract one *)
Lemma bytes_run_inv7 ra rb ls : tokens_bytes7 ra -> tokens_bytes7 rb ->
  admissible_bytes_run7 (link_bytes7_new ra rb) ls ->
  exists w wb, link_bytes_run7 (link_bytes7_new ra rb) ls = Ok wb /\ link_inv7 w /\
    kb7_a wb = k7_a w /\ kb7_b wb = k7_b w.
Proof.
  intros Hra Hrb Hab.
  pose proof (link_bytes_run_inv7 _ ls (link7_new_inv ra rb) (link7_new_wire ra rb Hra Hrb) Hab) as (w & E & Hinv & _).
  exists w, (link_bytes_of7 w). split; [exact E|]. split; [exact Hinv|]. split; reflexivity.
Qed.

(* (2) the statements of Props/C01v7.v on the byte-level link, for every admissible history:
   what the receiving application was handed is a prefix of what the sending application
   submitted -- nothing skipped, duplicated, reordered or altered -- in both directions *)
Theorem C01_bytes_prefix7 : forall ra rb ls, tokens_bytes7 ra -> tokens_bytes7 rb ->
  admissible_bytes_run7 (link_bytes7_new ra rb) ls ->
  exists wb, link_bytes_run7 (link_bytes7_new ra rb) ls = Ok wb /\
    l7_del (kb7_b wb) = firstn (length (l7_del (kb7_b wb))) (l7_sub (kb7_a wb)) /\
    l7_del (kb7_a wb) = firstn (length (l7_del (kb7_a wb))) (l7_sub (kb7_b wb)).
Proof.
  intros ra rb ls Hra Hrb Hab.
  pose proof (bytes_run_inv7 ra rb ls Hra Hrb Hab) as (w & wb & E & [HA [HB _]] & Sa & Sb).
  exists wb. split; [exact E|]. rewrite Sa, Sb. split.
  - rewrite <- to_nat_zlen. exact (sv7_prefix _ _ _ _ _ HB).
  - rewrite <- to_nat_zlen. exact (sv7_prefix _ _ _ _ _ HA).
Qed.

(* non-vital chunks that are delivered are chunks that were really sent *)
Theorem C01_bytes_nonvital_genuine7 : forall ra rb ls, tokens_bytes7 ra -> tokens_bytes7 rb ->
  admissible_bytes_run7 (link_bytes7_new ra rb) ls ->
  exists wb, link_bytes_run7 (link_bytes7_new ra rb) ls = Ok wb /\
    incl (l7_nvr (kb7_b wb)) (l7_nvs (kb7_a wb)) /\ incl (l7_nvr (kb7_a wb)) (l7_nvs (kb7_b wb)).
Proof.
  intros ra rb ls Hra Hrb Hab.
  pose proof (bytes_run_inv7 ra rb ls Hra Hrb Hab) as (w & wb & E & [HA [HB _]] & Sa & Sb).
  exists wb. split; [exact E|]. rewrite Sa, Sb.
  split; [exact (sv7_nvr _ _ _ _ _ HB)|exact (sv7_nvr _ _ _ _ _ HA)].
Qed.

(* 'ready' is reported at most once, and never before the accepting side has answered *)
Theorem C01_bytes_ready7 : forall ra rb ls, tokens_bytes7 ra -> tokens_bytes7 rb ->
  admissible_bytes_run7 (link_bytes7_new ra rb) ls ->
  exists wb, link_bytes_run7 (link_bytes7_new ra rb) ls = Ok wb /\
    0 <= l7_ready (kb7_a wb) <= 1 /\ 0 <= l7_ready (kb7_b wb) <= 1 /\
    (1 <= l7_ready (kb7_a wb) -> l7_answered (kb7_b wb) = true) /\
    (1 <= l7_ready (kb7_b wb) -> l7_answered (kb7_a wb) = true).
Proof.
  intros ra rb ls Hra Hrb Hab.
  pose proof (bytes_run_inv7 ra rb ls Hra Hrb Hab) as (w & wb & E & [HA [HB _]] & Sa & Sb).
  exists wb. split; [exact E|]. rewrite Sa, Sb.
  split; [exact (sv7_ready _ _ _ _ _ HA)|]. split; [exact (sv7_ready _ _ _ _ _ HB)|].
  split; [exact (sv7_ans _ _ _ _ _ HA)|exact (sv7_ans _ _ _ _ _ HB)].
Qed.

(* (3) corruption, partial: the property's quantifier is about loss, duplication, reordering and
   delay, not corruption; what the existing inertness result (inert7_bytes, C03) gives for a
   datagram whose bytes the network replaced ARBITRARILY: once the receiver's own token is fixed,
   unless the reader still finds exactly that token in the bytes (or the bytes are the
   documented token-request exception, or a connectionless packet with both tokens right),
   delivering them changes nothing at all -- same endpoint, same histories, nothing emitted.
   NOT covered: corrupted bytes that keep the token. *)
Theorem C01_bytes_corruption7_partial : forall wb from bs t,
  let x := getb7 wb (other7 from) in
  token_fixed7 (l7_conn x) t -> bytes_ok bs = true ->
  carried_token7 bs <> Some t -> token_request_exception7 (l7_conn x) bs = false ->
  connless_tokens_right7 (l7_conn x) bs = false ->
  bside_finish7 x None (feed_bytes7 (l7_conn x) {| e_now := kb7_now wb; e_rand := l7_rand x |} bs) = Ok (x, []).
Proof. intros wb from bs t x. apply bside_finish7_inert. reflexivity. Qed.

(* (4) a concrete byte-level history: the full token handshake, a vital chunk, a duplicate
   delivery; the bytes in flight at the end (nothing was dropped). The first datagram is the
   519-byte token request (header, TOKEN, own token, 507 zero bytes). *)
Definition demo_bytes_trace7 : list llabel7 :=
  [ L7App SA7 Op7Connect;                        (* A: token request (header token NONE) *)
    L7Deliver SA7 0;                             (* B draws its token and answers with TokenMsg *)
    L7Deliver SB7 0;                             (* A learns B's token and sends Connect *)
    L7Deliver SA7 1;                             (* B: Connect -> Pending, emits Accept *)
    L7Deliver SB7 1;                             (* A: Accept -> online, Ready *)
    L7App SA7 (Op7Send [11; 12; 13] true); L7App SA7 Op7Flush;
    L7Deliver SA7 2; L7Deliver SA7 2 ].          (* the chunk datagram arrives twice *)

Example C01_bytes_example7 :
  admissible_bytes_run7 (link_bytes7_new [[9; 9; 9; 9]; [8; 8; 8; 8]] [[1; 2; 3; 4]; [5; 6; 7; 8]]) demo_bytes_trace7 /\
  match link_bytes_run7 (link_bytes7_new [[9; 9; 9; 9]; [8; 8; 8; 8]] [[1; 2; 3; 4]; [5; 6; 7; 8]]) demo_bytes_trace7 with
  | Ok wb =>
    map (fun bf => length (bf7_bytes bf)) (kb7_ab wb) = [519; 12; 13]%nat /\
    map bf7_bytes (skipn 1 (kb7_ab wb)) =
      [ [4; 0; 0; 1; 2; 3; 4; 1; 9; 9; 9; 9];                 (* control, token 01020304, Connect, own token *)
        [0; 0; 1; 1; 2; 3; 4; 64; 3; 1; 11; 12; 13] ] /\      (* 1 chunk, token; vital, size 3, seq 1, data *)
    map bf7_bytes (kb7_ba wb) =
      [ [4; 0; 0; 9; 9; 9; 9; 5; 1; 2; 3; 4];                 (* control, token 09090909, Token, own token *)
        [4; 0; 0; 9; 9; 9; 9; 2] ] /\                         (* control, token 09090909, Accept *)
    l7_sub (kb7_a wb) = [[11; 12; 13]] /\ l7_del (kb7_b wb) = [[11; 12; 13]] /\
    l7_ready (kb7_a wb) = 1 /\ l7_answered (kb7_b wb) = true
  | _ => False
  end.
Proof.
  split.
  - apply C01_bytes_admissible7; try (apply tokens_bytesb7_ok; vm_compute; reflexivity).
    split; [apply admissible_runb_ok7; vm_compute; reflexivity|apply bytes_labelb7_ok; vm_compute; reflexivity].
  - vm_compute. repeat split.
Qed.

Print Assumptions C01_bytes_simulation7.
Print Assumptions C01_bytes_admissible7.
Print Assumptions C01_bytes_prefix7.
Print Assumptions C01_bytes_nonvital_genuine7.
Print Assumptions C01_bytes_ready7.
Print Assumptions C01_bytes_corruption7_partial.
Print Assumptions C01_bytes_example7.
