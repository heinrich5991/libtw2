(* C01 for Teeworlds 0.7 -- vital chunks are delivered exactly once, in order, uncorrupted;
   non-vital delivered chunks were really sent; the connecting side is told 'ready' at most once
   and never before the accepting side has answered (= has emitted an Accept datagram).
   The world is two endpoints (Model/Conn7.v, the model the correspondence check ties to
   net/src/connection7.rs) and a network that may lose, duplicate, reorder and delay datagrams
   (Model/Link7.v). `admissible_run7` is the property's own assumption, as a predicate on the
   history: valid API calls, (W) fewer than 512 vital chunks unacknowledged, (F) no datagram
   delayed across the 10-bit sequence space, a usable random token wherever one may be drawn.
   Mirror of Props/C01.v (0.6); the proofs are in Proofs/Link7Inv.v. *)
From LibTw2 Require Import Base.Res Model.PacketTypes Model.ConnCore Model.Conn7 Model.LinkGhost Model.Link7
  Proofs.LinkArith Proofs.Link7Inv.
From Coq Require Import ZArith List Lia.
Open Scope Z_scope.

(* what the receiving application was handed is a prefix of what the sending application
   submitted: nothing skipped, duplicated, reordered or altered -- in both directions, for
   every admissible history *)
Theorem C01_prefix7 : forall ra rb ls, admissible_run7 (link7_new ra rb) ls ->
  exists w, link_run7 (link7_new ra rb) ls = Ok w /\
    l7_del (k7_b w) = firstn (length (l7_del (k7_b w))) (l7_sub (k7_a w)) /\
    l7_del (k7_a w) = firstn (length (l7_del (k7_a w))) (l7_sub (k7_b w)).
Proof.
  intros ra rb ls Ha. destruct (link_run_inv7 ls _ (link7_new_inv ra rb) Ha) as [w [Hr [HA [HB _]]]].
  exists w. split; [exact Hr|]. split.
  - rewrite <- to_nat_zlen. exact (sv7_prefix _ _ _ _ _ HB).
  - rewrite <- to_nat_zlen. exact (sv7_prefix _ _ _ _ _ HA).
Qed.

(* non-vital chunks that are delivered are chunks that were really sent *)
Theorem C01_nonvital_genuine7 : forall ra rb ls, admissible_run7 (link7_new ra rb) ls ->
  exists w, link_run7 (link7_new ra rb) ls = Ok w /\
    incl (l7_nvr (k7_b w)) (l7_nvs (k7_a w)) /\ incl (l7_nvr (k7_a w)) (l7_nvs (k7_b w)).
Proof.
  intros ra rb ls Ha. destruct (link_run_inv7 ls _ (link7_new_inv ra rb) Ha) as [w [Hr [HA [HB _]]]].
  exists w. split; [exact Hr|]. split; [exact (sv7_nvr _ _ _ _ _ HB)|exact (sv7_nvr _ _ _ _ _ HA)].
Qed.

(* 'ready' is reported at most once, and never before the accepting side has answered *)
Theorem C01_ready7 : forall ra rb ls, admissible_run7 (link7_new ra rb) ls ->
  exists w, link_run7 (link7_new ra rb) ls = Ok w /\
    0 <= l7_ready (k7_a w) <= 1 /\ 0 <= l7_ready (k7_b w) <= 1 /\
    (1 <= l7_ready (k7_a w) -> l7_answered (k7_b w) = true) /\
    (1 <= l7_ready (k7_b w) -> l7_answered (k7_a w) = true).
Proof.
  intros ra rb ls Ha. destruct (link_run_inv7 ls _ (link7_new_inv ra rb) Ha) as [w [Hr [HA [HB _]]]].
  exists w. split; [exact Hr|].
  split; [exact (sv7_ready _ _ _ _ _ HA)|]. split; [exact (sv7_ready _ _ _ _ _ HB)|].
  split; [exact (sv7_ans _ _ _ _ _ HA)|exact (sv7_ans _ _ _ _ _ HB)].
Qed.

(* the invariant behind the three statements, for reuse *)
Theorem C01_invariant7 : forall ra rb ls, admissible_run7 (link7_new ra rb) ls ->
  exists w, link_run7 (link7_new ra rb) ls = Ok w /\ link_inv7 w.
Proof. intros ra rb ls Ha. exact (link_run_inv7 ls _ (link7_new_inv ra rb) Ha). Qed.

(* non-vacuity: a concrete 0.7 history with the full token handshake, a lost datagram, a resend,
   a duplicate delivery and stale handshake datagrams arriving late satisfies the assumptions,
   and delivers every vital chunk exactly once *)
Definition demo_trace7 : list llabel7 :=
  [ L7App SA7 Op7Connect;                        (* A: token request (header token NONE) *)
    L7Deliver SA7 0;                             (* B draws its token and answers with TokenMsg *)
    L7Deliver SB7 0;                             (* A learns B's token and sends Connect *)
    L7Deliver SA7 1;                             (* B: Connect -> Pending, emits Accept: B has answered *)
    L7Deliver SB7 1;                             (* A: Accept -> online, Ready *)
    L7App SA7 (Op7Send [11] true); L7App SA7 (Op7Send [22] true); L7App SA7 (Op7Send [33] false);
    L7App SA7 Op7Flush; L7Drop SA7 2;            (* the datagram with the chunks is lost *)
    L7Time 1100000; L7App SA7 Op7Tick; L7App SA7 Op7Flush;   (* resend deadline: chunks are queued and sent again *)
    L7Deliver SA7 2; L7Deliver SA7 2;            (* ... and arrive twice; the first takes B online *)
    L7App SB7 (Op7Send [44] true); L7App SB7 Op7Flush; L7Deliver SB7 2;
    L7Deliver SB7 1; L7Deliver SB7 0;            (* stale duplicates of Accept and TokenMsg last *)
    L7Deliver SA7 0; L7Deliver SA7 1 ].          (* stale token request and Connect at B *)

Example C01_nonvacuous7 :
  admissible_run7 (link7_new [[9; 9; 9; 9]; [8; 8; 8; 8]] [[1; 2; 3; 4]; [5; 6; 7; 8]]) demo_trace7 /\
  match link_run7 (link7_new [[9; 9; 9; 9]; [8; 8; 8; 8]] [[1; 2; 3; 4]; [5; 6; 7; 8]]) demo_trace7 with
  | Ok w => l7_sub (k7_a w) = [[11]; [22]] /\ l7_del (k7_b w) = [[11]; [22]] /\
            l7_del (k7_a w) = [[44]] /\ l7_ready (k7_a w) = 1 /\ l7_ready (k7_b w) = 0 /\
            l7_answered (k7_b w) = true /\ l7_answered (k7_a w) = false
  | _ => False
  end.
Proof.
  split; [apply admissible_runb_ok7; vm_compute; reflexivity|].
  vm_compute. repeat split.
Qed.

Print Assumptions C01_prefix7.
Print Assumptions C01_nonvital_genuine7.
Print Assumptions C01_ready7.
Print Assumptions C01_invariant7.
Print Assumptions C01_nonvacuous7.
