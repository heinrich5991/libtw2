(* C07 (continued) - Huffman::from_frequencies builds a well-formed table for EVERY frequency
   vector for which it returns one, so the codec theorems of Props/C07.v (stated over
   every table with wf_table t = true) apply to every table the crate can construct, not
   only to the built-in one. Only the theorems; the proofs are in Proofs/HuffmanBuild.v
   (forest invariant of the combining loop, one tree rooted at ROOT_IDX at its end, the
   explicit-stack depth-first walk stores at every leaf the path from the root or overflows
   its 24-entry stack).

   `from_frequencies` (Model/Huffman.v) checks `frequencies.len() == 256` itself
   (Panic site_ff_len otherwise), and nothing in the construction depends on the values
   being u32 (saturating_add is a Z.min): the theorems need no hypothesis on the vector
   beyond `from_frequencies freqs = Ok t`. *)
From LibTw2 Require Import Base.Res Model.Huffman Gen.HuffTable Model.HuffmanRef
  Proofs.HuffmanBits Proofs.HuffmanCompress Proofs.HuffmanBuild Proofs.HuffmanMerge Props.C07.
From Coq Require Import ZArith List Lia Bool.
Import ListNotations.
Open Scope Z_scope.

(* (1) every table from_frequencies returns is a well-formed prefix code over the 257 symbols *)
Theorem C07_from_frequencies_wf : forall freqs t,
  from_frequencies freqs = Ok t -> wf_table t = true.
Proof. intros freqs t H. exact (proj1 (from_frequencies_wf freqs t H)). Qed.

(* ... and a tree whose leaves sit at the depth their num_bits says (the hypothesis
   `tree_table` of C07_ref_decompress, written out as in C07_builtin_tree) *)
Theorem C07_from_frequencies_tree : forall freqs t,
  from_frequencies freqs = Ok t -> depths_ok t 24 ROOT_IDX 0 = true.
Proof. intros freqs t H. exact (proj2 (from_frequencies_wf freqs t H)). Qed.

(* (2) the complete outcome on 256 frequencies (any values): a well-formed table, or the
   panic of the push on the full 24-entry DFS stack (K07) - no other panic site (node index,
   to_node's assert, set_from's assert), no error, and the fuel of the model (300 / 4000 / 30)
   always suffices *)
Theorem C07_from_frequencies_outcome : forall freqs, length freqs = 256%nat ->
  (exists t, from_frequencies freqs = Ok t /\ wf_table t = true /\ depths_ok t 24 ROOT_IDX 0 = true)
  \/ from_frequencies freqs = Panic site_stack_push.
Proof. exact from_frequencies_outcome. Qed.

Theorem C07_from_frequencies_fails_only_by_stack : forall freqs s, length freqs = 256%nat ->
  from_frequencies freqs = Panic s -> s = site_stack_push.
Proof.
  intros freqs s Hlen H. destruct (from_frequencies_outcome freqs Hlen) as [(t & E & _)|E];
    rewrite E in H; [discriminate|]. now injection H as <-.
Qed.

Theorem C07_from_frequencies_never_errs : forall freqs,
  match from_frequencies freqs with
  | Ok t => wf_table t = true
  | Panic s => s = if (length freqs =? 256)%nat then site_stack_push else site_ff_len
  | Err _ | OutOfFuel => False
  end.
Proof.
  intros freqs. destruct (Nat.eqb_spec (length freqs) 256) as [Hlen|Hlen].
  - destruct (from_frequencies_outcome freqs Hlen) as [(t & E & Hwf & _)|E]; rewrite E; auto.
  - now rewrite (from_frequencies_len_panic freqs Hlen).
Qed.

(* (3) the codec theorems of Props/C07.v for every table from_frequencies can return and every
   byte string, both output forms (bug = false: compress, bug = true: compress_bug):
   lossless with arbitrary trailing bytes; through the Vec API; exact predicted lengths =
   exact capacity need; the decoder is total, bounded and fails only by capacity *)
Theorem C07_from_frequencies_roundtrip : forall freqs t, from_frequencies freqs = Ok t ->
  (forall x bug ccap c tail cap fuel,
     bytes_ok x = true -> compress t x bug ccap = Ok c ->
     (length x <= cap)%nat -> (length c <= fuel)%nat ->
     decompress fuel t (c ++ tail) cap = Ok x)
  /\ (forall x, bytes_ok x = true ->
        exists c, compress_into_vec t x = Ok c /\ decompress_into_vec t c = Ok x)
  /\ (forall x (bug : bool), bytes_ok x = true ->
        exists n : nat,
          (if bug then compressed_len_bug t x else compressed_len t x) = Ok (Z.of_nat n)
          /\ (forall cap, (n <= cap)%nat -> exists c, compress t x bug cap = Ok c /\ length c = n)
          /\ (forall cap, (cap < n)%nat -> compress t x bug cap = Err tt)
          /\ (n <= 3 * length x + 4)%nat)
  /\ (forall y cap,
        (forall fuel, (dec_fuel y cap <= fuel)%nat ->
           decompress fuel t y cap = decompress (dec_fuel y cap) t y cap)
        /\ match decompress (dec_fuel y cap) t y cap with
           | Ok out => (length out <= cap)%nat
           | Err e => e = Capacity
           | Panic _ | OutOfFuel => False
           end).
Proof.
  intros freqs t H. pose proof (C07_from_frequencies_wf freqs t H) as Hwf.
  split; [|split; [|split]].
  - intros x bug ccap c tail cap fuel. now apply C07_roundtrip.
  - intros x. now apply C07_roundtrip_vec.
  - intros x bug. now apply C07_len.
  - intros y cap. now apply C07_decoder_total.
Qed.

(* what the compressor writes with such a table: the code words, EOF, zero padding *)
Theorem C07_from_frequencies_spec : forall freqs t x bug ccap c,
  from_frequencies freqs = Ok t -> bytes_ok x = true ->
  compress t x bug ccap = Ok c ->
  bytes_ok c = true
  /\ exists pad : nat, bits_of_bytes c = encode_bits t x ++ repeat false pad
       /\ (pad < 8 \/ (bug = true /\ pad = 8))%nat.
Proof. intros freqs t x bug ccap c H. apply C07_spec. exact (C07_from_frequencies_wf freqs t H). Qed.

(* the models of the C++ compressor / decoder holding such a table (C07_ref_compress,
   C07_ref_decompress): both of their table hypotheses are discharged *)
Theorem C07_from_frequencies_ref_compress : forall freqs t x cap,
  from_frequencies freqs = Ok t -> bytes_ok x = true -> (1 <= cap)%nat ->
  ref_compress t x cap = compress t x true cap.
Proof. intros freqs t x cap H. apply C07_ref_compress. exact (C07_from_frequencies_wf freqs t H). Qed.

Theorem C07_from_frequencies_ref_decompress : forall freqs t y fuel cap res,
  from_frequencies freqs = Ok t -> bytes_ok y = true ->
  ref_decompress fuel t y cap = Ok res ->
  forall cap' fuel', (length res <= cap')%nat -> (dec_fuel y cap' <= fuel')%nat ->
  decompress fuel' t y cap' = Ok res.
Proof.
  intros freqs t y fuel cap res H. apply C07_ref_decompress.
  - exact (C07_from_frequencies_wf freqs t H).
  - exact (C07_from_frequencies_tree freqs t H).
Qed.

(* non-vacuity: a skewed vector (2^i for the first 16 bytes, 2^17 for the others; nothing like
   data/frequencies) is accepted, its code words are 7 to 24 bits long (24 = the limit of
   wf_table and of the DFS stack; bytes 0, 1, 2 get 24, 23, 22 bits), the table differs from the built-in one and round-trips;
   two more small counts make the tree 25 high and hit the panic branch of the outcome theorem *)
Definition skewed (n : nat) (big : Z) : list Z :=
  map (fun i => if (i <? n)%nat then 2 ^ Z.of_nat i else big) (seq 0 256).
Definition skewed_table : table :=
  match from_frequencies (skewed 16 (2 ^ 17)) with Ok t => t | _ => empty_table end.

Example C07build_nonvacuous :
  length (skewed 16 (2 ^ 17)) = 256%nat
  /\ forallb (fun v => (0 <=? v) && (v <=? u32_max)) (skewed 16 (2 ^ 17)) = true
  /\ skewed 16 (2 ^ 17) <> frequencies
  /\ from_frequencies (skewed 16 (2 ^ 17)) = Ok skewed_table
  /\ fold_left Nat.max (map (@length bool) (repr_of skewed_table)) 0%nat = 24%nat
  /\ fold_left Nat.min (map (@length bool) (repr_of skewed_table)) 99%nat = 7%nat
  /\ repr_of skewed_table <> repr_of teeworlds
  /\ wf_table skewed_table = true
  /\ compress skewed_table [0; 1; 0; 2; 0; 128; 255] false 20
     = Ok [120; 0; 128; 120; 0; 64; 60; 0; 64; 60; 0; 16; 15; 0; 48; 15; 31; 15; 0; 0]
  /\ compress skewed_table [0; 1; 0; 2; 0; 128; 255] false 19 = Err tt
  /\ compressed_len skewed_table [0; 1; 0; 2; 0; 128; 255] = Ok 20
  /\ decompress 21 skewed_table
       [120; 0; 128; 120; 0; 64; 60; 0; 64; 60; 0; 16; 15; 0; 48; 15; 31; 15; 0; 0; 77] 7
     = Ok [0; 1; 0; 2; 0; 128; 255]
  /\ from_frequencies (skewed 18 (2 ^ 17)) = Panic site_stack_push
  /\ forallb (fun v => (0 <=? v) && (v <=? u32_max)) (skewed 18 (2 ^ 17)) = true.
Proof.
  (* both tables are computed by the insertion form of the combining loop, each once *)
  unfold skewed_table. rewrite !from_frequencies_asc_eq.
  set (r16 := from_frequencies_asc (skewed 16 (2 ^ 17))).
  set (r18 := from_frequencies_asc (skewed 18 (2 ^ 17))).
  vm_compute. repeat split; discriminate.
Qed.

Print Assumptions C07_from_frequencies_wf.
Print Assumptions C07_from_frequencies_tree.
Print Assumptions C07_from_frequencies_outcome.
Print Assumptions C07_from_frequencies_fails_only_by_stack.
Print Assumptions C07_from_frequencies_never_errs.
Print Assumptions C07_from_frequencies_roundtrip.
Print Assumptions C07_from_frequencies_spec.
Print Assumptions C07_from_frequencies_ref_compress.
Print Assumptions C07_from_frequencies_ref_decompress.
Print Assumptions C07build_nonvacuous.
