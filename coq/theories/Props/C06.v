(* C06 -- the packet reader is total and stays inside its buffers; what it accepts can be
   written again and is read back as the same value. Models: Model/Packet6.v (0.6 / DDNet),
   Model/Packet7.v (0.7) over the generated header functions. `bs` ranges over ALL byte strings
   (bytes_ok: every element in 0..255), the token hint over None / Some true / Some false, the
   scratch capacity over everything >= MAX_PACKETSIZE. The Huffman decoder is an arbitrary
   function in the totality theorems; the bounds theorem assumes it respects its capacity. *)
From LibTw2 Require Import Base.Res Model.PacketTypes Model.PacketBase.
From LibTw2 Require Gen.Consts6 Gen.Bits6 Gen.Consts7 Gen.Bits7 Model.Packet6 Model.Packet7.
From LibTw2 Require Proofs.Packet6Chunks Proofs.Packet7Chunks Proofs.Packet6Total Proofs.Packet7Total Proofs.PktToy.
From LibTw2 Require Model.PacketInst Proofs.PacketInstProofs.
From Coq Require Import ZArith List.
Open Scope Z_scope.

Definition no_panic {E A} (r : res E A) : Prop :=
  match r with Ok _ | Err _ => True | Panic _ | OutOfFuel => False end.

(* ---- Packet::read never panics and never runs out of (structural) fuel ---- *)
Theorem C06_total6 : forall (decomp : Packet6.HuffC) bs hint cap,
  bytes_ok bs = true -> (1400 <= cap)%nat -> no_panic (snd (Packet6.read6 decomp bs hint cap)).
Proof.
  intros decomp bs hint cap Hb Hc.
  pose proof (Packet6Total.read6_good decomp bs hint cap None Hb Hc I) as H.
  unfold Packet6Total.good_result6 in H. unfold no_panic.
  destruct (snd (Packet6.read6 decomp bs hint cap)) as [[p vs]|e|s|]; auto.
Qed.

Theorem C06_total7 : forall (decomp : Packet7.HuffC7) bs cap,
  bytes_ok bs = true -> (1400 <= cap)%nat -> no_panic (snd (Packet7.read7 decomp bs cap)).
Proof.
  intros decomp bs cap Hb Hc.
  pose proof (Packet7Total.read7_good decomp bs cap None Hb Hc I) as H.
  unfold Packet7Total.good_result7 in H. unfold no_panic.
  destruct (snd (Packet7.read7 decomp bs cap)) as [[p vs]|e|s|]; auto.
Qed.

(* the contract of the scratch buffer: fewer than MAX_PACKETSIZE bytes trips the assert *)
Theorem C06_small_scratch_panics : forall decomp bs hint cap, (cap < 1400)%nat ->
  Packet6.read6 decomp bs hint cap = ([], Panic Packet6.site6_read_small_buffer)
  /\ Packet7.read7 decomp bs cap = ([], Panic Packet7.site7_read_small_buffer).
Proof.
  intros decomp bs hint cap Hc. unfold Packet6.read6, Packet6.read_impl6, Packet7.read7, Packet7.read_impl7.
  replace (Z.of_nat cap <? Consts6.MAX_PACKETSIZE) with true
    by (symmetry; apply Z.ltb_lt; unfold Consts6.MAX_PACKETSIZE; apply Nat2Z.inj_lt in Hc; exact Hc).
  replace (Z.of_nat cap <? Consts7.MAX_PACKETSIZE) with true
    by (symmetry; apply Z.ltb_lt; unfold Consts7.MAX_PACKETSIZE; apply Nat2Z.inj_lt in Hc; exact Hc).
  split; reflexivity.
Qed.

(* ---- the other entry points: decompress_if_needed is total as well; read_panic_on_decompression
   panics exactly where its name says (a compressed, connected datagram), nowhere else ---- *)
Theorem C06_other_entry_points : forall (decomp : Packet6.HuffC) bs hint cap,
  bytes_ok bs = true -> (1400 <= cap)%nat ->
  no_panic (Packet6.decompress_if_needed6 decomp bs cap)
  /\ no_panic (Packet7.decompress_if_needed7 decomp bs cap)
  /\ match snd (Packet6.read_nodecomp6 bs hint) with
     | Panic s => s = Packet6.site6_read_no_buffer /\ Packet6.needs_decompression6 bs = true
     | OutOfFuel => False
     | _ => True
     end
  /\ match snd (Packet7.read_nodecomp7 bs) with
     | Panic s => s = Packet7.site7_read_no_buffer /\ Packet7.needs_decompression7 bs = true
     | OutOfFuel => False
     | _ => True
     end.
Proof.
  intros decomp bs hint cap Hb Hc. split; [|split; [|split]].
  - pose proof (Packet6Total.decompress_if_needed6_total decomp bs cap Hb Hc) as H.
    unfold no_panic. destruct (Packet6.decompress_if_needed6 decomp bs cap); auto.
  - pose proof (Packet7Total.decompress_if_needed7_total decomp bs cap Hb Hc) as H.
    unfold no_panic. destruct (Packet7.decompress_if_needed7 decomp bs cap); auto.
  - exact (Packet6Total.read_nodecomp6_spec bs hint Hb).
  - exact (Packet7Total.read_nodecomp7_spec bs Hb).
Qed.

(* ---- every returned view lies inside the input or inside the scratch buffer, and the
   returned value is inside the size limits of the writer ---- *)
Theorem C06_views_in_bounds6 : forall (decomp : Packet6.HuffC) bs hint cap ws p vs,
  (forall y c d, decomp y c = Some d -> (length d <= c)%nat /\ bytes_ok d = true) ->
  bytes_ok bs = true -> (1400 <= cap)%nat ->
  Packet6.read6 decomp bs hint cap = (ws, Ok (p, vs)) ->
  Forall (Packet6Total.view_ok (length bs) (Some cap)) vs /\ Packet6.expressible6 p = true
  /\ Packet6.packet_bytes_ok6 p = true.
Proof.
  intros decomp bs hint cap ws p vs Hd Hb Hc E.
  pose proof (Packet6Total.read6_good decomp bs hint cap (Some cap) Hb Hc (conj eq_refl Hd)) as H.
  rewrite E in H. unfold Packet6Total.good_result6 in H. cbn [snd] in H. destruct H as (Hx & Hv & [Hn|Hpb]); [discriminate Hn|].
  split; [|split]; assumption.
Qed.

Theorem C06_views_in_bounds7 : forall (decomp : Packet7.HuffC7) bs cap ws p vs,
  (forall y c d, decomp y c = Some d -> (length d <= c)%nat /\ bytes_ok d = true) ->
  bytes_ok bs = true -> (1400 <= cap)%nat ->
  Packet7.read7 decomp bs cap = (ws, Ok (p, vs)) ->
  Forall (Packet7Total.view_ok (length bs) (Some cap)) vs /\ Packet7.expressible7 p = true
  /\ Packet7.packet_bytes_ok7 p = true.
Proof.
  intros decomp bs cap ws p vs Hd Hb Hc E.
  pose proof (Packet7Total.read7_good decomp bs cap (Some cap) Hb Hc (conj eq_refl Hd)) as H.
  rewrite E in H. unfold Packet7Total.good_result7 in H. cbn [snd] in H. destruct H as (Hx & Hv & [Hn|Hpb]); [discriminate Hn|].
  split; [|split]; assumption.
Qed.

(* ---- the chunk iterator: never panics, at most length/2 chunks, every chunk is a slice of
   the payload (ANY list of numbers as payload, any announced chunk count >= 0); the bound on
   the length is where the i32 counter of the iterator would wrap (2^31 bytes) ---- *)
Theorem C06_chunks_total6 : forall payload n, 0 <= n -> Z.of_nat (length payload) <= 2147483648 ->
  exists cs ws it', Packet6.chunks_iter_all6 payload n = Ok (cs, ws, it')
    /\ (length cs <= length payload / 2)%nat
    /\ Forall (Packet6Chunks.chunk_in payload) cs
    /\ Packet6.ci6_data it' = [].
Proof. exact Packet6Chunks.chunks_total6. Qed.

Theorem C06_chunks_total7 : forall payload n, 0 <= n -> Z.of_nat (length payload) <= 2147483648 ->
  exists cs ws it', Packet7.chunks_iter_all7 payload n = Ok (cs, ws, it')
    /\ (length cs <= length payload / 2)%nat
    /\ Forall (Packet7Chunks.chunk_in payload) cs
    /\ Packet7.ci7_data it' = [].
Proof. exact Packet7Chunks.chunks_total7. Qed.

(* ---- accept => rewrite: outside class K06 (0.7 also K06T) ---- *)
Theorem C06_accept_rewrite6 : forall (comp decomp : Packet6.HuffC),
  (forall x c y, bytes_ok x = true -> comp x c = Some y -> forall c', (length x <= c')%nat -> decomp y c' = Some x) ->
  (forall y c d, decomp y c = Some d -> (length d <= c)%nat /\ bytes_ok d = true) ->
  forall bs hint cap ws p vs, bytes_ok bs = true -> (1400 <= cap)%nat ->
  Packet6.read6 decomp bs hint cap = (ws, Ok (p, vs)) -> Packet6.K06_6 p = false ->
  forall cap', (1400 <= cap')%nat ->
  exists out, Packet6.write6 comp p cap' = Ok out /\ (length out <= 1400)%nat
    /\ exists ws' vs', Packet6.read6 decomp out (Packet6.true_hint6 p) cap = (ws', Ok (p, vs')).
Proof. exact Packet6Total.accept_rewrite6. Qed.

Theorem C06_accept_rewrite7 : forall (comp decomp : Packet7.HuffC7),
  (forall x c y, bytes_ok x = true -> comp x c = Some y -> forall c', (length x <= c')%nat -> decomp y c' = Some x) ->
  (forall y c d, decomp y c = Some d -> (length d <= c)%nat /\ bytes_ok d = true) ->
  forall bs cap ws p vs, bytes_ok bs = true -> (1400 <= cap)%nat ->
  Packet7.read7 decomp bs cap = (ws, Ok (p, vs)) -> Packet7.K06_7 p = false -> Packet7.K06T_7 p = false ->
  forall cap', (1400 <= cap')%nat ->
  exists out, Packet7.write7 comp p cap' = Ok out /\ (length out <= 1400)%nat
    /\ exists ws' vs', Packet7.read7 decomp out cap = (ws', Ok (p, vs')).
Proof. exact Packet7Total.accept_rewrite7. Qed.

(* ---- the same with the model of the real coder over the built-in table: its round trip, its
   capacity bound and the byte-ness of its output are theorems (PacketInstProofs), so nothing is
   assumed about the coder any more ---- *)
Theorem C06_accept_rewrite6_huffman : forall bs hint cap ws p vs, bytes_ok bs = true -> (1400 <= cap)%nat ->
  PacketInst.read6_tw bs hint cap = (ws, Ok (p, vs)) -> Packet6.K06_6 p = false ->
  forall cap', (1400 <= cap')%nat ->
  exists out, PacketInst.write6_tw p cap' = Ok out /\ (length out <= 1400)%nat
    /\ exists ws' vs', PacketInst.read6_tw out (Packet6.true_hint6 p) cap = (ws', Ok (p, vs')).
Proof. exact (C06_accept_rewrite6 PacketInst.tw_comp PacketInst.tw_decomp PacketInstProofs.tw_rt PacketInstProofs.tw_ok). Qed.

Theorem C06_accept_rewrite7_huffman : forall bs cap ws p vs, bytes_ok bs = true -> (1400 <= cap)%nat ->
  PacketInst.read7_tw bs cap = (ws, Ok (p, vs)) -> Packet7.K06_7 p = false -> Packet7.K06T_7 p = false ->
  forall cap', (1400 <= cap')%nat ->
  exists out, PacketInst.write7_tw p cap' = Ok out /\ (length out <= 1400)%nat
    /\ exists ws' vs', PacketInst.read7_tw out cap = (ws', Ok (p, vs')).
Proof. exact (C06_accept_rewrite7 PacketInst.tw_comp PacketInst.tw_decomp PacketInstProofs.tw_rt PacketInstProofs.tw_ok). Qed.

Theorem C06_views_in_bounds_huffman :
  (forall bs hint cap ws p vs, bytes_ok bs = true -> (1400 <= cap)%nat ->
     PacketInst.read6_tw bs hint cap = (ws, Ok (p, vs)) ->
     Forall (Packet6Total.view_ok (length bs) (Some cap)) vs /\ Packet6.expressible6 p = true
     /\ Packet6.packet_bytes_ok6 p = true)
  /\ (forall bs cap ws p vs, bytes_ok bs = true -> (1400 <= cap)%nat ->
     PacketInst.read7_tw bs cap = (ws, Ok (p, vs)) ->
     Forall (Packet7Total.view_ok (length bs) (Some cap)) vs /\ Packet7.expressible7 p = true
     /\ Packet7.packet_bytes_ok7 p = true).
Proof.
  split.
  - intros bs hint cap ws p vs. exact (C06_views_in_bounds6 PacketInst.tw_decomp bs hint cap ws p vs PacketInstProofs.tw_ok).
  - intros bs cap ws p vs. exact (C06_views_in_bounds7 PacketInst.tw_decomp bs cap ws p vs PacketInstProofs.tw_ok).
Qed.

(* ---- the known-finding classes are real: the reader accepts such a value, the writer does
   not write it (for every coder, every capacity) ---- *)
Theorem C06_K06_refuted :
  (exists bs p ws vs, bytes_ok bs = true
     /\ Packet6.read6 (fun _ _ => None) bs None 1400 = (ws, Ok (p, vs)) /\ Packet6.K06_6 p = true
     /\ forall comp cap, Packet6.write6 comp p cap = Err Consts6.WE6TooLongData)
  /\ (exists bs p ws vs, bytes_ok bs = true
     /\ Packet7.read7 (fun _ _ => None) bs 1400 = (ws, Ok (p, vs)) /\ Packet7.K06_7 p = true
     /\ forall comp cap, Packet7.write7 comp p cap = Err Consts7.WE7TooLongData).
Proof.
  split.
  - destruct Packet6Total.K06_accepted6 as (bs & p & ws & vs & Hb & Hr & Hk).
    exists bs, p, ws, vs. repeat split; try assumption.
    intros comp cap. apply Packet6Total.K06_refused6. exact Hk.
  - destruct Packet7Total.K06_accepted7 as (bs & p & ws & vs & Hb & Hr & Hk).
    exists bs, p, ws, vs. repeat split; try assumption.
    intros comp cap. apply Packet7Total.K06_refused7. exact Hk.
Qed.

Theorem C06_K06T_refuted :
  exists bs p ws vs, bytes_ok bs = true
    /\ Packet7.read7 (fun _ _ => None) bs 1400 = (ws, Ok (p, vs)) /\ Packet7.K06T_7 p = true
    /\ forall comp cap, (8 <= cap)%nat -> Packet7.write7 comp p cap = Panic Packet7.site7_response_token_none.
Proof.
  exists [4; 0; 0; 1; 2; 3; 4; 1; 255; 255; 255; 255]. eexists. eexists. eexists.
  split; [vm_compute; reflexivity|]. split; [vm_compute; reflexivity|]. split; [vm_compute; reflexivity|].
  intros comp cap Hc. apply Packet7Total.K06T_panics7; [reflexivity|reflexivity|exact Hc].
Qed.

Example C06_nonvacuous :
  (forall y c d, PktToy.toy_decomp y c = Some d -> (length d <= c)%nat /\ bytes_ok d = true)
  /\ bytes_ok [16; 0; 0; 4; 97; 98; 0; 1; 2; 3; 4] = true
  /\ Packet6.read6 PktToy.toy_decomp [16; 0; 0; 4; 97; 98; 0; 1; 2; 3; 4] None 1400
     = ([], Ok (P6Connected 0 (Some [1; 2; 3; 4]) (P6Control (C6Close [97; 98])),
                [{| v_src := Input; v_off := 4; v_len := 2 |}]))
  /\ Packet6.read6 PktToy.toy_decomp [128; 0; 1; 200] (Some false) 1400
     = ([], Ok (P6Connected 0 None (P6Chunks false 1 (repeat 0 200%nat)),
                [{| v_src := Scratch; v_off := 3; v_len := 200 |}]))
  /\ snd (Packet6.read6 PktToy.toy_decomp [128; 0; 1; 255; 255] (Some false) 1400) = Err Consts6.E6Compression
  /\ Packet7.read7 PktToy.toy_decomp [0; 0; 1; 9; 9; 9; 9; 0; 16; 1; 2] 1400
     = ([], Ok (P7Connected 0 [9; 9; 9; 9] (P7Chunks false 1 [0; 16; 1; 2]),
                [{| v_src := Input; v_off := 7; v_len := 4 |}]))
  /\ Packet7.chunks_iter_all7 [0; 2; 1; 2; 64; 1; 7; 5] 2
     = Ok ([({| ch_data := [1; 2]; ch_vital := None |}, {| v_src := Input; v_off := 2; v_len := 2 |});
            ({| ch_data := [5]; ch_vital := Some (7, false) |}, {| v_src := Input; v_off := 7; v_len := 1 |})],
           [], {| Packet7.ci7_data := []; Packet7.ci7_pos := 8; Packet7.ci7_remaining := 0; Packet7.ci7_checked := true |}).
Proof. split; [exact PktToy.toy_ok|]. vm_compute. repeat split. Qed.

Print Assumptions C06_total6.
Print Assumptions C06_total7.
Print Assumptions C06_small_scratch_panics.
Print Assumptions C06_other_entry_points.
Print Assumptions C06_views_in_bounds6.
Print Assumptions C06_views_in_bounds7.
Print Assumptions C06_chunks_total6.
Print Assumptions C06_chunks_total7.
Print Assumptions C06_accept_rewrite6.
Print Assumptions C06_accept_rewrite7.
Print Assumptions C06_accept_rewrite6_huffman.
Print Assumptions C06_accept_rewrite7_huffman.
Print Assumptions C06_views_in_bounds_huffman.
Print Assumptions C06_K06_refuted.
Print Assumptions C06_K06T_refuted.
Print Assumptions C06_nonvacuous.
