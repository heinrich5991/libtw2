(* The combining loop of from_frequencies (Model/Huffman.v: merge_loop) sorts its whole work
   list in every round, but the list it sorts is the sorted list of the round before with
   its two last entries replaced by one new entry at the end: sorting moves that entry to
   its place and nothing else. `merge_asc` keeps the list smallest first and does only
   this insertion; it computes what merge_loop computes, at a fraction of the steps, which
   is what the evaluations of from_frequencies on concrete vectors (Props/C07*.v) use. *)
From LibTw2 Require Import Base.Res Model.Huffman.
From Coq Require Import ZArith List Lia Bool Permutation Sorted.
Import ListNotations.
Open Scope Z_scope.

Lemma insert_desc_perm x l : Permutation (insert_desc x l) (x :: l).
Proof.
  induction l as [|y r IH]; cbn [insert_desc]; [reflexivity|].
  destruct (fst x <? fst y); [|reflexivity].
  rewrite IH. apply perm_swap.
Qed.

Lemma sort_desc_perm l : Permutation (sort_desc l) l.
Proof.
  induction l as [|x r IH]; cbn [sort_desc]; [reflexivity|].
  rewrite insert_desc_perm. now apply perm_skip.
Qed.

Definition ge_key (a b : Z * Z) : Prop := fst b <= fst a.

Lemma insert_desc_sorted a s :
  StronglySorted ge_key s -> StronglySorted ge_key (insert_desc a s).
Proof.
  induction 1 as [|y s Hs IH Hy]; cbn [insert_desc]; [repeat constructor|].
  destruct (Z.ltb_spec (fst a) (fst y)); constructor.
  - exact IH.
  - apply (Permutation_Forall (Permutation_sym (insert_desc_perm a s))).
    constructor; [unfold ge_key; lia|exact Hy].
  - now constructor.
  - constructor; [exact H|]. apply (Forall_impl _ (fun z Hz => Z.le_trans _ _ _ Hz H) Hy).
Qed.

Lemma sort_desc_sorted l : StronglySorted ge_key (sort_desc l).
Proof. induction l; [constructor|now apply insert_desc_sorted]. Qed.

Lemma sorted_snoc {A} (R : A -> A -> Prop) r y :
  StronglySorted R r -> Forall (fun z => R z y) r -> StronglySorted R (r ++ [y]).
Proof.
  induction 1 as [|z r Hr IH Hz]; intros Hy; cbn [app]; [repeat constructor|].
  inversion Hy; subst. constructor; [auto|]. apply Forall_app. now repeat constructor.
Qed.

Lemma sorted_rev {A} (R : A -> A -> Prop) s :
  StronglySorted R s -> StronglySorted (fun a b => R b a) (rev s).
Proof.
  induction 1 as [|y s Hs IH Hy]; cbn [rev]; [constructor|].
  apply sorted_snoc; [exact IH|]. now apply Forall_rev.
Qed.

(* the new entry goes behind the entries with a smaller frequency; `r` is smallest first *)
Fixpoint ins_asc (x : Z * Z) (r : list (Z * Z)) : list (Z * Z) :=
  match r with
  | [] => [x]
  | y :: r' => if fst y <? fst x then y :: ins_asc x r' else x :: r
  end.

Lemma sort_desc_app l m : sort_desc (l ++ m) = fold_right insert_desc (sort_desc m) l.
Proof. induction l as [|a l IH]; cbn [app sort_desc fold_right]; congruence. Qed.

Lemma insert_desc_front y a acc : fst a <= fst y -> insert_desc y (a :: acc) = y :: a :: acc.
Proof. intros H. cbn [insert_desc]. destruct (Z.ltb_spec (fst y) (fst a)); [lia|reflexivity]. Qed.

(* inserting the entries of an ascending list one after the other: if each of them alone
   would go to the front of acc, each goes to the front of what the earlier ones made of it ... *)
Lemma insert_all_front rest : forall acc, StronglySorted (fun a b => ge_key b a) rest ->
  (forall y, In y rest -> insert_desc y acc = y :: acc) ->
  fold_left (fun m y => insert_desc y m) rest acc = rev rest ++ acc.
Proof.
  induction rest as [|y rest IH]; intros acc Hs Hf; [reflexivity|].
  apply StronglySorted_inv in Hs as [Hs Hy]. rewrite Forall_forall in Hy.
  cbn [fold_left rev]. rewrite Hf, <- app_assoc by apply in_eq.
  apply IH; [exact Hs|]. intros y' Hin. apply insert_desc_front, Hy, Hin.
Qed.

(* ... and with x in front of such a list, they pass behind x as long as they are smaller *)
Lemma insert_all_around x rest : forall p, StronglySorted (fun a b => ge_key b a) rest ->
  (forall y, In y rest -> insert_desc y p = y :: p) ->
  fold_left (fun m y => insert_desc y m) rest (x :: p) = rev (ins_asc x rest) ++ p.
Proof.
  induction rest as [|y rest IH]; intros p Hs Hf; [reflexivity|].
  pose proof (StronglySorted_inv Hs) as [Hs' Hy]. rewrite Forall_forall in Hy.
  cbn [fold_left insert_desc ins_asc]. destruct (fst y <? fst x); cbn [rev].
  - rewrite Hf, <- app_assoc by apply in_eq.
    apply IH; [exact Hs'|]. intros y' Hin. apply insert_desc_front, Hy, Hin.
  - rewrite <- !app_assoc. apply insert_all_front; [exact Hs'|].
    intros y' Hin. apply insert_desc_front, Hy, Hin.
Qed.

Lemma sort_desc_snoc x rest : StronglySorted (fun a b => ge_key b a) rest ->
  rev (sort_desc (rev rest ++ [x])) = ins_asc x rest.
Proof.
  intros Hs. rewrite sort_desc_app, fold_left_rev_right. cbn [sort_desc insert_desc].
  rewrite (insert_all_around x rest [] Hs) by reflexivity. now rewrite app_nil_r, rev_involutive.
Qed.

Fixpoint merge_asc (fuel : nat) (r : list (Z * Z)) (nodes : table) : res unit table :=
  match r with
  | f1 :: f2 :: rest =>
    match fuel with
    | O => OutOfFuel
    | S f =>
      merge_asc f (ins_asc (Z.min (fst f1 + fst f2) u32_max, t_len nodes) rest)
                (push_node nodes (snd f1, snd f2))
    end
  | _ => Ok nodes
  end.

Lemma merge_loop_asc fuel : forall fl nodes,
  merge_loop fuel fl nodes = merge_asc fuel (rev (sort_desc fl)) nodes.
Proof.
  induction fuel as [|f IH]; intros fl nodes;
    pose proof (sorted_rev _ _ (sort_desc_sorted fl)) as Hs;
    pose proof (Permutation_length (sort_desc_perm fl)) as Hlen; rewrite <- rev_length in Hlen;
    (destruct fl as [|a [|b fl]]; [reflexivity|reflexivity|]);
    cbn [merge_loop]; destruct (rev (sort_desc (a :: b :: fl))) as [|f1 [|f2 rest]];
    try discriminate Hlen; [reflexivity|].
  cbn [merge_asc]. rewrite IH, sort_desc_snoc; [reflexivity|].
  now do 2 apply StronglySorted_inv, proj1 in Hs.
Qed.

Definition from_frequencies_asc (freqs : list Z) : res unit table :=
  if negb (length freqs =? 256)%nat then Panic site_ff_len else
  let fl := combine freqs (map Z.of_nat (seq 0 256)) ++ [(1, EOF)] in
  match merge_asc 300 (rev (sort_desc fl)) (of_list (repeat NODE_SENTINEL 257)) with
  | Ok nodes =>
    match dfs 4000 nodes [] ROOT_IDX 0 true with
    | Ok nodes' => if t_len nodes' =? Z.of_nat NUM_NODES then Ok nodes' else Panic site_set_from
    | e => e
    end
  | e => e
  end.

Lemma from_frequencies_asc_eq freqs : from_frequencies freqs = from_frequencies_asc freqs.
Proof. unfold from_frequencies, from_frequencies_asc. now rewrite merge_loop_asc. Qed.
