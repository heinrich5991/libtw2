(* C02, progress: a resend followed by a flush, delivered in order, brings the receiver
   up to date with everything the sender has submitted (shared online core, 0.6 and 0.7). *)
From LibTw2 Require Import Base.Res Model.PacketTypes Model.ConnCore Model.LinkGhost
  Proofs.ConnCoreInv Proofs.LinkArith Proofs.LinkCore.
From Coq Require Import ZArith Lia Bool List.
Open Scope Z_scope.

Definition rchunk_chunk (c : rchunk) : chunk := {| ch_data := rc_data c; ch_vital := Some (rc_seq c, true) |}.
Definition flat (ds : list dgram) : list chunk := flat_map dgram_chunks ds.

Lemma flat_app a b : flat (a ++ b) = flat a ++ flat b.
Proof. unfold flat. apply flat_map_app. Qed.

Lemma count_zero_nil p : pk_count_ok p -> pc_num p = 0 -> pc_chunks p = [].
Proof.
  intros [H _] Hz. rewrite Hz in H. unfold zlen in H. destruct (pc_chunks p); [reflexivity|cbn in H; lia].
Qed.

Lemma flush_flat pp o o' ds : online_flush pp o = Ok (o', ds) -> pk_count_ok (o_packet o) ->
  flat ds = pc_chunks (o_packet o) /\ pc_chunks (o_packet o') = [] /\ pk_count_ok (o_packet o').
Proof.
  intros H Hc. unfold online_flush in H. destruct (can_send o) eqn:E; cbn [negb] in H.
  - destruct (MAX_PACKETSIZE <? _) in H; [discriminate|]. injection H as <- <-.
    cbn. rewrite app_nil_r. split; [reflexivity|]. split; [reflexivity|unfold pk_count_ok, zlen; cbn; lia].
  - injection H as <- <-. apply orb_false_iff in E as [E _].
    assert (Hn : pc_chunks (o_packet o) = []) by (apply count_zero_nil; [exact Hc|lia]).
    rewrite Hn. split; [reflexivity|]. split; [reflexivity|exact Hc].
Qed.

(* the resend loop moves the remaining queue entries, in order, behind what is already packed *)
Lemma resend_loop_flat pp : forall todo fuel o out ts o' out' ts',
  resend_loop pp fuel o todo out ts = Ok (o', out', ts') -> pk_count_ok (o_packet o) ->
  flat out' ++ pc_chunks (o_packet o') = flat out ++ pc_chunks (o_packet o) ++ map rchunk_chunk todo /\
  pk_count_ok (o_packet o').
Proof.
  induction todo as [|c rest IH].
  - intros fuel o out ts o' out' ts' H Hc. destruct fuel; cbn in H; injection H as <- <- <-;
      (split; [cbn; rewrite app_nil_r; reflexivity|exact Hc]).
  - induction fuel as [|fuel IHf]; intros o out ts o' out' ts' H Hc; cbn [resend_loop] in H; [discriminate|].
    destruct (can_fit_chunk _ _ _ _).
    + destruct (pc_write_chunk pp (o_packet o) (rc_data c) (Some (rc_seq c, true))) as [p| | |] eqn:Ew; try discriminate.
      destruct (IH fuel _ out ts o' out' ts' H (pc_write_count _ _ _ _ _ Ew Hc)) as [A B].
      split; [|exact B]. rewrite A. apply pc_write_shape in Ew as [-> _]. cbn [o_set_packets o_packet pc_chunks map].
      rewrite <- !app_assoc. reflexivity.
    + destruct (online_flush pp o) as [[o1 d1]| | |] eqn:Ef; try discriminate.
      destruct (flush_flat pp o o1 d1 Ef Hc) as [F1 [F2 F3]].
      destruct (IHf o1 (out ++ d1) true o' out' ts' H F3) as [A B].
      split; [|exact B]. rewrite A, flat_app, F1, F2. rewrite <- !app_assoc. reflexivity.
Qed.

Lemma resend_flat pp now o o' ds ts : online_resend pp now o = Ok (o', ds, ts) ->
  pk_count_ok (o_packet_nv o) -> o_queue o <> [] ->
  flat ds ++ pc_chunks (o_packet o') =
  pc_chunks (o_packet_nv o) ++ map rchunk_chunk (rev (restart_timers now (o_queue o))) /\
  pk_count_ok (o_packet o').
Proof.
  intros H Hc Hq. unfold online_resend in H. destruct (o_queue o) as [|c0 q0] eqn:Eq; [contradiction|].
  rewrite <- Eq in *. eapply resend_loop_flat in H; [|cbn; exact Hc]. exact H.
Qed.

(* L: chunks whose vital members are numbers k, k+1, ..., n of the history, in order *)
Inductive consecutive (sub : list bytes) : Z -> Z -> list chunk -> Prop :=
| cons_nil k : consecutive sub k (k - 1) []
| cons_nv k n c r : ch_vital c = None -> consecutive sub k n r -> consecutive sub k n (c :: r)
| cons_v k n c r f : ch_vital c = Some (seqof k, f) -> consecutive sub (k + 1) n r -> k <= n ->
                     consecutive sub k n (c :: r).

Lemma consecutive_range sub k n l : consecutive sub k n l -> k - 1 <= n.
Proof. induction 1; lia. Qed.

Lemma recv_catch_up sub : forall l k n d rr, consecutive sub k n l ->
  0 <= d -> k - 1 <= d -> d - k < 511 ->
  exists rr' evs, recv_chunks (seqof d) rr l = Ok (seqof (Z.max d n), rr', evs).
Proof.
  intros l k n d rr H. revert d rr. induction H as [k|k n c r Hv Hr IH|k n c r f Hv Hr IH Hkn]; intros d rr Hd Hk Hw.
  - cbn. replace (Z.max d (k - 1)) with d by lia. eexists _, _. reflexivity.
  - cbn [recv_chunks]. rewrite Hv. destruct (IH d rr Hd Hk Hw) as [rr' [evs E]]. rewrite E. eexists _, _. reflexivity.
  - cbn [recv_chunks]. rewrite Hv. pose proof (seqof_range k) as Hsr.
    replace ((seqof k <? 0) || (SEQ_MOD <=? seqof k)) with false by lia.
    pose proof (consecutive_range _ _ _ _ Hr) as Hrng.
    destruct (Z.eq_dec k (d + 1)) as [->|Hne].
    + rewrite seq_update_hit by reflexivity.
      destruct (IH (d + 1) rr) as [rr' [evs E]]; try lia. rewrite E.
      replace (Z.max (d + 1) n) with (Z.max d n) by lia. eexists _, _. reflexivity.
    + assert (Hs : seqof k <> seqof (d + 1)).
      { intros Heq. apply Hne. apply seqof_inj; [exact Heq|lia]. }
      destruct (seq_update_miss d (seqof k) Hs) as [o [Hu Ho]]. rewrite Hu.
      destruct (IH d true) as [rr' [evs E]]; try lia.
      exists rr', evs. destruct o; try contradiction; exact E.
Qed.

Lemma consecutive_app sub k m n a b : consecutive sub k m a -> consecutive sub (m + 1) n b -> consecutive sub k n (a ++ b).
Proof.
  intros Ha Hb. induction Ha as [k|k m c r Hv Hr IH|k m c r f Hv Hr IH Hkm]; cbn [app].
  - replace (k - 1 + 1) with k in Hb by lia. exact Hb.
  - apply cons_nv; [exact Hv|apply IH, Hb].
  - eapply cons_v; [exact Hv|apply IH, Hb|]. pose proof (consecutive_range _ _ _ _ Hb). lia.
Qed.

Lemma consecutive_nonvital sub k l : nonvital_only l -> consecutive sub k (k - 1) l.
Proof. induction 1 as [|c l Hc Hl IH]; [constructor|apply cons_nv; assumption]. Qed.

Lemma queue_consecutive sub q : forall a n, queue_is q a n sub ->
  consecutive sub (a + 1) n (map rchunk_chunk (rev q)).
Proof.
  induction q as [|e q IH]; intros a n H; cbn [queue_is] in H.
  - subst. cbn. replace a with (a + 1 - 1) at 2 by lia. constructor.
  - destruct H as [H1 [H2 [H3 H4]]]. cbn [rev]. rewrite map_app.
    eapply (consecutive_app sub (a + 1) (n - 1) n); [apply IH, H4|].
    replace (n - 1 + 1) with n by lia. cbn [map]. eapply cons_v; [cbn; rewrite H2; reflexivity| |lia].
    replace n with (n + 1 - 1) at 2 by lia. constructor.
Qed.

(* the sender has submitted n = |sub| chunks and still holds a+1..n; the receiver has been given d of
   them (a <= d <= n). The sender's resend deadline passes (online_resend), then its packet is
   flushed (online_flush: the next flush / tick_action). Whatever these two calls emit, delivered in
   order, leaves the receiver with acknowledgement number n: everything submitted is delivered. *)
Theorem catch_up pp now o sub nvs a d rr o1 ds ts o2 ds2 :
  snd_inv o sub nvs a -> pk_count_ok (o_packet_nv o) -> o_queue o <> [] ->
  a <= d <= zlen sub ->
  online_resend pp now o = Ok (o1, ds, ts) ->
  online_flush pp o1 = Ok (o2, ds2) ->
  exists rr' evs, recv_chunks (seqof d) rr (flat (ds ++ ds2)) = Ok (seqof (zlen sub), rr', evs)
                  /\ pc_chunks (o_packet o2) = [].
Proof.
  intros Hinv Hcnv Hq Hd Hr Hf. destruct Hinv as [H1 H2 H3 H4 H5 H6 H7].
  destruct (resend_flat pp now o o1 ds ts Hr Hcnv Hq) as [Hflat Hc1].
  destruct (flush_flat pp o1 o2 ds2 Hf Hc1) as [F1 [Hempty _]].
  assert (Hall : flat (ds ++ ds2) = pc_chunks (o_packet_nv o) ++ map rchunk_chunk (rev (restart_timers now (o_queue o))))
    by (rewrite flat_app, F1; exact Hflat).
  rewrite Hall.
  assert (Hcons : consecutive sub (a + 1) (zlen sub)
            (pc_chunks (o_packet_nv o) ++ map rchunk_chunk (rev (restart_timers now (o_queue o))))).
  { eapply (consecutive_app sub (a + 1) a (zlen sub)).
    - replace a with (a + 1 - 1) at 2 by lia. apply consecutive_nonvital, H6.
    - apply queue_consecutive, queue_is_restart, H2. }
  destruct (recv_catch_up sub _ (a + 1) (zlen sub) d rr Hcons) as [rr' [evs E]]; try lia.
  exists rr', evs. split; [|exact Hempty]. replace (Z.max d (zlen sub)) with (zlen sub) in E by lia. exact E.
Qed.
