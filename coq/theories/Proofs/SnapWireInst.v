(* The two readers (IntUnpacker, Unpacker) instantiate the generic wire theorem;
   delta_ok deltas satisfy its precondition. *)
From LibTw2 Require Import Base.Res Model.Varint Model.Packer Model.Snap Proofs.SnapBase Proofs.SnapRep Proofs.SnapDelta
  Proofs.SnapApply Proofs.SnapOk Proofs.SnapWire Proofs.VarintArith Proofs.VarintProofs Proofs.PackerProofs.
From Coq Require Import ZArith List Lia Bool Permutation.
Import ListNotations.
Open Scope Z_scope.

Theorem wire_ints_roundtrip sz del dch : wire_pre sz del dch ->
  delta_read_from_ints sz (wire_ints sz del dch) = (Ok (delta_of del dch), []).
Proof.
  intros W. unfold delta_read_from_ints.
  apply (read_wire (list Z) int_rd_empty int_rd_int (fun p => Datatypes.S (length p)) (fun l => l)).
  - intros l _. destruct l; reflexivity.
  - reflexivity.
  - intros l _. lia.
  - exact W.
Qed.

Definition enc (l : list Z) : bytes := flat_map write_int_bytes l.

Lemma write_int_bytes_a v : is_i32 v = true -> write_int_bytes v = write_int_a v.
Proof. intros H. unfold write_int_bytes. rewrite write_int_arith by exact H. reflexivity. Qed.

Lemma enc_ok l : forallb is_i32 l = true -> bytes_ok (enc l) = true.
Proof.
  induction l as [|v l IH]; intros H; [reflexivity|]. apply forallb_cons in H. destruct H as [Hv Hl].
  cbn [enc flat_map]. apply bytes_ok_app; [|apply IH, Hl]. rewrite write_int_bytes_a by exact Hv.
  apply write_int_a_bytes_ok, Hv.
Qed.

Lemma enc_length l : forallb is_i32 l = true -> (length l <= length (enc l))%nat.
Proof.
  induction l as [|v l IH]; intros H; [cbn; lia|]. apply forallb_cons in H. destruct H as [Hv Hl].
  cbn [enc flat_map length]. rewrite app_length. fold (enc l). specialize (IH Hl).
  rewrite write_int_bytes_a by exact Hv. pose proof (write_int_a_length v). lia.
Qed.

Lemma ints_to_bytes_enc l : forallb is_i32 l = true -> ints_to_bytes l = Ok (enc l).
Proof.
  induction l as [|v l IH]; intros H; [reflexivity|]. apply forallb_cons in H. destruct H as [Hv Hl].
  cbn [ints_to_bytes]. rewrite (write_int_bytes_eq v Hv). cbn [bind]. rewrite IH by exact Hl. reflexivity.
Qed.

Theorem wire_bytes_roundtrip sz del dch : wire_pre sz del dch ->
  delta_read_bytes sz (enc (wire_ints sz del dch)) = (Ok (delta_of del dch), []).
Proof.
  intros W. unfold delta_read_bytes.
  apply (read_wire bytes byte_rd_empty read_int (fun p => Datatypes.S (length p)) enc).
  - intros l Hl. destruct l as [|v l]; [reflexivity|]. apply forallb_cons in Hl. destruct Hl as [Hv Hl].
    cbn [enc flat_map]. rewrite write_int_bytes_a by exact Hv. pose proof (write_int_a_length v) as L.
    destruct (write_int_a v); [cbn in L; lia|reflexivity].
  - intros v l Hv Hl. cbn [enc flat_map]. apply read_write_int; [exact Hv|apply enc_ok, Hl].
  - intros l Hl. pose proof (enc_length l Hl). lia.
  - exact W.
Qed.

Theorem wire_roundtrip sz del dch : wire_pre sz del dch ->
  exists l bs, delta_ints sz (delta_of del dch) = Ok l /\ ints_to_bytes l = Ok bs
    /\ delta_read_from_ints sz l = (Ok (delta_of del dch), [])
    /\ delta_read_bytes sz bs = (Ok (delta_of del dch), []).
Proof.
  intros W. exists (wire_ints sz del dch), (enc (wire_ints sz del dch)).
  split; [apply delta_ints_spec, W|]. split; [apply ints_to_bytes_enc, wire_ints_i32, W|].
  split; [apply wire_ints_roundtrip, W|apply wire_bytes_roundtrip, W].
Qed.

Theorem delta_ok_pre sz d : delta_ok sz d = true ->
  exists dch, d = delta_of (d_del d) dch /\ wire_pre sz (d_del d) dch.
Proof.
  unfold delta_ok. rewrite !andb_true_iff, !Z.leb_le.
  intros ((((((((((Hds & Hdi) & Hus) & Hui) & Hbi) & Hc) & Hsz) & Hdj) & Hnd) & Hnu) & Hnb).
  destruct (chain_cut _ _ _ Hc) as (_ & Hf & Hr & Hin). cbn [skipn] in Hf.
  exists (cut (d_buf d) (d_upd d)). split.
  - destruct d as [del upd buf]. unfold delta_of. cbn [d_del d_upd d_buf] in *. rewrite Hf, Hr. reflexivity.
  - split; rewrite ?cut_keys, ?Hf; try assumption.
    + apply Forall_forall. intros [k d0] Hd0. unfold cut in Hd0. apply in_map_iff in Hd0.
      destruct Hd0 as [[k' r] [E Hkr]]. injection E as -> <-. pose proof (Hin _ _ Hkr) as Hb.
      pose proof (proj1 (forallb_forall _ _) Hsz _ Hkr) as Hs. unfold size_ok, range_len in *. cbn [fst snd] in *.
      rewrite firstn_length, skipn_length. replace (Nat.min (snd r - fst r) (length (d_buf d) - fst r)) with (snd r - fst r)%nat by lia.
      destruct (sz (key_to_raw_type_id k)); [apply Z.eqb_eq, Hs|lia].
    + intros k Hk Hd. apply in_map_iff in Hk. destruct Hk as [[k' r] [E Hkr]]. cbn in E. subst k'.
      pose proof (proj1 (forallb_forall _ _) Hdj _ Hkr) as Hn. cbn [fst] in Hn.
      apply smem_in in Hd. rewrite Hd in Hn. discriminate.
    + unfold cut. rewrite map_length. assumption.
Qed.

(* C09_wire, integers and bytes *)
Theorem delta_wire sz d : delta_ok sz d = true ->
  exists l bs, delta_ints sz d = Ok l /\ ints_to_bytes l = Ok bs
    /\ delta_read_from_ints sz l = (Ok d, []) /\ delta_read_bytes sz bs = (Ok d, []).
Proof.
  intros H. destruct (delta_ok_pre sz d H) as (dch & E & W). rewrite E. apply wire_roundtrip, W.
Qed.
