(* Basic facts for the snapshot model: wrapping i32 arithmetic, item keys,
   sorted association lists (the BTreeMap / BTreeSet stand-ins). *)
From LibTw2 Require Import Base.Res Base.Bits Model.Varint Model.Snap Proofs.VarintArith.
From Coq Require Import ZArith List Lia Bool Permutation.
Import ListNotations.
Open Scope Z_scope.

Lemma wbind_ok {A B} (a : A) (f : A -> wres B) : wbind (Ok a, []) f = f a.
Proof. unfold wbind. destruct (f a). reflexivity. Qed.

Definition wrap (x : Z) : Z := i32_of (u32_of x).

Lemma is_i32_iff v : is_i32 v = true <-> -2147483648 <= v <= 2147483647.
Proof. unfold is_i32, i32_min, i32_max. rewrite andb_true_iff, !Z.leb_le. tauto. Qed.

(* wrap x is the one i32 congruent to x modulo 2^32 *)
Lemma wrap_range x : is_i32 (wrap x) = true.
Proof.
  apply is_i32_iff. unfold wrap, i32_of, u32_of, two31, two32.
  destruct (Z.ltb_spec (x mod 4294967296) 2147483648); Z.div_mod_to_equations; lia.
Qed.

Lemma wrap_shift x : exists q, wrap x = x + q * 4294967296.
Proof.
  unfold wrap, i32_of, u32_of, two31, two32.
  destruct (Z.ltb_spec (x mod 4294967296) 2147483648);
    [exists (- (x / 4294967296))|exists (- (x / 4294967296) - 1)]; Z.div_mod_to_equations; lia.
Qed.

Lemma wrap_unique x y q : y = x + q * 4294967296 -> is_i32 y = true -> wrap x = y.
Proof.
  intros -> H. apply is_i32_iff in H. unfold wrap, i32_of, u32_of, two31, two32.
  destruct (Z.ltb_spec (x mod 4294967296) 2147483648); Z.div_mod_to_equations; lia.
Qed.

Lemma wrap_i32 x : is_i32 x = true -> wrap x = x.
Proof. apply (wrap_unique x x 0). lia. Qed.

Lemma wrap_add_l a b : wrap (wrap a + b) = wrap (a + b).
Proof.
  destruct (wrap_shift a) as [q E], (wrap_shift (a + b)) as [q' E'].
  apply (wrap_unique _ _ (q' - q)); [lia|apply wrap_range].
Qed.

Lemma wadd_wsub a b : is_i32 b = true -> wadd a (wsub b a) = b.
Proof.
  intros Hb. change (wrap (a + wrap (b - a)) = b).
  destruct (wrap_shift (b - a)) as [q E]. apply (wrap_unique _ _ (- q)); [lia|exact Hb].
Qed.

Lemma wadd_i32 a b : is_i32 (wadd a b) = true.
Proof. apply wrap_range. Qed.
Lemma wsub_i32 a b : is_i32 (wsub a b) = true.
Proof. apply (wrap_range (a - b)). Qed.

(* the sum of a buffer, wrapped once: what the fold of wrapping_add computes *)
Definition zsum (l : list Z) : Z := fold_right Z.add 0 l.

Lemma fold_wadd l : forall a, fold_left wadd l (wrap a) = wrap (a + zsum l).
Proof.
  induction l as [|x l IH]; intros a; cbn [fold_left zsum fold_right].
  - f_equal. lia.
  - change (wadd (wrap a) x) with (wrap (wrap a + x)). rewrite wrap_add_l, IH.
    f_equal. unfold zsum. lia.
Qed.

Lemma crc_zsum S : crc S = wrap (zsum (rs_buf S)).
Proof. unfold crc. change 0 with (wrap 0) at 1. rewrite fold_wadd. reflexivity. Qed.

Lemma zsum_app a b : zsum (a ++ b) = zsum a + zsum b.
Proof. unfold zsum. induction a as [|x a IH]; cbn [app fold_right]; lia. Qed.

Lemma is_u16_iff v : is_u16 v = true <-> 0 <= v <= 65535.
Proof. unfold is_u16. rewrite andb_true_iff, !Z.leb_le. tauto. Qed.

Lemma key_to_id_arith k : key_to_id k = (u32_of k) mod 65536.
Proof. unfold key_to_id. apply (land_pow2_mask (u32_of k) 16). lia. Qed.

Lemma key_to_ty_arith k : key_to_raw_type_id k = (u32_of k) / 65536.
Proof.
  unfold key_to_raw_type_id. rewrite (land_pow2_mask _ 16) by lia.
  rewrite shiftr_div by lia. change (2 ^ 16) with 65536.
  unfold u32_of, two32. Z.div_mod_to_equations; lia.
Qed.

Lemma key_arith ty id : 0 <= ty <= 65535 -> 0 <= id <= 65535 -> key ty id = i32_of (ty * 65536 + id).
Proof.
  intros Ht Hi. unfold key. f_equal. rewrite shiftl_mul by lia. change (2 ^ 16) with 65536.
  unfold u32_of, two32. rewrite Z.mod_small by lia.
  rewrite Z.lor_comm, Z.add_comm. change 65536 with (2 ^ 16).
  apply (lor_low_high id ty 16); [lia|]. change (2 ^ 16) with 65536. lia.
Qed.

Lemma key_to_id_range k : 0 <= key_to_id k <= 65535.
Proof. rewrite key_to_id_arith. Z.div_mod_to_equations; lia. Qed.
Lemma key_to_ty_range k : 0 <= key_to_raw_type_id k <= 65535.
Proof. rewrite key_to_ty_arith. unfold u32_of, two32. Z.div_mod_to_equations; lia. Qed.

(* a key is the i32 with the bit pattern ty:id *)
Lemma key_wrap ty id : 0 <= ty <= 65535 -> 0 <= id <= 65535 ->
  key ty id = wrap (ty * 65536 + id) /\ u32_of (key ty id) = ty * 65536 + id.
Proof.
  intros Ht Hi. rewrite key_arith by assumption. split; [|apply u32_of_i32_of; unfold two32; lia].
  unfold wrap, u32_of, two32. rewrite Z.mod_small by lia. reflexivity.
Qed.

Lemma key_i32 ty id : 0 <= ty <= 65535 -> 0 <= id <= 65535 -> is_i32 (key ty id) = true.
Proof. intros Ht Hi. rewrite (proj1 (key_wrap ty id Ht Hi)). apply wrap_range. Qed.

Lemma key_split k : is_i32 k = true -> key (key_to_raw_type_id k) (key_to_id k) = k.
Proof.
  intros H. rewrite key_arith by (apply key_to_ty_range || apply key_to_id_range).
  rewrite key_to_ty_arith, key_to_id_arith.
  replace (u32_of k / 65536 * 65536 + u32_of k mod 65536) with (u32_of k) by (Z.div_mod_to_equations; lia).
  apply (wrap_i32 k H).
Qed.

Lemma key_to_ty_key ty id : 0 <= ty <= 65535 -> 0 <= id <= 65535 -> key_to_raw_type_id (key ty id) = ty.
Proof.
  intros Ht Hi. rewrite key_to_ty_arith, (proj2 (key_wrap ty id Ht Hi)). Z.div_mod_to_equations; lia.
Qed.

Lemma key_to_id_key ty id : 0 <= ty <= 65535 -> 0 <= id <= 65535 -> key_to_id (key ty id) = id.
Proof.
  intros Ht Hi. rewrite key_to_id_arith, (proj2 (key_wrap ty id Ht Hi)). Z.div_mod_to_equations; lia.
Qed.

Lemma key_inj t1 i1 t2 i2 :
  0 <= t1 <= 65535 -> 0 <= i1 <= 65535 -> 0 <= t2 <= 65535 -> 0 <= i2 <= 65535 ->
  key t1 i1 = key t2 i2 -> t1 = t2 /\ i1 = i2.
Proof.
  intros A B C D E. split.
  - rewrite <- (key_to_ty_key t1 i1), <- (key_to_ty_key t2 i2) by assumption. now rewrite E.
  - rewrite <- (key_to_id_key t1 i1), <- (key_to_id_key t2 i2) by assumption. now rewrite E.
Qed.

Lemma key_type0 id : 0 <= id <= 65535 -> key 0 id = id.
Proof. intros H. rewrite (proj1 (key_wrap 0 id ltac:(lia) H)). apply wrap_i32, is_i32_iff. lia. Qed.

Lemma forallb_cons {T} (p : T -> bool) x l : forallb p (x :: l) = true <-> p x = true /\ forallb p l = true.
Proof. apply andb_true_iff. Qed.

Lemma forallb_firstn {T} (p : T -> bool) n l : forallb p l = true -> forallb p (firstn n l) = true.
Proof. intros H. rewrite <- (firstn_skipn n l), forallb_app in H. apply andb_true_iff in H. tauto. Qed.
Lemma forallb_skipn {T} (p : T -> bool) n l : forallb p l = true -> forallb p (skipn n l) = true.
Proof. intros H. rewrite <- (firstn_skipn n l), forallb_app in H. apply andb_true_iff in H. tauto. Qed.

Lemma forallb_rev {T} (p : T -> bool) l : forallb p l = true -> forallb p (rev l) = true.
Proof. rewrite !forallb_forall. intros H x Hx. apply H, in_rev, Hx. Qed.

Lemma forallb_filter {T} (q p : T -> bool) l : forallb q l = true -> forallb q (filter p l) = true.
Proof. rewrite !forallb_forall. intros H x Hx. apply filter_In in Hx. apply H, Hx. Qed.

Lemma existsb_false {T} (f : T -> bool) l x : existsb f l = false -> In x l -> f x = false.
Proof.
  intros H Hin. destruct (f x) eqn:E; [|reflexivity].
  assert (existsb f l = true) by (apply existsb_exists; eauto). congruence.
Qed.

Lemma filter_length_le' {T} (p : T -> bool) l : (length (filter p l) <= length l)%nat.
Proof. induction l as [|x l IH]; [cbn; lia|]. cbn [filter]. destruct (p x); cbn [length]; lia. Qed.

Lemma NoDup_app_one {T} (l : list T) x : NoDup l -> ~ In x l -> NoDup (l ++ [x]).
Proof.
  intros Hnd Hni. apply (Permutation_NoDup (Permutation_cons_append l x)). constructor; assumption.
Qed.

Lemma NoDup_map_inj {A B} (f : A -> B) l :
  (forall x y, In x l -> In y l -> f x = f y -> x = y) -> NoDup l -> NoDup (map f l).
Proof.
  intros Hf Hnd. induction Hnd as [|a l Hni Hnd IH]; [constructor|]. cbn [map]. constructor.
  - intros Hin. apply in_map_iff in Hin. destruct Hin as (y & E & Hy).
    apply Hni. rewrite (Hf a y); [exact Hy|left; reflexivity|right; exact Hy|symmetry; exact E].
  - apply IH. intros x y Hx Hy. apply Hf; right; assumption.
Qed.

Lemma app_cons_snoc {T} (a : list T) x b : a ++ x :: b = (a ++ [x]) ++ b.
Proof. rewrite <- app_assoc. reflexivity. Qed.

Lemma firstn_skipn_app_mid {A} (pre d post : list A) :
  firstn (length d) (skipn (length pre) (pre ++ d ++ post)) = d.
Proof.
  rewrite skipn_app, skipn_all, Nat.sub_diag. cbn [app skipn].
  rewrite firstn_app, firstn_all, Nat.sub_diag. cbn. apply app_nil_r.
Qed.

Lemma nth_error_mid {T} (pre : list T) x post : nth_error (pre ++ x :: post) (length pre) = Some x.
Proof. induction pre as [|y pre IH]; [reflexivity|exact IH]. Qed.

Lemma zip_with_length f a b : length a = length b -> length (zip_with f a b) = length a.
Proof. intros H. unfold zip_with. rewrite map_length, combine_length, H. apply Nat.min_id. Qed.

Lemma zip_add_sub f t : length f = length t -> forallb is_i32 f = true -> forallb is_i32 t = true ->
  zip_with wadd f (zip_with wsub t f) = t.
Proof.
  revert t. induction f as [|a f IH]; intros [|b t] Hl Hf Ht; try discriminate; [reflexivity|].
  apply forallb_cons in Hf as [Ha Hf]. apply forallb_cons in Ht as [Hb Ht].
  unfold zip_with in *. cbn [combine map fst snd]. f_equal; [apply wadd_wsub, Hb|].
  apply IH; [cbn in Hl; lia|exact Hf|exact Ht].
Qed.

Lemma zip_with_i32 f a b : (forall x y, is_i32 (f x y) = true) -> forallb is_i32 (zip_with f a b) = true.
Proof.
  intros Hf. unfold zip_with. apply forallb_forall. intros x Hx. apply in_map_iff in Hx.
  destruct Hx as [[p q] [<- _]]. apply Hf.
Qed.

Lemma sortedb_cons a l : sortedb (a :: l) = true <-> (forall x, In x l -> a < x) /\ sortedb l = true.
Proof.
  revert a. induction l as [|b l IH]; intros a.
  - cbn. split; [intros _; split; [intros x []|reflexivity]|reflexivity].
  - change (sortedb (a :: b :: l)) with ((a <? b) && sortedb (b :: l)).
    rewrite andb_true_iff, Z.ltb_lt. split.
    + intros [Hab Hs]. split; [|exact Hs]. intros x [<-|Hx]; [exact Hab|].
      apply IH in Hs. destruct Hs as [Hb _]. specialize (Hb x Hx). lia.
    + intros [Hall Hs]. split; [apply Hall; left; reflexivity|exact Hs].
Qed.

Lemma sortedb_tail a l : sortedb (a :: l) = true -> sortedb l = true.
Proof. intros H. apply sortedb_cons in H. tauto. Qed.

Lemma sortedb_nodup l : sortedb l = true -> NoDup l.
Proof.
  induction l as [|a l IH]; intros H; [constructor|].
  apply sortedb_cons in H. destruct H as [Hall Hs]. constructor; [|apply IH, Hs].
  intros Hin. specialize (Hall a Hin). lia.
Qed.

Lemma sortedb_app a b : sortedb (a ++ b) = true <->
  sortedb a = true /\ sortedb b = true /\ (forall x y, In x a -> In y b -> x < y).
Proof.
  induction a as [|u a IH]; cbn [app].
  - split; [intros H; repeat split; [exact H|intros ? ? []]|tauto].
  - rewrite !sortedb_cons, IH. split.
    + intros (Hu & Ha & Hb & Hab). repeat split; try assumption.
      * intros x Hx. apply Hu, in_or_app. left. exact Hx.
      * intros x y [<-|Hx] Hy; [apply Hu, in_or_app; right; exact Hy|apply Hab; assumption].
    + intros ((Hu & Ha) & Hb & Hab). repeat split; try assumption.
      * intros x Hx. apply in_app_or in Hx. destruct Hx as [Hx|Hx]; [apply Hu, Hx|apply Hab; [left; reflexivity|exact Hx]].
      * intros x y Hx Hy. apply Hab; [right; exact Hx|exact Hy].
Qed.

Lemma sortedb_app_one l k : sortedb l = true -> (forall x, In x l -> x < k) -> sortedb (l ++ [k]) = true.
Proof.
  intros Hs Hall. apply sortedb_app. repeat split; [exact Hs|].
  intros x y Hx [<-|[]]. apply Hall, Hx.
Qed.

Lemma sortedb_mid a k b : sortedb (a ++ k :: b) = true ->
  (forall x, In x a -> x < k) /\ sortedb (a ++ b) = true.
Proof.
  rewrite !sortedb_app, sortedb_cons. intros (Ha & (_ & Hb) & Hab). split.
  - intros x Hx. apply Hab; [exact Hx|left; reflexivity].
  - repeat split; try assumption. intros x y Hx Hy. apply Hab; [exact Hx|right; exact Hy].
Qed.

Lemma sortedb_filter p l : sortedb l = true -> sortedb (filter p l) = true.
Proof.
  induction l as [|a l IH]; intros H; [reflexivity|]. apply sortedb_cons in H. destruct H as [Ha Hs].
  cbn [filter]. destruct (p a); [|apply IH, Hs]. apply sortedb_cons. split; [|apply IH, Hs].
  intros x Hx. apply filter_In in Hx. apply Ha, Hx.
Qed.

Lemma sortedb_ext l1 : forall l2, sortedb l1 = true -> sortedb l2 = true ->
  (forall x, In x l1 <-> In x l2) -> l1 = l2.
Proof.
  induction l1 as [|a l1 IH]; intros l2 H1 H2 Hio.
  - destruct l2 as [|b l2]; [reflexivity|]. exfalso. apply (Hio b). left. reflexivity.
  - destruct l2 as [|b l2]; [exfalso; apply (Hio a); left; reflexivity|].
    apply sortedb_cons in H1. apply sortedb_cons in H2. destruct H1 as [Ha H1]. destruct H2 as [Hb H2].
    assert (a = b).
    { destruct (proj1 (Hio a) (or_introl eq_refl)) as [->|Hin]; [reflexivity|].
      destruct (proj2 (Hio b) (or_introl eq_refl)) as [->|Hin']; [reflexivity|].
      specialize (Ha _ Hin'). specialize (Hb _ Hin). lia. }
    subst b. f_equal. apply IH; [exact H1|exact H2|].
    intros x. split; intros Hx.
    + destruct (proj1 (Hio x) (or_intror Hx)) as [<-|Hin]; [|exact Hin]. specialize (Ha _ Hx). lia.
    + destruct (proj2 (Hio x) (or_intror Hx)) as [<-|Hin]; [|exact Hin]. specialize (Hb _ Hx). lia.
Qed.

Lemma smem_in k l : smem k l = true <-> In k l.
Proof.
  induction l as [|a l IH]; cbn [smem In]; [split; [discriminate|intros []]|].
  rewrite orb_true_iff, Z.eqb_eq, IH. split; intros [H|H]; auto.
Qed.

Lemma sins_in k x l : In x (sins k l) <-> x = k \/ In x l.
Proof.
  induction l as [|a l IH]; cbn [sins]; [cbn; intuition|].
  destruct (Z.ltb_spec k a); [cbn; intuition|].
  destruct (Z.eqb_spec k a); [subst; cbn; intuition|].
  cbn [In]. rewrite IH. intuition.
Qed.

Lemma sins_sorted k l : sortedb l = true -> sortedb (sins k l) = true.
Proof.
  induction l as [|a l IH]; intros Hs; [reflexivity|].
  cbn [sins]. destruct (Z.ltb_spec k a).
  - apply sortedb_cons. split; [|exact Hs]. intros x [<-|Hx]; [exact H|].
    apply sortedb_cons in Hs. destruct Hs as [Ha _]. specialize (Ha x Hx). lia.
  - destruct (Z.eqb_spec k a); [exact Hs|].
    apply sortedb_cons in Hs. destruct Hs as [Ha Hs]. apply sortedb_cons. split; [|apply IH, Hs].
    intros x Hx. apply sins_in in Hx. destruct Hx as [->|Hx]; [lia|apply Ha, Hx].
Qed.

Lemma sins_last k l : (forall x, In x l -> x < k) -> sins k l = l ++ [k].
Proof.
  induction l as [|a l IH]; intros Hall; [reflexivity|].
  cbn [sins app]. assert (a < k) by (apply Hall; left; reflexivity).
  destruct (Z.ltb_spec k a); [lia|]. destruct (Z.eqb_spec k a); [lia|].
  f_equal. apply IH. intros x Hx. apply Hall. right. exact Hx.
Qed.

Section Amap.
  Context {V : Type}.
  Implicit Types l : list (Z * V).

  Lemma aget_in k v l : aget k l = Some v -> In (k, v) l.
  Proof.
    induction l as [|[k' v'] l IH]; cbn [aget]; [discriminate|].
    destruct (Z.eqb_spec k k'); [intros [= ->]; subst; left; reflexivity|intros H; right; auto].
  Qed.

  Lemma aget_none k l : aget k l = None <-> ~ In k (map fst l).
  Proof.
    induction l as [|[k' v'] l IH]; cbn [aget map In fst]; [tauto|].
    destruct (Z.eqb_spec k k'); [subst; split; [discriminate|intros H; exfalso; apply H; left; reflexivity]|].
    rewrite IH. split; [intros H [E|I]; [congruence|auto]|intros H I; apply H; right; exact I].
  Qed.

  Lemma aget_some_in k l : (exists v, aget k l = Some v) <-> In k (map fst l).
  Proof.
    destruct (aget k l) eqn:E.
    - split; [intros _|intros _; eauto]. apply aget_in in E. apply (in_map fst) in E. exact E.
    - split; [intros [v Hv]; discriminate|]. intros H. apply aget_none in E. contradiction.
  Qed.

  Lemma in_aget k v l : NoDup (map fst l) -> In (k, v) l -> aget k l = Some v.
  Proof.
    induction l as [|[k' v'] l IH]; cbn [aget map fst]; intros Hnd Hin; [destruct Hin|].
    inversion Hnd as [|? ? Hni Hnd']; subst. destruct Hin as [E|Hin].
    - injection E as -> ->. rewrite Z.eqb_refl. reflexivity.
    - destruct (Z.eqb_spec k k'); [subst; exfalso; apply Hni; apply (in_map fst) in Hin; exact Hin|auto].
  Qed.

  Lemma aget_perm k l l' : NoDup (map fst l) -> Permutation l l' -> aget k l = aget k l'.
  Proof.
    intros Hnd Hp. assert (Hnd' : NoDup (map fst l')) by (apply (Permutation_NoDup (Permutation_map fst Hp) Hnd)).
    destruct (aget k l') as [v|] eqn:E.
    - apply in_aget; [exact Hnd|]. apply (Permutation_in _ (Permutation_sym Hp)), aget_in, E.
    - rewrite aget_none in *. intros Hin. apply E. apply (Permutation_in _ (Permutation_map fst Hp) Hin).
  Qed.

  Lemma aget_app k l l' : aget k (l ++ l') = match aget k l with Some v => Some v | None => aget k l' end.
  Proof.
    induction l as [|[k' v] l IH]; [reflexivity|]. cbn [app aget].
    destruct (Z.eqb_spec k k'); [reflexivity|exact IH].
  Qed.

  Lemma aget_snoc_inv k' w k v l : aget k' (l ++ [(k, v)]) = Some w -> aget k' l = Some w \/ (k' = k /\ w = v).
  Proof.
    rewrite aget_app. destruct (aget k' l); [auto|]. cbn [aget].
    destruct (Z.eqb_spec k' k); [intros [= <-]; auto|discriminate].
  Qed.

  Lemma aget_filter (p : Z -> bool) k l :
    aget k (filter (fun kd => p (fst kd)) l) = if p k then aget k l else None.
  Proof.
    induction l as [|[k' v] l IH]; [destruct (p k); reflexivity|]. cbn [filter fst].
    destruct (p k') eqn:Pk'; cbn [aget]; destruct (Z.eqb_spec k k'); try exact IH.
    - subst. rewrite Pk'. reflexivity.
    - subst. rewrite Pk' in *. exact IH.
  Qed.

  Lemma filter_map_fst (p : Z -> bool) l :
    map fst (filter (fun kr => p (fst kr)) l) = filter p (map fst l).
  Proof.
    induction l as [|[k v] l IH]; [reflexivity|]. cbn [filter map fst].
    destruct (p k); cbn [map fst]; rewrite IH; reflexivity.
  Qed.

  Lemma aget_ains_same k v l : aget k (ains k v l) = Some v.
  Proof.
    induction l as [|[k' v'] l IH]; cbn [ains aget]; [rewrite Z.eqb_refl; reflexivity|].
    destruct (Z.ltb_spec k k'); [cbn [aget]; rewrite Z.eqb_refl; reflexivity|].
    destruct (Z.eqb_spec k k'); cbn [aget]; [rewrite Z.eqb_refl; reflexivity|].
    destruct (Z.eqb_spec k k'); [contradiction|exact IH].
  Qed.

  Lemma aget_ains_other k k0 v l : k <> k0 -> aget k (ains k0 v l) = aget k l.
  Proof.
    intros Hne. induction l as [|[k' v'] l IH]; cbn [ains aget].
    - destruct (Z.eqb_spec k k0); [contradiction|reflexivity].
    - destruct (Z.ltb_spec k0 k').
      + cbn [aget]. destruct (Z.eqb_spec k k0); [contradiction|reflexivity].
      + destruct (Z.eqb_spec k0 k').
        * subst k'. cbn [aget]. destruct (Z.eqb_spec k k0); [contradiction|reflexivity].
        * cbn [aget]. destruct (Z.eqb_spec k k'); [reflexivity|exact IH].
  Qed.

  Lemma ains_inj k v l : (forall a b w, aget a l = Some w -> aget b l = Some w -> a = b) ->
    (forall a, aget a l <> Some v) ->
    forall a b w, aget a (ains k v l) = Some w -> aget b (ains k v l) = Some w -> a = b.
  Proof.
    intros Hinj Hnew a b w Ha Hb. destruct (Z.eq_dec a k) as [->|Na], (Z.eq_dec b k) as [->|Nb]; [reflexivity| | |].
    - rewrite aget_ains_same in Ha. injection Ha as <-. rewrite aget_ains_other in Hb by exact Nb. destruct (Hnew b Hb).
    - rewrite aget_ains_same in Hb. injection Hb as <-. rewrite aget_ains_other in Ha by exact Na. destruct (Hnew a Ha).
    - rewrite aget_ains_other in Ha, Hb by assumption. apply (Hinj a b w Ha Hb).
  Qed.

  Lemma ains_keys k v l : map fst (ains k v l) = sins k (map fst l).
  Proof.
    induction l as [|[k' v'] l IH]; cbn [ains sins map fst]; [reflexivity|].
    destruct (Z.ltb_spec k k'); [reflexivity|]. destruct (Z.eqb_spec k k'); [subst; reflexivity|].
    cbn [map fst]. f_equal. exact IH.
  Qed.

  Lemma ains_sorted k v l : sortedb (map fst l) = true -> sortedb (map fst (ains k v l)) = true.
  Proof. intros H. rewrite ains_keys. apply sins_sorted, H. Qed.

  Lemma ains_in k v l x : In x (ains k v l) -> x = (k, v) \/ In x l.
  Proof.
    induction l as [|[k' v'] l IH]; cbn [ains]; [intros [<-|[]]; left; reflexivity|].
    destruct (k <? k'); [intros [<-|H]; [left; reflexivity|right; exact H]|].
    destruct (k =? k'); [intros [<-|H]; [left; reflexivity|right; right; exact H]|].
    intros [<-|H]; [right; left; reflexivity|]. destruct (IH H) as [->|H']; [left; reflexivity|right; right; exact H'].
  Qed.

  Lemma ains_perm k v l : aget k l = None -> Permutation (ains k v l) ((k, v) :: l).
  Proof.
    induction l as [|[k' v'] l IH]; cbn [ains aget]; intros H; [apply Permutation_refl|].
    destruct (Z.eqb_spec k k'); [discriminate|].
    destruct (Z.ltb_spec k k'); [apply Permutation_refl|].
    eapply Permutation_trans; [apply perm_skip, IH, H|apply perm_swap].
  Qed.

  Lemma ains_length_new k v l : aget k l = None -> length (ains k v l) = S (length l).
  Proof. intros H. apply (Permutation_length (ains_perm k v l H)). Qed.

  Lemma ains_last k v l : (forall x, In x (map fst l) -> x < k) -> ains k v l = l ++ [(k, v)].
  Proof.
    induction l as [|[k' v'] l IH]; intros Hall; [reflexivity|].
    cbn [ains app]. assert (k' < k) by (apply Hall; left; reflexivity).
    destruct (Z.ltb_spec k k'); [lia|]. destruct (Z.eqb_spec k k'); [lia|].
    f_equal. apply IH. intros x Hx. apply Hall. right. exact Hx.
  Qed.

  Lemma ains_keys_present k v l : sortedb (map fst l) = true -> In k (map fst l) ->
    map fst (ains k v l) = map fst l.
  Proof.
    induction l as [|[k' v'] l IH]; cbn [ains map fst]; intros Hs Hin; [destruct Hin|].
    apply sortedb_cons in Hs. destruct Hs as [Ha Hs].
    destruct (Z.ltb_spec k k').
    - exfalso. destruct Hin as [E|Hin]; [lia|]. specialize (Ha _ Hin). lia.
    - destruct (Z.eqb_spec k k'); [subst; reflexivity|]. cbn [map fst]. f_equal. apply IH; [exact Hs|].
      destruct Hin as [E|Hin]; [congruence|exact Hin].
  Qed.

  Lemma amap_ext l : forall l', sortedb (map fst l) = true -> sortedb (map fst l') = true ->
    (forall k, aget k l = aget k l') -> l = l'.
  Proof.
    induction l as [|[k1 v1] l IH]; intros [|[k2 v2] l'] Hs Hs' Heq; [reflexivity| | |].
    - specialize (Heq k2). cbn [aget] in Heq. rewrite Z.eqb_refl in Heq. discriminate.
    - specialize (Heq k1). cbn [aget] in Heq. rewrite Z.eqb_refl in Heq. discriminate.
    - cbn [map fst] in Hs, Hs'. apply sortedb_cons in Hs. apply sortedb_cons in Hs'.
      destruct Hs as [Hlt Hs], Hs' as [Hlt' Hs'].
      assert (Hk : k1 = k2).
      { pose proof (Heq k1) as H1. pose proof (Heq k2) as H2. cbn [aget] in H1, H2. rewrite Z.eqb_refl in H1, H2.
        destruct (Z.eqb_spec k1 k2) as [E|N]; [exact E|]. destruct (Z.eqb_spec k2 k1) as [E'|N']; [congruence|].
        symmetry in H1. apply aget_in, (in_map fst), Hlt' in H1. apply aget_in, (in_map fst), Hlt in H2. cbn [fst] in *. lia. }
      subst k2. pose proof (Heq k1) as H1. cbn [aget] in H1. rewrite Z.eqb_refl in H1. injection H1 as <-.
      f_equal. apply IH; [exact Hs|exact Hs'|]. intros k. specialize (Heq k). cbn [aget] in Heq.
      destruct (Z.eqb_spec k k1) as [E|N]; [subst k|exact Heq].
      rewrite (proj2 (aget_none k1 l)), (proj2 (aget_none k1 l')); [reflexivity| |]; intros Hin; [apply Hlt' in Hin|apply Hlt in Hin]; lia.
  Qed.
End Amap.
