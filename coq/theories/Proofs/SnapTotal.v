(* Totality of the snapshot readers and the state invariant `good` of every RawSnap
   they (and read_with_delta) produce (C11). *)
From LibTw2 Require Import Base.Res Model.Varint Model.Packer Model.Snap Proofs.SnapBase Proofs.SnapRep Proofs.SnapDelta
  Proofs.SnapApply Proofs.SnapOk Proofs.VarintArith Proofs.VarintProofs.
From Coq Require Import ZArith List Lia Bool Permutation.
Import ListNotations.
Open Scope Z_scope.

Definition fine {E A} (r : res E A) : Prop := match r with Ok _ | Err _ => True | _ => False end.

Definition post {E A} (P : A -> Prop) (r : res E A) : Prop :=
  match r with Ok a => P a | Err _ => True | _ => False end.

Lemma post_bind {E A B} (Q : A -> Prop) (P : B -> Prop) (m : res E A) (f : A -> res E B) :
  post Q m -> (forall a, Q a -> post P (f a)) -> post P (bind m f).
Proof. destruct m; cbn; auto. Qed.

Lemma post_lift_b {A} (P : A -> Prop) (r : res berr A) : post P r -> post P (lift_b r).
Proof. destruct r; exact (fun H => H). Qed.

Lemma post_fine {E A} (P : A -> Prop) (r : res E A) : post P r -> fine r.
Proof. destruct r; cbn; auto. Qed.

Record good (S : rawsnap) : Prop := {
  g_rep : exists ch, rep S ch;
  g_keys : keys_i32 S;
  g_buf : forallb is_i32 (rs_buf S) = true;
  g_n : Z.of_nat (length (rs_offs S)) <= MAX_SNAPSHOT_ITEMS;
  g_sz : ser_size (Z.of_nat (length (rs_offs S))) (Z.of_nat (length (rs_buf S))) <= MAX_SNAPSHOT_SIZE
}.

Lemma good_lim S ch : good S -> rep S ch -> lim_ok ch.
Proof.
  intros G R. destruct (rep_lengths _ _ R) as [L1 L2]. unfold lim_ok. rewrite <- L1, <- L2.
  split; [apply (g_n _ G)|apply (g_sz _ G)].
Qed.

Lemma raw_ok_good S : raw_ok S = true -> good S.
Proof.
  intros H. destruct (raw_ok_rep S H) as (ch & R & K & B & L).
  destruct (rep_lengths _ _ R) as [L1 L2]. destruct L as [La Lb].
  split; [exists ch; exact R|exact K|exact B|rewrite L1; exact La|rewrite L1, L2; exact Lb].
Qed.

Lemma good_empty : good raw_empty.
Proof.
  split; [exists []; apply rep_empty|reflexivity|reflexivity| |];
    unfold MAX_SNAPSHOT_ITEMS, MAX_SNAPSHOT_SIZE, ser_size; cbn; lia.
Qed.

Lemma forallb_sins k l : is_i32 k = true -> forallb is_i32 l = true -> forallb is_i32 (sins k l) = true.
Proof.
  intros Hk Hl. apply forallb_forall. intros x Hx. apply sins_in in Hx. destruct Hx as [->|Hx]; [exact Hk|].
  rewrite forallb_forall in Hl. apply Hl, Hx.
Qed.

Lemma good_pushed S k data : good S -> aget k (rs_offs S) = None -> is_i32 k = true ->
  forallb is_i32 data = true -> fits S (length data) = true -> good (pushed S k data).
Proof.
  intros G Hn Hk Hd Hf. destruct (g_rep _ G) as [ch R].
  destruct (pushed_length S k data Hn) as [L1 L2].
  apply fits_iff in Hf. destruct Hf as [F1 F2].
  split.
  - exists (ch ++ [(k, data)]). apply rep_pushed; assumption.
  - unfold keys_i32. cbn [pushed rs_offs]. rewrite ains_keys. apply forallb_sins; [exact Hk|apply (g_keys _ G)].
  - cbn [pushed rs_buf]. rewrite forallb_app, (g_buf _ G), Hd. reflexivity.
  - rewrite L1. lia.
  - rewrite L1, L2. rewrite !Nat2Z.inj_succ, Nat2Z.inj_add. unfold ser_size in *. lia.
Qed.

Lemma add_item_fine S ty id data : fine (add_item S ty id data).
Proof.
  rewrite add_item_eq. destruct (aget _ _); [exact I|]. destruct (_ <? _); [exact I|]. destruct (_ <? _); exact I.
Qed.

Lemma add_item_good S ty id data : good S -> 0 <= ty <= 65535 -> 0 <= id <= 65535 ->
  forallb is_i32 data = true ->
  match add_item S ty id data with Ok S' => good S' | Err _ => True | _ => False end.
Proof.
  intros G Ht Hi Hd. pose proof (add_item_fine S ty id data) as F.
  destruct (add_item S ty id data) as [S'| | |] eqn:E; try exact F.
  apply add_item_ok in E. destruct E as (Hn & Hf & ->).
  apply good_pushed; [exact G|exact Hn|apply key_i32; assumption|exact Hd|exact Hf].
Qed.

Lemma good_write S k r d : good S -> aget k (rs_offs S) = Some r -> length d = range_len r ->
  forallb is_i32 d = true ->
  exists buf', (forall E, @write_range E (rs_buf S) r d = Ok buf')
    /\ good {| rs_offs := rs_offs S; rs_buf := buf' |}.
Proof.
  intros G Hg Hl Hd. destruct (g_rep _ G) as [ch R].
  destruct (rep_write S ch k r d R Hg Hl) as (buf' & Ew & Rw). exists buf'. split; [exact Ew|].
  destruct (write_range_ok is_i32 _ _ _ _ (Ew unit)) as [Hlen Hi].
  split; cbn [rs_offs rs_buf].
  - exists (aset k d ch). exact Rw.
  - apply (g_keys _ G).
  - apply Hi; [apply (g_buf _ G)|exact Hd].
  - apply (g_n _ G).
  - rewrite Hlen. apply (g_sz _ G).
Qed.

Lemma rfi_item_good idata il prev off S : good S -> forallb is_i32 idata = true ->
  length idata = Z.to_nat il -> (forall p, prev = Some p -> 0 <= p) ->
  post good (rfi_item idata il prev off S).
Proof.
  intros G Hi Hl Hp. unfold rfi_item. destruct prev as [p|].
  - specialize (Hp p eq_refl). destruct (Z.leb_spec off p) as [|Hop]; [exact I|]. destruct (Z.ltb_spec il off) as [|Hio]; [exact I|].
    destruct (nth_error idata (Z.to_nat p)) as [kk|] eqn:Hn.
    + apply post_lift_b, add_item_good; [exact G|apply key_to_ty_range|apply key_to_id_range|].
      apply forallb_firstn, forallb_skipn, Hi.
    + apply nth_error_None in Hn. lia.
  - destruct (off =? 0); [exact G|exact I].
Qed.

Lemma rfi_loop_good idata il : forall offs prev S, good S -> forallb is_i32 idata = true ->
  length idata = Z.to_nat il -> (forall p, prev = Some p -> 0 <= p) ->
  post good (rfi_loop idata il offs prev S).
Proof.
  induction offs as [|o offs IH]; intros prev S G Hi Hl Hp; cbn [rfi_loop].
  - apply rfi_item_good; assumption.
  - destruct (Z.ltb_spec o 0); [exact I|]. destruct (o mod 4 =? 0); cbn [negb]; [|exact I].
    eapply post_bind; [apply rfi_item_good; eassumption|]. intros S' G'.
    apply IH; try assumption. intros p [= <-]. apply Z.div_pos; lia.
Qed.

Theorem read_from_ints_good ints : forallb is_i32 ints = true ->
  match raw_read_from_ints ints with (Ok R, _) => good R | (Err _, _) => True | _ => False end.
Proof.
  intros Hi. unfold raw_read_from_ints. destruct ints as [|ds [|ni rest]]; try exact I.
  - destruct (ds <? 0); exact I.
  - destruct (Z.ltb_spec ds 0); [exact I|]. destruct (Z.ltb_spec ni 0); [exact I|].
    destruct (Z.ltb_spec (Z.of_nat (length rest)) ni); [exact I|].
    destruct (ds mod 4 =? 0); cbn [negb]; [|exact I].
    destruct (Z.ltb_spec (Z.of_nat (length rest)) (ni + ds / 4)); [exact I|].
    apply forallb_cons in Hi as [_ Hi]. apply forallb_cons in Hi as [_ Hi].
    assert (G : post good (rfi_loop (firstn (Z.to_nat (ds / 4)) (skipn (Z.to_nat ni) rest)) (ds / 4)
                             (firstn (Z.to_nat ni) rest) None raw_empty)).
    { apply rfi_loop_good; [apply good_empty|apply forallb_firstn, forallb_skipn, Hi| |discriminate].
      rewrite firstn_length, skipn_length. lia. }
    destruct (ni + ds / 4 <? Z.of_nat (length rest)); unfold wbind, wwarn, wret, wlift;
      destruct (rfi_loop _ _ _ _ _); exact G.
Qed.

Lemma read_int_shrinks bs v ws rest : bytes_ok bs = true -> read_int bs = Ok (v, ws, rest) ->
  (length rest < length bs)%nat /\ is_i32 v = true /\ bytes_ok rest = true.
Proof.
  intros Hok H. rewrite read_int_arith in H by exact Hok.
  destruct (read_int_a_consumes _ _ _ _ H) as (Hs & Hl & Hv). split; [|split; [exact Hv|]].
  - pose proof (f_equal (@length Z) Hs) as Hlen. rewrite app_length in Hlen. lia.
  - unfold bytes_ok in *. rewrite forallb_forall in *. intros x Hx. apply Hok. rewrite Hs. apply in_or_app. right. exact Hx.
Qed.

Lemma read_int_fine bs : bytes_ok bs = true -> fine (read_int bs).
Proof.
  intros Hok. rewrite read_int_arith by exact Hok. pose proof (read_int_a_total bs) as H.
  destruct (read_int_a bs); exact H.
Qed.

Lemma bytes_to_ints_ok : forall fuel bs acc ws, bytes_ok bs = true -> (length bs <= fuel)%nat ->
  forallb is_i32 acc = true ->
  exists ints ws', bytes_to_ints fuel bs acc ws = Ok (ints, ws') /\ forallb is_i32 ints = true.
Proof.
  induction fuel as [|fuel IH]; intros bs acc ws Hok Hf Ha;
    (destruct bs as [|b bs']; [cbn; eexists _, _; split; [reflexivity|apply forallb_rev, Ha]|]).
  - cbn in Hf. lia.
  - cbn [bytes_to_ints]. pose proof (read_int_fine _ Hok) as Hfine.
    destruct (read_int (b :: bs')) as [[[v pw] rest]| | |] eqn:E; try contradiction.
    + destruct (read_int_shrinks _ _ _ _ Hok E) as (Hl & Hv & Hr).
      apply IH; [exact Hr|cbn [length] in *; lia|cbn [forallb]; rewrite Hv, Ha; reflexivity].
    + eexists _, _. split; [reflexivity|apply forallb_rev, Ha].
Qed.

Theorem read_bytes_good bs : bytes_ok bs = true ->
  match raw_read_bytes bs with (Ok R, _) => good R | (Err _, _) => True | _ => False end.
Proof.
  intros Hok. unfold raw_read_bytes.
  destruct (bytes_to_ints_ok (length bs) bs [] [] Hok (le_n _) eq_refl) as (ints & ws & E & Hi).
  rewrite E. pose proof (read_from_ints_good ints Hi) as H.
  destruct (raw_read_from_ints ints) as [[S| | |] ws']; exact H.
Qed.
