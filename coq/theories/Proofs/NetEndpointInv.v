(* C20: the endpoint's invariant and what follows from it. Inside the API contract no call
   panics or spins (one remote address cannot take the endpoint down); a datagram from an address
   without a peer changes the table only if it is a Connect on an accepting endpoint; the
   endpoint's deadline is the minimum of the per-address deadlines. *)
From LibTw2 Require Import Base.Res Model.PacketTypes Model.ConnCore Model.Conn6 Model.NetEndpoint
  Proofs.ConnCoreInv Proofs.Conn6Inv Proofs.NetEndpointSpec.
From Coq Require Import ZArith Lia Bool List Permutation.
Open Scope Z_scope.

(* Facts about Conn6.step the endpoint relies on. It drops a peer whose connection reached
   Disconnected. A connection gets there only through disconnect() or a Close from the peer, which
   feed reports as a Disconnect event; no other call reports events at all. *)
Lemma tick_action_shape c e out : tick_action c e = Ok out ->
  out_events out = [] /\ out_warns out = [] /\
  (c_state (out_conn out) = c_state c \/ exists o', c_state (out_conn out) = Online o').
Proof.
  unfold tick_action. intros H. destruct (c_state c) as [| |t|o|] eqn:Es.
  - injection H as <-. cbn. rewrite Es. auto.
  - apply bind_ok in H as [d [_ H]]. injection H as <-. cbn. auto.
  - apply bind_ok in H as [d [_ H]]. injection H as <-. cbn. auto.
  - destruct (can_send o); [apply bind_ok in H as [[o' d] [_ H]]|apply bind_ok in H as [d [_ H]]];
      injection H as <-; cbn; eauto.
  - injection H as <-. cbn. rewrite Es. auto.
Qed.

Lemma tick_action_live c e out : tick_action c e = Ok out -> c_state c <> Disconnected ->
  c_state (out_conn out) <> Disconnected.
Proof. intros H Hn. destruct (tick_action_shape _ _ _ H) as [_ [_ [->|[o' ->]]]]; [exact Hn|discriminate]. Qed.

Lemma do_resend_state c e o c' ds : do_resend c e o = Ok (c', ds) -> exists o', c_state c' = Online o'.
Proof. unfold do_resend. intros H. apply bind_ok in H as [[[o' d] t] [_ H]]. injection H as <- _. eexists; reflexivity. Qed.

Lemma feed_live c e d out : feed c e d = Ok out -> c_state c <> Disconnected ->
  existsb is_disconnect (out_events out) = false -> c_state (out_conn out) <> Disconnected.
Proof.
  intros H Hn He. unfold feed in H.
  (* past the connless case: a foreign token leaves the connection alone, an ack out of range panics *)
  destruct d as [t1 t2 pl|tk ack ctl|tk ack rr nc cs]; [injection H as <-; exact Hn| |];
    cbn [dgram_tok dgram_ack] in H;
    (destruct (match state_token (c_state c) with Some expected => negb (tok_eqb tk expected) | None => false end);
     [injection H as <-; exact Hn|]);
    (destruct ((ack <? 0) || (SEQ_MOD <=? ack)); [discriminate|]).
  - (* a control message leaves the state alone but for two transitions (and Close, which He excludes) *)
    destruct ctl as [|resp| | |reason|resp], (c_state c) as [| |t|o|] eqn:Es; try (injection H as <-; cbn in *; congruence).
    + (* Connect on a fresh connection: Pending *)
      destruct tk as [tk|]; [destruct (list_eq_dec Z.eq_dec tk TOKEN_NONE); [apply bind_ok in H as [[nt rnd'] [_ H]]|]|];
        try (injection H as <-; cbn; congruence); (apply tick_action_live in H; [exact H|discriminate]).
    + (* ConnectAccept while connecting: Online *)
      apply bind_ok in H as [s [_ H]]. injection H as <-. discriminate.
  - (* chunks: Pending and Online go Online, the other states stay *)
    destruct (c_state c) as [| |t|o|] eqn:Es; cbn [c_state] in H; try (injection H as <-; cbn; congruence);
      (apply bind_ok in H as [[c3 sent] [Hr H]];
       assert (exists o3, c_state c3 = Online o3) as [o3 Ho3]
         by (destruct rr; [eapply do_resend_state, Hr|injection Hr as <- _; eexists; reflexivity]);
       rewrite Ho3 in H; apply bind_ok in H as [[[a' r'] evs] [_ H]]; injection H as <-; discriminate).
Qed.

Lemma step_quiet c e o out : step c e o = Ok out -> match o with OpFeed _ => False | _ => True end ->
  out_events out = [] /\
  (c_state c <> Disconnected -> (forall r, o <> OpDisconnect r) -> c_state (out_conn out) <> Disconnected).
Proof.
  intros H Ho. destruct o as [|data vital| | |reason|data|d| |]; try contradiction; cbn [step] in H.
  - destruct (c_state c); try discriminate.
    split; [apply (tick_action_shape _ _ _ H)|]. intros _ _. apply (tick_action_live _ _ _ H). discriminate.
  - destruct (c_state c) as [| |t|o|]; try discriminate.
    apply bind_ok in H as [[[o' d] r] [_ H]]. injection H as <-. split; [reflexivity|]. intros _ _. discriminate.
  - destruct (c_state c) as [| |t|o|]; try discriminate.
    apply bind_ok in H as [[o' d] [_ H]]. injection H as <-. split; [reflexivity|]. intros _ _. discriminate.
  - destruct (match c_state c with
              | Online o => match queue_back (o_queue o) with Some rc => triggered (rc_next rc) (e_now e) | None => false end
              | _ => false end).
    + destruct (c_state c) as [| |t|o|] eqn:Es; try (injection H as <-; split; [reflexivity|intros Hn _; cbn; congruence]).
      apply bind_ok in H as [[c' d] [Er H]]. injection H as <-. split; [reflexivity|]. intros _ _. cbn.
      destruct (do_resend_state _ _ _ _ _ Er) as [o' ->]. discriminate.
    + destruct (triggered (c_send c) (e_now e)); [|injection H as <-; split; [reflexivity|intros Hn _; exact Hn]].
      split; [apply (tick_action_shape _ _ _ H)|]. intros Hn _. apply (tick_action_live _ _ _ H Hn).
  - split; [|intros _ Hr; destruct (Hr reason eq_refl)].
    destruct (c_state c); try discriminate; (destruct (existsb (fun b => b =? 0) reason); [discriminate|]);
      apply bind_ok in H as [ds [_ H]]; injection H as <-; reflexivity.
  - destruct (c_state c); try discriminate.
    destruct (MAX_PAYLOAD <? Z.of_nat (length data)); injection H as <-; (split; [reflexivity|intros _ _; discriminate]).
  - injection H as <-. split; [reflexivity|intros Hn _; exact Hn].
  - destruct (c_state c); try discriminate. injection H as <-. split; [reflexivity|intros _ _; discriminate].
Qed.

(* Net::accept: the canonical connect packet on a fresh connection *)
Lemma accept_feed c e tok : c_state c = Unconnected -> rand_ok e ->
  exists out, step c e (OpFeed (canonical_connect tok)) = Ok out /\
    out_events out = [] /\ out_warns out = [] /\ conn_ok6 (out_conn out) /\
    c_state (out_conn out) <> Disconnected /\ Forall (dgram_ok pp6) (out_sent out).
Proof.
  intros Hs Hr.
  assert (Hc : conn_ok6 c) by (unfold conn_ok6; rewrite Hs; exact I).
  assert (Hd : dgram_in_ok (canonical_connect tok)).
  { unfold canonical_connect, dgram_in_ok. split; [destruct tok; [reflexivity|exact I]|unfold SEQ_MOD; lia]. }
  destruct (step_ok6 c e (OpFeed (canonical_connect tok)) Hc (conj Hd Hr)) as [out [Hf [Hok Hds]]]. exists out. split; [exact Hf|]. cbn [step] in Hf.
  assert (Hq : out_events out = [] /\ out_warns out = []).
  { pose proof Hf as H. unfold feed, canonical_connect in H. cbn [dgram_tok dgram_ack] in H. rewrite Hs in H.
    cbn [state_token] in H. change ((0 <? 0) || (SEQ_MOD <=? 0)) with false in H. cbn iota in H.
    destruct tok; [destruct (list_eq_dec Z.eq_dec TOKEN_NONE TOKEN_NONE) as [_|Hne]; [|destruct (Hne eq_refl)];
                   apply bind_ok in H as [[nt rnd'] [_ H]]|];
      apply tick_action_shape in H as [He [Hw _]]; split; assumption. }
  destruct Hq as [He Hw]. repeat split; try assumption.
  apply (feed_live _ _ _ _ Hf); [rewrite Hs; discriminate|rewrite He; reflexivity].
Qed.

Lemma new_peer_loop_res fuel : forall ps next,
  (exists pid next', new_peer_loop fuel ps next = Ok (pid, next')) \/ new_peer_loop fuel ps next = OutOfFuel.
Proof.
  induction fuel as [|f IH]; intros ps next; cbn [new_peer_loop]; [right; reflexivity|].
  destruct (get_peer ps next); [apply IH|]. left. eexists _, _. reflexivity.
Qed.

Lemma new_peer_loop_next fuel : forall ps next pid next',
  new_peer_loop fuel ps next = Ok (pid, next') -> 0 <= next' < U32.
Proof.
  induction fuel as [|f IH]; intros ps next pid next'; cbn [new_peer_loop]; [discriminate|].
  destruct (get_peer ps next).
  - apply IH.
  - intros H. injection H as _ <-. apply Z.mod_pos_bound. unfold U32. lia.
Qed.

Lemma new_peer_loop_fail fuel : forall ps next, 0 <= next < U32 ->
  new_peer_loop fuel ps next = OutOfFuel ->
  forall i, (i < fuel)%nat -> In ((next + Z.of_nat i) mod U32) (pids ps).
Proof.
  induction fuel as [|f IH]; intros ps next Hr H i Hi; [lia|].
  cbn [new_peer_loop] in H. destruct (get_peer ps next) as [p|] eqn:Eg; [|discriminate].
  destruct i as [|i].
  - rewrite Z.add_0_r, Z.mod_small by exact Hr.
    apply get_peer_In in Eg. change next with (fst (next, p)). apply in_map, Eg.
  - assert (Hr' : 0 <= (next + 1) mod U32 < U32) by (apply Z.mod_pos_bound; unfold U32; lia).
    specialize (IH ps _ Hr' H i ltac:(lia)).
    replace ((next + Z.of_nat (S i)) mod U32) with (((next + 1) mod U32 + Z.of_nat i) mod U32); [exact IH|].
    rewrite Zplus_mod_idemp_l. f_equal. lia.
Qed.

Lemma NoDup_map_inj_in {A B} (f : A -> B) (l : list A) :
  (forall x y, In x l -> In y l -> f x = f y -> x = y) -> NoDup l -> NoDup (map f l).
Proof.
  induction l as [|x r IH]; intros Hinj Hnd; [constructor|].
  inversion Hnd as [|? ? Hni Hnd']; subst. cbn [map]. constructor.
  - intros Hin. apply in_map_iff in Hin as [y [Hfy Hy]].
    assert (y = x) by (apply Hinj; [right; exact Hy|left; reflexivity|exact Hfy]). subst y. contradiction.
  - apply IH; [|exact Hnd']. intros a b Ha Hb. apply Hinj; right; assumption.
Qed.

(* Peers::new_peer terminates: the loop tries length + 1 ids, distinct as long as there are fewer than 2^32 of them: they cannot
   all be taken *)
Lemma new_peer_loop_ok ps next : 0 <= next < U32 -> Z.of_nat (length ps) < U32 ->
  exists pid next', new_peer_loop (S (length ps)) ps next = Ok (pid, next').
Proof.
  intros Hr Hroom. destruct (new_peer_loop_res (S (length ps)) ps next) as [H|H]; [exact H|exfalso].
  pose proof (new_peer_loop_fail _ ps next Hr H) as Hall.
  set (f := fun i : nat => (next + Z.of_nat i) mod U32).
  assert (Hnd : NoDup (map f (seq 0 (S (length ps))))).
  { apply NoDup_map_inj_in; [|apply seq_NoDup].
    intros x y Hx Hy Hf. apply in_seq in Hx, Hy. unfold f, U32 in *.
    assert (Hx' : 0 <= Z.of_nat x < 4294967296) by lia.
    assert (Hy' : 0 <= Z.of_nat y < 4294967296) by lia.
    apply Nat2Z.inj. revert Hf. generalize (Z.of_nat x) (Z.of_nat y) Hx' Hy'. clear. intros a b Ha Hb Hf.
    pose proof (Z.div_mod (next + a) 4294967296 ltac:(lia)). pose proof (Z.div_mod (next + b) 4294967296 ltac:(lia)).
    pose proof (Z.mod_pos_bound (next + a) 4294967296 ltac:(lia)). lia. }
  assert (Hincl : incl (map f (seq 0 (S (length ps)))) (pids ps)).
  { intros z Hz. apply in_map_iff in Hz as [i [<- Hi]]. apply in_seq in Hi. apply Hall. lia. }
  pose proof (NoDup_incl_length Hnd Hincl) as Hlen.
  rewrite map_length, seq_length in Hlen. unfold pids in Hlen. rewrite map_length in Hlen. lia.
Qed.

Definition peer_ok (p : peer) : Prop := conn_ok6 (p_conn p) /\ c_state (p_conn p) <> Disconnected.
Definition net_ok (n : net) : Prop :=
  tab_ok (n_peers n) /\ Forall (fun x => peer_ok (snd x)) (n_peers n) /\ 0 <= n_next n < U32.

Lemma net_new_ok acc : net_ok (net_new acc).
Proof. split; [split; constructor|]. split; [constructor|unfold U32; cbn; lia]. Qed.

Definition sent_ok (l : list (addr * dgram)) : Prop := Forall (fun x => dgram_ok pp6 (snd x)) l.
Lemma sent_ok_to a ds : Forall (dgram_ok pp6) ds -> sent_ok (to_addr a ds).
Proof. intros H. unfold sent_ok, to_addr. apply Forall_map. exact H. Qed.

Lemma get_peer_ok n pid p : net_ok n -> get_peer (n_peers n) pid = Some p -> peer_ok p.
Proof. intros [_ [Hall _]] Hg. rewrite Forall_forall in Hall. exact (Hall _ (get_peer_In _ _ _ Hg)). Qed.

Lemma store_ok n pid p c : net_ok n -> get_peer (n_peers n) pid = Some p -> conn_ok6 c -> c_state c <> Disconnected ->
  net_ok (with_peers n (set_conn (n_peers n) pid c)).
Proof.
  intros [Hok [Hall Hnx]] Hg Hc Hd. split; [exact (proj1 (upd_set_conn _ pid p c Hok Hg))|]. split; [|exact Hnx].
  destruct (set_conn_perm _ _ _ c Hg) as [rest [P1 P2]]. apply (Permutation_Forall (Permutation_sym P2)).
  pose proof (Permutation_Forall P1 Hall) as H. inversion H; subst. constructor; [split; assumption|assumption].
Qed.

(* the call returns, the invariant holds of the endpoint it leaves, and what it sent is well-formed *)
Definition goes_well (r : res unit nout) : Prop :=
  exists out, r = Ok out /\ net_ok (no_net out) /\ sent_ok (no_sent out).

Lemma well_intro n s evs ws r po : net_ok n -> sent_ok s -> goes_well (Ok (nmk n s evs ws r po)).
Proof. intros Hn Hs. eexists. split; [reflexivity|]. split; assumption. Qed.

Lemma well_drop n pid p s evs ws r po : net_ok n -> get_peer (n_peers n) pid = Some p -> sent_ok s ->
  goes_well (let* n' := remove_peer n pid in Ok (nmk n' s evs ws r po)).
Proof.
  intros [Hok [Hall Hnx]] Hg Hsent. destruct (swap_remove_perm _ pid p Hg) as [ps' [Hs Hp]].
  unfold remove_peer. rewrite Hs. apply well_intro; [|exact Hsent].
  split; [exact (proj1 (upd_remove _ _ _ _ Hok Hg Hs))|]. split; [|exact Hnx].
  pose proof (Permutation_Forall Hp Hall) as H. inversion H; assumption.
Qed.

Lemma arrive_ok n a tok : net_ok n -> room n -> view n a = None ->
  exists n' pid, new_peer n a tok = Ok (n', pid) /\ net_ok n' /\ get_peer (n_peers n') pid = Some (peer_new a tok).
Proof.
  intros [Hok [Hall Hnx]] Hroom Hv. unfold new_peer.
  destruct (new_peer_loop_ok (n_peers n) (n_next n) Hnx Hroom) as [pid [nx' Hl]]. rewrite Hl.
  pose proof (new_peer_loop_vacant _ _ _ _ _ Hl) as Hvac.
  eexists _, _. split; [reflexivity|]. cbn [n_peers]. split; [|rewrite get_peer_app, Hvac, Z.eqb_refl; reflexivity].
  split; [exact (proj1 (upd_new _ pid (peer_new a tok) Hok Hv Hvac))|]. split; [|eapply new_peer_loop_next, Hl].
  apply Forall_app. split; [exact Hall|]. constructor; [|constructor]. split; [exact conn6_new_ok|discriminate].
Qed.

Lemma stateless_ok n a0 known r : net_ok n -> room n -> (known = false -> view n a0 = None) ->
  goes_well (feed_stateless n a0 known r).
Proof.
  intros Hn Hroom Hk. unfold feed_stateless.
  pose proof (fun evs ws => well_intro n [] evs ws ROk None Hn (Forall_nil _)) as Hsame.
  destruct (r None) as [[t1 t2 pl|tok ack [|resp| | |reason|resp]|tok ack rr nc cs]|]; try apply Hsame.
  destruct known; [apply Hsame|]. destruct (n_accept n); [|apply Hsame].
  destruct (arrive_ok n a0 (match tok with Some _ => true | None => false end) Hn Hroom (Hk eq_refl)) as [n' [pid [Hnew [Hn' _]]]].
  rewrite Hnew. apply well_intro; [exact Hn'|constructor].
Qed.

Lemma feed_peer_ok n e a pid p r : net_ok n -> get_peer (n_peers n) pid = Some p -> raw_ok r -> rand_ok e ->
  goes_well (feed_peer n e a pid p r).
Proof.
  intros Hn Hg Hraw Hrand. destruct (get_peer_ok _ _ _ Hn Hg) as [Hc Hd]. unfold feed_peer.
  assert (Hfeed : exists o6, conn_feed_raw (p_conn p) e r = Ok o6 /\ conn_ok6 (out_conn o6) /\ Forall (dgram_ok pp6) (out_sent o6)
                             /\ (existsb is_disconnect (out_events o6) = false -> c_state (out_conn o6) <> Disconnected)).
  { unfold conn_feed_raw. destruct (r (token_hint (p_conn p))) as [dg|] eqn:Er.
    - destruct (step_ok6 (p_conn p) e (OpFeed dg) Hc (conj (Hraw _ _ Er) Hrand)) as [o6 [Hs [Hc6 Hds]]].
      exists o6. repeat split; try assumption. exact (feed_live _ _ _ _ Hs Hd).
    - eexists. split; [reflexivity|]. split; [exact Hc|]. split; [constructor|]. intros _. exact Hd. }
  destruct Hfeed as [o6 [Hf [Hc6 [Hds Hlive]]]]. rewrite Hf. cbn [bind].
  destruct (existsb is_disconnect (out_events o6)).
  - (* the peer closed: dropped, whatever state the connection is in *)
    rewrite remove_stored. apply (well_drop n pid p); [exact Hn|exact Hg|apply sent_ok_to, Hds].
  - apply well_intro; [exact (store_ok n pid p _ Hn Hg Hc6 (Hlive eq_refl))|apply sent_ok_to, Hds].
Qed.

(* send and flush: the connection stays online *)
Lemma peer_call_ok n e pid p o : net_ok n -> get_peer (n_peers n) pid = Some p -> valid_op6 (p_conn p) e o ->
  match o with OpFeed _ | OpDisconnect _ => False | _ => True end ->
  goes_well (peer_call n e pid p o).
Proof.
  intros Hn Hg Hv Ho. destruct (get_peer_ok _ _ _ Hn Hg) as [Hc Hd].
  destruct (step_ok6 _ e o Hc Hv) as [o6 [Hs [Hc6 Hds]]]. unfold peer_call. rewrite Hs.
  apply well_intro; [|apply sent_ok_to, Hds]. apply (store_ok n pid p _ Hn Hg Hc6).
  apply (step_quiet _ _ _ _ Hs); [destruct o; try exact I; contradiction|exact Hd|destruct o; intros r; try discriminate; contradiction].
Qed.

Lemma tick_all_ok e : forall ps, Forall (fun x => peer_ok (snd x)) ps ->
  exists ps' s, tick_all e ps = Ok (ps', s) /\ Forall (fun x => peer_ok (snd x)) ps' /\ sent_ok s.
Proof.
  induction ps as [|[pid p] r IH]; intros Hall.
  - eexists _, _. split; [reflexivity|]. split; constructor.
  - inversion Hall as [|? ? [Hc Hd] Hr]; subst. cbn [snd] in Hc, Hd.
    destruct (step_ok6 (p_conn p) e OpTick Hc I) as [out [Hs [Hc' Hds]]].
    destruct (IH Hr) as [r' [s' [Ht [Hr' Hs']]]].
    cbn [tick_all]. rewrite Hs. cbn [bind]. rewrite Ht.
    eexists _, _. split; [reflexivity|]. split.
    + constructor; [|exact Hr']. split; [exact Hc'|]. apply (proj2 (step_quiet _ _ _ _ Hs I) Hd). discriminate.
    + apply Forall_app. split; [apply sent_ok_to, Hds|exact Hs'].
Qed.

Theorem net_step_ok n e o : net_ok n -> valid_nop n e o ->
  exists out, net_step n e o = Ok out /\ net_ok (no_net out) /\ sent_ok (no_sent out).
Proof.
  intros Hn Hv. pose proof Hn as [Hok [Hall Hnx]]. change (goes_well (net_step n e o)).
  destruct o as [a0 r|a0|pid|pid reason|pid reason|pid|pid d vital|pid|a0 d|]; cbn [valid_nop] in Hv; cbn [net_step].
  - (* feed *)
    destruct Hv as [Hraw [Hrand Hroom]]. unfold net_feed.
    destruct (pid_from_addr (n_peers n) a0) as [[pid p]|] eqn:Ef.
    + destruct (is_unconnected (p_conn p)); [apply stateless_ok; [exact Hn|exact Hroom|discriminate]|].
      destruct (pid_from_addr_get _ _ _ _ (proj1 Hok) Ef) as [Hg _]. apply feed_peer_ok; assumption.
    + apply stateless_ok; [exact Hn|exact Hroom|]. intros _. unfold view, view_tab. rewrite Ef. reflexivity.
  - (* connect *)
    destruct Hv as [Hview Hroom]. destruct (arrive_ok n a0 false Hn Hroom Hview) as [n1 [pid [Hnew [Hn1 Hg1]]]]. rewrite Hnew.
    destruct (step_ok6 conn6_new e OpConnect conn6_new_ok eq_refl) as [o6 [Hs [Hc6 Hds]]]. rewrite Hs.
    apply well_intro; [|apply sent_ok_to, Hds]. apply (store_ok n1 pid _ _ Hn1 Hg1 Hc6).
    apply (proj2 (step_quiet _ _ _ _ Hs I)); discriminate.
  - (* accept *)
    destruct Hv as [p [Hg [Eu Hrand]]]. rewrite Hg, Eu.
    assert (Hst : c_state (p_conn p) = Unconnected) by (unfold is_unconnected in Eu; destruct (c_state (p_conn p)); try discriminate; reflexivity).
    destruct (accept_feed (p_conn p) e (p_token p) Hst Hrand) as [o6 [Hs [He [Hw [Hc6 [Hd6 Hds]]]]]].
    unfold peer_call. rewrite Hs. cbn [negb bind no_warns no_events nmk]. rewrite He, Hw.
    apply well_intro; [apply (store_ok n pid p); assumption|apply sent_ok_to, Hds].
  - (* reject *)
    destruct Hv as [p [Hg [Eu [Hnul Hlen]]]]. rewrite Hg, Eu, Hnul.
    pose proof (control_small None (Close reason) I Hlen) as Hsz.
    replace (MAX_PACKETSIZE <? control_size params6 None (Close reason)) with false by lia.
    apply (well_drop n pid p); [exact Hn|exact Hg|]. constructor; [|constructor].
    split; [exact I|]. split; [unfold SEQ_MOD; lia|]. split; [exact Hsz|]. split; [apply nul_free, Hnul|exact Hlen].
  - (* disconnect: the connection is Disconnected now; the entry is dropped before anybody can look at it *)
    destruct Hv as [p [Hg [Eu [Hnul Hlen]]]]. rewrite Hg, Eu. destruct (get_peer_ok _ _ _ Hn Hg) as [Hc Hd].
    assert (Hvo : valid_op6 (p_conn p) e (OpDisconnect reason)).
    { split; [|split; [exact Hd|split; assumption]]. unfold is_unconnected in Eu. destruct (c_state (p_conn p)); discriminate. }
    destruct (step_ok6 _ e _ Hc Hvo) as [o6 [Hs [_ Hds]]]. unfold peer_call. rewrite Hs. cbn [bind no_net no_sent nmk].
    rewrite remove_stored. apply (well_drop n pid p); [exact Hn|exact Hg|apply sent_ok_to, Hds].
  - (* ignore *)
    destruct Hv as [p Hg]. apply (well_drop n pid p); [exact Hn|exact Hg|constructor].
  - (* send *)
    destruct Hv as [p [on [Hg Hon]]]. rewrite Hg. exact (peer_call_ok n e pid p (OpSend d vital) Hn Hg (ex_intro _ on Hon) I).
  - (* flush *)
    destruct Hv as [p [on [Hg Hon]]]. rewrite Hg. exact (peer_call_ok n e pid p OpFlush Hn Hg (ex_intro _ on Hon) I).
  - (* send_connless *)
    destruct (MAX_PAYLOAD <? Z.of_nat (length d)) eqn:El; (apply well_intro; [exact Hn|]); [constructor|].
    constructor; [|constructor]. cbn [snd]. unfold dgram_ok. lia.
  - (* tick *)
    destruct (tick_all_ok e _ Hall) as [ps' [s [Ht [Hall' Hs]]]]. rewrite Ht.
    apply well_intro; [|exact Hs].
    split; [exact (tick_all_tab_ok _ _ _ _ Ht Hok)|]. split; [exact Hall'|exact Hnx].
Qed.

Theorem run_net_ok tr : forall n now, net_ok n -> valid_net_api n now tr ->
  exists n' now' recs, run_net n now tr = Ok (n', now', recs) /\ net_ok n' /\
    Forall (fun r => match nr_out r with Some out => sent_ok (no_sent out) | None => True end) recs.
Proof.
  induction tr as [|l tr IH]; intros n now Hn Hv.
  - eexists _, _, _. split; [reflexivity|]. split; [exact Hn|constructor].
  - destruct l as [dt|rnd o]; cbn [run_net valid_net_api] in *.
    + destruct (IH _ _ Hn Hv) as [n' [now' [recs [Hr [Hn' Hs]]]]]. rewrite Hr.
      eexists _, _, _. split; [reflexivity|]. split; [exact Hn'|]. constructor; [exact I|exact Hs].
    + destruct Hv as [Hvo Hvr]. destruct (net_step_ok n (mkenv now rnd) o Hn Hvo) as [out [Hs [Hn1 Hso]]].
      rewrite Hs in *. destruct (IH _ _ Hn1 Hvr) as [n' [now' [recs [Hr [Hn' Hsr]]]]]. rewrite Hr.
      eexists _, _, _. split; [reflexivity|]. split; [exact Hn'|]. constructor; [exact Hso|exact Hsr].
Qed.

Definition is_connect (r : raw) : option bool :=        (* Some (token support announced?) *)
  match r None with
  | Some (DControl tok _ (Connect _)) => Some (match tok with Some _ => true | None => false end)
  | _ => None
  end.

(* Net::feed_impl without a connection to hand the datagram to: a Connect that is news to an
   accepting endpoint brings a pending peer, a connless packet is reported, the rest is dropped *)
Lemma feed_stateless_inv n a known r out : feed_stateless n a known r = Ok out ->
  match is_connect r, negb known && n_accept n with
  | Some tok, true =>
    exists n' pid, new_peer n a tok = Ok (n', pid) /\
      out = nmk n' [] [{| ne_addr := a; ne_pid := Some pid; ne_kind := NKConnect |}] [] ROk None
  | _, _ =>
    no_net out = n /\ no_sent out = [] /\
    forall ev, In ev (no_events out) -> exists payload, ev = {| ne_addr := a; ne_pid := None; ne_kind := NKConn (EvConnless payload) |}
  end.
Proof.
  unfold feed_stateless, is_connect.
  assert (Hq : forall ws, no_net (nmk n [] [] ws ROk None) = n /\ no_sent (nmk n [] [] ws ROk None) = [] /\
            forall ev, In ev [] -> exists payload, ev = {| ne_addr := a; ne_pid := None; ne_kind := NKConn (EvConnless payload) |})
    by (repeat split; intros ev []).
  destruct (r None) as [[t1 t2 pl|tok ack [|resp| | |reason|resp]|tok ack rr nc cs]|];
    try (intros H; injection H as <-; apply Hq).
  - intros H. injection H as <-. repeat split. intros ev [<-|[]]. eexists; reflexivity.
  - destruct known, (n_accept n); cbn [negb andb]; try (intros H; injection H as <-; destruct tok; apply Hq).
    intros H. apply bind_ok in H as [[n' pid] [En H]]. injection H as <-. exists n', pid. split; [exact En|reflexivity].
Qed.

Theorem unknown_addr n e a r out : view n a = None -> net_step n e (NFeed a r) = Ok out ->
  match is_connect r, n_accept n with
  | Some tok, true =>
    (* exactly one new peer: pending (its connection is untouched), under an unused pid, announced once *)
    exists pid, get_peer (n_peers n) pid = None /\
      n_peers (no_net out) = n_peers n ++ [(pid, peer_new a tok)] /\
      no_events out = [{| ne_addr := a; ne_pid := Some pid; ne_kind := NKConnect |}] /\ no_sent out = []
  | _, _ =>
    n_peers (no_net out) = n_peers n /\ no_sent out = [] /\
    forall ev, In ev (no_events out) -> exists payload, ev = {| ne_addr := a; ne_pid := None; ne_kind := NKConn (EvConnless payload) |}
  end.
Proof.
  intros Hv H. cbn [net_step] in H. unfold net_feed in H. unfold view, view_tab in Hv.
  destruct (pid_from_addr (n_peers n) a) as [[q p]|]; [discriminate|].
  apply feed_stateless_inv in H. cbn [negb andb] in H.
  destruct (is_connect r) as [tok|], (n_accept n); try (destruct H as [-> H]; split; [reflexivity|exact H]).
  destruct H as [n' [pid [En ->]]]. destruct (new_peer_inv _ _ _ _ _ En) as [Hg [Hps _]]. exists pid. repeat split; assumption.
Qed.

Theorem needs_tick_min ps : NoDup (addrs ps) ->
  table_needs_tick ps = fold_right tmin None (map (fun a => slot_tick (view_tab ps a)) (addrs ps)).
Proof.
  induction ps as [|[pid p] r IH]; intros Hnd; [reflexivity|].
  cbn [addrs map snd] in Hnd. inversion Hnd as [|? ? Hni Hnd']; subst.
  cbn [table_needs_tick addrs map snd fold_right]. rewrite view_tab_head, Z.eqb_refl, (IH Hnd'). f_equal. f_equal.
  apply map_ext_in. intros a Ha. rewrite view_tab_head. destruct (p_addr p =? a) eqn:E; [|reflexivity].
  apply Z.eqb_eq in E. subst a. contradiction.
Qed.
