(* The 0.6 reader applied to what the writer produces, when the reader is NOT told whether the
   packet carries a DDNet token (token hint None: Connection::feed in the states Unconnected,
   Connecting, Disconnected): has_token_heuristic recognises the token of every packet the
   connection layer emits with one, and a connectionless packet is read without looking at the
   hint at all. So the hint-less read of such a packet equals the read that is told the truth
   (Proofs/Packet6Read.v). The Huffman coder is a Section parameter as there. *)
From LibTw2 Require Import Base.Res Base.Bits Model.PacketTypes Model.PacketBase Gen.Consts6 Gen.Bits6
  Model.Packet6 Proofs.PktBits6 Proofs.Packet6Write Proofs.Packet6Read Proofs.Packet6Chunks.
From Coq Require Import ZArith Lia Bool List.
Open Scope Z_scope.

(* only read_payload6 looks at the hint *)
Lemma read6_stage decomp bs cap :
  (exists r, forall hint, read6 decomp bs hint cap = r) \/
  (exists ws h sl, forall hint, read6 decomp bs hint cap = read_payload6 ws h hint sl).
Proof.
  unfold read6, read_impl6. destruct (_ <? _); [left; eexists; reflexivity|].
  destruct (_ >? _); [left; eexists; reflexivity|].
  destruct (header_of6 bs) as [[[h ws] payload]|]; [|left; eexists; reflexivity].
  destruct (land_ne0 _ _); [left; eexists; reflexivity|].
  destruct (payload_slice6 _ _ _ _ _); [right; eexists _, _, _; reflexivity|left; eexists; reflexivity..].
Qed.

(* the heuristic's answer is all the hint-less reader needs *)
Lemma read_payload6_heur ws h sl b :
  has_token_heuristic6 (land_ne0 (ph6_flags h) PACKETFLAG_CONTROL) (ph6_num_chunks h) (s_data sl) = Ok b ->
  read_payload6 ws h None sl = read_payload6 ws h (Some b) sl.
Proof. intros H. unfold read_payload6. rewrite H. reflexivity. Qed.

Lemma read_control6_control ws h tok ack sl ws' p vs :
  read_control6 ws h tok ack sl = (ws', Ok (p, vs)) -> exists c, p = P6Connected ack tok (P6Control c).
Proof.
  unfold read_control6. destruct (s_data sl) as [|ctl rest]; [discriminate|]. cbv zeta.
  destruct (ctl =? CTRLMSG_KEEPALIVE), (ctl =? CTRLMSG_CONNECT), (ctl =? CTRLMSG_CONNECTACCEPT),
    (ctl =? CTRLMSG_ACCEPT), (ctl =? CTRLMSG_CLOSE); intros H; try discriminate H;
    injection H as _ <- _; eexists; reflexivity.
Qed.

(* what the reader, told whether there is a token, returned shows what it was looking at: it never
   returns a connectionless packet, and a chunk payload and token are the split of the data *)
Lemma read_payload6_told ws h b sl ws' p vs :
  read_payload6 ws h (Some b) sl = (ws', Ok (p, vs)) ->
  match p with
  | P6Connless _ => False
  | P6Connected _ _ (P6Control _) => True
  | P6Connected _ tok (P6Chunks _ nc payload) =>
    land_ne0 (ph6_flags h) PACKETFLAG_CONTROL = false /\ ph6_num_chunks h = nc /\
    s_data sl = payload ++ opt_bytes tok
  end.
Proof.
  unfold read_payload6. destruct (_ >? _); [discriminate|]. destruct (b && _); [discriminate|].
  destruct (land_ne0 (ph6_flags h) PACKETFLAG_CONTROL).
  - intros H. apply read_control6_control in H as [c ->]. exact I.
  - intros H. injection H as _ <- _. split; [reflexivity|]. split; [reflexivity|].
    destruct b; cbn [opt_bytes s_data slice_take]; [symmetry; apply firstn_skipn|symmetry; apply app_nil_r].
Qed.

Lemma read6_plain decomp h body hint cap :
  ph6_in_range h = true -> land_ne0 (ph6_flags h) PACKETFLAG_CONNLESS = false ->
  land_ne0 (ph6_flags h) PACKETFLAG_COMPRESSION = false ->
  (1400 <= cap)%nat -> (length (hdr_bytes6 h ++ body) <= 1400)%nat ->
  read6 decomp (hdr_bytes6 h ++ body) hint cap
  = read_payload6 [] h hint {| s_src := Input; s_off := Z.to_nat HEADER_SIZE; s_data := body |}.
Proof.
  intros Hr F1 F2 Hcap Hlen. pose proof (hdr_bytes6_ok h Hr) as (hp & _ & Eh & Eu & _).
  unfold read6, read_impl6.
  replace (Z.of_nat cap <? MAX_PACKETSIZE) with false by (symmetry; apply Z.ltb_ge; unfold MAX_PACKETSIZE; lia).
  replace (Z.of_nat (length (hdr_bytes6 h ++ body)) >? MAX_PACKETSIZE) with false
    by (symmetry; rewrite Z.gtb_ltb; apply Z.ltb_ge; unfold MAX_PACKETSIZE; lia).
  rewrite Eh, header_of6_enc, Eu, F1. unfold payload_slice6. rewrite F2. reflexivity.
Qed.

Lemma has_token_control_enc c tk :
  length tk = 4%nat -> match c with C6Close m => has_nul m = false | _ => True end ->
  has_token_heuristic6 true 0 (control_body6 c (Some tk)) = Ok true.
Proof.
  intros Hl Hc. destruct tk as [|t0 [|t1 [|t2 [|t3 [|t4 tk]]]]]; try discriminate Hl.
  destruct c as [| | | |m]; try reflexivity.
  unfold control_body6. cbn [ctrl_magic6 is_connect6 andb is_some opt_bytes app].
  unfold has_token_heuristic6.
  change ((CTRLMSG_CLOSE =? CTRLMSG_CONNECT) || (CTRLMSG_CLOSE =? CTRLMSG_CONNECTACCEPT)) with false.
  change (CTRLMSG_CLOSE =? CTRLMSG_CLOSE) with true. cbv iota.
  rewrite <- app_assoc. cbn [app].
  rewrite find_nul_app_nul by exact Hc.
  rewrite app_length. cbn [length].
  replace (length m + 5 =? 4)%nat with false by (symmetry; apply Nat.eqb_neq; lia).
  cbn [andb]. f_equal. apply Nat.leb_le. change (Z.to_nat TOKEN_SIZE) with 4%nat. rewrite app_length. cbn [length]. lia.
Qed.

(* the heuristic on a chunk packet walks over num_chunks well-formed chunks and finds the token behind them *)
Lemma heur_chunks6_enc : forall cs k it rest, forallb chunk_wf6 cs = true ->
  ci6_data it = flat_map chunk_enc6 cs ++ rest -> (length cs <= k)%nat ->
  i32_min <= ci6_remaining it - Z.of_nat (length cs) ->
  heur_chunks6 k (Z.of_nat (length cs)) it = Ok (Some (ci6_pos it + length (flat_map chunk_enc6 cs))%nat).
Proof.
  induction cs as [|c cs IH]; intros k it rest Hwf Ed Hk Hrem.
  - cbn [length flat_map]. rewrite Nat.add_0_r. destruct k; reflexivity.
  - destruct k as [|k]; [cbn [length] in Hk; lia|].
    cbn [forallb] in Hwf. apply andb_true_iff in Hwf as [Hc Hcs].
    cbn [flat_map] in Ed. rewrite <- app_assoc in Ed. cbn [length] in Hk, Hrem.
    cbn [heur_chunks6].
    replace (Z.of_nat (length (c :: cs)) <=? 0) with false by (symmetry; apply Z.leb_gt; cbn [length]; lia).
    destruct (chunks_next6_enc c (flat_map chunk_enc6 cs ++ rest) it Hc Ed) as [v E]; [lia|].
    rewrite E.
    replace (Z.of_nat (length (c :: cs)) - 1) with (Z.of_nat (length cs)) by (cbn [length]; lia).
    rewrite (IH k _ rest Hcs); cbn [ci6_data ci6_pos ci6_remaining]; try reflexivity; try lia.
    cbn [flat_map]. rewrite app_length. f_equal. f_equal. lia.
Qed.

Lemma has_token_chunks_enc cs tk :
  forallb chunk_wf6 cs = true -> length tk = 4%nat ->
  has_token_heuristic6 false (Z.of_nat (length cs)) (flat_map chunk_enc6 cs ++ tk) = Ok true.
Proof.
  intros Hwf Hl. unfold has_token_heuristic6.
  rewrite (heur_chunks6_enc cs _ _ tk Hwf).
  - cbn [chunks_new6 ci6_pos Nat.add]. f_equal. apply Nat.leb_le.
    change (Z.to_nat TOKEN_SIZE) with 4%nat. rewrite app_length. lia.
  - reflexivity.
  - rewrite Nat.div2_div. apply Nat.le_le_succ_r, Nat.div_le_lower_bound; [lia|].
    rewrite app_length. pose proof (flat_enc6_len cs Hwf). lia.
  - cbn [chunks_new6 ci6_remaining]. unfold i32_min. lia.
Qed.

Section Hint.
Variables comp decomp : HuffC.
Hypothesis huff_rt : forall x c y, bytes_ok x = true -> comp x c = Some y ->
  forall c', (length x <= c')%nat -> decomp y c' = Some x.

(* the packets for which the hint-less reader is shown to find the truth: connectionless ones, and
   connected ones WITH a token whose chunk payload is `num_chunks` chunks written by write_chunk
   (what PacketContents holds) *)
Definition hintless_ok6 (p : packet6) : Prop :=
  match p with
  | P6Connless _ => True
  | P6Connected _ tok ty =>
    tok <> None /\
    match ty with
    | P6Chunks _ nc payload =>
      exists cs, forallb chunk_wf6 cs = true /\ payload = flat_map chunk_enc6 cs /\ nc = Z.of_nat (length cs)
    | P6Control _ => True
    end
  end.

(* Every hint a tokened endpoint can pass (None, or Some true) reads such a packet like the true
   one. Control packets are never compressed, so the reader sees the writer's control body; for a
   chunk packet, compressed or not, what the told reader returned shows what the heuristic saw. *)
Theorem read_encoding6_hint p cap hint :
  expressible6 p = true -> packet_bytes_ok6 p = true -> (1400 <= cap)%nat -> hintless_ok6 p ->
  hint <> Some false ->
  read6 decomp (encoding6 comp p) hint cap = read6 decomp (encoding6 comp p) (true_hint6 p) cap.
Proof.
  intros Hx Hbok Hcap Hh Hhint.
  pose proof (read_encoding6 comp decomp huff_rt p cap Hx Hbok Hcap) as Hrd.
  pose proof (read6_stage decomp (encoding6 comp p) cap) as [[r Hr]|(ws & h & sl & Hs)];
    [rewrite !Hr; reflexivity|].
  rewrite Hs in Hrd. destruct p as [payload|ack tok ty].
  - apply read_payload6_told in Hrd. contradiction.
  - destruct Hh as [Htk Hty]. destruct tok as [tk|]; [|contradiction Htk; reflexivity].
    destruct hint as [[|]|]; [reflexivity|contradiction Hhint; reflexivity|]. cbn [true_hint6].
    pose proof (write6_ok comp _ cap Hx eq_refl Hcap) as [_ Hlen].
    cbn [expressible6] in Hx. apply andb_true_iff in Hx as [Hhd Hxty].
    apply andb_true_iff in Hhd as [Hack Hl]. apply Nat.eqb_eq in Hl.
    destruct ty as [resend nc payload|c].
    + destruct Hty as (cs & Hwf & -> & ->). rewrite !Hs. apply read_payload6_heur.
      apply read_payload6_told in Hrd as (-> & -> & ->). cbn [opt_bytes].
      apply has_token_chunks_enc; [exact Hwf|exact Hl].
    + assert (Hr : ph6_in_range {| ph6_flags := PACKETFLAG_CONTROL; ph6_ack := ack; ph6_num_chunks := 0 |} = true).
      { unfold ph6_in_range, byteb, PACKETFLAG_CONTROL. cbn [ph6_flags ph6_ack ph6_num_chunks]. lia. }
      cbn [encoding6] in Hlen |- *. rewrite !(read6_plain decomp _ _ _ cap Hr eq_refl eq_refl Hcap Hlen).
      apply read_payload6_heur. cbn [ph6_flags ph6_num_chunks s_data].
      change (land_ne0 PACKETFLAG_CONTROL PACKETFLAG_CONTROL) with true.
      apply has_token_control_enc; [exact Hl|].
      destruct c as [| | | |m]; try exact I. apply andb_true_iff in Hxty as [Hn _]. apply negb_true_iff, Hn.
Qed.

End Hint.
