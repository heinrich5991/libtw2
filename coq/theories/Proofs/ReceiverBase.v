(* Basic facts about the pieces of Model/Receiver.v: lengths and slices in Z,
   wrap32, the part map, strictly ascending key lists. *)
From LibTw2 Require Import Base.Res Model.Receiver.
From Coq Require Import ZArith Lia Bool List ZifyBool ZifyNat.
Open Scope Z_scope.

Lemma lenZ_acc_spec v : forall acc, lenZ_acc v acc = acc + Z.of_nat (length v).
Proof.
  assert (H : forall n v, (length v <= n)%nat -> forall acc, lenZ_acc v acc = acc + Z.of_nat (length v)).
  { induction n as [|n IH]; intros w Hw acc.
    - destruct w; [cbn; lia|cbn [length] in Hw; lia].
    - destruct w as [|x0 [|x1 [|x2 [|x3 [|x4 [|x5 [|x6 [|x7 w]]]]]]]];
        cbn [lenZ_acc length]; try lia;
        try (rewrite IH by (cbn [length] in *; lia); cbn [length]; lia). }
  apply (H (length v)). lia.
Qed.

Lemma lenZ_spec v : lenZ v = Z.of_nat (length v).
Proof. unfold lenZ. rewrite lenZ_acc_spec. lia. Qed.

Lemma lenZ_nonneg v : 0 <= lenZ v.
Proof. rewrite lenZ_spec. lia. Qed.

Lemma lenZ_app a b : lenZ (a ++ b) = lenZ a + lenZ b.
Proof. rewrite !lenZ_spec, app_length. lia. Qed.

Lemma lenZ_nil : lenZ [] = 0.
Proof. reflexivity. Qed.

Lemma skipn_tl {A} n (v : list A) : tl (skipn n v) = skipn (S n) v.
Proof.
  revert v. induction n as [|n IH]; intros v.
  - destruct v; reflexivity.
  - destruct v as [|x v]; [reflexivity|]. cbn [skipn] in *. apply IH.
Qed.

Lemma skipn_skipn {A} a b (v : list A) : skipn a (skipn b v) = skipn (a + b) v.
Proof.
  revert v. induction b as [|b IH]; intros v.
  - rewrite Nat.add_0_r. reflexivity.
  - rewrite Nat.add_succ_r. destruct v as [|x v]; [rewrite !skipn_nil; reflexivity|].
    cbn [skipn]. apply IH.
Qed.

Lemma skip_pos_spec p : forall v, skip_pos p v = skipn (Pos.to_nat p) v.
Proof.
  induction p as [p IH|p IH|]; intros v; cbn [skip_pos].
  - rewrite !IH, skipn_skipn, skipn_tl. f_equal; try lia.
  - rewrite !IH, skipn_skipn. f_equal; try lia.
  - destruct v; reflexivity.
Qed.

Lemma skipZ_spec n v : 0 <= n -> skipZ n v = skipn (Z.to_nat n) v.
Proof.
  intros Hn. destruct n as [|p|p]; cbn [skipZ].
  - reflexivity.
  - rewrite skip_pos_spec. f_equal; try lia.
  - lia.
Qed.

Definition sub_list (v : bytes) (st en : Z) : bytes :=
  firstn (Z.to_nat (en - st)) (skipn (Z.to_nat st) v).

Lemma slice_spec v st en : 0 <= st -> st <= en -> en <= lenZ v ->
  slice v (lenZ v) st en = Some (sub_list v st en).
Proof.
  intros H0 H1 H2. unfold slice, sub_list.
  replace (0 <=? st) with true by lia. replace (st <=? en) with true by lia.
  replace (en <=? lenZ v) with true by lia. cbn [andb].
  rewrite skipZ_spec by lia. reflexivity.
Qed.

Lemma slice_none_iff v st en : slice v (lenZ v) st en = None <-> ~ (0 <= st /\ st <= en /\ en <= lenZ v).
Proof.
  unfold slice.
  destruct (0 <=? st) eqn:E0, (st <=? en) eqn:E1, (en <=? lenZ v) eqn:E2; cbn [andb];
    split; intros H; try discriminate; try lia; try reflexivity.
Qed.

Lemma sub_list_app_l a b st en : 0 <= st -> st <= en -> en <= lenZ a ->
  sub_list (a ++ b) st en = sub_list a st en.
Proof.
  intros H0 H1 H2. unfold sub_list. rewrite lenZ_spec in H2.
  rewrite skipn_app. rewrite firstn_app.
  replace (Z.to_nat (en - st) - length (skipn (Z.to_nat st) a))%nat with 0%nat
    by (rewrite skipn_length; lia).
  cbn [firstn]. apply app_nil_r.
Qed.

Lemma sub_list_app_r a b : sub_list (a ++ b) (lenZ a) (lenZ a + lenZ b) = b.
Proof.
  unfold sub_list. rewrite !lenZ_spec.
  replace (Z.of_nat (length a) + Z.of_nat (length b) - Z.of_nat (length a)) with (Z.of_nat (length b)) by lia.
  rewrite !Nat2Z.id. rewrite skipn_app, skipn_all, Nat.sub_diag. cbn [skipn app].
  apply firstn_all.
Qed.

Lemma wrap32_range z : is_i32 (wrap32 z) = true.
Proof. unfold wrap32, is_i32, i32_min, i32_max. Z.div_mod_to_equations. lia. Qed.

Lemma wrap32_id z : is_i32 z = true -> wrap32 z = z.
Proof. unfold wrap32, is_i32, i32_min, i32_max. intros H. Z.div_mod_to_equations. lia. Qed.

(* the receiver's tick.wrapping_sub(delta_tick) undoes the sender's tick.wrapping_sub(base) *)
Lemma wrap32_sub_sub t b : is_i32 b = true -> wrap32 (t - wrap32 (t - b)) = b.
Proof. unfold wrap32, is_i32, i32_min, i32_max. intros H. Z.div_mod_to_equations. lia. Qed.

Definition keys (m : pmap) : list Z := map fst m.

Fixpoint ascending (l : list Z) : bool :=
  match l with
  | [] => true
  | k :: l' => match l' with [] => true | k' :: _ => (k <? k') && ascending l' end
  end.

Lemma ascending_cons k l : ascending (k :: l) = true <-> (forall x, In x l -> k < x) /\ ascending l = true.
Proof.
  revert k. induction l as [|k' l IH]; intros k.
  - cbn. split; [intros _; split; [intros x []|reflexivity]|reflexivity].
  - change (ascending (k :: k' :: l)) with ((k <? k') && ascending (k' :: l)).
    rewrite andb_true_iff, Z.ltb_lt. split.
    + intros [Hk Ha]. split; [|exact Ha]. intros x [<-|Hx]; [exact Hk|].
      apply IH in Ha. destruct Ha as [Hall _]. specialize (Hall x Hx). lia.
    + intros [Hall Ha]. split; [apply Hall; left; reflexivity|exact Ha].
Qed.

Lemma pm_contains_In k m : pm_contains k m = true <-> In k (keys m).
Proof.
  unfold pm_contains, keys. rewrite existsb_exists, in_map_iff. split.
  - intros [e [Hin He]]. exists e. split; [lia|exact Hin].
  - intros [e [He Hin]]. exists e. split; [exact Hin|lia].
Qed.

Lemma pm_contains_false k m : pm_contains k m = false <-> ~ In k (keys m).
Proof.
  rewrite <- pm_contains_In. destruct (pm_contains k m); split; intros H.
  - discriminate.
  - exfalso. apply H. reflexivity.
  - intros Hc. discriminate.
  - reflexivity.
Qed.

Lemma pm_insert_new k v m : ~ In k (keys m) ->
  exists m', pm_insert k v m = (m', None)
    /\ length m' = S (length m)
    /\ (forall e, In e m' <-> e = (k, v) \/ In e m)
    /\ (ascending (keys m) = true -> ascending (keys m') = true).
Proof.
  induction m as [|[k' v'] m IH]; intros Hnin.
  - exists [(k, v)]. cbn. split; [reflexivity|]. split; [reflexivity|]. split; [|reflexivity].
    intros e. split; [intros [<-|[]]; left; reflexivity|intros [->|[]]; left; reflexivity].
  - cbn [keys map fst In] in Hnin. cbn [pm_insert].
    destruct (k <? k') eqn:Elt.
    + exists ((k, v) :: (k', v') :: m). split; [reflexivity|]. split; [reflexivity|]. split.
      * intros e. cbn [In]. split; intros [H|H]; auto.
      * intros Ha. change (keys ((k, v) :: (k', v') :: m)) with (k :: keys ((k', v') :: m)).
        apply ascending_cons. split; [|exact Ha].
        intros x Hx. cbn [keys map fst] in Hx, Ha. destruct Hx as [<-|Hx]; [lia|].
        apply ascending_cons in Ha. destruct Ha as [Hall _]. specialize (Hall x Hx). lia.
    + destruct (k =? k') eqn:Eeq; [exfalso; apply Hnin; left; lia|].
      destruct IH as [m' [Hins [Hlen [Hin Hasc]]]]; [intros H; apply Hnin; right; exact H|].
      rewrite Hins. exists ((k', v') :: m'). split; [reflexivity|]. split; [cbn [length]; lia|]. split.
      * intros e. cbn [In]. rewrite Hin. tauto.
      * intros Ha. change (keys ((k', v') :: m')) with (k' :: keys m').
        change (keys ((k', v') :: m)) with (k' :: keys m) in Ha.
        apply ascending_cons in Ha. destruct Ha as [Hall Ha]. apply ascending_cons. split; [|apply Hasc, Ha].
        intros x Hx. unfold keys in Hx. apply in_map_iff in Hx. destruct Hx as [e [<- He]].
        apply Hin in He. destruct He as [->|He]; [cbn [fst]; lia|].
        apply Hall. unfold keys. apply in_map. exact He.
Qed.

Lemma keys_insert_In k v m m' o x : pm_insert k v m = (m', o) -> In x (keys m') <-> x = k \/ In x (keys m).
Proof.
  revert m' o. induction m as [|[k' v'] m IH]; intros m' o H; cbn [pm_insert] in H.
  - injection H as <- <-. cbn. intuition.
  - destruct (k <? k').
    + injection H as <- <-. cbn [keys map fst In]. intuition.
    + destruct (k =? k') eqn:E.
      * injection H as <- <-. cbn [keys map fst In]. apply Z.eqb_eq in E. subst. intuition.
      * destruct (pm_insert k v m) as [m'' o'] eqn:E2. injection H as <- <-.
        cbn [keys map fst In]. specialize (IH m'' o' eq_refl). unfold keys in IH. rewrite IH. intuition.
Qed.

Fixpoint zseq (lo : Z) (n : nat) : list Z :=
  match n with O => [] | S n' => lo :: zseq (lo + 1) n' end.

Lemma zseq_length lo n : length (zseq lo n) = n.
Proof. revert lo. induction n; intros; cbn; auto. Qed.

Lemma zseq_In lo n x : In x (zseq lo n) <-> lo <= x < lo + Z.of_nat n.
Proof.
  revert lo. induction n as [|n IH]; intros lo; cbn [zseq In].
  - lia.
  - rewrite IH. lia.
Qed.

Lemma map_nth_seq {A} (d : A) l : map (fun i => nth i l d) (seq 0 (length l)) = l.
Proof.
  apply nth_ext with (d := d) (d' := d); rewrite map_length, seq_length; [reflexivity|]. intros i Hi.
  rewrite nth_indep with (d' := nth 0 l d) by (rewrite map_length, seq_length; exact Hi).
  rewrite (map_nth (fun i => nth i l d)), seq_nth by exact Hi. reflexivity.
Qed.

Lemma zseq_of_nat n : forall a, zseq (Z.of_nat a) n = map Z.of_nat (seq a n).
Proof.
  induction n as [|n IH]; intros a; [reflexivity|]. cbn [zseq seq map]. f_equal.
  rewrite <- IH. f_equal. lia.
Qed.

Lemma map_nth_zseq {A} (d : A) l : map (fun k => nth (Z.to_nat k) l d) (zseq 0 (length l)) = l.
Proof.
  rewrite (zseq_of_nat _ 0), map_map. rewrite <- (map_nth_seq d l) at 2.
  apply map_ext. intros i. rewrite Nat2Z.id. reflexivity.
Qed.

Lemma ascending_full l : forall lo, ascending l = true ->
  (forall x, In x l -> lo <= x < lo + Z.of_nat (length l)) -> l = zseq lo (length l).
Proof.
  induction l as [|h l IH]; intros lo Ha Hr; [reflexivity|].
  apply ascending_cons in Ha. destruct Ha as [Hall Ha].
  assert (Hl : l = zseq (lo + 1) (length l)).
  { apply IH; [exact Ha|]. intros x Hx.
    pose proof (Hall x Hx). pose proof (Hr h (or_introl eq_refl)). pose proof (Hr x (or_intror Hx)).
    cbn [length] in *. lia. }
  cbn [length zseq]. f_equal; [|exact Hl].
  pose proof (Hr h (or_introl eq_refl)) as Hh. cbn [length] in Hh.
  destruct l as [|h' l'].
  - cbn [length] in Hh. lia.
  - cbn [length zseq] in Hl. injection Hl as Hh' _.
    pose proof (Hall h' (or_introl eq_refl)). lia.
Qed.

Lemma ascending_length l : forall lo hi, ascending l = true ->
  (forall x, In x l -> lo <= x < hi) -> lo <= hi -> Z.of_nat (length l) <= hi - lo.
Proof.
  induction l as [|h l IH]; intros lo hi Ha Hr Hle; [cbn; lia|].
  apply ascending_cons in Ha. destruct Ha as [Hall Ha].
  pose proof (Hr h (or_introl eq_refl)) as Hh.
  assert (Z.of_nat (length l) <= hi - (h + 1)).
  { apply IH; [exact Ha| |lia]. intros x Hx. pose proof (Hall x Hx). pose proof (Hr x (or_intror Hx)). lia. }
  cbn [length]. lia.
Qed.

Lemma ascending_NoDup l : ascending l = true -> NoDup l.
Proof.
  induction l as [|h l IH]; intros Ha; [constructor|].
  apply ascending_cons in Ha. destruct Ha as [Hall Ha]. constructor; [|apply IH, Ha].
  intros Hin. specialize (Hall h Hin). lia.
Qed.

Lemma zseq_NoDup lo n : NoDup (zseq lo n).
Proof.
  revert lo. induction n as [|n IH]; intros lo; cbn [zseq]; constructor; [|apply IH].
  rewrite zseq_In. lia.
Qed.

Lemma covering_length l lo n : (forall x, lo <= x < lo + Z.of_nat n -> In x l) -> (n <= length l)%nat.
Proof.
  intros H. rewrite <- (zseq_length lo n). apply NoDup_incl_length; [apply zseq_NoDup|].
  intros x Hx. apply H. apply zseq_In, Hx.
Qed.
