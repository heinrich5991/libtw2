(* 0.7: the same invariant theorems as Conn6Inv.v for net/src/connection7.rs. *)
From LibTw2 Require Import Base.Res Model.PacketTypes Model.ConnCore Model.Conn7 Proofs.ConnCoreInv Proofs.ConnInert.
From Coq Require Import ZArith Lia Bool List.
Open Scope Z_scope.

Notation pp7 := params7.
Lemma pp7_ok : pp_ok pp7. Proof. right; reflexivity. Qed.

Definition tlen (t : token) : Prop := length t = 4%nat.

Definition conn_ok7 (c : conn7) : Prop :=
  match c7_state c with
  | Unconnected7 | Disconnected7 => True
  | Token7 own => tlen own /\ own <> TOKEN_NONE /\ c7_send c <> None
  | PendingConnect7 own => tlen own /\ own <> TOKEN_NONE
  | Connecting7 own their => tlen own /\ tlen their /\ own <> TOKEN_NONE /\ c7_send c <> None
  | Pending7 own their => tlen own /\ tlen their /\ c7_send c <> None
  | Online7 o => online_ok pp7 o /\ (exists a, o_own o = Some a /\ tlen a) /\
                 (exists b, o_their o = Some b /\ tlen b) /\ c7_send c <> None
  end.

Definition dgram_in_ok7 (d : dgram) : Prop :=
  match d with
  | DConnless _ _ _ => True
  | DControl tok ack c => tok_ok tok /\ 0 <= ack < SEQ_MOD /\
      match c with Connect (Some r) | TokenMsg r => tlen r | _ => True end
  | DChunks tok ack _ _ cs => tok_ok tok /\ 0 <= ack < SEQ_MOD /\ Forall chunk_in_ok cs
  end.

Definition rand_ok7 (e : env) : Prop :=
  Forall tlen (e_rand e) /\ exists t r, token_random7 (e_rand e) = Ok (t, r).

Definition valid_op7 (c : conn7) (e : env) (o : op7) : Prop :=
  match o with
  | Op7Connect => c7_state c = Unconnected7 /\ rand_ok7 e
  | Op7Send _ _ | Op7Flush | Op7SendConnless _ => exists on, c7_state c = Online7 on
  | Op7Disconnect r =>
    c7_state c <> Disconnected7 /\ existsb (fun b => b =? 0) r = false /\ (length r <= 127)%nat
  | Op7Tick | Op7FeedGarbage => True
  | Op7Feed d => dgram_in_ok7 d /\ rand_ok7 e
  | Op7Reset => c7_state c = Disconnected7
  end.

Lemma token_random7_spec rnd t r : Forall tlen rnd -> token_random7 rnd = Ok (t, r) ->
  tlen t /\ t <> TOKEN_NONE /\ Forall tlen r.
Proof.
  induction rnd as [|x rnd IH]; cbn [token_random7]; intros Hall H; [discriminate|].
  inversion Hall; subst. destruct (tokb x TOKEN_NONE) eqn:E; [apply IH; assumption|].
  injection H as <- <-. repeat split; try assumption. apply tokb_false, E.
Qed.

Lemma control_small7 tok c :
  match c with Close r => (length r <= 127)%nat | _ => True end ->
  control_size pp7 tok c <= MAX_PACKETSIZE.
Proof.
  intros Hc. unfold control_size, pp7, params7, MAX_PACKETSIZE. cbn [p_v7].
  destruct c; try lia. destruct tok as [t|]; [|lia]. destruct (list_eq_dec Z.eq_dec t TOKEN_NONE); lia.
Qed.

Definition some_tlen (t : option token) : Prop := exists a, t = Some a /\ tlen a.

(* the part of conn_ok7 that does not concern the send timer *)
Definition state_ok7 (st : state7) : Prop :=
  match st with
  | Token7 own => tlen own /\ own <> TOKEN_NONE
  | PendingConnect7 own => tlen own /\ own <> TOKEN_NONE
  | Connecting7 own their => tlen own /\ tlen their /\ own <> TOKEN_NONE
  | Pending7 own their => tlen own /\ tlen their
  | Online7 o => online_ok pp7 o /\ some_tlen (o_own o) /\ some_tlen (o_their o)
  | _ => True
  end.

Lemma conn_ok7_state c : conn_ok7 c -> state_ok7 (c7_state c).
Proof. unfold conn_ok7, state_ok7. destruct (c7_state c); tauto. Qed.

Lemma state_ok7_conn c : state_ok7 (c7_state c) ->
  (match c7_state c with
   | Token7 _ | Connecting7 _ _ | Pending7 _ _ | Online7 _ => c7_send c <> None
   | _ => True end) -> conn_ok7 c.
Proof. unfold state_ok7, conn_ok7. destruct (c7_state c); tauto. Qed.

Lemma conn_ok7_send c : conn_ok7 c ->
  match c7_state c with
  | Token7 _ | Connecting7 _ _ | Pending7 _ _ | Online7 _ => c7_send c <> None
  | _ => True end.
Proof. unfold conn_ok7. destruct (c7_state c); tauto. Qed.

Lemma some_tlen_ok t : some_tlen t -> tok_ok t.
Proof. intros [a [-> H]]. exact H. Qed.

Lemma state_ok7_online o o' : state_ok7 (Online7 o) -> online_ok pp7 o' ->
  o_own o' = o_own o -> o_their o' = o_their o -> state_ok7 (Online7 o').
Proof. intros [_ [H1 H2]] Hok E1 E2. cbn. rewrite E1, E2. tauto. Qed.

Lemma state_ok7_acked o ack : state_ok7 (Online7 o) -> state_ok7 (Online7 (ack_chunks o ack)).
Proof.
  intros H. destruct (ack_chunks_toks o ack) as [E1 E2].
  apply (state_ok7_online o); [exact H|apply ack_chunks_ok, H|exact E1|exact E2].
Qed.

Lemma state_ok7_new own their : tlen own -> tlen their -> state_ok7 (Online7 (online_new (Some own) (Some their))).
Proof. intros H1 H2. split; [apply online_new_ok, pp7_ok|]. split; eexists; (split; [reflexivity|assumption]). Qed.

(* what dgram_ok does not record about the datagrams connection7.rs emits: every datagram carries a
   4-byte token (a connectionless one carries two), and the response token of a Connect / Token
   control message is a 4-byte token other than TOKEN_NONE (the model of send_control panics
   otherwise, as ControlPacket::write asserts) *)
Definition emit_wf7 (d : dgram) : Prop :=
  match d with
  | DConnless tok resp _ => some_tlen tok /\ some_tlen resp
  | DControl tok _ c =>
    some_tlen tok /\
    match c with
    | Connect (Some r) | TokenMsg r => tlen r /\ r <> TOKEN_NONE
    | Connect None | ConnectAccept => False          (* not 0.7 messages *)
    | _ => True
    end
  | DChunks tok _ _ _ _ => some_tlen tok
  end.

Definition sent_ok7 (ds : list dgram) : Prop := Forall (dgram_ok pp7) ds /\ Forall emit_wf7 ds.

Definition ok_out7 (r : res unit outcome7) : Prop :=
  exists out, r = Ok out /\ conn_ok7 (out7_conn out) /\ sent_ok7 (out7_sent out).

Lemma ok_mk7 c e ds evs ws r : conn_ok7 c -> sent_ok7 ds -> ok_out7 (Ok (mk7 c e ds evs ws r)).
Proof. intros H1 H2. eexists. split; [reflexivity|]. split; assumption. Qed.

Lemma sent_nil : sent_ok7 [].
Proof. split; constructor. Qed.

Lemma sent_chunks o ds : state_ok7 (Online7 o) -> Forall (dgram_ok pp7) ds -> Forall (chunks_tok (o_their o)) ds ->
  sent_ok7 ds.
Proof.
  intros [_ [_ Ht]] Hds H. split; [exact Hds|]. eapply Forall_impl; [|exact H]. intros d Hd.
  destruct d; cbn [chunks_tok] in Hd; try contradiction. subst. exact Ht.
Qed.

Lemma send_control_with7_ok st c tok :
  tlen tok ->
  match st with Online7 o => online_ok pp7 o | _ => True end ->
  match c with
  | Close r => (length r <= 127)%nat /\ existsb (fun b => b =? 0) r = false
  | Connect (Some r) | TokenMsg r => tlen r /\ r <> TOKEN_NONE
  | Connect None | ConnectAccept => False
  | _ => True
  end ->
  exists ds, send_control_with7 st c tok = Ok ds /\ sent_ok7 ds.
Proof.
  intros Htl Hst Hc. unfold send_control_with7.
  assert (Hbad : match c with Connect (Some r) | TokenMsg r => tokb r TOKEN_NONE | _ => false end = false).
  { destruct c as [|[r|]| | |r|r]; try reflexivity; apply tokb_false, Hc. }
  rewrite Hbad.
  assert (Hsz : control_size pp7 (Some tok) c <= MAX_PACKETSIZE).
  { apply control_small7. destruct c; try exact I. apply Hc. }
  replace (MAX_PACKETSIZE <? control_size pp7 (Some tok) c) with false by lia.
  eexists. split; [reflexivity|]. split; (constructor; [|constructor]).
  - apply control_dgram_ok; [exact Htl| |exact Hsz|destruct c as [|[r|]| | |r|r]; try exact I; exact Hc].
    destruct st; try (unfold SEQ_MOD; lia). exact (online_ok_ack _ _ Hst).
  - split; [eexists; split; [reflexivity|exact Htl]|]. destruct c as [|[r|]| | |r|r]; try exact I; exact Hc.
Qed.

(* the token send_control7 puts on the datagram *)
Lemma state_their_tlen st : state_ok7 st -> tlen (match their_token st with Some t => t | None => TOKEN_NONE end).
Proof.
  unfold state_ok7. destruct st as [|own|own|own their|own their|o|]; cbn [their_token]; try reflexivity; try tauto.
  intros [_ [_ [b [-> Hb]]]]. exact Hb.
Qed.

Lemma send_control7_ok st c : state_ok7 st ->
  match c with
  | Close r => (length r <= 127)%nat /\ existsb (fun b => b =? 0) r = false
  | Connect (Some r) | TokenMsg r => tlen r /\ r <> TOKEN_NONE
  | Connect None | ConnectAccept => False
  | _ => True
  end ->
  exists ds, send_control7 st c = Ok ds /\ sent_ok7 ds.
Proof.
  intros Hst Hc. apply send_control_with7_ok; [apply state_their_tlen, Hst| |exact Hc].
  destruct st; try exact I. apply Hst.
Qed.

Lemma tick_action7_ok c e : state_ok7 (c7_state c) -> ok_out7 (tick_action7 c e).
Proof.
  intros Hst. unfold tick_action7.
  assert (Hctl : forall ctl, match ctl with
                             | Connect (Some r) | TokenMsg r => tlen r /\ r <> TOKEN_NONE
                             | Close _ | Connect None | ConnectAccept => False
                             | _ => True end ->
            ok_out7 (let* d := send_control7 (c7_state c) ctl in Ok (mk7 (set_send7 c (Some (e_now e + ms 500))) e d [] [] R7Ok))).
  { intros ctl Hctl. destruct (send_control7_ok (c7_state c) ctl Hst) as [ds [Hs Hds]]; [destruct ctl as [|[r|]| | | |]; tauto|].
    rewrite Hs. apply ok_mk7; [|exact Hds]. apply state_ok7_conn; [exact Hst|]. cbn. destruct (c7_state c); try exact I; discriminate. }
  assert (Hnop : match c7_state c with Unconnected7 | PendingConnect7 _ | Disconnected7 => True | _ => False end ->
            ok_out7 (Ok (mk7 c e [] [] [] R7Ok))).
  { intros H. apply ok_mk7; [|exact sent_nil]. apply state_ok7_conn; [exact Hst|]. destruct (c7_state c); tauto. }
  destruct (c7_state c) as [|own|own|own their|own their|o|]; cbn [state_ok7] in Hst;
    try (apply Hnop; exact I); try (apply Hctl; tauto).
  destruct (can_send o); [|apply Hctl; exact I].
  destruct (online_flush_ok pp7 o pp7_ok (proj1 Hst) (some_tlen_ok _ (proj2 (proj2 Hst)))) as [o' [ds [Hf [Hok' [Hds [Ho [Hth _]]]]]]].
  rewrite Hf. apply ok_mk7; [|apply (sent_chunks o); [exact Hst|exact Hds|eapply online_flush_emit, Hf]].
  apply state_ok7_conn; [|discriminate]. eapply state_ok7_online; eassumption.
Qed.

Lemma do_resend7_ok c e o :
  state_ok7 (Online7 o) -> c7_send c <> None ->
  exists c' ds, do_resend7 c e o = Ok (c', ds) /\ conn_ok7 c' /\
    sent_ok7 ds /\ exists o', c7_state c' = Online7 o'.
Proof.
  intros Hst Hs. unfold do_resend7.
  destruct (online_resend_ok pp7 (e_now e) o pp7_ok (proj1 Hst) (some_tlen_ok _ (proj2 (proj2 Hst))))
    as [o' [ds [ts [Hr [Hok' [Hds [Ho Hth]]]]]]].
  rewrite Hr. eexists _, _. split; [reflexivity|]. split; [|split; [|eexists; reflexivity]].
  - apply state_ok7_conn; [eapply state_ok7_online; eassumption|]. cbn. destruct ts; [discriminate|exact Hs].
  - apply (sent_chunks o); [exact Hst|exact Hds|eapply online_resend_emit, Hr].
Qed.

(* the part of feed7 after the state became Online: an optional resend, then the chunks *)
Definition feed_online7 s e o (rr : bool) cs : res unit outcome7 :=
  let* (c3, sent) := (if rr then do_resend7 {| c7_state := Online7 o; c7_send := s |} e o
                      else Ok ({| c7_state := Online7 o; c7_send := s |}, [])) in
  match c7_state c3 with
  | Online7 o3 =>
    let* (ack', rr', evs) := recv_chunks (o_ack o3) (o_rr o3) cs in
    Ok (mk7 {| c7_state := Online7 (o_set_ack o3 ack' rr'); c7_send := c7_send c3 |} e sent evs [] R7Ok)
  | _ => Ok (mk7 c3 e sent [] [] R7Ok)
  end.

Lemma feed_online7_ok s e o rr cs :
  state_ok7 (Online7 o) -> s <> None -> Forall chunk_in_ok cs -> ok_out7 (feed_online7 s e o rr cs).
Proof.
  intros Hst Hs Hcs. unfold feed_online7.
  assert (Hrs : exists c3 sent, (if rr then do_resend7 {| c7_state := Online7 o; c7_send := s |} e o
                                 else Ok ({| c7_state := Online7 o; c7_send := s |}, [])) = Ok (c3, sent)
                 /\ conn_ok7 c3 /\ sent_ok7 sent /\ exists o3, c7_state c3 = Online7 o3).
  { destruct rr; [apply do_resend7_ok; assumption|].
    eexists _, _. split; [reflexivity|]. split; [apply state_ok7_conn; assumption|]. split; [exact sent_nil|eexists; reflexivity]. }
  destruct Hrs as [c3 [sent [Hr [Hc3 [Hsent [o3 Ho3]]]]]]. rewrite Hr. cbn [bind]. rewrite Ho3.
  pose proof (conn_ok7_state _ Hc3) as Hst3. pose proof (conn_ok7_send _ Hc3) as Hs3. rewrite Ho3 in Hst3, Hs3.
  destruct (recv_chunks_ok cs (o_ack o3) (o_rr o3)) as [a' [r' [evs [Hrc Ha']]]];
    [apply (online_ok_ack pp7), Hst3|exact Hcs|].
  rewrite Hrc. apply ok_mk7; [|exact Hsent]. apply state_ok7_conn; [|exact Hs3].
  split; [apply o_set_ack_ok; [apply Hst3|exact Ha']|apply Hst3].
Qed.

Lemma feed7_out c e d : conn_ok7 c -> dgram_in_ok7 d -> rand_ok7 e -> ok_out7 (feed7 c e d).
Proof.
  intros Hc Hd [Hrl [rt [rr' Hrnd]]].
  pose proof (conn_ok7_state c Hc) as Hst. pose proof (conn_ok7_send c Hc) as Hsend.
  assert (Hsame : forall evs ws, ok_out7 (Ok (mk7 c e [] evs ws R7Ok))) by (intros; apply ok_mk7; [exact Hc|exact sent_nil]).
  unfold feed7. destruct d as [tk rs pl|tk ack ctl|tk ack rr n cs].
  { destruct (negb (otokb tk _)); [apply Hsame|]. destruct (negb (otokb rs _)); apply Hsame. }
  all: match goal with |- context [if negb (tokb ?a ?b) then _ else _] => destruct (negb (tokb a b)) end; [apply Hsame|].
  - destruct Hd as [Htk [Hack Hresp]]. replace ((ack <? 0) || (SEQ_MOD <=? ack)) with false by lia.
    set (st1 := match c7_state c with Online7 o => Online7 (ack_chunks o ack) | _ => c7_state c end).
    assert (Hst1 : state_ok7 st1).
    { unfold st1. destruct (c7_state c) as [|own|own|own their|own their|o|]; try exact Hst. apply state_ok7_acked, Hst. }
    assert (Hc1 : conn_ok7 {| c7_state := st1; c7_send := c7_send c |}).
    { apply state_ok7_conn; cbn; [exact Hst1|]. unfold st1. destruct (c7_state c); exact Hsend. }
    assert (H1 : ok_out7 (Ok (mk7 {| c7_state := st1; c7_send := c7_send c |} e [] [] [] R7Ok))) by (apply ok_mk7; [exact Hc1|exact sent_nil]).
    pose proof (conn_ok7_send _ Hc1) as Hsend1. cbn [c7_state c7_send] in Hsend1.
    destruct ctl as [|resp| | |reason|resp]; try exact H1.
    + destruct st1 as [|own|own|own their|own their|o|]; try exact H1. destruct resp as [t|]; [|exact H1].
      apply tick_action7_ok. split; [apply Hst1|exact Hresp].
    + destruct st1 as [|own|own|own their|own their|o|]; try exact H1.
      apply ok_mk7; [|exact sent_nil]. apply state_ok7_conn; [apply state_ok7_new; apply Hst1|exact Hsend1].
    + apply ok_mk7; [exact I|exact sent_nil].
    + destruct st1 as [|own|own|own their|own their|o|] eqn:Est; try exact H1.
      * rewrite Hrnd. cbn [bind]. destruct (token_random7_spec _ _ _ Hrl Hrnd) as [Hlt [Hnt _]].
        destruct (send_control_with7_ok (PendingConnect7 rt) (TokenMsg rt) resp Hresp I (conj Hlt Hnt)) as [ds [Hs Hds]].
        rewrite Hs. apply ok_mk7; [split; assumption|exact Hds].
      * apply tick_action7_ok. destruct Hst1 as [Hl Hn]. split; [exact Hl|]. split; [exact Hresp|exact Hn].
      * destruct (send_control_with7_ok (PendingConnect7 own) (TokenMsg own) resp Hresp I Hst1) as [ds [Hs Hds]].
        rewrite Hs. apply ok_mk7; [exact Hc1|exact Hds].
  - destruct Hd as [Htk [Hack Hcs]]. replace ((ack <? 0) || (SEQ_MOD <=? ack)) with false by lia.
    destruct (c7_state c) as [|own|own|own their|own their|o|] eqn:Es; cbn [c7_state];
      try (apply ok_mk7; [apply state_ok7_conn; cbn; assumption|exact sent_nil]).
    + apply feed_online7_ok; [apply state_ok7_new; apply Hst|exact Hsend|exact Hcs].
    + apply feed_online7_ok; [apply state_ok7_acked, Hst|exact Hsend|exact Hcs].
Qed.

Lemma step7_out c e o : conn_ok7 c -> valid_op7 c e o -> ok_out7 (step7 c e o).
Proof.
  intros Hc Hv. pose proof (conn_ok7_state c Hc) as Hst. pose proof (conn_ok7_send c Hc) as Hsend.
  destruct o as [|data vital| | |reason|data|d| |]; cbn [valid_op7] in Hv; unfold step7.
  - destruct Hv as [Hu [Hrl [rt [rr' Hrnd]]]]. rewrite Hu, Hrnd. cbn [bind].
    destruct (token_random7_spec _ _ _ Hrl Hrnd) as [Hlt [Hnt _]]. apply tick_action7_ok. split; assumption.
  - destruct Hv as [on Hon]. rewrite Hon in *.
    destruct (online_send_ok pp7 (e_now e) on data vital pp7_ok (proj1 Hst) (some_tlen_ok _ (proj2 (proj2 Hst))))
      as [o' [ds [r [Hsd [Hok' [Hds [Ho Hth]]]]]]].
    rewrite Hsd. apply ok_mk7; [|apply (sent_chunks on); [exact Hst|exact Hds|eapply online_send_emit, Hsd]].
    apply state_ok7_conn; [eapply state_ok7_online; eassumption|exact Hsend].
  - destruct Hv as [on Hon]. rewrite Hon in *.
    destruct (online_flush_ok pp7 on pp7_ok (proj1 Hst) (some_tlen_ok _ (proj2 (proj2 Hst)))) as [o' [ds [Hf [Hok' [Hds [Ho [Hth _]]]]]]].
    rewrite Hf. apply ok_mk7; [|apply (sent_chunks on); [exact Hst|exact Hds|eapply online_flush_emit, Hf]].
    apply state_ok7_conn; [eapply state_ok7_online; eassumption|discriminate].
  - destruct (match c7_state c with
              | Online7 o => match queue_back (o_queue o) with Some rc => triggered (rc_next rc) (e_now e) | None => false end
              | _ => false end) eqn:Ers.
    + destruct (c7_state c) as [|own|own|own their|own their|on|] eqn:Es; try discriminate Ers.
      destruct (do_resend7_ok c e on Hst Hsend) as [c' [ds [Hr [Hc' [Hds _]]]]].
      rewrite Hr. apply ok_mk7; assumption.
    + destruct (triggered (c7_send c) (e_now e)); [apply tick_action7_ok, Hst|apply ok_mk7; [exact Hc|exact sent_nil]].
  - destruct Hv as [H2 [Hn Hl]]. rewrite Hn.
    destruct (send_control7_ok (c7_state c) (Close reason) Hst (conj Hl Hn)) as [ds [Hsc Hds]].
    destruct (c7_state c); try contradiction; rewrite Hsc; (apply ok_mk7; [exact I|exact Hds]).
  - destruct Hv as [on Hon]. rewrite Hon in *.
    assert (Hc2 : conn_ok7 (set_send7 c (Some (e_now e + ms 500)))).
    { apply state_ok7_conn; cbn; rewrite Hon; [exact Hst|discriminate]. }
    destruct (MAX_PAYLOAD <? Z.of_nat (length data)) eqn:El; (apply ok_mk7; [exact Hc2|]); [exact sent_nil|].
    split; (constructor; [|constructor]); [unfold dgram_ok; lia|split; apply Hst].
  - destruct Hv as [Hd Hr]. apply feed7_out; assumption.
  - apply ok_mk7; [exact Hc|exact sent_nil].
  - rewrite Hv. apply ok_mk7; [exact I|exact sent_nil].
Qed.

Theorem step7_ok c e o :
  conn_ok7 c -> valid_op7 c e o ->
  exists out, step7 c e o = Ok out /\ conn_ok7 (out7_conn out) /\ Forall (dgram_ok pp7) (out7_sent out).
Proof. intros Hc Hv. destruct (step7_out c e o Hc Hv) as [out [E [H1 [H2 _]]]]. exists out. tauto. Qed.

Theorem step7_emit c e o out :
  conn_ok7 c -> valid_op7 c e o -> step7 c e o = Ok out -> Forall emit_wf7 (out7_sent out).
Proof.
  intros Hc Hv Hs. destruct (step7_out c e o Hc Hv) as [out' [E [_ [_ H]]]]. rewrite E in Hs. injection Hs as <-. exact H.
Qed.

Theorem refusal7 c e on data vital :
  c7_state c = Online7 on -> MAX_PAYLOAD < Z.of_nat (length data) ->
  step7 c e (Op7Send data vital) = Ok (mk7 c e [] [] [] R7TooLongData).
Proof.
  intros Hon Hl. unfold step7. rewrite Hon. unfold online_send.
  replace ((MAX_PAYLOAD <? Z.of_nat (length data))
           || negb (p_v7 params7) && (2 ^ p_size_bits params7 <=? Z.of_nat (length data))) with true by lia.
  cbn [bind]. destruct c as [st sd]. cbn in Hon. subst st. reflexivity.
Qed.

Definition active7 (c : conn7) : Prop :=
  match c7_state c with Token7 _ | Connecting7 _ _ | Pending7 _ _ | Online7 _ => True | _ => False end.

Theorem deadline7 c : conn_ok7 c -> active7 c -> needs_tick7 c <> None.
Proof.
  intros Hc Ha. pose proof (conn_ok7_send c Hc) as Hs. unfold active7, needs_tick7 in *.
  destruct (c7_state c) as [|own|own|own their|own their|on|]; try contradiction;
    destruct (c7_send c) as [x|]; try contradiction; try discriminate.
  destruct (match queue_back (o_queue on) with Some rc => rc_next rc | None => None end); discriminate.
Qed.

Inductive label7 := L7Op (o : op7) | L7Clock (dt : Z).

Fixpoint run7 (c : conn7) (e : env) (ls : list label7) : res unit (conn7 * env * list dgram) :=
  match ls with
  | [] => Ok (c, e, [])
  | L7Clock dt :: r => run7 c {| e_now := e_now e + dt; e_rand := e_rand e |} r
  | L7Op o :: r =>
    match step7 c e o with
    | Ok out =>
      match run7 (out7_conn out) (out7_env out) r with
      | Ok (c', e', ds) => Ok (c', e', out7_sent out ++ ds)
      | x => x
      end
    | Err x => Err x | Panic s => Panic s | OutOfFuel => OutOfFuel
    end
  end.

Fixpoint valid_run7 (c : conn7) (e : env) (ls : list label7) : Prop :=
  match ls with
  | [] => True
  | L7Clock dt :: r => valid_run7 c {| e_now := e_now e + dt; e_rand := e_rand e |} r
  | L7Op o :: r =>
    valid_op7 c e o /\
    match step7 c e o with
    | Ok out => valid_run7 (out7_conn out) (out7_env out) r
    | _ => True
    end
  end.

Lemma run7_out ls : forall c e, conn_ok7 c -> valid_run7 c e ls ->
  exists c' e' ds, run7 c e ls = Ok (c', e', ds) /\ conn_ok7 c' /\ sent_ok7 ds.
Proof.
  induction ls as [|l ls IH]; intros c e Hc Hv.
  - eexists _, _, _. split; [reflexivity|]. split; [exact Hc|exact sent_nil].
  - destruct l as [o|dt]; cbn [run7 valid_run7] in *; [|apply IH; assumption].
    destruct Hv as [Hvo Hvr]. destruct (step7_out c e o Hc Hvo) as [out [Hs [Hc' [Hds Hem]]]]. rewrite Hs in *.
    destruct (IH _ _ Hc' Hvr) as [c2 [e2 [ds2 [Hr [Hc2 [Hds2 Hem2]]]]]]. rewrite Hr.
    eexists _, _, _. split; [reflexivity|]. split; [exact Hc2|]. split; apply Forall_app; split; assumption.
Qed.

Theorem run_ok7 ls : forall c e, conn_ok7 c -> valid_run7 c e ls ->
  exists c' e' ds, run7 c e ls = Ok (c', e', ds) /\ conn_ok7 c' /\ Forall (dgram_ok pp7) ds.
Proof.
  intros c e Hc Hv. destruct (run7_out ls c e Hc Hv) as [c' [e' [ds [H1 [H2 [H3 _]]]]]]. exists c', e', ds. tauto.
Qed.

Theorem run_emit7 ls : forall c e c' e' ds, conn_ok7 c -> valid_run7 c e ls ->
  run7 c e ls = Ok (c', e', ds) -> Forall emit_wf7 ds.
Proof.
  intros c e c' e' ds Hc Hv Hr. destruct (run7_out ls c e Hc Hv) as [c2 [e2 [ds2 [H1 [_ [_ H]]]]]].
  rewrite H1 in Hr. injection Hr as <- <- <-. exact H.
Qed.

Lemma conn7_new_ok : conn_ok7 conn7_new.
Proof. exact I. Qed.
