(* The reader inverts the writer specification: for well-formed input, opening
   serialize_stored ... yields a reader whose tables are exactly the ones written, check()
   accepts it, and items / data come back as stored. *)
From LibTw2 Require Import Base.Res Model.Datafile Proofs.DatafileBase
  Proofs.DatafileCheck Proofs.DatafileAccess Proofs.DatafileCodec Proofs.DatafileShape.
From Coq Require Import ZArith List Lia Bool.
Import ListNotations.
Open Scope Z_scope.

Definition header_words (h : header) : list Z :=
  [h_version h; h_size h; h_swaplen h; h_num_item_types h; h_num_items h; h_num_data h;
   h_size_items h; h_size_data h].

Lemma header_read_enc h rest : header_ok h ->
  header_read (magic_data ++ enc_words (header_words h) ++ rest) = Ok (h, rest).
Proof.
  intros Hh. pose proof Hh as Hb. red in Hb.
  assert (Hws : all_i32 (header_words h)) by (repeat constructor; apply is_i32_iff; lia).
  assert (Hlen : zlen (magic_data ++ enc_words (header_words h)) = 36)
    by (rewrite zlen_app, zlen_enc; reflexivity).
  unfold header_read. rewrite app_assoc, (cb_read_app _ _ 36 Hlen), Hlen.
  replace (length (magic_data ++ enc_words (header_words h))) with 36%nat by (unfold zlen in Hlen; lia).
  cbn [Z.ltb Z.compare Pos.compare Pos.compare_cont Nat.sub repeat]. rewrite app_nil_r.
  change (magic_data ++ enc_words (header_words h)) with (68 :: 65 :: 84 :: 65 :: enc_words (header_words h)).
  cbn [words_of_bytes firstn]. rewrite words_of_enc' by exact Hws. unfold header_words.
  change (bytes_eqb [68; 65; 84; 65] magic_data) with true. cbn [negb andb].
  replace (negb (h_version h =? 3) && negb (h_version h =? 4)) with false by lia.
  rewrite header_rest_check_eq.
  replace (fields_ok _) with true; [destruct h; reflexivity|].
  unfold fields_ok. cbn [h_size h_swaplen h_num_item_types h_num_items h_num_data h_size_items h_size_data].
  rewrite u32_of_small by lia. lia.
Qed.

Lemma check_size_ok h (crude : bool) : header_ok h -> total_size h <= 2147483647 ->
  h_size h = size_field h crude -> h_swaplen h = h_size h - h_size_data h ->
  check_size_and_swaplen h = Ok (total_size h, crude && negb (h_num_data h =? 0)).
Proof.
  intros Hh Ht Hs Hw. rewrite check_size_and_swaplen_eq by assumption.
  replace (total_size h <=? 2147483647) with true by lia.
  (* the swaplen tests repeat the size tests, which the convention and the number of data decide *)
  replace (h_swaplen h =? size_field h false - h_size_data h) with (h_size h =? size_field h false) by lia.
  replace (h_swaplen h =? size_field h true - h_size_data h) with (h_size h =? size_field h true) by lia.
  replace (h_size h =? size_field h true) with (crude || (h_num_data h =? 0))
    by (unfold size_field in *; destruct crude; lia).
  replace (h_size h =? size_field h false) with (negb (crude && negb (h_num_data h =? 0)))
    by (unfold size_field in *; destruct crude; lia).
  destruct crude, (h_num_data h =? 0); reflexivity.
Qed.

Definition table (ws : list Z) (n : Z) : Prop := all_i32 ws /\ zlen ws = n.

Lemma reader_parse_layout h (crude : bool) tts ios dos uds raw data :
  header_ok h -> total_size h <= 2147483647 ->
  h_size h = size_field h crude -> h_swaplen h = h_size h - h_size_data h ->
  table tts (3 * h_num_item_types h) -> table ios (h_num_items h) -> table dos (h_num_data h) ->
  table uds (if 4 <=? h_version h then h_num_data h else 0) -> table raw (h_size_items h / 4) ->
  zlen data = h_size_data h ->
  reader_parse (magic_data ++ enc_words (header_words h ++ tts ++ ios ++ dos ++ uds ++ raw) ++ data)
  = Ok {| r_hdr := h; r_item_types := item_types_of tts; r_item_offsets := ios; r_data_offsets := dos;
          r_uds := if 4 <=? h_version h then Some uds else None; r_items_raw := raw;
          r_version := if h_version h =? 3 then V3
                       else if crude && negb (h_num_data h =? 0) then V4Crude else V4;
          r_data := data |}.
Proof.
  intros Hh Ht Hs Hw [Hti Htl] [Hii Hil] [Hdi Hdl] [Hui Hul] [Hri Hrl] Hdata.
  pose proof Hh as (Hv & Hb).
  assert (Hq : 4 * (h_size_items h / 4) = h_size_items h) by (clear -Hb; Z.div_mod_to_equations; lia).
  set (ver := if h_version h =? 3 then V3 else if crude && negb (h_num_data h =? 0) then V4Crude else V4).
  assert (Hvsel : (if h_version h =? 3 then Ok V3
                   else if h_version h =? 4 then Ok (if crude && negb (h_num_data h =? 0) then V4Crude else V4)
                   else Panic site_unreachable) = (Ok ver : res err version))
    by (unfold ver; destruct Hv as [-> | ->]; reflexivity).
  assert (Hcomp : has_compressed_data ver = (4 <=? h_version h))
    by (unfold ver; destruct Hv as [-> | ->]; [|destruct (_ && _)]; reflexivity).
  assert (Huds : forall rest,
            (if 4 <=? h_version h
             then let* x := read_words 1 (h_num_data h) (enc_words uds ++ rest) in Ok (Some (fst x), snd x)
             else Ok (None, enc_words uds ++ rest))
            = (Ok (if 4 <=? h_version h then Some uds else None, rest) : res err (option (list Z) * bytes))).
  { intros rest. destruct (4 <=? h_version h).
    - rewrite read_words_enc by (assumption || lia). reflexivity.
    - destruct uds; [reflexivity|]. rewrite zlen_cons in Hul. pose proof (zlen_nonneg uds). lia. }
  match goal with |- reader_parse ?b = _ => set (bs := b) end.
  assert (Hfl : zlen bs = total_size h).
  { unfold bs, total_size. rewrite !zlen_app, zlen_enc, !zlen_app. change (zlen magic_data) with 4.
    change (zlen (header_words h)) with 8. destruct (4 <=? h_version h); lia. }
  unfold reader_parse. unfold bs at 1. rewrite !enc_words_app, <- !app_assoc.
  rewrite header_read_enc by exact Hh. cbn [bind].
  rewrite (check_size_ok h crude) by assumption. cbn [bind].
  rewrite Hvsel. cbn [bind].
  do 3 (rewrite read_words_enc by (assumption || lia); cbn [bind]).
  rewrite Hcomp, Huds. cbn [bind].
  rewrite as_usize_small by lia. rewrite rsom_1_4_ok by lia. cbn [bind].
  rewrite read_words_enc by (assumption || lia). cbn [bind].
  rewrite Hfl, Z.ltb_irrefl. reflexivity.
Qed.

Section Roundtrip.
Variables (ver : Z) (crude : bool) (gs : list dgroup) (stored : list (bytes * Z)).
Hypothesis Hver : ver = 3 \/ ver = 4.
Hypothesis Hgs : forallb dgroup_wf gs = true.
Hypothesis Hasc : ascending (-1) (map fst gs) = true.
Hypothesis Hsz : serialized_size ver gs stored <= 2147483647.
Hypothesis Hst : Forall (fun s => 0 <= snd s <= 2147483647) stored.
Hypothesis Hstb : Forall (fun s => bytes_ok (fst s) = true) stored.

Definition rt_items := titems gs.
Definition blob_size (s : bytes * Z) : Z := zlen (fst s).
Definition rt_si := sum_z (map tsize rt_items).
Definition rt_sd := sum_z (map blob_size stored).
Definition rt_total := serialized_size ver gs stored.
Definition rt_size := rt_total - 16 - (if crude then 4 * zlen stored else 0).

Definition rt_hdr : header :=
  {| h_version := ver; h_size := rt_size; h_swaplen := rt_size - rt_sd; h_num_item_types := zlen gs;
     h_num_items := zlen rt_items; h_num_data := zlen stored; h_size_items := rt_si; h_size_data := rt_sd |}.

Definition rt_version : version :=
  if ver =? 3 then V3 else if crude && negb (zlen stored =? 0) then V4Crude else V4.

Definition rt_uds : list Z := if 4 <=? ver then map snd stored else [].

Definition rt_reader : reader :=
  {| r_hdr := rt_hdr; r_item_types := tt_records gs 0; r_item_offsets := offsets_from (map tsize rt_items) 0;
     r_data_offsets := offsets_from (map blob_size stored) 0;
     r_uds := if 4 <=? ver then Some (map snd stored) else None;
     r_items_raw := W rt_items; r_version := rt_version; r_data := flat_map fst stored |}.

Lemma blob_size_nonneg l : Forall (fun x => 0 <= x) (map blob_size l).
Proof. apply Forall_map, Forall_forall. intros s _. apply zlen_nonneg. Qed.

Lemma rt_bounds :
  0 <= zlen gs <= 2147483647 /\ 0 <= zlen rt_items <= 2147483647 /\ 0 <= zlen stored <= 2147483647
  /\ 0 <= rt_si <= 2147483647 /\ 0 <= rt_sd <= 2147483647 /\ rt_si = 4 * zlen (W rt_items)
  /\ rt_total <= 2147483647
  /\ rt_total = 36 + 12 * zlen gs + 4 * zlen rt_items + 4 * zlen stored
                + (if 4 <=? ver then 4 * zlen stored else 0) + rt_si + rt_sd.
Proof.
  assert (Ht : rt_total = 36 + 12 * zlen gs + 4 * zlen rt_items + 4 * zlen stored
                          + (if 4 <=? ver then 4 * zlen stored else 0) + rt_si + rt_sd).
  { unfold rt_total, serialized_size, rt_si, rt_items. rewrite sizes_eq, zlen_titems. reflexivity. }
  pose proof (zlen_nonneg gs). pose proof (zlen_nonneg rt_items). pose proof (zlen_nonneg stored).
  pose proof (sum_tsize_nonneg rt_items : 0 <= rt_si). pose proof (sum_z_nonneg _ (blob_size_nonneg stored) : 0 <= rt_sd).
  pose proof (zlen_W rt_items : _ = rt_si). pose proof (Hsz : rt_total <= _).
  destruct (4 <=? ver); lia.
Qed.

Lemma rt_hdr_ok : header_ok rt_hdr.
Proof.
  pose proof rt_bounds as B. unfold header_ok, rt_hdr, rt_size.
  cbn [h_version h_size h_swaplen h_num_item_types h_num_items h_num_data h_size_items h_size_data].
  split; [exact Hver|]. replace (rt_si mod 4) with 0 by (Z.div_mod_to_equations; lia).
  assert (0 <= (if 4 <=? ver then 4 * zlen stored else 0)) by (destruct (4 <=? ver); lia).
  destruct crude; lia.
Qed.

Lemma rt_total_size : total_size rt_hdr = rt_total.
Proof. symmetry. apply rt_bounds. Qed.

Lemma rt_items_wf : Forall titem_wf rt_items.
Proof.
  unfold rt_items, titems. apply Forall_flat_map. pose proof Hgs as Hg. rewrite forallb_forall in Hg.
  apply Forall_forall. intros g Hin. specialize (Hg g Hin).
  unfold dgroup_wf in Hg. apply andb_true_iff in Hg. destruct Hg as [Hgt Hgi].
  apply Forall_map. rewrite forallb_forall in Hgi. apply Forall_forall. intros it Hit.
  specialize (Hgi it Hit). unfold ditem_wf in Hgi. apply andb_true_iff in Hgi. destruct Hgi as [Hid Hd].
  unfold is_u16 in *. unfold titem_wf. cbn [fst snd]. repeat split; try lia.
  apply Forall_forall. rewrite forallb_forall in Hd. exact Hd.
Qed.

Lemma gs_tids : Forall (fun g : dgroup => 0 <= fst g < 65536) gs.
Proof.
  apply Forall_forall. intros g Hg. pose proof Hgs as Hg0. rewrite forallb_forall in Hg0. specialize (Hg0 g Hg).
  unfold dgroup_wf, is_u16 in Hg0. lia.
Qed.

Lemma gs_tid_at before g after : gs = before ++ g :: after -> 0 <= fst g < 65536.
Proof.
  intros Hgs'. pose proof gs_tids as Hgt. rewrite Hgs' in Hgt. apply Forall_app in Hgt.
  destruct Hgt as [_ Hgt]. inversion Hgt; assumption.
Qed.

Lemma zlen_flat_fst (l : list (bytes * Z)) : zlen (flat_map fst l) = sum_z (map blob_size l).
Proof.
  induction l as [|s l IH]; [reflexivity|]. cbn [flat_map map]. rewrite zlen_app, IH, sum_z_cons. reflexivity.
Qed.

Lemma serialize_stored_layout : serialize_stored ver crude gs stored =
  magic_data ++ enc_words (header_words rt_hdr ++ type_table gs 0 ++ offsets_from (map tsize rt_items) 0
                           ++ offsets_from (map blob_size stored) 0 ++ rt_uds ++ W rt_items) ++ flat_map fst stored.
Proof.
  pose proof rt_bounds as B.
  assert (Htab : 36 + 4 * zlen (type_table gs 0 ++ offsets_from (map tsize rt_items) 0 ++ offsets_from (map blob_size stored) 0 ++ rt_uds)
                 + rt_si + rt_sd = rt_total).
  { rewrite !zlen_app, zlen_type_table, !zlen_offsets_from, !zlen_map. unfold rt_uds.
    destruct (4 <=? ver); rewrite ?zlen_map, ?zlen_nil; lia. }
  unfold serialize_stored. cbv zeta. rewrite sizes_eq, raw_eq, <- zlen_titems. fold rt_items.
  change (map (fun s : list Z * Z => zlen (fst s)) stored) with (map blob_size stored).
  fold rt_si rt_sd rt_uds. rewrite Htab. fold rt_size. rewrite <- !app_assoc. reflexivity.
Qed.

Lemma parse_serialized : reader_parse (serialize_stored ver crude gs stored) = Ok rt_reader.
Proof.
  pose proof rt_bounds as B. pose proof rt_total_size as Hts.
  rewrite serialize_stored_layout, (reader_parse_layout rt_hdr crude); try (rewrite Hts; lia).
  - unfold rt_reader, rt_version, rt_uds. cbn [rt_hdr h_version h_num_data].
    rewrite item_types_of_table. destruct (4 <=? ver); reflexivity.
  - exact rt_hdr_ok.
  - unfold size_field. rewrite Hts. reflexivity.
  - reflexivity.
  - split; [apply type_table_i32; [lia|fold rt_items; lia|apply gs_tids]|apply zlen_type_table].
  - split; [|rewrite zlen_offsets_from; apply zlen_map].
    apply all_i32_offsets_from; [|lia|fold rt_si; lia].
    apply Forall_map, Forall_forall. intros ti _. pose proof (tsize_pos ti). lia.
  - split; [|rewrite zlen_offsets_from; apply zlen_map].
    apply all_i32_offsets_from; [apply blob_size_nonneg|lia|fold rt_sd; lia].
  - unfold rt_uds. cbn [rt_hdr h_version h_num_data]. destruct (4 <=? ver); split; [|apply zlen_map|constructor|reflexivity].
    apply Forall_map. eapply Forall_impl; [|exact Hst]. intros s Hs. apply is_i32_iff. cbn beta in Hs. lia.
  - split; [apply W_i32; [apply rt_items_wf|fold rt_si; lia]|]. cbn [rt_hdr h_size_items]. unfold rt_si. rewrite <- zlen_W, Z.mul_comm. symmetry. apply Z.div_mul. lia.
  - apply zlen_flat_fst.
Qed.

Lemma serialized_bytes_ok : bytes_ok (serialize_stored ver crude gs stored) = true.
Proof.
  unfold serialize_stored. cbv zeta. apply bytes_ok_app. split; [reflexivity|].
  apply bytes_ok_app. split; [apply enc_words_ok|].
  clear -Hstb. induction Hstb as [|s l Hs Hl IH]; [reflexivity|]. cbn [flat_map]. apply bytes_ok_app. auto.
Qed.

Lemma rt_pre : reader_pre rt_reader.
Proof. pose proof (reader_parse_spec _ serialized_bytes_ok) as H. rewrite parse_serialized in H. exact H. Qed.

Lemma rt_items_split pre ti post : rt_items = pre ++ ti :: post ->
  znth (r_item_offsets rt_reader) (zlen pre) = Some (sum_z (map tsize pre))
  /\ rt_si = sum_z (map tsize pre) + tsize ti + sum_z (map tsize post)
  /\ zlen rt_items = zlen pre + 1 + zlen post /\ titem_wf ti.
Proof.
  intros HT. unfold rt_si. cbn [rt_reader r_item_offsets]. pose proof rt_items_wf as Hwf. rewrite HT in Hwf |- *.
  split; [apply offsets_split|]. split; [apply offsets_split|].
  split; [rewrite zlen_app, zlen_cons; lia|]. apply Forall_app in Hwf. destruct Hwf as [_ Hwf]. inversion Hwf; assumption.
Qed.

Lemma item_header_rt pre ti post : rt_items = pre ++ ti :: post ->
  item_header rt_reader (zlen pre) = Ok (i32_of (fst ti * 65536 + fst (snd ti)), 4 * zlen (snd (snd ti))).
Proof.
  intros HT. destruct (rt_items_split pre ti post HT) as (Hz & Hsi & _). pose proof (tsize_pos ti).
  pose proof (sum_tsize_nonneg pre). pose proof (sum_tsize_nonneg post). pose proof (zlen_W pre) as HW.
  destruct (item_header_ok rt_reader (zlen pre) _ rt_pre (zlen_nonneg pre) Hz) as (a & b & -> & Hf & _);
    [lia|rewrite <- HW, Z.mul_comm; apply Z.mod_mul; lia|cbn [rt_reader r_hdr rt_hdr h_size_items]; lia|].
  cbn [rt_reader r_items_raw] in Hf.
  rewrite <- HW, Z.mul_comm, Z.div_mul, HT, W_app, skipn_zlen_app in Hf by lia.
  injection Hf as <- <-. reflexivity.
Qed.

Lemma check_items_rt : forall suf pre fuel, rt_items = pre ++ suf -> (length suf < fuel)%nat ->
  check_items fuel rt_reader (zlen pre) (sum_z (map tsize pre)) = Ok rt_si.
Proof.
  pose proof rt_bounds as B.
  induction suf as [|ti suf IH]; intros pre fuel HT Hfuel; (destruct fuel as [|fuel]; [cbn in Hfuel; lia|]);
    cbn [check_items]; cbn [rt_reader r_hdr rt_hdr h_num_items h_size_items]; fold rt_reader;
    rewrite (as_usize_small (zlen rt_items)) by lia.
  - rewrite app_nil_r in HT. rewrite <- HT, Z.leb_refl. reflexivity.
  - destruct (rt_items_split pre ti suf HT) as (Hz & Hsi & HlT & _). rewrite (tsize_eq ti) in Hsi.
    pose proof (sum_tsize_nonneg pre). pose proof (sum_tsize_nonneg suf).
    pose proof (zlen_nonneg pre) as Hpre. pose proof (zlen_nonneg suf). pose proof (zlen_nonneg (snd (snd ti))).
    destruct (zlen rt_items <=? zlen pre) eqn:E0; [lia|].
    rewrite (index_of_znth _ _ _ _ Hpre Hz). cbn [bind].
    destruct (sum_z (map tsize pre) <? 0) eqn:E1; [lia|].
    rewrite (as_usize_small (sum_z (map tsize pre))), Z.eqb_refl by lia. cbn [negb].
    rewrite usize_add_ok by lia. cbn [bind].
    rewrite (as_usize_small rt_si) by lia.
    destruct (rt_si <? sum_z (map tsize pre) + 8) eqn:E2; [lia|].
    rewrite (item_header_rt pre ti suf HT). cbn [bind snd].
    destruct (4 * zlen (snd (snd ti)) <? 0) eqn:E3; [lia|].
    rewrite as_usize_small by lia. rewrite (Z.mul_comm 4), Z.mod_mul by lia. cbn [Z.eqb negb].
    rewrite usize_add_ok by lia. cbn [bind].
    destruct (rt_si <? sum_z (map tsize pre) + 8 + zlen (snd (snd ti)) * 4) eqn:E4; [lia|].
    specialize (IH (pre ++ [ti]) fuel). rewrite zlen_snoc, sum_map_snoc, tsize_eq in IH.
    replace (sum_z (map tsize pre) + 8 + zlen (snd (snd ti)) * 4)
      with (sum_z (map tsize pre) + (8 + 4 * zlen (snd (snd ti)))) by lia.
    apply IH; [rewrite <- app_assoc; exact HT|cbn [length] in Hfuel; lia].
Qed.

Lemma stored_split pre s post : stored = pre ++ s :: post ->
  znth (r_data_offsets rt_reader) (zlen pre) = Some (sum_z (map blob_size pre))
  /\ rt_sd = sum_z (map blob_size pre) + zlen (fst s) + sum_z (map blob_size post)
  /\ zlen stored = zlen pre + 1 + zlen post
  /\ znth (map snd stored) (zlen pre) = Some (snd s) /\ 0 <= snd s <= 2147483647.
Proof.
  intros HS. unfold rt_sd. cbn [rt_reader r_data_offsets]. pose proof Hst as Hs. rewrite HS in Hs |- *.
  split; [apply (offsets_split blob_size)|]. split; [apply (offsets_split blob_size)|].
  split; [rewrite zlen_app, zlen_cons; lia|]. split.
  - rewrite map_app, <- (zlen_map snd pre). apply znth_app_r.
  - apply Forall_app in Hs. destruct Hs as [_ Hs]. inversion Hs; assumption.
Qed.

Lemma check_data_rt : forall suf pre fuel previous, stored = pre ++ suf -> (length suf < fuel)%nat ->
  previous <= sum_z (map blob_size pre) ->
  check_data fuel rt_reader (zlen pre) previous = Ok tt.
Proof.
  pose proof rt_bounds as B.
  induction suf as [|s suf IH]; intros pre fuel previous HS Hfuel Hprev;
    (destruct fuel as [|fuel]; [cbn in Hfuel; lia|]); cbn [check_data];
    cbn [rt_reader r_hdr rt_hdr h_num_data h_size_data r_uds]; fold rt_reader;
    rewrite (as_usize_small (zlen stored)) by lia.
  - rewrite app_nil_r in HS. rewrite <- HS, Z.leb_refl. reflexivity.
  - destruct (stored_split pre s suf HS) as (Hz & Hsd & HlS & Hzu & Hu).
    pose proof (zlen_nonneg pre) as Hpre. pose proof (zlen_nonneg suf). pose proof (zlen_nonneg (fst s)).
    pose proof (sum_z_nonneg _ (blob_size_nonneg pre)). pose proof (sum_z_nonneg _ (blob_size_nonneg suf)).
    destruct (zlen stored <=? zlen pre) eqn:E0; [lia|].
    assert (Huds : (match (if 4 <=? ver then Some (map snd stored) else None) with
                    | Some uds => let* u := index uds (zlen pre) site_index_uds in if u <? 0 then Err Malformed else Ok tt
                    | None => Ok tt end) = (Ok tt : res err unit)).
    { destruct (4 <=? ver); [|reflexivity]. rewrite (index_of_znth _ _ _ _ Hpre Hzu). cbn [bind].
      destruct (snd s <? 0) eqn:E; [lia|reflexivity]. }
    rewrite Huds. cbn [bind].
    rewrite (index_of_znth _ _ _ _ Hpre Hz). cbn [bind].
    destruct ((sum_z (map blob_size pre) <? 0) || (rt_sd <? sum_z (map blob_size pre))) eqn:E1; [lia|].
    destruct (sum_z (map blob_size pre) <? previous) eqn:E3; [lia|].
    specialize (IH (pre ++ [s]) fuel (sum_z (map blob_size pre))). rewrite zlen_snoc, sum_map_snoc in IH.
    apply IH; [rewrite <- app_assoc; exact HS|cbn [length] in Hfuel; lia|unfold blob_size at 3; lia].
Qed.

Lemma existsb_seen tid seen pv : Forall (fun t2 => t_type_id t2 <= pv) seen -> pv < tid ->
  existsb (fun t2 => t_type_id t2 =? tid) seen = false.
Proof.
  induction 1 as [|t l Ht Hl IH]; intros Hlt; [reflexivity|]. cbn [existsb].
  rewrite IH by exact Hlt. lia.
Qed.

Lemma check_types_rt ni : 0 <= ni <= 2147483647 -> forall l s prev seen,
  let pv := match prev with Some p => p | None => -1 end in
  ascending pv (map fst l) = true -> Forall (fun g : dgroup => 0 <= fst g < 65536) l ->
  Forall (fun t2 => t_type_id t2 <= pv) seen -> 0 <= s -> s + zlen (titems l) <= ni ->
  check_types ni (tt_records l s) s prev seen = Ok (s + zlen (titems l)).
Proof.
  intros Hni. induction l as [|g l IH]; intros s prev seen pv Hasc' Hl Hseen Hs Hb.
  - cbn. rewrite Z.add_0_r. reflexivity.
  - inversion Hl as [|? ? Hg Hl']; subst. cbn [tt_records check_types t_type_id t_start t_num].
    cbn [map ascending] in Hasc'. apply andb_true_iff in Hasc'. destruct Hasc' as [Hlt Hasc'].
    rewrite zlen_titems_cons in Hb |- *. pose proof (zlen_nonneg (snd g)). pose proof (zlen_nonneg (titems l)).
    replace (negb ((0 <=? fst g) && (fst g <? 65536))) with false by lia.
    replace (match prev with Some p => negb (p <? fst g) | None => false end) with false
      by (subst pv; destruct prev; lia).
    replace (negb ((0 <=? zlen (snd g)) && (is_i32 (ni - s) && (zlen (snd g) <=? ni - s)))) with false
      by (unfold is_i32, i32_min, i32_max; lia).
    rewrite Z.eqb_refl. cbn [negb].
    rewrite i32_add_ok by (apply is_i32_iff; lia). cbn [bind].
    rewrite (existsb_seen (fst g) seen pv) by (assumption || lia).
    rewrite (IH (s + zlen (snd g)) (Some (fst g))); auto; try lia.
    + f_equal. lia.
    + apply Forall_app. split; [|repeat constructor; cbn; lia].
      eapply Forall_impl; [|exact Hseen]. cbn. intros; lia.
Qed.

Lemma check_type_items_rt tid : 0 <= tid < 65536 -> forall its (pre post : list titem) fuel,
  rt_items = pre ++ map (pair tid) its ++ post -> (length its < fuel)%nat ->
  check_type_items fuel rt_reader (zlen pre) (zlen pre + zlen its) tid = Ok tt.
Proof.
  intros Htid. induction its as [|it its IH]; intros pre post fuel HT Hfuel;
    (destruct fuel as [|fuel]; [cbn in Hfuel; lia|]); cbn [check_type_items].
  - rewrite zlen_nil, Z.add_0_r, Z.leb_refl. reflexivity.
  - pose proof (zlen_nonneg its). rewrite zlen_cons.
    destruct (zlen pre + (1 + zlen its) <=? zlen pre) eqn:E0; [lia|].
    cbn [map app] in HT. rewrite (item_header_rt pre (tid, it) _ HT). cbn [bind fst snd].
    destruct (rt_items_split _ _ _ HT) as (_ & _ & _ & _ & Hid & _). cbn [fst snd] in Hid.
    rewrite ih_type_id_enc, (Z.mod_small tid), Z.eqb_refl by lia. cbn [negb].
    specialize (IH (pre ++ [(tid, it)]) post fuel). rewrite zlen_snoc in IH.
    rewrite Z.add_assoc. apply IH; [rewrite <- app_assoc; exact HT|cbn [length] in Hfuel; lia].
Qed.

Lemma check_types_items_rt : forall l before, gs = before ++ l ->
  check_types_items rt_reader (tt_records l (zlen (titems before))) = Ok tt.
Proof.
  pose proof rt_bounds as B.
  induction l as [|g l IH]; intros before Hgs'; [reflexivity|].
  cbn [tt_records check_types_items t_start t_num t_type_id].
  assert (HT : rt_items = titems before ++ map (pair (fst g)) (snd g) ++ titems l).
  { unfold rt_items. rewrite Hgs', titems_app. reflexivity. }
  pose proof (zlen_nonneg (titems before)). pose proof (zlen_nonneg (snd g)). pose proof (zlen_nonneg (titems l)).
  assert (HlT : zlen rt_items = zlen (titems before) + zlen (snd g) + zlen (titems l)).
  { rewrite HT, !zlen_app, zlen_map. lia. }
  rewrite i32_add_ok by (apply is_i32_iff; lia). cbn [bind].
  rewrite !as_usize_small by lia.
  pose proof (gs_tid_at _ _ _ Hgs') as Hg.
  rewrite (check_type_items_rt (fst g) Hg (snd g) (titems before) (titems l) _ HT).
  - cbn [bind]. specialize (IH (before ++ [g])).
    rewrite titems_app, zlen_app in IH. unfold titems at 2 in IH. cbn [flat_map] in IH. rewrite app_nil_r, zlen_map in IH.
    apply IH. rewrite <- app_assoc. exact Hgs'.
  - cbn [rt_reader r_item_offsets]. pose proof (zlen_offsets_from (map tsize rt_items) 0) as Hl.
    rewrite zlen_map in Hl. unfold zlen in *. lia.
Qed.

Lemma check_rt : reader_check rt_reader = Ok tt.
Proof.
  pose proof rt_bounds as B.
  pose proof (zlen_offsets_from (map tsize rt_items) 0) as Hlo. pose proof (zlen_offsets_from (map blob_size stored) 0) as Hld.
  rewrite zlen_map in Hlo. rewrite zlen_map in Hld. unfold zlen in Hlo, Hld.
  unfold reader_check. cbv zeta. cbn [rt_reader r_hdr r_item_types r_item_offsets r_data_offsets rt_hdr h_num_items h_size_items].
  fold rt_hdr. fold rt_reader.
  rewrite (check_types_rt (zlen rt_items) ltac:(lia) gs 0 None [] Hasc gs_tids (Forall_nil _)) by (fold rt_items; lia).
  cbn [bind]. rewrite Z.add_0_l. fold rt_items. rewrite Z.eqb_refl. cbn [negb].
  rewrite (check_items_rt rt_items [] _ eq_refl) by lia. cbn [bind].
  rewrite as_usize_small, Z.eqb_refl by lia. cbn [negb].
  rewrite (check_data_rt stored [] _ 0 eq_refl) by (cbn; lia). cbn [bind].
  exact (check_types_items_rt gs [] eq_refl).
Qed.

Theorem reader_new_serialized : reader_new (serialize_stored ver crude gs stored) = Ok rt_reader.
Proof. unfold reader_new. rewrite parse_serialized. cbn [bind]. rewrite check_rt. reflexivity. Qed.

Lemma rt_inv : reader_inv rt_reader.
Proof.
  pose proof (reader_new_spec _ serialized_bytes_ok) as H. rewrite reader_new_serialized in H. exact H.
Qed.

Definition view_triple (v : item_view) : titem := (iv_type v, (iv_id v, iv_data v)).

Lemma item_rt (pre : list titem) ti post : rt_items = pre ++ ti :: post ->
  exists v, item rt_reader (zlen pre) = Ok v /\ view_triple v = ti /\ view_inside rt_reader v.
Proof.
  intros HT. destruct (rt_items_split pre ti post HT) as (Hz & _ & HlT & Ht1 & Ht2 & _).
  pose proof (zlen_nonneg pre). pose proof (zlen_nonneg post). pose proof (zlen_nonneg (W pre)) as HW.
  destruct (item_spec rt_reader (zlen pre) rt_inv)
    as (v & a & b & Hv & Hin & Hih & Hty & Hid & Hlen & off & Hz' & Hoff).
  { change (h_num_items (r_hdr rt_reader)) with (zlen rt_items). lia. }
  exists v. split; [exact Hv|]. split; [|exact Hin].
  rewrite (item_header_rt pre ti post HT) in Hih.
  assert (a = i32_of (fst ti * 65536 + fst (snd ti))) as -> by congruence.
  assert (b = 4 * zlen (snd (snd ti))) as -> by congruence.
  rewrite Hz in Hz'. injection Hz' as <-.
  rewrite <- (zlen_W pre), Z.mul_comm, Z.div_mul in Hoff by lia.
  rewrite Z.mul_comm, Z.div_mul in Hlen by lia.
  destruct Hin as (_ & _ & _ & Hdata & _). change (r_items_raw rt_reader) with (W rt_items) in Hdata.
  rewrite Hoff, Hlen in Hdata.
  replace (Z.to_nat (zlen (W pre) + 2)) with (Z.to_nat (zlen (W pre)) + 2)%nat in Hdata by lia.
  rewrite <- skipn_skipn', HT, W_app, skipn_zlen_app in Hdata.
  cbn [W flat_map tw item_words app skipn] in Hdata. rewrite firstn_zlen_app in Hdata.
  unfold view_triple. rewrite Hty, Hid, Hdata, ih_type_id_enc, ih_id_enc by assumption.
  destruct ti as [t [i d]]. reflexivity.
Qed.

Lemma items_rt : exists vs, items rt_reader = Ok vs /\ map view_triple vs = rt_items /\ Forall (view_inside rt_reader) vs.
Proof.
  pose proof rt_bounds as B. unfold items, num_items. change (h_num_items (r_hdr rt_reader)) with (zlen rt_items).
  rewrite assert_usize_ok by lia. cbn [bind].
  destruct (collect_range_list (item rt_reader) (fun ti v => view_triple v = ti /\ view_inside rt_reader v) rt_items
              (S (length (r_item_offsets rt_reader)))) as (vs & -> & Hall).
  { pose proof (zlen_offsets_from (map tsize rt_items) 0) as Hl. rewrite zlen_map in Hl.
    change (r_item_offsets rt_reader) with (offsets_from (map tsize rt_items) 0). unfold zlen in Hl. lia. }
  { intros pre ti post HT. destruct (item_rt pre ti post HT) as (v & Hv & Htr & Hin). eauto. }
  exists vs. split; [reflexivity|apply Forall2_map_inv, Hall].
Qed.

Lemma znth_tt_records before g after :
  znth (tt_records (before ++ g :: after) 0) (zlen before)
  = Some {| t_type_id := fst g; t_start := zlen (titems before); t_num := zlen (snd g) |}.
Proof.
  rewrite tt_records_app. cbn [tt_records]. rewrite <- (zlen_tt_records before 0). apply znth_app_r.
Qed.

Lemma item_types_rt : item_types rt_reader = Ok (map fst gs).
Proof.
  pose proof rt_bounds as B. unfold item_types, num_item_types.
  change (h_num_item_types (r_hdr rt_reader)) with (zlen gs). change (r_item_types rt_reader) with (tt_records gs 0).
  rewrite assert_usize_ok by lia. cbn [bind].
  destruct (collect_range_list (item_type rt_reader) (fun (g : dgroup) t => t = fst g) gs
              (S (length (tt_records gs 0)))) as (ts & -> & Hall).
  { pose proof (zlen_tt_records gs 0) as Hl. unfold zlen in Hl. lia. }
  { intros before g after Hgs'. exists (fst g). split; [|reflexivity].
    unfold item_type. change (r_item_types rt_reader) with (tt_records gs 0). rewrite Hgs'.
    rewrite (index_of_znth _ _ _ _ (zlen_nonneg before) (znth_tt_records before g after)). cbn [bind t_type_id].
    apply assert_u16_ok, (gs_tid_at _ _ _ Hgs'). }
  f_equal. clear -Hall. induction Hall as [|g t l ts -> _ IH]; [reflexivity|]. cbn [map]. rewrite IH. reflexivity.
Qed.

Lemma ascending_lt pv l : ascending pv l = true -> Forall (fun x => pv < x) l.
Proof.
  revert pv. induction l as [|x l IH]; intros pv H; [constructor|]. cbn [ascending] in H.
  apply andb_true_iff in H. destruct H as [H1 H2].
  constructor; [lia|]. eapply Forall_impl; [|apply (IH x H2)]. cbn. intros; lia.
Qed.

Lemma ascending_split pv l1 x l2 : ascending pv (l1 ++ x :: l2) = true -> Forall (fun y => y < x) l1.
Proof.
  revert pv. induction l1 as [|y l1 IH]; intros pv H; [constructor|]. cbn [app ascending] in H.
  apply andb_true_iff in H. destruct H as [H1 H2].
  constructor; [|apply (IH y H2)].
  pose proof (ascending_lt y _ H2) as Hall. apply Forall_app in Hall. destruct Hall as [_ Hall]. inversion Hall; assumption.
Qed.

Lemma item_type_indices_loop_skip l : forall s ty rest, Forall (fun g : dgroup => 0 <= fst g < 65536 /\ fst g <> ty) l ->
  item_type_indices_loop (tt_records l s ++ rest) ty = item_type_indices_loop rest ty.
Proof.
  induction l as [|g l IH]; intros s ty rest Hl; [reflexivity|]. inversion Hl as [|? ? [Hg Hne] Hl']; subst.
  cbn [tt_records app item_type_indices_loop t_type_id]. rewrite (Z.mod_small (fst g)) by lia.
  destruct (fst g =? ty) eqn:E; [lia|]. apply IH. exact Hl'.
Qed.

Lemma item_type_indices_rt before g after : gs = before ++ g :: after ->
  item_type_indices rt_reader (fst g) = Ok (zlen (titems before), zlen (titems before) + zlen (snd g)).
Proof.
  intros Hgs'. pose proof rt_bounds as B. pose proof (gs_tid_at _ _ _ Hgs') as Hg.
  assert (HlT : zlen rt_items = zlen (titems before) + zlen (snd g) + zlen (titems after)).
  { unfold rt_items. rewrite Hgs', titems_app, zlen_app, zlen_titems_cons. lia. }
  pose proof (zlen_nonneg (titems before)). pose proof (zlen_nonneg (snd g)). pose proof (zlen_nonneg (titems after)).
  unfold item_type_indices. change (r_item_types rt_reader) with (tt_records gs 0).
  rewrite Hgs', tt_records_app, item_type_indices_loop_skip.
  - cbn [tt_records item_type_indices_loop t_type_id t_start t_num].
    rewrite (Z.mod_small (fst g)), Z.eqb_refl, Z.add_0_l by lia.
    rewrite !assert_usize_ok by lia. cbn [bind]. rewrite usize_add_ok by lia. reflexivity.
  - pose proof Hasc as Ha. rewrite Hgs', map_app in Ha. apply ascending_split in Ha.
    pose proof gs_tids as Hgt. rewrite Hgs' in Hgt. apply Forall_app in Hgt. destruct Hgt as [Hgt _].
    rewrite Forall_forall in *. intros b Hb. specialize (Ha (fst b) (in_map fst _ _ Hb)). specialize (Hgt b Hb). lia.
Qed.

Lemma read_data_rt unc pre s post : stored = pre ++ s :: post ->
  read_data unc rt_reader (zlen pre) = if 4 <=? ver then zcase (snd s) (unc (snd s) (fst s)) else Ok (fst s).
Proof.
  intros HS. pose proof rt_bounds as B. destruct (stored_split pre s post HS) as (Hz & Hsd & HlS & Hzu & _).
  pose proof (zlen_nonneg pre). pose proof (zlen_nonneg post).
  destruct (read_data_spec unc rt_reader (zlen pre) rt_inv) as (off & len & _ & _ & _ & _ & _ & Hz' & Hnext & Hrd).
  { change (h_num_data (r_hdr rt_reader)) with (zlen stored). lia. }
  rewrite Hz in Hz'. injection Hz' as <-.
  change (h_num_data (r_hdr rt_reader)) with (zlen stored) in Hnext.
  change (h_size_data (r_hdr rt_reader)) with rt_sd in Hnext.
  (* the block ends where the next one starts, or with the section *)
  assert (Hl : len = zlen (fst s)).
  { destruct post as [|s2 post].
    - rewrite zlen_nil in HlS. replace (zlen pre <? zlen stored - 1) with false in Hnext by lia. cbn in Hsd. lia.
    - destruct (stored_split (pre ++ [s]) s2 post) as (Hz2 & _); [rewrite <- app_assoc; exact HS|].
      rewrite zlen_snoc, sum_map_snoc in Hz2. rewrite zlen_cons in HlS. pose proof (zlen_nonneg post).
      replace (zlen pre <? zlen stored - 1) with true in Hnext by lia.
      rewrite Hz2 in Hnext. injection Hnext. unfold blob_size at 2. lia. }
  subst len. cbv zeta in Hrd.
  change (r_data rt_reader) with (flat_map fst stored) in Hrd.
  change (r_uds rt_reader) with (if 4 <=? ver then Some (map snd stored) else None) in Hrd.
  assert (Hraw : firstn (Z.to_nat (zlen (fst s))) (skipn (Z.to_nat (sum_z (map blob_size pre))) (flat_map fst stored)) = fst s).
  { rewrite HS, flat_map_app. cbn [flat_map]. rewrite <- zlen_flat_fst, skipn_zlen_app. apply firstn_zlen_app. }
  rewrite Hraw in Hrd. destruct (4 <=? ver); [|exact Hrd].
  destruct Hrd as (u & Hzu' & _ & Hrd). rewrite Hzu in Hzu'. injection Hzu' as <-. exact Hrd.
Qed.

End Roundtrip.

Lemma zcase_ok d : zcase (zlen d) (ZOk d) = Ok d.
Proof. cbn. rewrite Z.eqb_refl. reflexivity. Qed.

Theorem wellformed_roundtrip compress uncompress ver crude gs datas :
  ver = 3 \/ ver = 4 -> wf_input compress ver gs datas = true ->
  (ver = 4 -> forall d, In d datas -> uncompress (zlen d) (compress d) = ZOk d) ->
  exists r, reader_new (serialize compress ver crude gs datas) = Ok r
    /\ r_version r = (if ver =? 3 then V3 else if crude && negb (zlen datas =? 0) then V4Crude else V4)
    /\ (exists vs, items r = Ok vs /\ map view_triple vs = titems gs /\ Forall (view_inside r) vs)
    /\ num_data r = Ok (zlen datas)
    /\ (forall pre d post, datas = pre ++ d :: post -> read_data uncompress r (zlen pre) = Ok d)
    /\ item_types r = Ok (map fst gs)
    /\ (forall before g after, gs = before ++ g :: after ->
          item_type_indices r (fst g) = Ok (zlen (titems before), zlen (titems before) + zlen (snd g))).
Proof.
  intros Hver Hwf Hunc. unfold wf_input in Hwf. rewrite !andb_true_iff in Hwf.
  destruct Hwf as (((((Hwf & Hasc) & Hdb) & Hcb) & Hdl) & Hsz). apply Z.leb_le in Hsz.
  rewrite forallb_forall in Hdl, Hcb, Hdb.
  set (stored := stored_of compress ver datas) in *.
  assert (Hst : Forall (fun s : bytes * Z => 0 <= snd s <= 2147483647) stored).
  { apply Forall_map, Forall_forall. intros d Hd. cbn [snd]. specialize (Hdl d Hd).
    pose proof (zlen_nonneg d). unfold i32_max in Hdl. lia. }
  assert (Hstb : Forall (fun s : bytes * Z => bytes_ok (fst s) = true) stored).
  { apply Forall_map, Forall_forall. intros d Hd. cbn [fst]. destruct (4 <=? ver); auto. }
  assert (Hzs : zlen stored = zlen datas) by apply zlen_map.
  exists (rt_reader ver crude gs stored). unfold serialize. fold stored.
  split; [apply reader_new_serialized; assumption|].
  split; [cbn [rt_reader r_version]; unfold rt_version; rewrite Hzs; reflexivity|].
  split; [apply items_rt; assumption|].
  split; [unfold num_data; cbn [rt_reader r_hdr rt_hdr h_num_data]; rewrite Hzs; apply assert_usize_ok, zlen_nonneg|].
  split; [|split; [apply item_types_rt; assumption|intros before g after; apply item_type_indices_rt; assumption]].
  intros pre d post Hd. rewrite <- (zlen_map (fun d => (if 4 <=? ver then compress d else d, zlen d)) pre).
  rewrite (read_data_rt ver crude gs stored Hver Hwf Hasc Hsz Hst Hstb uncompress _ (if 4 <=? ver then compress d else d, zlen d)
             (stored_of compress ver post)) by (unfold stored, stored_of; rewrite Hd, map_app; reflexivity).
  cbn [fst snd]. destruct Hver as [-> | ->]; [reflexivity|].
  cbn [Z.leb Z.compare Pos.compare Pos.compare_cont]. rewrite Hunc; [apply zcase_ok|reflexivity|].
  rewrite Hd. apply in_or_app. right. left. reflexivity.
Qed.
