(* What a 0.6 endpoint holds and emits is made of bytes and carries a DDNet token, as long as what
   it is given is: an invariant of Conn6.step used by the byte-level link (C01 over bytes).
   `wire_dgram d`: payloads, close reason and token of d are byte strings, a connection-oriented
   datagram carries a token (the library's connector always offers the token extension, its
   acceptor always takes it), and it is not a 0.7 message. *)
From LibTw2 Require Import Base.Res Model.PacketTypes Model.ConnCore Model.Conn6
  Proofs.ConnCoreInv.
From Coq Require Import ZArith Lia Bool List.
Open Scope Z_scope.

Definition bytesP (b : bytes) : Prop := bytes_ok b = true.
Definition tok_bytes (t : option token) : Prop := exists x, t = Some x /\ bytesP x.
Definition chunk_bytes (c : chunk) : Prop := bytesP (ch_data c).

Definition wire_control (c : control) : Prop :=
  match c with Close r => bytesP r | TokenMsg _ => False | _ => True end.

Definition wire_dgram (d : dgram) : Prop :=
  match d with
  | DConnless _ _ p => bytesP p
  | DControl tok _ c => tok_bytes tok /\ wire_control c
  | DChunks tok _ _ _ cs => tok_bytes tok /\ Forall chunk_bytes cs
  end.

Definition wire_online (o : online) : Prop :=
  tok_bytes (o_own o) /\ tok_bytes (o_their o) /\
  Forall chunk_bytes (pc_chunks (o_packet o)) /\ Forall chunk_bytes (pc_chunks (o_packet_nv o)) /\
  Forall (fun c => bytesP (rc_data c)) (o_queue o).

Definition wire_state (st : state6) : Prop :=
  match st with Pending t => tok_bytes t | Online o => wire_online o | _ => True end.

Definition wire_op (o : op) : Prop :=
  match o with
  | OpSend d _ | OpSendConnless d | OpDisconnect d => bytesP d
  | OpFeed d => wire_dgram d
  | _ => True
  end.

(* the online core, shared with 0.7 (Proofs/LinkBytes7Wire.v): it emits chunk datagrams only *)
Definition wire_chunks (d : dgram) : Prop :=
  match d with DChunks tok _ _ _ cs => tok_bytes tok /\ Forall chunk_bytes cs | _ => False end.

Lemma wire_chunks_dgram ds : Forall wire_chunks ds -> Forall wire_dgram ds.
Proof. apply Forall_impl. intros [| |]; [contradiction|contradiction|exact (fun H => H)]. Qed.

Lemma pc_write_wire pp p data v p' :
  pc_write_chunk pp p data v = Ok p' -> Forall chunk_bytes (pc_chunks p) -> bytesP data ->
  Forall chunk_bytes (pc_chunks p').
Proof.
  unfold pc_write_chunk. destruct (2 ^ p_size_bits pp <=? _); [discriminate|].
  destruct (2048 <? _); [discriminate|]. destruct (255 <=? pc_num p); [discriminate|].
  intros H Hp Hd. injection H as <-. cbn [pc_chunks]. apply Forall_app. split; [exact Hp|].
  constructor; [exact Hd|constructor].
Qed.

Lemma flush_wire pp o o' ds : online_flush pp o = Ok (o', ds) -> wire_online o ->
  wire_online o' /\ Forall wire_chunks ds.
Proof.
  unfold online_flush. intros H Hw. destruct (negb (can_send o)).
  - injection H as <- <-. split; [exact Hw|constructor].
  - destruct (MAX_PACKETSIZE <? _); [discriminate|]. injection H as <- <-.
    destruct Hw as (H1 & H2 & H3 & H4 & H5). split.
    + unfold wire_online, o_clear. cbn. repeat split; try assumption; constructor.
    + constructor; [|constructor]. split; assumption.
Qed.

Lemma queue_wire pp now o data vital o' : online_queue pp now o data vital = Ok o' ->
  wire_online o -> bytesP data -> wire_online o'.
Proof.
  unfold online_queue. intros H (H1 & H2 & H3 & H4 & H5) Hd. destruct vital.
  - destruct (2048 <? _); [discriminate|].
    destruct (pc_write_chunk pp (o_packet o) data _) as [p| | |] eqn:E; try discriminate.
    injection H as <-. unfold wire_online. cbn. repeat split; try assumption.
    + eapply pc_write_wire; eassumption.
    + constructor; assumption.
  - destruct (pc_write_chunk pp (o_packet_nv o) data None) as [nv| | |] eqn:E1; try discriminate.
    destruct (pc_write_chunk pp (o_packet o) data None) as [p| | |] eqn:E2; try discriminate.
    injection H as <-. unfold wire_online, o_set_packets. cbn. repeat split; try assumption;
      eapply pc_write_wire; eassumption.
Qed.

Lemma send_wire pp now o data vital o' ds r : online_send pp now o data vital = Ok (o', ds, r) ->
  wire_online o -> bytesP data -> wire_online o' /\ Forall wire_chunks ds.
Proof.
  unfold online_send. intros H Hw Hd. destruct (_ || _).
  - injection H as <- <- <-. split; [exact Hw|constructor].
  - apply bind_ok in H as [[o1 d1] [Ef H]]. apply bind_ok in H as [o2 [Eq H]]. injection H as <- <- <-.
    assert (H1 : wire_online o1 /\ Forall wire_chunks d1).
    { destruct (negb _); [exact (flush_wire _ _ _ _ Ef Hw)|]. injection Ef as <- <-. split; [exact Hw|constructor]. }
    split; [exact (queue_wire _ _ _ _ _ _ Eq (proj1 H1) Hd)|exact (proj2 H1)].
Qed.

Lemma set_packets_wire o p : wire_online o -> Forall chunk_bytes (pc_chunks p) ->
  wire_online (o_set_packets o p (o_packet_nv o)).
Proof. intros (H1 & H2 & H3 & H4 & H5) Hp. unfold wire_online, o_set_packets. cbn. repeat split; assumption. Qed.

Lemma resend_loop_wire pp : forall todo fuel o out ts o' out' ts',
  resend_loop pp fuel o todo out ts = Ok (o', out', ts') ->
  wire_online o -> Forall (fun c => bytesP (rc_data c)) todo -> Forall wire_chunks out ->
  wire_online o' /\ Forall wire_chunks out'.
Proof.
  induction todo as [|c rest IH].
  - intros fuel o out ts o' out' ts' H Hw _ Ho. destruct fuel; cbn in H; injection H as <- <- <-; split; assumption.
  - induction fuel as [|fuel IHf]; intros o out ts o' out' ts' H Hw Ht Ho; cbn [resend_loop] in H; [discriminate|].
    destruct (can_fit_chunk _ _ _ _).
    + destruct (pc_write_chunk pp (o_packet o) (rc_data c) _) as [p| | |] eqn:E; try discriminate.
      inversion Ht as [|c0 r0 Hc Hr]; subst.
      eapply IH; [exact H| |exact Hr|exact Ho].
      apply set_packets_wire; [exact Hw|]. destruct Hw as (_ & _ & H3 & _). eapply pc_write_wire; eassumption.
    + destruct (online_flush pp o) as [[o1 d1]| | |] eqn:Ef; try discriminate.
      destruct (flush_wire _ _ _ _ Ef Hw) as [Hw1 Hd1].
      eapply IHf; [exact H|exact Hw1|exact Ht|]. apply Forall_app. split; assumption.
Qed.

Lemma resend_wire pp now o o' ds ts : online_resend pp now o = Ok (o', ds, ts) -> wire_online o ->
  wire_online o' /\ Forall wire_chunks ds.
Proof.
  unfold online_resend. intros H Hw. destruct (o_queue o) as [|c q] eqn:Eq.
  - injection H as <- <- <-. split; [exact Hw|constructor].
  - rewrite <- Eq in H. destruct Hw as (H1 & H2 & H3 & H4 & H5).
    assert (Hq : Forall (fun c => bytesP (rc_data c)) (restart_timers now (o_queue o))).
    { unfold restart_timers. apply Forall_map. exact H5. }
    eapply resend_loop_wire; [exact H| | |constructor].
    + unfold wire_online. cbn. repeat split; assumption.
    + apply Forall_rev, Hq.
Qed.

Lemma ack_wire o ack : wire_online o -> wire_online (ack_chunks o ack).
Proof.
  intros (H1 & H2 & H3 & H4 & H5). unfold ack_chunks.
  destruct (take_until_seq (o_queue o) ack) as [q|] eqn:E; [|repeat split; assumption].
  unfold wire_online. cbn. repeat split; try assumption. eapply take_until_seq_forall; eassumption.
Qed.

Lemma set_ack_wire o a r : wire_online o -> wire_online (o_set_ack o a r).
Proof. intros H. exact H. Qed.

Lemma online_new_wire t : tok_bytes t -> wire_online (online_new t t).
Proof. intros H. unfold wire_online, online_new. cbn. repeat split; try assumption; constructor. Qed.

Definition wire_out (out : outcome) : Prop :=
  wire_state (c_state (out_conn out)) /\ Forall bytesP (e_rand (out_env out)) /\ Forall wire_dgram (out_sent out).

Lemma mk_wire c e ds evs ws r : wire_state (c_state c) -> Forall bytesP (e_rand e) -> Forall wire_dgram ds ->
  wire_out (mk c e ds evs ws r).
Proof. intros H1 H2 H3. split; [exact H1|split; [exact H2|exact H3]]. Qed.
Lemma send_control_wire st c ds : send_control st c = Ok ds -> wire_state st -> wire_control c ->
  Forall wire_dgram ds.
Proof.
  unfold send_control. intros H Hw Hc.
  destruct st as [| |t|o|]; try discriminate;
    (destruct (MAX_PACKETSIZE <? _); [discriminate|]); injection H as <-; (constructor; [|constructor]);
    (split; [|exact Hc]).
  - exists TOKEN_NONE. split; reflexivity.
  - exact Hw.
  - destruct Hw as (_ & H2 & _). exact H2.
Qed.

Lemma tick_action_wire c e out : tick_action c e = Ok out -> wire_state (c_state c) -> Forall bytesP (e_rand e) ->
  wire_out out.
Proof.
  unfold tick_action. intros H Hw Hr. destruct (c_state c) as [| |t|o|] eqn:Est.
  - injection H as <-. apply mk_wire; [rewrite Est; exact I|exact Hr|constructor].
  - apply bind_ok in H as [d [E H]]. injection H as <-.
    apply mk_wire; [exact I|exact Hr|]. exact (send_control_wire _ _ _ E I I).
  - apply bind_ok in H as [d [E H]]. injection H as <-.
    apply mk_wire; [exact Hw|exact Hr|]. exact (send_control_wire _ _ _ E Hw I).
  - destruct (can_send o).
    + apply bind_ok in H as [[o' d] [E H]]. injection H as <-.
      destruct (flush_wire _ _ _ _ E Hw) as [H1 H2]. apply mk_wire; [exact H1|exact Hr|exact (wire_chunks_dgram _ H2)].
    + apply bind_ok in H as [d [E H]]. injection H as <-.
      apply mk_wire; [exact Hw|exact Hr|]. exact (send_control_wire _ _ _ E Hw I).
  - injection H as <-. apply mk_wire; [rewrite Est; exact I|exact Hr|constructor].
Qed.

Lemma do_resend_wire c e o c' ds : do_resend c e o = Ok (c', ds) -> wire_online o ->
  (exists o', c_state c' = Online o' /\ wire_online o') /\ Forall wire_dgram ds.
Proof.
  unfold do_resend. intros H Hw. apply bind_ok in H as [[[o' d] ts] [E H]].
  injection H as <- <-. destruct (resend_wire _ _ _ _ _ _ E Hw) as [H1 H2].
  split; [exists o'; split; [reflexivity|exact H1]|exact (wire_chunks_dgram _ H2)].
Qed.

Lemma token_random_wire rnd : forall t r, token_random rnd = Ok (t, r) -> Forall bytesP rnd ->
  bytesP t /\ Forall bytesP r.
Proof.
  induction rnd as [|x rnd IH]; intros t r H Hr; cbn [token_random] in H; [discriminate|].
  inversion Hr as [|x0 r0 Hx Hrest]; subst.
  destruct (list_eq_dec Z.eq_dec x TOKEN_NONE); [apply IH; assumption|].
  destruct (list_eq_dec Z.eq_dec x TOKEN_RESERVED); [apply IH; assumption|].
  injection H as <- <-. split; assumption.
Qed.

Theorem feed_wire c e d out : feed c e d = Ok out ->
  wire_state (c_state c) -> Forall bytesP (e_rand e) -> wire_dgram d -> wire_out out.
Proof.
  intros H Hw Hr Hd. unfold feed in H.
  destruct d as [tk rs pl|tk ack ctl|tk ack rr n cs];
    [injection H as <-; apply mk_wire; [exact Hw|exact Hr|constructor]| |].
  (* a connection-oriented datagram: token check, ack range, then the acknowledged state st1 *)
  all: cbn [dgram_tok dgram_ack] in H.
  all: destruct (match state_token (c_state c) with Some expected => negb (tok_eqb tk expected) | None => false end);
    [injection H as <-; apply mk_wire; [exact Hw|exact Hr|constructor]|].
  all: destruct ((ack <? 0) || (SEQ_MOD <=? ack)); [discriminate|].
  all: set (st1 := match c_state c with Online o => Online (ack_chunks o ack) | s => s end) in *.
  all: assert (Hw1 : wire_state st1) by (unfold st1; destruct (c_state c); try exact Hw; apply ack_wire, Hw).
  - destruct Hd as [Htk Hctl].
    assert (Hsame1 : forall ws evs, wire_out (mk {| c_state := st1; c_send := c_send c |} e [] evs ws ROk)).
    { intros. apply mk_wire; [exact Hw1|exact Hr|constructor]. }
    destruct ctl as [|resp| | |reason|resp]; try (injection H as <-; apply Hsame1).
    + destruct st1 as [| |t|o|] eqn:Est1; try (injection H as <-; apply Hsame1).
      destruct Htk as [t0 [-> Ht0]].
      destruct (list_eq_dec Z.eq_dec t0 TOKEN_NONE); [|injection H as <-; apply Hsame1].
      apply bind_ok in H as [[nt rnd'] [Etr H]].
      destruct (token_random_wire _ _ _ Etr Hr) as [Hnt Hrnd].
      apply tick_action_wire in H; [exact H| |exact Hrnd].
      cbn. exists nt. split; [reflexivity|exact Hnt].
    + destruct st1 as [| |t|o|] eqn:Est1; try (injection H as <-; apply Hsame1).
      apply bind_ok in H as [s [Esc H]]. injection H as <-.
      assert (Hon : wire_online (online_new tk tk)) by (apply online_new_wire, Htk).
      apply mk_wire; [exact Hon|exact Hr|]. eapply send_control_wire; [exact Esc|exact Hon|exact I].
    + injection H as <-. apply mk_wire; [exact I|exact Hr|constructor].
  - set (st2 := match st1 with Pending t => Online (online_new t t) | s => s end) in *.
    assert (Hw2 : wire_state st2).
    { unfold st2. destruct st1; try exact Hw1. cbn. apply online_new_wire, Hw1. }
    destruct st2 as [| |t|o|] eqn:Est2; try (injection H as <-; apply mk_wire; [exact Hw2|exact Hr|constructor]).
    apply bind_ok in H as [[c3 sent] [Hrs H]].
    assert (Hs : (exists o3, c_state c3 = Online o3 /\ wire_online o3) /\ Forall wire_dgram sent).
    { destruct rr; [exact (do_resend_wire _ _ _ _ _ Hrs Hw2)|].
      injection Hrs as <- <-. split; [exists o; split; [reflexivity|exact Hw2]|constructor]. }
    destruct Hs as [[o3 [Eo3 Hw3]] Hsent]. rewrite Eo3 in H.
    apply bind_ok in H as [[[ack' rr'] evs] [_ H]]. injection H as <-. apply mk_wire; [exact Hw3|exact Hr|exact Hsent].
Qed.

Theorem step_wire c e o out : step c e o = Ok out ->
  wire_state (c_state c) -> Forall bytesP (e_rand e) -> wire_op o -> wire_out out.
Proof.
  intros H Hw Hr Ho. destruct o as [|data vital| | |reason|data|d| |]; unfold step in H.
  - destruct (c_state c); try discriminate.
    apply tick_action_wire in H; [exact H|exact I|exact Hr].
  - destruct (c_state c) as [| |t|on|]; try discriminate.
    apply bind_ok in H as [[[o' d] r] [E H]]. injection H as <-.
    destruct (send_wire _ _ _ _ _ _ _ _ E Hw Ho) as [H1 H2].
    apply mk_wire; [exact H1|exact Hr|exact (wire_chunks_dgram _ H2)].
  - destruct (c_state c) as [| |t|on|]; try discriminate.
    apply bind_ok in H as [[o' d] [E H]]. injection H as <-.
    destruct (flush_wire _ _ _ _ E Hw) as [H1 H2]. apply mk_wire; [exact H1|exact Hr|exact (wire_chunks_dgram _ H2)].
  - destruct (match c_state c with
              | Online o => match queue_back (o_queue o) with Some rc => triggered (rc_next rc) (e_now e) | None => false end
              | _ => false end).
    + destruct (c_state c) as [| |t|on|] eqn:Est;
        try (injection H as <-; apply mk_wire; [rewrite Est; exact Hw|exact Hr|constructor]).
      apply bind_ok in H as [[c' d] [Edr H]]. injection H as <-.
      destruct (do_resend_wire _ _ _ _ _ Edr Hw) as [[o3 [Eo3 Hw3]] Hsent].
      apply mk_wire; [rewrite Eo3; exact Hw3|exact Hr|exact Hsent].
    + destruct (triggered (c_send c) (e_now e)).
      * apply tick_action_wire in H; [exact H|exact Hw|exact Hr].
      * injection H as <-. apply mk_wire; [exact Hw|exact Hr|constructor].
  - destruct (c_state c) as [| |t|on|] eqn:Est; try discriminate.
    all: destruct (existsb (fun b => b =? 0) reason); try discriminate.
    all: apply bind_ok in H as [d [E H]]; injection H as <-; apply mk_wire; [exact I|exact Hr|].
    all: exact (send_control_wire _ _ _ E Hw Ho).
  - destruct (c_state c) as [| |t|on|] eqn:Est; try discriminate.
    destruct (MAX_PAYLOAD <? _); injection H as <-; (apply mk_wire; [exact Hw|exact Hr|]).
    + constructor.
    + constructor; [exact Ho|constructor].
  - eapply feed_wire; eassumption.
  - injection H as <-. apply mk_wire; [exact Hw|exact Hr|constructor].
  - destruct (c_state c); try discriminate. injection H as <-. apply mk_wire; [exact I|exact Hr|constructor].
Qed.

(* the boolean form in which dgram_bytes_ok (Proofs/ConnBytes6.v) states it *)
Lemma forallb_chunk_bytes cs : Forall chunk_bytes cs -> forallb (fun c => bytes_ok (ch_data c)) cs = true.
Proof. intros H. apply forallb_forall. rewrite Forall_forall in H. exact H. Qed.
