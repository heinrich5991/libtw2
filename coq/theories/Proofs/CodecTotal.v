(* C14: decoding returns a value or an error on every byte string — no panic, no
   divergence (the interpreter is structurally recursive; what is shown here is that no
   Panic / OutOfFuel outcome is reachable) *)
From LibTw2 Require Import Base.Res Model.Varint Model.Packer Model.Codec
  Proofs.VarintArith Proofs.VarintProofs Proofs.PackerProofs.
From Coq Require Import ZArith Lia Bool List ZifyBool.
Open Scope Z_scope.

(* the middle of a step's triple: what was read, or why not *)
Definition outcome {A B C} (x : A * B * C) : B := snd (fst x).

Lemma total_cases {A E B C} (x : A * res E B * C) : ok_or_err (outcome x) ->
  (exists r v ws, x = (r, Ok v, ws)) \/ (exists r e ws, x = (r, Err e, ws)).
Proof.
  destruct x as [[r [v|e|s|]] ws]; cbn; intros H; try contradiction; [left|right]; repeat eexists.
Qed.

Lemma unpack_step_total rest k : ok_or_err (outcome (unpack_step rest k)).
Proof.
  unfold outcome. destruct k; cbn [unpack_step].
  - pose proof (read_int_total rest) as H. destruct (read_int rest) as [[[v ws] r]| | |]; try exact I; exact H.
  - destruct (split_nul rest) as [[s r]|]; exact I.
  - pose proof (read_int_total rest) as H. destruct (read_int rest) as [[[v ws] r]| | |]; try exact I; try exact H.
    destruct (v <? 0); [exact I|]. destruct (Z.of_nat (length r) <? v); exact I.
  - destruct (length rest <? n)%nat; exact I.
  - exact I.
Qed.

Lemma unpack_raw_len rest n r f ws : unpack_step rest (KRaw n) = (r, Ok f, ws) -> length (payload f) = n.
Proof.
  cbn [unpack_step]. destruct (length rest <? n)%nat eqn:E; intros H; [discriminate|].
  injection H as _ <- _. cbn [payload]. apply Nat.ltb_ge in E. rewrite firstn_length. lia.
Qed.

Lemma step_int_total rest k : (forall x, ok_or_err (k x)) -> ok_or_err (outcome (step_int rest k)).
Proof.
  intros Hk. unfold step_int.
  destruct (total_cases _ (unpack_step_total rest KInt)) as [(r & f & ws & ->)|(r & e & ws & ->)]; [apply Hk|exact I].
Qed.

Lemma step_bytes_total rest kd k :
  (forall r f ws, unpack_step rest kd = (r, Ok f, ws) -> ok_or_err (k (payload f))) ->
  ok_or_err (outcome (step_bytes rest kd k)).
Proof.
  intros Hk. unfold step_bytes.
  destruct (total_cases _ (unpack_step_total rest kd)) as [(r & f & ws & E)|(r & e & ws & E)]; rewrite E;
    [exact (Hk _ _ _ E)|exact I].
Qed.

Lemma check_int_total i x : ok_or_err (check_int i x).
Proof.
  destruct i; cbn [check_int]; try exact I.
  - destruct (_ && _); exact I.
  - destruct (0 <=? x); exact I.
  - destruct (a <=? x); exact I.
  - destruct (_ && _); exact I.
  - destruct (elookup t x); exact I.
Qed.

Lemma decode_op_total demo m rest : mop_ok m = true -> ok_or_err (outcome (decode_op demo m rest)).
Proof.
  intros Hm. destruct m; cbn [decode_op mop_ok] in *.
  - apply step_int_total, check_int_total.
  - apply step_bytes_total. intros; exact I.
  - apply step_bytes_total. intros. destruct (has_cc _); exact I.
  - apply step_bytes_total. intros. destruct (parse_int _); exact I.
  - apply step_bytes_total. intros; exact I.
  - apply step_bytes_total. intros; exact I.
  - apply step_bytes_total. intros. rewrite Hm. exact I.
  - apply step_bytes_total. intros. rewrite Hm. exact I.
  - apply step_bytes_total. intros r f ws H. apply unpack_raw_len in H. destruct (payload f); [discriminate|exact I].
  - apply step_bytes_total. intros r f ws H. apply unpack_raw_len in H.
    destruct (payload f) as [|hi [|lo tl]]; try discriminate. exact I.
  - destruct (total_cases _ (step_bytes_total rest KRest (fun s => Ok (VBytes s)) ltac:(intros; exact I)))
      as [(r & v & ws & ->)|(r & e & ws & ->)]; [destruct v|]; exact I.
  - apply step_bytes_total. intros; exact I.
  - destruct (total_cases _ (unpack_step_total rest KInt)) as [(r & f & ws & ->)|(r & e & ws & ->)]; exact I.
  - destruct (total_cases _ (unpack_step_total rest KStr)) as [(r & f & ws & ->)|(r & e & ws & ->)]; exact I.
  - exact I.
Qed.

Lemma decode_ops_total demo ms : forall rest, forallb mop_ok ms = true -> ok_or_err (outcome (decode_ops demo ms rest)).
Proof.
  induction ms as [|m ms IH]; intros rest Hm; cbn [decode_ops]; [exact I|].
  cbn [forallb] in Hm. apply andb_true_iff in Hm as [Hm1 Hm2].
  destruct (total_cases _ (decode_op_total demo m rest Hm1)) as [(r & v & ws & ->)|(r & e & ws & ->)]; [|exact I].
  destruct (total_cases _ (IH r Hm2)) as [(r' & vs & ws' & ->)|(r' & e & ws' & ->)]; exact I.
Qed.

Theorem decode_total c demo bs : forallb mop_ok (c_dec c) = true ->
  ok_or_err (fst (decode_w c demo bs)) /\ ok_or_err (decode c demo bs).
Proof.
  intros Hm. unfold decode, decode_w, decode_body.
  destruct (total_cases _ (decode_ops_total demo (c_dec c) bs Hm)) as [(r & vs & ws & ->)|(r & e & ws & ->)];
    split; exact I.
Qed.

Lemma decode_id_total bs : ok_or_err (outcome (decode_id bs)).
Proof.
  unfold decode_id.
  destruct (total_cases _ (unpack_step_total bs KInt)) as [(r & f & ws & ->)|(r & e & ws & ->)]; [|exact I].
  destruct (negb _); [exact I|].
  destruct (total_cases _ (unpack_step_total r (KRaw 16))) as [(r' & u & ws' & ->)|(r' & e & ws' & ->)]; exact I.
Qed.

Definition tbl_ok (tbl : list codec) : bool := forallb (fun c => forallb mop_ok (c_dec c)) tbl.

(* the body of the arm that the id selects *)
Lemma found_total tbl k id c demo r : tbl_ok tbl = true -> find_codec tbl k id = Some c ->
  ok_or_err (fst (tag_codec c (decode_w c demo r))).
Proof.
  unfold tbl_ok, find_codec. rewrite forallb_forall. intros Ht E. apply find_some in E as [E _].
  pose proof (proj1 (decode_total c demo r (Ht c E))) as H.
  destruct (decode_w c demo r) as [[vs| | |] ws]; exact H.
Qed.

Theorem decode_sysgame_total tbl sys demo bs : tbl_ok tbl = true ->
  ok_or_err (fst (decode_sysgame tbl sys demo bs)).
Proof.
  intros Ht. unfold decode_sysgame.
  destruct (total_cases _ (decode_id_total bs)) as [(r & [sys' id] & ws & ->)|(r & e & ws & ->)]; [|exact I].
  destruct (Bool.eqb sys' sys); [|exact I].
  destruct (find_codec tbl _ id) as [c|] eqn:E; [|exact I]. exact (found_total _ _ _ _ demo r Ht E).
Qed.

Theorem decode_connless_total tbl demo bs : tbl_ok tbl = true ->
  ok_or_err (fst (decode_connless tbl demo bs)).
Proof.
  intros Ht. unfold decode_connless.
  destruct (total_cases _ (unpack_step_total bs (KRaw 8))) as [(r & f & ws & ->)|(r & e & ws & ->)]; [|exact I].
  destruct (find_codec tbl KConnless _) as [c|] eqn:E; [|exact I]. exact (found_total _ _ _ _ demo r Ht E).
Qed.

Lemma decode_words_total is : forall ws, ok_or_err (snd (decode_words is ws)).
Proof.
  induction is as [|i is IH]; intros ws; cbn [decode_words]; [exact I|].
  destruct ws as [|w ws]; [exact I|].
  pose proof (check_int_total i w) as H. destruct (check_int i w); cbn [snd]; try exact I; try exact H.
  specialize (IH ws). destruct (decode_words is ws) as [r [vs| | |]]; cbn [snd] in *; try exact I; exact IH.
Qed.

Theorem decode_snap_obj_total tbl id ws : ok_or_err (fst (decode_snap_obj tbl id ws)).
Proof.
  unfold decode_snap_obj. destruct (find_obj tbl id) as [o|]; [|exact I].
  unfold decode_obj. pose proof (decode_words_total (o_dec o) ws) as H.
  destruct (decode_words (o_dec o) ws) as [r [vs| | |]]; cbn [fst snd] in *; try exact I; exact H.
Qed.
