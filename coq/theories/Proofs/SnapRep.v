(* The representation invariant of RawSnap: the ranges of the key map tile the flat
   buffer.  `rep S ch` says that S stores the items `ch` (key, data) - listed in the
   order their storage lies in buf, i.e. insertion order - and every operation of the
   model is specified in terms of `ch`. *)
From LibTw2 Require Import Base.Res Model.Varint Model.Snap Proofs.SnapBase.
From Coq Require Import ZArith List Lia Bool Permutation.
Import ListNotations.
Open Scope Z_scope.

Definition items := list (Z * list Z).

Definition flat (ch : items) : list Z := flat_map snd ch.

Fixpoint ranges_of (pos : nat) (ch : items) : list (Z * range) :=
  match ch with
  | [] => []
  | (k, d) :: t => (k, (pos, (pos + length d)%nat)) :: ranges_of (pos + length d)%nat t
  end.

Record rep (S : rawsnap) (ch : items) : Prop := {
  rep_buf : rs_buf S = flat ch;
  rep_offs : Permutation (rs_offs S) (ranges_of 0 ch);
  rep_sorted : sortedb (map fst (rs_offs S)) = true
}.

Lemma flat_app a b : flat (a ++ b) = flat a ++ flat b.
Proof. unfold flat. apply flat_map_app. Qed.

Lemma flat_snoc ch k d : flat (ch ++ [(k, d)]) = flat ch ++ d.
Proof. rewrite flat_app. cbn. rewrite app_nil_r. reflexivity. Qed.

Lemma ranges_of_keys ch : forall p, map fst (ranges_of p ch) = map fst ch.
Proof. induction ch as [|[k d] t IH]; intros p; cbn [ranges_of map fst]; [reflexivity|]. f_equal. apply IH. Qed.

Lemma ranges_of_app a : forall b p,
  ranges_of p (a ++ b) = ranges_of p a ++ ranges_of (p + length (flat a))%nat b.
Proof.
  induction a as [|[k d] a IH]; intros b p; cbn [app ranges_of flat flat_map snd length].
  - rewrite Nat.add_0_r. reflexivity.
  - f_equal. rewrite IH. f_equal. f_equal. rewrite app_length. fold (flat a). lia.
Qed.

Lemma ranges_of_snoc ch k d :
  ranges_of 0 (ch ++ [(k, d)]) = ranges_of 0 ch ++ [(k, (length (flat ch), (length (flat ch) + length d)%nat))].
Proof. rewrite ranges_of_app. reflexivity. Qed.

Lemma ranges_of_length ch : forall p, length (ranges_of p ch) = length ch.
Proof. induction ch as [|[k d] t IH]; intros p; cbn [ranges_of length]; [reflexivity|]. f_equal. apply IH. Qed.

Lemma in_ranges_split k r ch : forall p, In (k, r) (ranges_of p ch) ->
  exists pre d post, ch = pre ++ (k, d) :: post
    /\ r = ((p + length (flat pre))%nat, (p + length (flat pre) + length d)%nat).
Proof.
  induction ch as [|[k' d'] t IH]; intros p Hin; [destruct Hin|].
  cbn [ranges_of] in Hin. destruct Hin as [E|Hin].
  - injection E as -> <-. exists [], d', t. split; [reflexivity|]. cbn. f_equal; lia.
  - destruct (IH _ Hin) as (pre & d & post & -> & ->).
    exists ((k', d') :: pre), d, post. split; [reflexivity|].
    cbn [flat flat_map snd]. rewrite app_length. fold (flat pre). f_equal; lia.
Qed.

(* the bounds test that slice and write_range share *)
Lemma in_bounds (r : range) n : (fst r <= snd r <= n)%nat -> (fst r <=? snd r)%nat && (snd r <=? n)%nat = true.
Proof. intros H. apply andb_true_iff. split; apply Nat.leb_le; lia. Qed.

Lemma slice_mid {E} (pre d post : list Z) :
  @slice E (pre ++ d ++ post) (length pre, (length pre + length d)%nat) = Ok d.
Proof.
  unfold slice. rewrite in_bounds by (cbn [fst snd]; rewrite !app_length; lia). cbn [fst snd].
  replace (length pre + length d - length pre)%nat with (length d) by lia.
  rewrite firstn_skipn_app_mid. reflexivity.
Qed.

Lemma ranges_of_slice k r ch : In (k, r) (ranges_of 0 ch) ->
  exists d, In (k, d) ch /\ forall E, @slice E (flat ch) r = Ok d.
Proof.
  intros Hin. destruct (in_ranges_split _ _ _ _ Hin) as (pre & d & post & -> & ->).
  exists d. split; [apply in_elt|]. intros E. rewrite flat_app. cbn [flat flat_map snd Nat.add]. apply slice_mid.
Qed.

Lemma slice_ok_length {E} buf r d : @slice E buf r = Ok d -> length d = range_len r.
Proof.
  unfold slice, range_len. destruct ((fst r <=? snd r)%nat && (snd r <=? length buf)%nat) eqn:C; [|discriminate].
  intros [= <-]. apply andb_true_iff in C. destruct C as [C1 C2]. apply Nat.leb_le in C1, C2.
  rewrite firstn_length, skipn_length. lia.
Qed.

Lemma slice_forallb {E} (p : Z -> bool) buf r d : forallb p buf = true -> @slice E buf r = Ok d -> forallb p d = true.
Proof.
  unfold slice. intros Hb. destruct (_ && _); [|discriminate]. intros [= <-]. apply forallb_firstn, forallb_skipn, Hb.
Qed.

Lemma write_range_mid {E} (pre d0 post d : list Z) : length d = length d0 ->
  @write_range E (pre ++ d0 ++ post) (length pre, (length pre + length d0)%nat) d = Ok (pre ++ d ++ post).
Proof.
  intros Hl. unfold write_range, range_len. rewrite in_bounds by (cbn [fst snd]; rewrite !app_length; lia).
  cbn [fst snd]. replace ((length pre + length d0 - length pre =? length d)%nat) with true
    by (symmetry; apply Nat.eqb_eq; lia).
  rewrite firstn_app, firstn_all, Nat.sub_diag. cbn [firstn]. rewrite app_nil_r.
  rewrite (app_assoc pre d0 post), <- (app_length pre d0), skipn_app, skipn_all, Nat.sub_diag. reflexivity.
Qed.

(* filling the zeroes a vacant item was reserved with *)
Lemma write_range_fresh {E} (buf data : list Z) n : length data = n ->
  @write_range E (buf ++ repeat 0%Z n) (length buf, (length buf + n)%nat) data = Ok (buf ++ data).
Proof.
  intros Hl. pose proof (@write_range_mid E buf (repeat 0 n) [] data) as H.
  rewrite repeat_length, !app_nil_r in H. apply H, Hl.
Qed.

Lemma write_range_ok {E} (p : Z -> bool) buf r d buf' : @write_range E buf r d = Ok buf' ->
  length buf' = length buf /\ (forallb p buf = true -> forallb p d = true -> forallb p buf' = true).
Proof.
  unfold write_range, range_len. destruct ((fst r <=? snd r)%nat && (snd r <=? length buf)%nat) eqn:C; [|discriminate].
  destruct (Nat.eqb_spec (snd r - fst r) (length d)) as [Hl|]; [|discriminate]. intros [= <-].
  apply andb_true_iff in C. destruct C as [C1 C2]. apply Nat.leb_le in C1, C2. split.
  - rewrite !app_length, firstn_length, skipn_length. lia.
  - intros Hb Hd. rewrite !forallb_app, Hd, forallb_firstn, forallb_skipn by exact Hb. reflexivity.
Qed.

Lemma rep_keys S ch : rep S ch -> Permutation (map fst (rs_offs S)) (map fst ch).
Proof. intros [_ Hp _]. rewrite <- (ranges_of_keys ch 0%nat). apply Permutation_map, Hp. Qed.

Lemma rep_nodup_offs S ch : rep S ch -> NoDup (map fst (rs_offs S)).
Proof. intros H. apply sortedb_nodup, (rep_sorted _ _ H). Qed.

Lemma rep_nodup S ch : rep S ch -> NoDup (map fst ch).
Proof. intros H. eapply Permutation_NoDup; [apply rep_keys, H|apply rep_nodup_offs with ch, H]. Qed.

Lemma rep_lengths S ch : rep S ch ->
  length (rs_offs S) = length ch /\ length (rs_buf S) = length (flat ch).
Proof.
  intros H. split; [|rewrite (rep_buf _ _ H); reflexivity].
  rewrite (Permutation_length (rep_offs _ _ H)). apply ranges_of_length.
Qed.

Lemma aget_mid {V} k (d : V) pre post :
  ~ In k (map fst pre) -> aget k (pre ++ (k, d) :: post) = Some d.
Proof.
  intros Hni. rewrite aget_app, (proj2 (aget_none k pre) Hni). cbn [aget]. rewrite Z.eqb_refl. reflexivity.
Qed.

Lemma nodup_mid {V} (k : Z) (d : V) pre post :
  NoDup (map fst (pre ++ (k, d) :: post)) -> ~ In k (map fst pre) /\ ~ In k (map fst post).
Proof.
  rewrite map_app. cbn [map fst]. intros H. apply NoDup_remove_2 in H.
  split; intros Hin; apply H, in_or_app; [left|right]; exact Hin.
Qed.

Lemma rep_get S ch k r : rep S ch -> aget k (rs_offs S) = Some r ->
  exists pre d post, ch = pre ++ (k, d) :: post /\ aget k ch = Some d
    /\ r = (length (flat pre), (length (flat pre) + length d)%nat)
    /\ (forall E, @slice E (rs_buf S) r = Ok d).
Proof.
  intros H Hg. apply aget_in in Hg.
  apply (Permutation_in _ (rep_offs _ _ H)) in Hg.
  destruct (in_ranges_split _ _ _ _ Hg) as (pre & d & post & Hch & Hr).
  exists pre, d, post. split; [exact Hch|].
  pose proof (rep_nodup _ _ H) as Hnd. rewrite Hch in Hnd. destruct (nodup_mid _ _ _ _ Hnd) as [Hpre _].
  split; [rewrite Hch; apply aget_mid, Hpre|]. cbn [Nat.add] in Hr. split; [exact Hr|].
  intros E. rewrite (rep_buf _ _ H), Hch, flat_app, Hr. cbn [flat flat_map snd]. fold (flat post).
  apply slice_mid.
Qed.

(* the same for an entry of the map, which is how the loops over rs_offs meet it *)
Lemma rep_in S ch k r : rep S ch -> In (k, r) (rs_offs S) ->
  exists d, aget k ch = Some d /\ range_len r = length d /\ (forall E, @slice E (rs_buf S) r = Ok d).
Proof.
  intros H Hin. apply (in_aget _ _ _ (rep_nodup_offs _ _ H)) in Hin.
  destruct (rep_get _ _ _ _ H Hin) as (pre & d & _ & _ & Hd & -> & Hs).
  exists d. split; [exact Hd|]. split; [unfold range_len; cbn; lia|exact Hs].
Qed.

Lemma rep_get_none S ch k : rep S ch -> (aget k (rs_offs S) = None <-> aget k ch = None).
Proof.
  intros H. rewrite !aget_none. pose proof (rep_keys _ _ H) as Hp. split; intros Hn Hin; apply Hn.
  - eapply Permutation_in; [apply Permutation_sym, Hp|exact Hin].
  - eapply Permutation_in; [apply Hp|exact Hin].
Qed.

Lemma rep_get_some S ch k d : rep S ch -> aget k ch = Some d ->
  exists r, aget k (rs_offs S) = Some r /\ range_len r = length d /\ (forall E, @slice E (rs_buf S) r = Ok d).
Proof.
  intros H Hd. destruct (aget k (rs_offs S)) as [r|] eqn:Hr.
  - destruct (rep_in _ _ _ _ H (aget_in _ _ _ Hr)) as (d' & Hd' & Hl & Hs).
    rewrite Hd in Hd'. injection Hd' as <-. exists r. split; [reflexivity|]. split; assumption.
  - apply (rep_get_none _ _ _ H) in Hr. congruence.
Qed.

Lemma rep_in_keys S ch k : rep S ch -> (In k (map fst (rs_offs S)) <-> aget k ch <> None).
Proof.
  intros H. rewrite <- aget_some_in, <- (rep_get_none _ _ _ H).
  destruct (aget k (rs_offs S)); split; try congruence; [eauto|intros [v Hv]; discriminate].
Qed.

Lemma raw_item_rep {E} S ch ty id : rep S ch -> @raw_item E S ty id = Ok (aget (key ty id) ch).
Proof.
  intros H. unfold raw_item. destruct (aget (key ty id) (rs_offs S)) as [r|] eqn:Hr.
  - destruct (rep_in _ _ _ _ H (aget_in _ _ _ Hr)) as (d & Hd & _ & Hs). rewrite Hs, Hd. reflexivity.
  - apply (rep_get_none _ _ _ H) in Hr. rewrite Hr. reflexivity.
Qed.

Definition data_of (ch : items) (k : Z) : list Z := match aget k ch with Some d => d | None => [] end.
Lemma data_of_some ch k d : aget k ch = Some d -> data_of ch k = d.
Proof. unfold data_of. intros ->. reflexivity. Qed.

Definition view (S : rawsnap) (ch : items) : items := map (fun kr => (fst kr, data_of ch (fst kr))) (rs_offs S).

Lemma items_of_rep {E} S ch : rep S ch -> forall l, incl l (rs_offs S) ->
  @items_of E (rs_buf S) l = Ok (map (fun kr => (fst kr, data_of ch (fst kr))) l).
Proof.
  intros H l. induction l as [|[k r] l IH]; intros Hincl; [reflexivity|].
  apply incl_cons_inv in Hincl. destruct Hincl as [Hin Hincl].
  destruct (rep_in _ _ _ _ H Hin) as (d & Hd & _ & Hs).
  cbn [items_of map fst]. rewrite Hs, (IH Hincl), (data_of_some _ _ _ Hd). reflexivity.
Qed.

Lemma raw_items_rep {E} S ch : rep S ch -> @raw_items E S = Ok (view S ch).
Proof. intros H. apply (items_of_rep S ch H). apply incl_refl. Qed.

Lemma view_keys S ch : map fst (view S ch) = map fst (rs_offs S).
Proof. unfold view. rewrite map_map. reflexivity. Qed.

Lemma view_as_map S ch : view S ch = map (fun k => (k, data_of ch k)) (map fst (rs_offs S)).
Proof. unfold view. rewrite map_map. reflexivity. Qed.

Lemma rebuild ch : NoDup (map fst ch) -> map (fun k => (k, data_of ch k)) (map fst ch) = ch.
Proof.
  induction ch as [|[k d] t IH]; intros Hnd; [reflexivity|].
  inversion Hnd as [|? ? Hni Hnd']; subst. cbn [map fst]. f_equal.
  - unfold data_of. cbn [aget]. rewrite Z.eqb_refl. reflexivity.
  - transitivity (map (fun k => (k, data_of t k)) (map fst t)); [|apply IH, Hnd'].
    apply map_ext_in. intros k' Hk'. unfold data_of. cbn [aget].
    destruct (Z.eqb_spec k' k); [subst; contradiction|reflexivity].
Qed.

Lemma view_perm S ch : rep S ch -> Permutation (view S ch) ch.
Proof.
  intros H. rewrite view_as_map, (Permutation_map _ (rep_keys _ _ H)), rebuild by apply (rep_nodup _ _ H). reflexivity.
Qed.

Lemma aget_view S ch k : rep S ch -> aget k (view S ch) = aget k ch.
Proof.
  intros H. apply aget_perm; [|apply view_perm, H]. rewrite view_keys. apply (rep_nodup_offs _ _ H).
Qed.

Lemma in_view S ch k d : rep S ch -> In (k, d) (view S ch) -> aget k ch = Some d.
Proof.
  intros H Hin. rewrite <- (aget_view S ch k H). apply in_aget; [|exact Hin].
  rewrite view_keys. apply (rep_nodup_offs _ _ H).
Qed.

(* crc only depends on the multiset of items *)
Lemma zsum_flat_perm a b : Permutation a b -> zsum (flat a) = zsum (flat b).
Proof.
  induction 1 as [|x a b _ IH|x y a|a b c _ IH1 _ IH2]; [reflexivity| | |congruence].
  - cbn [flat flat_map]. fold (flat a) (flat b). rewrite !zsum_app. lia.
  - cbn [flat flat_map]. fold (flat a). rewrite !zsum_app. lia.
Qed.

Lemma length_flat_perm a b : Permutation a b -> length (flat a) = length (flat b).
Proof.
  induction 1 as [|x a b _ IH|x y a|a b c _ IH1 _ IH2]; [reflexivity| | |congruence].
  - cbn [flat flat_map]. fold (flat a) (flat b). rewrite !app_length. lia.
  - cbn [flat flat_map]. fold (flat a). rewrite !app_length. lia.
Qed.

Lemma rep_empty : rep raw_empty [].
Proof. split; [reflexivity|apply Permutation_refl|reflexivity]. Qed.

Definition fits (S : rawsnap) (size : nat) : bool :=
  negb (MAX_SNAPSHOT_ITEMS <? Z.of_nat (length (rs_offs S)) + 1)
  && negb (MAX_SNAPSHOT_SIZE <? ser_size (Z.of_nat (length (rs_offs S)) + 1)
                                         (Z.of_nat (length (rs_buf S)) + Z.of_nat size)).

Lemma fits_iff S n : fits S n = true <->
  Z.of_nat (length (rs_offs S)) + 1 <= MAX_SNAPSHOT_ITEMS
  /\ ser_size (Z.of_nat (length (rs_offs S)) + 1) (Z.of_nat (length (rs_buf S)) + Z.of_nat n) <= MAX_SNAPSHOT_SIZE.
Proof. unfold fits. rewrite andb_true_iff, !negb_true_iff, !Z.ltb_ge. tauto. Qed.

Definition pushed (S : rawsnap) (k : Z) (data : list Z) : rawsnap :=
  {| rs_offs := ains k (length (rs_buf S), (length (rs_buf S) + length data)%nat) (rs_offs S);
     rs_buf := rs_buf S ++ data |}.

Lemma add_item_eq S ty id data : add_item S ty id data =
  match aget (key ty id) (rs_offs S) with
  | Some _ => Err BDuplicateKey
  | None =>
    if MAX_SNAPSHOT_ITEMS <? Z.of_nat (length (rs_offs S)) + 1 then Err BTooManyItems
    else if MAX_SNAPSHOT_SIZE <? ser_size (Z.of_nat (length (rs_offs S)) + 1)
                                          (Z.of_nat (length (rs_buf S)) + Z.of_nat (length data))
    then Err BTooLongSnap
    else Ok (pushed S (key ty id) data)
  end.
Proof.
  unfold add_item, prepare_vacant. destruct (aget (key ty id) (rs_offs S)); [reflexivity|].
  destruct (MAX_SNAPSHOT_ITEMS <? _); [reflexivity|].
  destruct (MAX_SNAPSHOT_SIZE <? _); [reflexivity|].
  cbn [bind rs_buf rs_offs]. rewrite write_range_fresh by reflexivity. reflexivity.
Qed.

Lemma add_item_push S ty id data : aget (key ty id) (rs_offs S) = None -> fits S (length data) = true ->
  add_item S ty id data = Ok (pushed S (key ty id) data).
Proof.
  intros Hn Hf. rewrite add_item_eq, Hn. unfold fits in Hf. apply andb_true_iff in Hf.
  destruct Hf as [F1 F2]. apply negb_true_iff in F1, F2. rewrite F1, F2. reflexivity.
Qed.

Lemma add_item_ok S ty id data S' : add_item S ty id data = Ok S' ->
  aget (key ty id) (rs_offs S) = None /\ fits S (length data) = true /\ S' = pushed S (key ty id) data.
Proof.
  rewrite add_item_eq. unfold fits. destruct (aget _ _); [discriminate|].
  destruct (_ <? _); [discriminate|]. destruct (_ <? _); [discriminate|]. intros [= <-]. auto.
Qed.

Lemma rep_pushed S ch k data : rep S ch -> aget k (rs_offs S) = None ->
  rep (pushed S k data) (ch ++ [(k, data)]).
Proof.
  intros H Hn. split; cbn [pushed rs_buf rs_offs].
  - rewrite (rep_buf _ _ H), flat_snoc. reflexivity.
  - rewrite ranges_of_snoc, <- (rep_buf _ _ H).
    eapply Permutation_trans; [apply ains_perm, Hn|].
    eapply Permutation_trans; [apply perm_skip, (rep_offs _ _ H)|]. apply Permutation_cons_append.
  - apply ains_sorted, (rep_sorted _ _ H).
Qed.

Lemma pushed_length S k data : aget k (rs_offs S) = None ->
  length (rs_offs (pushed S k data)) = Datatypes.S (length (rs_offs S))
  /\ length (rs_buf (pushed S k data)) = (length (rs_buf S) + length data)%nat.
Proof. intros H. cbn [pushed rs_offs rs_buf]. rewrite app_length. split; [apply ains_length_new, H|reflexivity]. Qed.

Definition aset (k : Z) (d : list Z) (ch : items) : items :=
  map (fun kd => if fst kd =? k then (k, d) else kd) ch.

Lemma aset_notin k d ch : ~ In k (map fst ch) -> aset k d ch = ch.
Proof.
  induction ch as [|[k' d'] ch IH]; intros Hni; [reflexivity|]. cbn [aset map fst].
  destruct (Z.eqb_spec k' k); [exfalso; apply Hni; left; cbn; auto|].
  f_equal. apply IH. intros Hin. apply Hni. right. exact Hin.
Qed.

Lemma aset_mid k d d0 pre post : ~ In k (map fst pre) -> ~ In k (map fst post) ->
  aset k d (pre ++ (k, d0) :: post) = pre ++ (k, d) :: post.
Proof.
  intros Hpre Hpost. unfold aset. rewrite map_app. cbn [map fst]. rewrite Z.eqb_refl.
  fold (aset k d pre) (aset k d post). rewrite !aset_notin by assumption. reflexivity.
Qed.

Lemma aset_keys k d ch : map fst (aset k d ch) = map fst ch.
Proof.
  unfold aset. rewrite map_map. apply map_ext_in. intros [k' d'] _. cbn [fst].
  destruct (Z.eqb_spec k' k); [subst; reflexivity|reflexivity].
Qed.

Lemma aget_aset_same k d ch : In k (map fst ch) -> aget k (aset k d ch) = Some d.
Proof.
  induction ch as [|[k' d'] ch IH]; intros Hin; [destruct Hin|]. cbn [aset map fst aget].
  destruct (Z.eqb_spec k' k).
  - subst. cbn [aget fst]. rewrite Z.eqb_refl. reflexivity.
  - cbn [aget]. destruct (Z.eqb_spec k k'); [congruence|]. apply IH. destruct Hin as [E|Hin]; [cbn in E; congruence|exact Hin].
Qed.

Lemma aget_aset_other k k0 d ch : k <> k0 -> aget k (aset k0 d ch) = aget k ch.
Proof.
  intros Hne. induction ch as [|[k' d'] ch IH]; [reflexivity|]. cbn [aset map fst aget].
  destruct (Z.eqb_spec k' k0).
  - subst. cbn [aget]. destruct (Z.eqb_spec k k0); [contradiction|exact IH].
  - cbn [aget]. destruct (Z.eqb_spec k k'); [reflexivity|exact IH].
Qed.

Lemma ranges_of_same_len k d d0 pre post p : length d = length d0 ->
  ranges_of p (pre ++ (k, d) :: post) = ranges_of p (pre ++ (k, d0) :: post).
Proof. intros Hl. rewrite !ranges_of_app. cbn [ranges_of]. rewrite Hl. reflexivity. Qed.

Lemma rep_write S ch k r d : rep S ch -> aget k (rs_offs S) = Some r -> length d = range_len r ->
  exists buf', (forall E, @write_range E (rs_buf S) r d = Ok buf')
    /\ rep {| rs_offs := rs_offs S; rs_buf := buf' |} (aset k d ch).
Proof.
  intros H Hg Hl. destruct (rep_get _ _ _ _ H Hg) as (pre & d0 & post & Hch & _ & Hr & _).
  pose proof (rep_nodup _ _ H) as Hnd. rewrite Hch in Hnd. destruct (nodup_mid _ _ _ _ Hnd) as [Hpre Hpost].
  assert (Hl' : length d = length d0) by (rewrite Hl, Hr; unfold range_len; cbn; lia).
  exists (flat pre ++ d ++ flat post). split.
  - intros E. rewrite (rep_buf _ _ H), Hch, flat_app, Hr. cbn [flat flat_map snd]. fold (flat post).
    apply write_range_mid, Hl'.
  - rewrite Hch, aset_mid by assumption. split; cbn [rs_buf rs_offs].
    + rewrite flat_app. reflexivity.
    + rewrite (ranges_of_same_len k d d0) by exact Hl'. rewrite <- Hch. apply (rep_offs _ _ H).
    + apply (rep_sorted _ _ H).
Qed.
