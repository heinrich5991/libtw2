(* Demo model, typed layer, the history.  What DemoWriter::write_snap puts into a snapshot:
   Snap::items() of a snapshot built by add_item calls on a recycled (or new) builder lists
   exactly the items given, in some order.  Then the induction along a history of accepted calls:
   the reader's snapshot stays observationally the writer's, across key frames, deltas and the
   chain of recycled builders, so every Snapshot chunk the reader reports lists the items given. *)
From LibTw2 Require Import Base.Res Model.Demo Model.DemoHL Proofs.DemoBase Proofs.DemoHLProofs.
From LibTw2 Require Import Model.Snap Proofs.SnapBase Proofs.SnapRep Proofs.SnapApply Proofs.SnapTotal
  Proofs.SnapReg Proofs.SnapBuilder Proofs.SnapBuilder2 Proofs.SnapBuilder3 Proofs.SnapC10 Proofs.DemoTyped.
From Coq Require Import ZArith List Lia Bool Permutation.
Import ListNotations.
Open Scope Z_scope.

Fixpoint filter_map {A B} (f : A -> option B) (l : list A) : list B :=
  match l with
  | [] => []
  | x :: r => match f x with Some y => y :: filter_map f r | None => filter_map f r end
  end.

Lemma filter_map_app {A B} (f : A -> option B) a b : filter_map f (a ++ b) = filter_map f a ++ filter_map f b.
Proof.
  induction a as [|x a IH]; [reflexivity|]. cbn [app filter_map]. destruct (f x); [cbn [app]; f_equal|]; exact IH.
Qed.

Lemma filter_map_perm {A B} (f : A -> option B) a b : Permutation a b -> Permutation (filter_map f a) (filter_map f b).
Proof.
  induction 1 as [|x a b _ IH|x y a|a b c _ IH1 _ IH2]; [constructor| | |eapply Permutation_trans; eassumption].
  - cbn [filter_map]. destruct (f x); [constructor|]; exact IH.
  - cbn [filter_map]. destruct (f x), (f y); try apply Permutation_refl. constructor.
Qed.

Lemma filter_map_ext_in {A B} (f g : A -> option B) l : (forall x, In x l -> f x = g x) -> filter_map f l = filter_map g l.
Proof.
  induction l as [|x l IH]; intros H; [reflexivity|]. cbn [filter_map].
  rewrite (H x (or_introl eq_refl)). rewrite IH by (intros; apply H; right; assumption). reflexivity.
Qed.

Lemma filter_map_none {A B} (f : A -> option B) l : (forall x, In x l -> f x = None) -> filter_map f l = [].
Proof.
  induction l as [|x l IH]; intros H; [reflexivity|]. cbn [filter_map].
  rewrite (H x (or_introl eq_refl)). apply IH. intros y Hy. apply H. right. exact Hy.
Qed.

Fixpoint num_uuid (ext : list (Z * Z)) (ty : Z) : option Z :=
  match ext with
  | [] => None
  | (u, t) :: r => if t =? ty then Some u else num_uuid r ty
  end.

Definition typed_of (ext : list (Z * Z)) (kd : Z * list Z) : option hitem :=
  let ty := key_to_raw_type_id (fst kd) in
  if ty =? TYPE_ID_EX then None
  else if ty <? OFFSET_EXTENDED_TYPE_ID then Some (Ordinal ty, key_to_id (fst kd), snd kd)
  else match num_uuid ext ty with
       | Some u => Some (Uuid u, key_to_id (fst kd), snd kd)
       | None => None
       end.

Lemma num_uuid_in ext ty u : num_uuid ext ty = Some u -> In (u, ty) ext.
Proof.
  induction ext as [|[u' t] ext IH]; cbn [num_uuid]; [discriminate|].
  destruct (Z.eqb_spec t ty); [intros [= ->]; subst; left; reflexivity|intros H; right; auto].
Qed.

Lemma num_uuid_some ext ty u : In (u, ty) ext -> exists u', num_uuid ext ty = Some u'.
Proof.
  induction ext as [|[u' t] ext IH]; cbn [num_uuid In]; [intros []|].
  intros [E|Hin]; [injection E as -> ->; rewrite Z.eqb_refl; eauto|].
  destruct (t =? ty); [eauto|apply IH, Hin].
Qed.

(* with an injective registry the number determines the UUID *)
Lemma num_uuid_aget ch ext next u ty : bstate ch ext next -> aget u ext = Some ty -> num_uuid ext ty = Some u.
Proof.
  intros B Hu. pose proof (sortedb_nodup _ (bs_sorted _ _ _ B)) as Hnd.
  destruct (num_uuid_some ext ty u (aget_in _ _ _ Hu)) as [u' Hu']. rewrite Hu'. f_equal.
  apply (bs_inj _ _ _ B u' u ty); [|exact Hu]. apply in_aget; [exact Hnd|apply num_uuid_in, Hu'].
Qed.

(* Snap::type_id on the key of an item the snapshot holds: the type `typed_of` gives it *)
Lemma snap_type_id_typed {E} S ch next k d : rep (sn_raw S) ch -> bstate ch (sn_ext S) next -> aget k ch = Some d ->
  exists ot, @snap_type_id E S (key_to_raw_type_id k) = Ok ot
    /\ typed_of (sn_ext S) (k, d) = match ot with Some ty => Some (ty, key_to_id k, d) | None => None end.
Proof.
  intros R B Hk. unfold snap_type_id, typed_of. cbn [fst snd].
  destruct (Z.eqb_spec (key_to_raw_type_id k) TYPE_ID_EX) as [Ht|Ht]; [eexists; split; reflexivity|].
  destruct (Z.ltb_spec (key_to_raw_type_id k) OFFSET_EXTENDED_TYPE_ID) as [Hlt|Hge]; [eexists; split; reflexivity|].
  rewrite (raw_item_rep (sn_raw S) ch _ _ R). cbn [bind].
  destruct (bs_high _ _ _ B k d Hk ltac:(unfold OFFSET_EXTENDED_TYPE_ID in Hge; lia)) as [u Hu].
  destruct (bs_entry _ _ _ B u _ Hu) as (_ & Huok & Hreg).
  rewrite Hreg, (uuid_roundtrip u Huok), (num_uuid_aget ch _ next u _ B Hu). cbn [fst]. eexists; split; reflexivity.
Qed.

(* Snap::items() in closed form; that the count announced at the start suffices is snap_items_fine *)
Lemma items_loop_typed {E} S ch next : rep (sn_raw S) ch -> bstate ch (sn_ext S) next ->
  forall l rem out, (forall k d, In (k, d) l -> aget k ch = Some d) ->
    @items_loop E S l rem = Ok out -> out = filter_map (typed_of (sn_ext S)) l.
Proof.
  intros R B. induction l as [|[k d] l IH]; intros rem out Hl H; [injection H as <-; reflexivity|].
  destruct (snap_type_id_typed (E:=E) S ch next k d R B (Hl k d (or_introl eq_refl))) as (ot & Et & Ety).
  assert (Hl' : forall k' d', In (k', d') l -> aget k' ch = Some d') by (intros k' d' Hin; apply Hl; right; exact Hin).
  cbn [items_loop filter_map] in *. rewrite Et in H. rewrite Ety. cbn [bind] in H.
  destruct ot as [ty|]; [|exact (IH rem out Hl' H)].
  destruct (rem <=? 0); [discriminate|]. apply bind_ok_inv in H as (rest & Hrest & [= <-]).
  f_equal. exact (IH (rem - 1) rest Hl' Hrest).
Qed.

Lemma filter_map_length_le {A B} (f : A -> option B) l : (length (filter_map f l) <= length l)%nat.
Proof. induction l as [|x l IH]; [cbn; lia|]. cbn [filter_map]. destruct (f x); cbn [length]; lia. Qed.

Lemma rep_perm R ch ch' : rep R ch -> rep R ch' -> Permutation ch ch'.
Proof.
  intros H H'. eapply Permutation_trans; [apply Permutation_sym, (view_perm _ ch H)|].
  destruct (same_lookups _ _ _ _ H H' (rep_lookups_unique _ _ _ H H')) as [-> _]. apply (view_perm _ ch' H').
Qed.

Theorem snap_items_typed b : bgood b ->
  exists ch, rep (sn_raw (b_snap b)) ch /\ bstate ch (sn_ext (b_snap b)) (b_next b)
    /\ Permutation (snap_items_list (b_snap b)) (filter_map (typed_of (sn_ext (b_snap b))) ch).
Proof.
  intros G. destruct (bg_st _ G) as (ch & R & B). exists ch. split; [exact R|]. split; [exact B|].
  destruct (builder_consistent _ G) as [_ SG]. destruct (@snap_items_fine hrerr _ SG) as [[n l] E].
  unfold snap_items_list. rewrite E. unfold snap_items in E.
  destruct (_ <? _); [discriminate|]. rewrite (raw_items_rep _ ch R) in E. cbn [bind] in E.
  apply bind_ok_inv in E as (out & Eout & [= _ <-]).
  rewrite (items_loop_typed (b_snap b) ch (b_next b) R B _ _ _ (fun k d H => in_view _ ch k d R H) Eout).
  apply filter_map_perm, view_perm, R.
Qed.

Lemma add_item_explicit R ch ty id data R' : good R -> rep R ch ->
  0 <= ty <= 65535 -> 0 <= id <= 65535 -> forallb is_i32 data = true ->
  add_item R ty id data = Ok R' ->
  good R' /\ rep R' (ch ++ [(key ty id, data)]) /\ aget (key ty id) ch = None.
Proof.
  intros G HR Hty Hid Hd E.
  pose proof (add_item_good R ty id data G Hty Hid Hd) as G'. rewrite E in G'. split; [exact G'|].
  rewrite add_item_eq in E. destruct (aget (key ty id) (rs_offs R)) eqn:Hn; [discriminate|].
  destruct (_ <? _); [discriminate|]. destruct (_ <? _); [discriminate|]. injection E as <-.
  split; [apply rep_pushed; assumption|apply (rep_get_none _ _ _ HR), Hn].
Qed.

Record holds (b : builder) (its : list hitem) : Prop := {
  ho_good : bgood b;
  ho_items : exists ch, rep (sn_raw (b_snap b)) ch /\ bstate ch (sn_ext (b_snap b)) (b_next b)
               /\ filter_map (typed_of (sn_ext (b_snap b))) ch = its
}.

Lemma typed_of_reg ext t d : 0 <= t <= 65535 -> typed_of ext (key TYPE_ID_EX t, d) = None.
Proof.
  intros Ht. unfold typed_of. cbn [fst]. rewrite key_to_ty_key by (unfold TYPE_ID_EX; lia). rewrite Z.eqb_refl. reflexivity.
Qed.

Lemma num_uuid_ains ext u n ty : ty <> n -> aget u ext = None -> num_uuid (ains u n ext) ty = num_uuid ext ty.
Proof.
  intros Hne. induction ext as [|[u' t] ext IH]; cbn [ains num_uuid aget]; intros Hu.
  - destruct (Z.eqb_spec n ty); [congruence|reflexivity].
  - destruct (Z.eqb_spec u u') as [->|Hd]; [discriminate|].
    destruct (u <? u').
    + cbn [num_uuid]. destruct (Z.eqb_spec n ty); [congruence|reflexivity].
    + cbn [num_uuid]. rewrite IH by exact Hu. reflexivity.
Qed.

Lemma typed_of_register ch ext next u : bstate ch ext next -> aget u ext = None ->
  forall kd, In kd ch -> typed_of (ains u next ext) kd = typed_of ext kd.
Proof.
  intros B Hu [k d] Hin. unfold typed_of. cbn [fst snd].
  destruct (key_to_raw_type_id k =? TYPE_ID_EX); [reflexivity|].
  destruct (Z.ltb_spec (key_to_raw_type_id k) OFFSET_EXTENDED_TYPE_ID) as [Hlt|Hge]; [reflexivity|].
  rewrite num_uuid_ains; [reflexivity| |exact Hu].
  assert (Hk : exists d', aget k ch = Some d').
  { destruct (aget k ch) as [d'|] eqn:E; [eauto|]. apply aget_none in E. exfalso. apply E. apply in_map_iff. exists (k, d). split; [reflexivity|exact Hin]. }
  destruct Hk as [d' Hk].
  destruct (bs_high _ _ _ B k d' Hk ltac:(unfold OFFSET_EXTENDED_TYPE_ID in Hge; lia)) as [u' Hu'].
  destruct (bs_entry _ _ _ B u' _ Hu') as [Hr _]. lia.
Qed.

Lemma push_typed R ch ext next ty id data t R2 :
  good R -> rep R ch -> bstate ch ext next ->
  0 < ty <= 65535 -> ty <> TYPE_ID_EX -> 0 <= id <= 65535 -> forallb is_i32 data = true ->
  match t with Ordinal o => o = ty /\ ty < OFFSET_EXTENDED_TYPE_ID | Uuid u => aget u ext = Some ty end ->
  add_item R ty id data = Ok R2 ->
  rep R2 (ch ++ [(key ty id, data)]) /\ bstate (ch ++ [(key ty id, data)]) ext next
  /\ filter_map (typed_of ext) (ch ++ [(key ty id, data)]) = filter_map (typed_of ext) ch ++ [(t, id, data)].
Proof.
  intros G HR B Hty Hex Hid Hd Ht E.
  destruct (add_item_explicit _ ch ty id data R2 G HR ltac:(lia) Hid Hd E) as (_ & R2' & Hfresh).
  assert (Hk : key_to_raw_type_id (key ty id) = ty) by (apply key_to_ty_key; lia).
  unfold OFFSET_EXTENDED_TYPE_ID in Ht. split; [exact R2'|]. split.
  - apply bstate_push; [exact B|exact Hfresh|congruence|]. rewrite Hk. intros Hhigh.
    destruct t as [o|u]; [lia|eauto].
  - rewrite filter_map_app. cbn [filter_map]. unfold typed_of. cbn [fst snd].
    rewrite Hk, key_to_id_key by lia. unfold OFFSET_EXTENDED_TYPE_ID.
    replace (ty =? TYPE_ID_EX) with false by lia. destruct t as [o|u].
    + destruct Ht as [-> Ht]. replace (ty <? 16384) with true by lia. reflexivity.
    + destruct (bs_entry _ _ _ B u ty Ht) as (H1 & _). replace (ty <? 16384) with false by lia.
      rewrite (num_uuid_aget ch _ _ u ty B Ht). reflexivity.
Qed.

Theorem builder_add_holds b its t id data b' : holds b its -> op_ok t id data ->
  builder_add b t id data = (b', Ok tt) -> holds b' (its ++ [(t, id, data)]).
Proof.
  intros [G (ch & HR & B & Hits)] Hop H.
  destruct (builder_add_bgood b t id data G Hop) as [G' _]. rewrite H in G'. cbn [fst] in G'.
  split; [exact G'|].
  destruct Hop as (Ht & Hid & Hd). pose proof (bg_raw _ G) as GR. pose proof (bg_next _ G) as Hn.
  unfold builder_add in H. unfold OFFSET_EXTENDED_TYPE_ID, TYPE_ID_EX in *. destruct t as [o|u].
  - replace ((0 <? o) && (o <? 16384)) with true in H by lia.
    destruct (add_item (sn_raw (b_snap b)) o id data) as [R2| | |] eqn:E; try discriminate. injection H as <-.
    cbn [b_snap b_next sn_raw sn_ext]. exists (ch ++ [(key o id, data)]). rewrite <- Hits.
    apply (push_typed _ ch _ _ o id data (Ordinal o) R2 GR HR B); try assumption; try (unfold TYPE_ID_EX; lia).
    split; [reflexivity|exact (proj2 Ht)].
  - destruct (aget u (sn_ext (b_snap b))) as [ty|] eqn:Hu.
    + destruct (bs_entry _ _ _ B u ty Hu) as (H1 & _ & _).
      destruct (add_item (sn_raw (b_snap b)) ty id data) as [R2| | |] eqn:E; try discriminate. injection H as <-.
      cbn [b_snap b_next sn_raw sn_ext]. exists (ch ++ [(key ty id, data)]). rewrite <- Hits.
      apply (push_typed _ ch _ _ ty id data (Uuid u) R2 GR HR B); assumption || (unfold TYPE_ID_EX; lia).
    + (* a new UUID is registered under the next number first *)
      replace (16384 <=? b_next b) with true in H by lia.
      cbn [negb] in H. destruct (Z.leb_spec MAX_EXTENDED_TYPE_ID (b_next b)) as [Hmax|Hmax]; [discriminate|].
      unfold MAX_EXTENDED_TYPE_ID in Hmax.
      destruct (add_item (sn_raw (b_snap b)) 0 (b_next b) (uuid_to_item_data u)) as [R1| | |] eqn:E1; try discriminate.
      destruct (add_item_explicit _ ch 0 (b_next b) _ R1 GR HR ltac:(lia) ltac:(lia) (uuid_words_i32 u) E1)
        as (G1 & R1' & Hfresh1).
      cbn [b_snap sn_raw sn_ext b_next] in H.
      destruct (add_item R1 (b_next b) id data) as [R2| | |] eqn:E2; try discriminate. injection H as <-.
      set (ch1 := ch ++ [(key 0 (b_next b), uuid_to_item_data u)]) in *.
      assert (B1 : bstate ch1 (ains u (b_next b) (sn_ext (b_snap b))) (b_next b + 1))
        by (apply bstate_register; [exact B|exact Hu|exact Ht|lia|exact Hfresh1]).
      cbn [b_snap b_next sn_raw sn_ext]. exists (ch1 ++ [(key (b_next b) id, data)]).
      replace its with (filter_map (typed_of (ains u (b_next b) (sn_ext (b_snap b)))) ch1).
      * apply (push_typed _ ch1 _ _ (b_next b) id data (Uuid u) R2 G1 R1' B1);
          assumption || apply aget_ains_same || (unfold TYPE_ID_EX; lia).
      * unfold ch1. rewrite filter_map_app.
        rewrite (filter_map_ext_in _ (typed_of (sn_ext (b_snap b))) ch (typed_of_register ch _ _ u B Hu)), Hits.
        cbn [filter_map]. change 0 with TYPE_ID_EX. rewrite typed_of_reg by lia. apply app_nil_r.
Qed.

Lemma add_items_holds : forall its b its0 b', holds b its0 -> forallb item_okb its = true ->
  add_items b its = (b', Ok tt) -> holds b' (its0 ++ its).
Proof.
  induction its as [|[[t id] data] its IH]; intros b its0 b' Hh Hok H; cbn [add_items] in H.
  - injection H as <-. rewrite app_nil_r. exact Hh.
  - cbn [forallb] in Hok. apply andb_true_iff in Hok as [Hit Hits].
    destruct (builder_add b t id data) as [b1 [[]|e|s|]] eqn:E; try (injection H as _ H; discriminate).
    pose proof (builder_add_holds b its0 t id data b1 Hh (item_okb_op_ok _ _ _ Hit) E) as H1.
    pose proof (IH b1 _ b' H1 Hits H) as Hfin. rewrite <- app_assoc in Hfin. exact Hfin.
Qed.

Lemma recycle_holds b nb : bgood b -> snap_recycle (b_snap b) = Ok nb -> holds nb [].
Proof.
  intros G H. destruct (bg_st _ G) as (ch & R & B).
  destruct (recycle_builder_state (b_snap b) ch (b_next b) (bg_raw _ G) R B (bg_next _ G)) as (b0 & E & G0 & Hnext & Hext & Rreg).
  rewrite E in H. injection H as <-. split; [exact G0|].
  destruct (bg_st _ G0) as (ch0 & R0 & B0).
  exists (reg_items (sn_ext (b_snap b))). split; [exact Rreg|]. split.
  - apply (bstate_lookups ch0 _ _ _ (rep_lookups_unique _ _ _ R0 Rreg) B0).
  - rewrite Hext. unfold reg_items. apply filter_map_none. intros kd Hin.
    apply in_map_iff in Hin as ([u t] & <- & Hin). cbn [fst snd]. apply typed_of_reg.
    pose proof (sortedb_nodup _ (bs_sorted _ _ _ B)) as Hnd.
    destruct (bs_entry _ _ _ B u t (in_aget u t _ Hnd Hin)) as [H1 _]. pose proof (bg_next _ G). lia.
Qed.

Lemma holds_new : holds builder_new [].
Proof.
  split; [apply bgood_new|]. exists []. split; [apply rep_empty|]. split; [|reflexivity].
  destruct (bg_st _ bgood_new) as (ch & R & B). cbn [builder_new b_snap snap_empty sn_raw sn_ext b_next] in *.
  apply (bstate_lookups ch [] _ _ (rep_lookups_unique _ _ _ R rep_empty) B).
Qed.

Theorem holds_items b its : holds b its -> Permutation (snap_items_list (b_snap b)) its.
Proof.
  intros [G (ch & R & B & Hits)]. destruct (snap_items_typed b G) as (ch' & R' & _ & P).
  eapply Permutation_trans; [exact P|]. rewrite <- Hits. apply filter_map_perm, (rep_perm _ _ _ R' R).
Qed.

(* the chunks reported for a history of calls with the given results: per accepted write_snap
   the tick and a snapshot whose items are the given ones (in some order), per accepted write_msg
   the padded message, nothing for a refused call *)
Fixpoint reports (ops : list hop) (rs : list (res hwerr unit)) (cs : list hchunk) : Prop :=
  match ops, rs with
  | [], [] => cs = []
  | HSnap tick its :: ops', Ok _ :: rs' =>
    exists l cs', cs = HCTick tick :: HCSnapshot l :: cs' /\ Permutation l its /\ reports ops' rs' cs'
  | HMsg e :: ops', Ok _ :: rs' =>
    exists cs', cs = HCMessage (pad4 e) :: cs' /\ reports ops' rs' cs'
  | _ :: ops', Err _ :: rs' => reports ops' rs' cs
  | _, _ => False
  end.

(* writer and reader in step: the writer's buffer is empty and its builder holds nothing but its
   registry, its last snapshot was made by a builder and the reader's is `like` it *)
Record hinv (w : hwriter) (R : snap) : Prop := {
  hi_buf : hw_buf w = [];
  hi_bld : holds (hw_builder w) [];
  hi_snap : exists b, bgood b /\ hw_snap w = b_snap b;
  hi_like : like (hw_snap w) R
}.

Lemma hinv_new : hinv hwriter_new snap_empty.
Proof.
  split; cbn [hwriter_new hw_buf hw_builder hw_snap]; [reflexivity|apply holds_new| |].
  - exists builder_new. split; [apply bgood_new|reflexivity].
  - apply (like_refl_bgood builder_new bgood_new).
Qed.

Theorem typed_chain sz : forall ops w R w' b rs cs,
  hinv w R -> forallb hop_typed_ok ops = true ->
  hrun sz w ops = (w', b, rs) -> forallb accepted_res rs = true -> hist_shape sz w ops cs ->
  hdecode sz R (map pad4_chunk cs) = (map (fun c => (c, [])) (expected sz w ops), (Ok tt, []))
  /\ reports ops rs (expected sz w ops).
Proof.
  induction ops as [|o ops IH]; intros w R w' b rs cs I Hops H Hrs Hsh.
  - cbn [hrun hist_shape] in *. injection H as <- <- <-. subst cs. split; reflexivity.
  - cbn [forallb] in Hops. apply andb_true_iff in Hops as [Ho Hops].
    destruct (hrun_cons _ _ _ _ _ _ _ H (accepted_no_failure rs Hrs))
      as (w1 & b1 & r1 & b2 & rs2 & Es & _ & Er & -> & -> & _).
    cbn [forallb] in Hrs. apply andb_true_iff in Hrs as [Hr Hrs2].
    cbn [hist_shape expected] in *. rewrite Es in *. cbn [fst snd] in *.
    destruct Hsh as (c1 & c2 & -> & Hst & Hsh2). rewrite map_app.
    destruct o as [tick its|e]; cbn [hop_typed_ok] in Ho;
      destruct r1 as [[]|er|s|]; cbn [accepted_res] in Hr; try discriminate; cbn [step_shape] in Hst;
      rewrite ?Es; cbn [fst snd].
    + apply andb_true_iff in Ho as [_ Hits].
      destruct Hst as (b' & e & nb & Eadd & Henc & -> & Erec & Hs1 & Hb1 & Hbuf1 & _).
      change (builder_finish b') with (b_snap b') in *. rewrite (hi_buf _ _ I) in *.
      pose proof (add_items_holds its _ [] b' (hi_bld _ _ I) Hits Eadd) as Hh.
      destruct (snap_payload_decoded sz _ R b' e _ (hi_snap _ _ I) (hi_like _ _ I) (ho_good _ _ Hh) Henc)
        as (S' & L & Hdec).
      assert (I1 : hinv w1 S').
      { split; [exact Hbuf1|rewrite Hb1; apply (recycle_holds b' nb (ho_good _ _ Hh) Erec)| |rewrite Hs1; exact L].
        exists b'. split; [apply (ho_good _ _ Hh)|exact Hs1]. }
      destruct (IH w1 S' w' b2 rs2 c2 I1 Hops Er Hrs2 Hsh2) as [IHd IHr]. rewrite Hs1. split.
      * cbn [map app hdecode decode_chunk pad4_chunk].
        replace (pad4_chunk (if keyframe_rule w tick then CSnapshot e else CDelta e))
          with (if keyframe_rule w tick then CSnapshot e else CDelta e) by (destruct (keyframe_rule w tick); reflexivity).
        rewrite Hdec, IHd. reflexivity.
      * cbn [reports app]. eexists _, _. split; [reflexivity|]. split; [apply (holds_items b' its Hh)|exact IHr].
    + destruct er; try discriminate. destruct Hst as [-> ->]. cbn [map app reports].
      apply (IH w R w' b2 rs2 c2 I Hops Er Hrs2 Hsh2).
    + destruct Hst as (-> & Hs1 & Hb1 & Hbuf1 & _). rewrite (hi_buf _ _ I).
      assert (I1 : hinv w1 R).
      { split; [exact Hbuf1|rewrite Hb1; apply (hi_bld _ _ I)|rewrite Hs1; apply (hi_snap _ _ I)|rewrite Hs1; apply (hi_like _ _ I)]. }
      destruct (IH w1 R w' b2 rs2 c2 I1 Hops Er Hrs2 Hsh2) as [IHd IHr]. split.
      * cbn [app map pad4_chunk hdecode decode_chunk]. rewrite IHd. reflexivity.
      * cbn [reports app]. eexists. split; [reflexivity|exact IHr].
    + (* write_msg is never refused for a tick *)
      rewrite (write_msg_refusal _ _ _ _ _ Es) in Hr. discriminate.
Qed.

Theorem hl_typed_full sz i ops w b rs hb :
  winput_ok i = true -> forallb hop_typed_ok ops = true -> writer_new i = Ok hb ->
  hrun sz hwriter_new ops = (w, b, rs) -> forallb accepted_res rs = true ->
  exists h chunks,
    hread_all sz (hb ++ b) = Ok (h, [], (map (fun c => (c, [])) chunks, (Ok tt, [])))
    /\ header_view h = expected_view i
    /\ reports ops rs chunks.
Proof.
  intros Hi Hops Hh Hrun Hrs.
  assert (Hops' : forallb hop_ok ops = true).
  { rewrite forallb_forall in *. intros o Ho. apply hop_typed_ok_hop_ok, Hops, Ho. }
  destruct (hl_transport sz i ops w b rs hb Hi Hops' Hh Hrun (accepted_no_failure rs Hrs)) as (h & cs & Hr & Hv & Hsh).
  destruct (typed_chain sz ops hwriter_new snap_empty w b rs cs hinv_new Hops Hrun Hrs Hsh) as [Hd Hrep].
  exists h, (expected sz hwriter_new ops). rewrite Hr, Hd. repeat split; assumption.
Qed.
