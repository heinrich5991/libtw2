(* The little-endian word codec of the writer specification is inverted by the reader's
   primitives: words_of_bytes (enc_words ws) = ws, read_words over an encoded table. *)
From LibTw2 Require Import Base.Res Model.Datafile Proofs.DatafileBase.
From Coq Require Import ZArith List Lia Bool.
Import ListNotations.
Open Scope Z_scope.

Lemma le_u32_le_bytes u : 0 <= u < two32 ->
  le_u32 (u mod 256) ((u / 256) mod 256) ((u / 65536) mod 256) ((u / 16777216) mod 256) = u.
Proof. rewrite two32_eq. intros Hu. unfold le_u32. Z.div_mod_to_equations. lia. Qed.

Lemma le_bytes_decode w r : is_i32 w = true -> words_of_bytes (le_bytes w ++ r) = w :: words_of_bytes r.
Proof.
  intros Hw. unfold le_bytes. cbv zeta. cbn [app words_of_bytes]. f_equal.
  rewrite le_u32_le_bytes by (apply Z.mod_pos_bound; reflexivity).
  apply i32_of_u32_of. exact Hw.
Qed.

Lemma words_of_enc ws r : all_i32 ws -> words_of_bytes (enc_words ws ++ r) = ws ++ words_of_bytes r.
Proof.
  induction 1 as [|w ws Hw _ IH]; [reflexivity|].
  unfold enc_words. cbn [flat_map]. rewrite <- app_assoc, le_bytes_decode by assumption.
  cbn [app]. f_equal. exact IH.
Qed.

Lemma words_of_enc' ws : all_i32 ws -> words_of_bytes (enc_words ws) = ws.
Proof. intros H. rewrite <- (app_nil_r (enc_words ws)), words_of_enc by assumption. apply app_nil_r. Qed.

Lemma zlen_enc ws : zlen (enc_words ws) = 4 * zlen ws.
Proof.
  induction ws as [|w ws IH]; [reflexivity|]. unfold enc_words in *. cbn [flat_map].
  rewrite zlen_app, IH, zlen_cons. unfold le_bytes. cbv zeta. rewrite !zlen_cons, zlen_nil. lia.
Qed.

Lemma enc_words_app a b : enc_words (a ++ b) = enc_words a ++ enc_words b.
Proof. apply flat_map_app. Qed.

Lemma le_bytes_ok w : bytes_ok (le_bytes w) = true.
Proof.
  unfold le_bytes. cbv zeta. repeat (apply bytes_ok_cons; split; [apply Z.mod_pos_bound; reflexivity|]). reflexivity.
Qed.

Lemma enc_words_ok ws : bytes_ok (enc_words ws) = true.
Proof.
  induction ws as [|w ws IH]; [reflexivity|]. unfold enc_words in *. cbn [flat_map].
  apply bytes_ok_app. split; [apply le_bytes_ok|exact IH].
Qed.

Lemma cb_read_app g r n : zlen g = n -> cb_read n (g ++ r) = (g, r).
Proof.
  intros Hn. unfold cb_read. rewrite zlen_app.
  destruct r as [|x r]; [rewrite app_nil_r, zlen_nil, Z.add_0_r, <- Hn, Z.leb_refl; reflexivity|].
  destruct g as [|y g]; [subst n; reflexivity|].
  rewrite !zlen_cons in *. pose proof (zlen_nonneg g). pose proof (zlen_nonneg r).
  destruct (_ <=? n) eqn:E1; [lia|]. destruct (n <=? 0) eqn:E2; [lia|].
  replace (Z.to_nat n) with (length (y :: g)) by (unfold zlen in Hn; cbn [length]; lia).
  rewrite firstn_app, skipn_app, Nat.sub_diag, firstn_all, skipn_all. cbn. rewrite app_nil_r. reflexivity.
Qed.

Lemma read_words_enc per count ws rest : all_i32 ws -> zlen ws = per * count ->
  0 <= per <= 3 -> 0 <= count <= 2147483647 ->
  read_words per count (enc_words ws ++ rest) = Ok (ws, rest).
Proof.
  intros Hi Hl Hp Hc. unfold read_words. cbv zeta. rewrite as_usize_small by lia.
  destruct (isize_max <? 4 * per * count) eqn:E; [unfold isize_max in E; nia|].
  rewrite cb_read_app, zlen_enc by (rewrite zlen_enc; lia).
  replace (4 * zlen ws =? 4 * per * count) with true by lia.
  cbn [negb]. rewrite words_of_enc' by assumption. reflexivity.
Qed.
