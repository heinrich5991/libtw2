(* 0.6 reader on arbitrary input: Packet::read never panics (given a scratch buffer of at
   least MAX_PACKETSIZE bytes), every view it returns lies inside the input or inside the
   scratch buffer, and whatever it accepts is a value inside the writer's size limits
   (expressible6), hence can be written again and is read back as the same value. *)
From LibTw2 Require Import Base.Res Base.Bits Model.PacketTypes Model.PacketBase Gen.Consts6 Gen.Bits6
  Model.Packet6 Proofs.PktSweep Proofs.PktBits6 Proofs.Packet6Write Proofs.Packet6Read Proofs.Packet6Chunks.
From Coq Require Import ZArith Lia Bool List.
Open Scope Z_scope.

Definition ok_or_err {E A} (r : res E A) : Prop :=
  match r with Ok _ | Err _ => True | Panic _ | OutOfFuel => False end.

(* cap = Some c: the scratch buffer has c bytes; None: no claim about the scratch buffer *)
Definition in_buf (nbytes : nat) (cap : option nat) (src : source) (n : nat) : Prop :=
  match src with
  | Input => (n <= nbytes)%nat
  | Scratch => match cap with Some c => (n <= c)%nat | None => True end
  end.
Definition view_ok (nbytes : nat) (cap : option nat) (v : view) : Prop :=
  in_buf nbytes cap (v_src v) (v_off v + v_len v).

(* in_buf is PacketShared.in_buffer *)
Lemma view_of_ok nb cap s : slice_ok nb cap s -> view_ok nb cap (view_of s).
Proof. exact (fun H => proj1 H). Qed.

Lemma find_nul_le rest : (find_nul rest <= length rest)%nat.
Proof. induction rest as [|b r IH]; cbn [find_nul length]; [lia|]. destruct (b =? 0); lia. Qed.

Lemma header_of6_ok bs h ws payload : bytes_ok bs = true -> header_of6 bs = Some (h, ws, payload) ->
  ph6_in_range h = true /\ length bs = (3 + length payload)%nat /\ bytes_ok payload = true.
Proof.
  intros Hb. unfold header_of6. destruct bs as [|b0 [|b1 [|b2 r]]]; cbn [PacketHeaderPacked6_of_bytes]; try discriminate.
  apply bytes_ok_cons in Hb as [H0 Hb]. apply bytes_ok_cons in Hb as [H1 Hb]. apply bytes_ok_cons in Hb as [H2 Hb].
  set (hp := {| php6_flags_padding_ack := b0; php6_ack := b1; php6_num_chunks := b2 |}).
  assert (Hp : php6_bytes_ok hp = true) by (unfold php6_bytes_ok, hp, byteb, byte_ok in *; cbn; rewrite H0, H1, H2; reflexivity).
  destruct (ph6_unpack_in_range hp Hp) as [Hr _].
  destruct (PacketHeaderPacked6_unpack_warn hp) as [h' ws']. intros H. injection H as <- <- <-.
  repeat split; assumption.
Qed.

Definition good_result6 (nb : nat) (cap : option nat) (r : rres6) : Prop :=
  match snd r with
  | Ok (pk, vs) => expressible6 pk = true /\ Forall (view_ok nb cap) vs
                   /\ (cap = None \/ packet_bytes_ok6 pk = true)
  | Err _ => True
  | _ => False
  end.

Section Total.
Variable decomp : HuffC.

Lemma read_control6_spec ws h (tok : option token) ack p nb cap :
  slice_ok nb cap p -> 0 <= ack < 1024 ->
  match tok with Some t => token_ok t | None => true end = true ->
  (cap = None \/ match tok with Some t => bytes_ok t | None => true end = true) ->
  good_result6 nb cap (read_control6 ws h tok ack p).
Proof.
  intros Hs Hack Htok Htb. unfold read_control6.
  destruct (s_data p) as [|control rest] eqn:Ed; [exact I|].
  (* the four messages without payload *)
  assert (Hplain : forall ws' c, match c with C6Close _ => False | _ => True end ->
            good_result6 nb cap (ws', Ok (P6Connected ack tok (P6Control c), []))).
  { intros ws' c Hc. split; [|split; [constructor|]].
    - apply expressible6_connected. split; [assumption|split; [assumption|]]. destruct c; try reflexivity. contradiction.
    - destruct Htb as [Htb|Htb]; [left; exact Htb|right]. cbn [packet_bytes_ok6]. rewrite Htb.
      destruct c; try reflexivity. contradiction. }
  destruct (control =? CTRLMSG_KEEPALIVE); [apply Hplain; exact I|].
  destruct (control =? CTRLMSG_CONNECT); [apply Hplain; exact I|].
  destruct (control =? CTRLMSG_CONNECTACCEPT); [apply Hplain; exact I|].
  destruct (control =? CTRLMSG_ACCEPT); [apply Hplain; exact I|].
  destruct (control =? CTRLMSG_CLOSE); [|exact I].
  change (Z.to_nat CTRLMSG_CLOSE_REASON_LENGTH) with 127%nat.
  destruct (close_reason_ok nb cap p control rest 127 Hs Ed) as (Hrs & Hn & Hl).
  split; [|split; [constructor; [apply view_of_ok, Hrs|constructor]|]].
  - apply expressible6_connected. split; [assumption|split; [assumption|]]. rewrite Hn. apply Z.leb_le.
    unfold CTRLMSG_CLOSE_REASON_LENGTH. lia.
  - destruct Hrs as [_ [Hc|Hrb]]; [left; exact Hc|]. destruct Htb as [Htb|Htb]; [left; exact Htb|right].
    cbn [packet_bytes_ok6]. rewrite Htb. exact Hrb.
Qed.

Lemma read_payload6_spec ws h hint p nb cap :
  ph6_in_range h = true -> slice_ok nb cap p ->
  good_result6 nb cap (read_payload6 ws h hint p).
Proof.
  intros Hr Hs. destruct h as [f a n]. apply ph6_in_range_iff in Hr as (R1 & R2 & R3).
  unfold read_payload6. cbn [ph6_flags ph6_ack ph6_num_chunks].
  destruct (Z.of_nat (length (s_data p)) >? MAX_PACKETSIZE - HEADER_SIZE) eqn:El; [exact I|].
  rewrite Z.gtb_ltb in El. apply Z.ltb_ge in El. unfold MAX_PACKETSIZE, HEADER_SIZE in El.
  assert (Hht : exists b, match hint with
                          | Some b => Ok b
                          | None => has_token_heuristic6 (land_ne0 f PACKETFLAG_CONTROL) n (s_data p)
                          end = Ok b).
  { destruct hint as [b|]; [exists b; reflexivity|]. apply has_token_heuristic6_total; lia. }
  destruct Hht as [has_token ->].
  destruct (has_token && (Z.of_nat (length (s_data p)) <? TOKEN_SIZE)) eqn:Etm; [exact I|].
  change (Z.to_nat TOKEN_SIZE) with 4%nat.
  set (p' := if has_token then slice_take (length (s_data p) - 4) p else p).
  set (tok := if has_token then Some (skipn (length (s_data p) - 4) (s_data p)) else None).
  assert (Hp' : slice_ok nb cap p') by (unfold p'; destruct has_token; [apply slice_take_ok|]; exact Hs).
  assert (Htok : match tok with Some t => token_ok t | None => true end = true
                 /\ Z.of_nat (length (s_data p')) + (match tok with Some _ => TOKEN_SIZE | None => 0 end) <= 1397).
  { unfold tok, p', token_ok, TOKEN_SIZE in *. destruct has_token; [|split; [reflexivity|lia]].
    apply Z.ltb_ge in Etm. unfold slice_take. cbn [s_data]. rewrite skipn_length, firstn_length.
    split; [apply Nat.eqb_eq|]; lia. }
  destruct Htok as [Htok Hl'].
  assert (Htb : cap = None \/ match tok with Some t => bytes_ok t | None => true end = true).
  { destruct Hs as [_ [Hc|Hsb]]; [left; exact Hc|right]. unfold tok. destruct has_token; [|reflexivity].
    apply bytes_ok_skipn, Hsb. }
  clearbody p' tok.
  destruct (land_ne0 f PACKETFLAG_CONTROL); [apply read_control6_spec; assumption|].
  split; [|split; [constructor; [apply view_of_ok, Hp'|constructor]|]].
  - apply expressible6_connected. split; [assumption|split; [assumption|]].
    apply andb_true_iff. split; [lia|apply Z.leb_le, Hl'].
  - destruct Hp' as [_ [Hc|Hpb]]; [left; exact Hc|]. destruct Htb as [Htb|Htb]; [left; exact Htb|right].
    apply andb_true_iff. split; [exact Htb|exact Hpb].
Qed.

(* C06: the reader is total, its views are in bounds, its values are inside the size limits *)
Theorem read6_good bs hint cap ocap : bytes_ok bs = true -> (1400 <= cap)%nat ->
  match ocap with
  | Some c0 => c0 = cap /\ (forall y c d, decomp y c = Some d -> (length d <= c)%nat /\ bytes_ok d = true)
  | None => True
  end ->
  good_result6 (length bs) ocap (read6 decomp bs hint cap).
Proof.
  intros Hb Hcap Hd. apply Nat2Z.inj_le in Hcap. change (Z.of_nat 1400) with MAX_PACKETSIZE in Hcap.
  unfold read6, read_impl6. rewrite (proj2 (Z.ltb_ge _ _)) by exact Hcap.
  destruct (Z.of_nat (length bs) >? MAX_PACKETSIZE) eqn:Elen; [exact I|].
  destruct (header_of6 bs) as [[[h ws] payload]|] eqn:Eh; [|exact I].
  destruct (header_of6_ok bs h ws payload Hb Eh) as (Hr & Hl & Hpb).
  destruct (land_ne0 (ph6_flags h) PACKETFLAG_CONNLESS) eqn:Fc.
  - unfold read_connless6. destruct (Z.of_nat (length payload) <? PADDING_SIZE_CONNLESS) eqn:Ep; [exact I|].
    apply Z.ltb_ge in Ep. unfold PADDING_SIZE_CONNLESS in Ep.
    rewrite Z.gtb_ltb in Elen. apply Z.ltb_ge in Elen. unfold MAX_PACKETSIZE in Elen.
    change (Z.to_nat PADDING_SIZE_CONNLESS) with 3%nat. change (Z.to_nat HEADER_SIZE) with 3%nat.
    split; [|split; [constructor; [|constructor]|]].
    + cbn [expressible6 s_data]. apply Z.leb_le. rewrite skipn_length. unfold MAX_PACKETSIZE, HEADER_SIZE, PADDING_SIZE_CONNLESS. lia.
    + unfold view_ok, view_of, in_buf. cbn [v_src v_off v_len s_src s_off s_data]. rewrite skipn_length. lia.
    + right. apply bytes_ok_skipn, Hpb.
  - rewrite (payload_slice6_eq decomp bs h ws payload cap Eh Hr Fc Elen Hcap). unfold payload_at6.
    destruct (land_ne0 (ph6_flags h) PACKETFLAG_COMPRESSION).
    + destruct (decomp payload (cap - 3)%nat) as [d|] eqn:Ed; [|exact I].
      apply read_payload6_spec; [exact Hr|]. unfold slice_ok, in_buffer. cbn [s_src s_off s_data].
      destruct ocap as [c0|]; [|split; [exact I|left; reflexivity]].
      destruct Hd as [-> Hd]. apply Hd in Ed as [Ed1 Ed2]. unfold MAX_PACKETSIZE in Hcap. split; [lia|right; exact Ed2].
    + apply read_payload6_spec; [exact Hr|]. apply slice_input_ok; [lia|exact Hpb].
Qed.

(* Packet::decompress_if_needed never panics either (scratch >= MAX_PACKETSIZE) *)
Theorem decompress_if_needed6_total bs cap : bytes_ok bs = true -> (1400 <= cap)%nat ->
  ok_or_err (decompress_if_needed6 decomp bs cap).
Proof.
  intros Hb Hcap. apply Nat2Z.inj_le in Hcap. change (Z.of_nat 1400) with MAX_PACKETSIZE in Hcap.
  unfold decompress_if_needed6. rewrite (proj2 (Z.ltb_ge _ _)) by exact Hcap.
  destruct (needs_decompression6 bs) eqn:En; [|exact I]. cbn [negb].
  unfold needs_decompression6 in En.
  destruct (Z.of_nat (length bs) >? MAX_PACKETSIZE) eqn:Elen; [discriminate|].
  destruct (header_of6 bs) as [[[h ws] payload]|] eqn:Eh; [|discriminate].
  apply andb_true_iff in En as [Fc Fz]. apply negb_true_iff in Fc.
  destruct (header_of6_ok bs h ws payload Hb Eh) as (Hr & _).
  destruct (decompress6_eq decomp bs h ws payload cap Eh Hr Fc Fz Elen Hcap) as [fp ->].
  destruct (decomp payload (cap - 3)%nat); exact I.
Qed.

End Total.

(* read_panic_on_decompression is read, except for its documented panic on a compressed packet *)
Lemma read_nodecomp6_eq decomp bs hint cap : MAX_PACKETSIZE <= Z.of_nat cap ->
  read_nodecomp6 bs hint
  = if needs_decompression6 bs then (fst (read_nodecomp6 bs hint), Panic site6_read_no_buffer)
    else read6 decomp bs hint cap.
Proof.
  intros Hcap. unfold read_nodecomp6, read6, read_impl6, needs_decompression6.
  rewrite (proj2 (Z.ltb_ge _ _)) by exact Hcap.
  destruct (Z.of_nat (length bs) >? MAX_PACKETSIZE); [reflexivity|].
  destruct (header_of6 bs) as [[[h ws] payload]|]; [|reflexivity].
  destruct (land_ne0 (ph6_flags h) PACKETFLAG_CONNLESS); [reflexivity|]. unfold payload_slice6.
  destruct (land_ne0 (ph6_flags h) PACKETFLAG_COMPRESSION); reflexivity.
Qed.

Theorem read_nodecomp6_spec bs hint : bytes_ok bs = true ->
  match snd (read_nodecomp6 bs hint) with
  | Panic s => s = site6_read_no_buffer /\ needs_decompression6 bs = true
  | OutOfFuel => False
  | _ => True
  end.
Proof.
  intros Hb. set (cap := Z.to_nat MAX_PACKETSIZE).
  rewrite (read_nodecomp6_eq (fun _ _ => None) bs hint cap) by (unfold cap, MAX_PACKETSIZE; lia).
  destruct (needs_decompression6 bs); [split; reflexivity|].
  pose proof (read6_good (fun _ _ => None) bs hint cap None Hb (le_n _) I) as Hg. unfold good_result6 in Hg.
  destruct (snd (read6 _ bs hint cap)) as [[pk vs]|e|s|]; first [exact I|contradiction].
Qed.

Section Rewrite.
Variables comp decomp : HuffC.
Hypothesis huff_rt : forall x c y, bytes_ok x = true -> comp x c = Some y ->
  forall c', (length x <= c')%nat -> decomp y c' = Some x.
Hypothesis decomp_ok : forall y c d, decomp y c = Some d -> (length d <= c)%nat /\ bytes_ok d = true.

(* whatever read accepts (outside class K06) is written again and read back as the same value *)
Theorem accept_rewrite6 bs hint cap ws p vs : bytes_ok bs = true -> (1400 <= cap)%nat ->
  read6 decomp bs hint cap = (ws, Ok (p, vs)) -> K06_6 p = false ->
  forall cap', (1400 <= cap')%nat ->
  exists out, write6 comp p cap' = Ok out /\ (length out <= 1400)%nat
    /\ exists ws' vs', read6 decomp out (true_hint6 p) cap = (ws', Ok (p, vs')).
Proof.
  intros Hb Hcap Er Hk cap' Hcap'.
  pose proof (read6_good decomp bs hint cap (Some cap) Hb Hcap (conj eq_refl decomp_ok)) as Hg.
  rewrite Er in Hg. destruct Hg as (Hx & _ & [Hn|Hpb]); [discriminate Hn|].
  pose proof (write6_ok comp p cap' Hx Hk Hcap') as [Ew Hl].
  exists (encoding6 comp p). split; [exact Ew|]. split; [exact Hl|].
  eexists. eexists. apply (read_encoding6 comp decomp huff_rt p cap Hx Hpb Hcap).
Qed.

(* class K06: such a value is refused by the writer *)
Theorem K06_refused6 p cap : K06_6 p = true -> write6 comp p cap = Err WE6TooLongData.
Proof.
  destruct p as [payload|ack tok ty]; cbn [K06_6]; [|discriminate].
  intros H. unfold write6, write6_full, write_connless6. rewrite H. reflexivity.
Qed.

End Rewrite.

(* and the reader does accept such values: 1391 payload bytes behind ff ff ff ff ff ff *)
Lemma K06_accepted6 : exists bs p ws vs,
  bytes_ok bs = true /\ read6 (fun _ _ => None) bs None 1400 = (ws, Ok (p, vs)) /\ K06_6 p = true.
Proof.
  exists (repeat 255 6 ++ repeat 1 1391), (P6Connless (repeat 1 1391)). eexists. eexists.
  split; [vm_compute; reflexivity|]. split; [|vm_compute; reflexivity].
  apply (read_connless_enc6 (fun _ _ => None)); [vm_compute; reflexivity|apply le_n].
Qed.
