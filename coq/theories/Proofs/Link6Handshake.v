(* C02 for 0.6 at the level of the link, the handshake half: from every state of the two-endpoint
   link in which the connecting side A is mid-handshake (Connecting) and the accepting side B has
   either not seen a Connect yet (Unconnected) or has answered and waits (Pending), there is a
   finite schedule -- the network loses what is in flight, one side lets its 500 ms handshake timer
   run out and ticks, every datagram emitted from then on is delivered exactly once -- after which
   A is online and has been told Ready exactly once, and B is pending with the token A uses
   (handshake_link).

   In net/src/connection.rs the acceptor leaves Pending only when the first *chunk* datagram of
   the connector arrives (`Control(Accept) => return none`); ticks and flushes alone never emit
   one from a connector that has nothing to send (no_chunks_run). So the acceptor goes online with
   the first send of A's application; that step and the healing schedule of Link6Heal.v are
   composed in progress_link. late_accept_link covers the states in between: A is online and has
   something to send or resend, B is still pending.

   Everything about one endpoint is read off trans6, the table of the transitions of the handshake
   states (step6_trans). *)
From LibTw2 Require Import Base.Res Model.PacketTypes Model.ConnCore Model.Conn6 Model.LinkGhost Model.Link6
  Proofs.ConnCoreInv Proofs.Conn6Inv Proofs.LinkArith Proofs.LinkCore Proofs.Link6Inv Proofs.ConnProgress
  Proofs.Link6Heal Proofs.Link6Tok Proofs.LinkHsCore.
From Coq Require Import ZArith Lia Bool List.
Open Scope Z_scope.

Lemma ctl_fits tok c : match c with Close _ => False | _ => True end ->
  (MAX_PACKETSIZE <? control_size params6 tok c) = false.
Proof. intros H. destruct c; try contradiction; destruct tok; reflexivity. Qed.

Definition tick_msg (st : state6) : list dgram :=
  match st with
  | Connecting => [DControl (Some TOKEN_NONE) 0 (Connect None)]
  | Pending t => [DControl t 0 ConnectAccept]
  | _ => []
  end.

Definition link_op (o : op) : Prop := match o with OpFeedGarbage | OpReset => False | _ => True end.
Definition quiet (D : dgram -> Prop) (o : op) : Prop :=
  match o with OpTick | OpFlush => True | OpFeed d => D d | _ => False end.

Lemma quiet_link_op D o : quiet D o -> link_op o.
Proof. destruct o; cbn; auto. Qed.

Definition acceptor_waits (st : state6) : Prop :=
  match st with Unconnected | Pending _ => True | _ => False end.
Definition connector_idle (st : state6) : Prop :=
  match st with
  | Connecting => True
  | Online o => pc_num (o_packet o) = 0 /\ o_rr o = false /\ o_queue o = []
  | _ => False
  end.
Definition early (st : state6) : Prop := match st with Unconnected | Connecting => True | _ => False end.
Definition offline (st : state6) : Prop := match st with Online _ => False | _ => True end.
Definition is_connect (d : dgram) : Prop := match d with DControl _ _ (Connect _) => True | _ => False end.

Lemma early_never st : early st -> never_online st.
Proof. destruct st; cbn; tauto. Qed.
Lemma acceptor_waits_never st : acceptor_waits st -> never_online st.
Proof. destruct st; cbn; tauto. Qed.

(* the transitions of the handshake states in net/src/connection.rs: old state, new state, the call
   that causes the transition, the datagrams emitted. There is no way back, and nothing is said of
   what an online endpoint does *)
Definition trans6 (o : op) (st st' : state6) (sent : list dgram) : Prop :=
  match st, st' with
  | Unconnected, Connecting => o = OpConnect /\ sent = tick_msg st'
  | Unconnected, Pending t => (exists tk a r, o = OpFeed (DControl tk a (Connect r))) /\ sent = tick_msg st'
  | Connecting, Online on =>
    exists tk a, o = OpFeed (DControl tk a ConnectAccept) /\ on = online_new tk tk /\ sent = [DControl tk 0 Accept]
  | Pending _, Online _ => exists tk a rr n cs, o = OpFeed (DChunks tk a rr n cs)
  | Online _, Online _ | Online _, Disconnected => True
  | Unconnected, Disconnected | Connecting, Disconnected | Pending _, Disconnected =>
    exists r, o = OpDisconnect r \/ exists tk a, o = OpFeed (DControl tk a (Close r))
  | _, _ => st' = st /\ (sent = [] \/ sent = tick_msg st)
  end.

Lemma trans6_same o st sent : sent = [] \/ sent = tick_msg st -> trans6 o st st sent.
Proof. destruct st; cbn; auto. Qed.

Lemma tick_action_hs c e : (forall on, c_state c <> Online on) ->
  exists sd, tick_action c e = Ok (mk {| c_state := c_state c; c_send := sd |} e (tick_msg (c_state c)) [] [] ROk).
Proof.
  destruct c as [st sd]. cbn [c_state]. intros H. unfold tick_action, send_control. cbn [c_state].
  destruct st as [| |t|on|]; rewrite ?ctl_fits by exact I; try (eexists; reflexivity).
  destruct (H on eq_refl).
Qed.

Lemma tick_action_msg st sd e out : (forall on, st <> Online on) ->
  tick_action {| c_state := st; c_send := sd |} e = Ok out ->
  c_state (out_conn out) = st /\ out_sent out = tick_msg st.
Proof.
  intros Hn Ht. destruct (tick_action_hs {| c_state := st; c_send := sd |} e Hn) as [sd' E].
  rewrite E in Ht. injection Ht as <-. split; reflexivity.
Qed.

Lemma step6_trans_hs c e o out : link_op o -> (forall on, c_state c <> Online on) -> step c e o = Ok out ->
  trans6 o (c_state c) (c_state (out_conn out)) (out_sent out).
Proof.
  destruct c as [st sd]. cbn [c_state]. intros Ho Hn H.
  destruct o; try contradiction; unfold step in H; cbn [c_state c_send] in H.
  - destruct st; try discriminate. apply tick_action_msg in H as [-> ->]; [split; reflexivity|discriminate].
  - destruct st; try discriminate. destruct (Hn _ eq_refl).
  - destruct st; try discriminate. destruct (Hn _ eq_refl).
  - replace (match st with Online _ => _ | _ => false end) with false in H
      by (destruct st; try reflexivity; destruct (Hn _ eq_refl)).
    destruct (triggered sd (e_now e)).
    + apply tick_action_msg in H as [-> ->]; [|exact Hn]. apply trans6_same. right. reflexivity.
    + injection H as <-. apply trans6_same. left. reflexivity.
  - destruct st as [| |t|on|]; try discriminate; try destruct (Hn _ eq_refl);
      (destruct (existsb _ reason); [discriminate|]); unfold send_control in H; try discriminate;
      (destruct (MAX_PACKETSIZE <? _); [discriminate|]); injection H as <-; exists reason; left; reflexivity.
  - destruct st; try discriminate. destruct (Hn _ eq_refl).
  - unfold feed in H. cbn [c_state c_send] in H.
    destruct d as [t1 t2 pl|tk ack ctl|tk ack rr n cs]; cbn [dgram_tok dgram_ack] in H.
    + injection H as <-. apply trans6_same. left. reflexivity.
    + destruct (match state_token st with Some _ => _ | None => false end);
        [injection H as <-; apply trans6_same; left; reflexivity|].
      destruct ((ack <? 0) || (SEQ_MOD <=? ack)); [discriminate|].
      destruct st as [| |t|on|]; try destruct (Hn _ eq_refl);
        destruct ctl as [|resp| | |reason|resp];
        try (injection H as <-; apply trans6_same; left; reflexivity);
        try (injection H as <-; exists reason; right; eexists _, _; reflexivity).
      * assert (Hp : forall t e', tick_action {| c_state := Pending t; c_send := sd |} e' = Ok out ->
                  trans6 (OpFeed (DControl tk ack (Connect resp))) Unconnected (c_state (out_conn out)) (out_sent out)).
        { intros t e' Ht. apply tick_action_msg in Ht as [-> ->]; [|discriminate]. split; [eexists _, _, _|]; reflexivity. }
        destruct tk as [tk|]; [|exact (Hp _ _ H)].
        destruct (list_eq_dec Z.eq_dec tk TOKEN_NONE); [|injection H as <-; apply trans6_same; left; reflexivity].
        destruct (token_random (e_rand e)) as [[nt rnd']| | |]; try discriminate. exact (Hp _ _ H).
      * unfold send_control in H. rewrite ctl_fits in H by exact I. injection H as <-.
        eexists _, _. repeat split.
    + destruct (match state_token st with Some _ => _ | None => false end);
        [injection H as <-; apply trans6_same; left; reflexivity|].
      destruct ((ack <? 0) || (SEQ_MOD <=? ack)); [discriminate|].
      destruct st as [| |t|on|]; try destruct (Hn _ eq_refl);
        try (injection H as <-; apply trans6_same; left; reflexivity).
      destruct rr; cbn in H; (destruct (recv_chunks 0 false cs) as [[[a' r'] evs]| | |]; try discriminate);
        injection H as <-; eexists _, _, _, _, _; reflexivity.
Qed.

Theorem step6_trans c e o out : link_op o -> step c e o = Ok out ->
  trans6 o (c_state c) (c_state (out_conn out)) (out_sent out).
Proof.
  intros Ho H. destruct (c_state c) as [| |t|on|] eqn:Est.
  4:{ assert (M : exists fed, move fed (Online on) (c_state (out_conn out)) /\ Forall (ctl_ok (c_state (out_conn out))) (out_sent out)).
      { rewrite <- Est. destruct o; try contradiction; try (exists None; eapply app_moves; [|exact H]; exact I).
        eexists. eapply feed_moves, H. }
      destruct M as [fed [M _]]. destruct (c_state (out_conn out)); try contradiction; exact I. }
  all: rewrite <- Est; apply (step6_trans_hs c e o out Ho); [|exact H]; rewrite Est; discriminate.
Qed.

Lemma trans6_never o st st' sent : trans6 o st st' sent -> never_online st' ->
  never_online st /\ Forall hs_ctl sent.
Proof. destruct st, st'; cbn; intros T H; try contradiction; read_off T; repeat constructor. Qed.

Lemma trans6_early o st st' sent : trans6 o st st' sent -> early st' -> early st /\ Forall is_connect sent.
Proof. destruct st, st'; cbn; intros T H; try contradiction; read_off T; repeat constructor. Qed.

Lemma trans6_online o st st' sent : trans6 o st st' sent -> offline st -> ~ offline st' ->
  exists d, o = OpFeed d /\ ~ is_connect d.
Proof.
  destruct st, st'; cbn; intros T H H'; try contradiction; try (destruct H'; exact I); read_off T;
    (eexists; split; [reflexivity|]); cbn; auto.
Qed.

Lemma trans6_connecting o st' sent : trans6 o Connecting st' sent -> quiet is_connect o ->
  st' = Connecting /\ Forall is_connect sent.
Proof. destruct st'; cbn; intros T H; read_off T; repeat constructor. Qed.

Lemma trans6_waits o st st' sent : trans6 o st st' sent -> acceptor_waits st -> quiet hs_ctl o ->
  acceptor_waits st' /\ Forall hs_ctl sent.
Proof. destruct st, st'; cbn; intros T H Q; try contradiction; read_off T; repeat constructor. Qed.

Lemma trans6_idle o st' sent : trans6 o Connecting st' sent -> quiet hs_ctl o ->
  connector_idle st' /\ Forall hs_ctl sent.
Proof. destruct st'; cbn; intros T H; read_off T; repeat constructor. Qed.

Lemma idle_online_step c e o out on : c_state c = Online on -> idle on -> quiet hs_ctl o -> step c e o = Ok out ->
  exists on', c_state (out_conn out) = Online on' /\ idle on' /\ Forall hs_ctl (out_sent out).
Proof.
  destruct c as [st sd]. cbn [c_state]. intros -> Hi Ho H. pose proof Hi as [H1 [H2 H3]].
  pose proof (idle_can_send on H1 H2) as Hcs.
  destruct o as [| | | | | |d| |]; try contradiction; unfold step in H; cbn [c_state c_send] in H.
  - rewrite (flush_idle _ _ Hcs) in H. injection H as <-. eexists. repeat split; try assumption. constructor.
  - rewrite H3 in H. cbn [queue_back map last] in H. destruct (triggered sd (e_now e)).
    + unfold tick_action, send_control in H. cbn [c_state] in H. rewrite Hcs, ctl_fits in H by exact I.
      injection H as <-. eexists. repeat split; try assumption. repeat constructor.
    + injection H as <-. eexists. repeat split; try assumption. constructor.
  - destruct d as [t1 t2 pl|tk ack ctl|tk ack rr n cs]; try contradiction.
    unfold feed in H. cbn [c_state c_send dgram_tok dgram_ack state_token] in H.
    destruct (negb (tok_eqb tk (o_own on))); [injection H as <-; eexists; repeat split; try assumption; constructor|].
    destruct ((ack <? 0) || (SEQ_MOD <=? ack)); [discriminate|]. rewrite (ack_empty on ack H3) in H.
    destruct ctl; try contradiction; injection H as <-; eexists; repeat split; try assumption; constructor.
Qed.

Lemma connector_idle_step c e o out : connector_idle (c_state c) -> quiet hs_ctl o -> step c e o = Ok out ->
  connector_idle (c_state (out_conn out)) /\ Forall hs_ctl (out_sent out).
Proof.
  intros Hi Ho H. destruct (c_state c) as [| | |on|] eqn:Est; try contradiction.
  - pose proof (step6_trans c e o out (quiet_link_op _ _ Ho) H) as T. rewrite Est in T.
    exact (trans6_idle _ _ _ T Ho).
  - destruct (idle_online_step c e o out on Est Hi Ho H) as [on' [-> [Hi' Hs]]]. split; [exact Hi'|exact Hs].
Qed.

Definition app_label (l : llabel) : Prop := match l with LApp _ o => app_op o | _ => True end.

Lemma admissible_labels w ls w' : admissible_run w ls -> link_run w ls = Ok w' -> Forall app_label ls.
Proof.
  apply (gadm_labels link llabel link_step admissible). intros w0 [s o| | |]; cbn; auto. intros [H _]. exact H.
Qed.

Lemma link_step_cases w l w' : link_step w l = Ok w' ->
  (exists s o x fl, (l = LApp s o \/ exists f, In f (bag w (other s)) /\ o = OpFeed (f_d f)) /\
     side_step (k_now w) (get w s) o = Ok (x, fl) /\ w' = set_side w s x fl) \/
  ((forall s, get w' s = get w s) /\ forall s, incl (bag w' s) (bag w s)).
Proof.
  assert (Hrm : forall k (fl : list flight), incl (remove_nth k fl) fl).
  { intros k fl. apply incl_Forall_in_iff, remove_nth_forall, incl_Forall_in_iff, incl_refl. }
  destruct l as [s o|dt|from k|from k]; cbn [link_step]; intros H.
  - destruct (side_step (k_now w) (get w s) o) as [[x fl]| | |] eqn:E; try discriminate. injection H as <-.
    left. exists s, o, x, fl. auto.
  - injection H as <-. right. split; intros []; try apply incl_refl; reflexivity.
  - destruct (nth_error (bag w from) k) as [f|] eqn:Ek.
    + destruct (side_step (k_now w) (get w (other from)) (OpFeed (f_d f))) as [[x fl]| | |] eqn:E; try discriminate.
      injection H as <-. left. exists (other from), (OpFeed (f_d f)), x, fl. split; [right|auto].
      exists f. rewrite other_other. split; [eapply nth_error_In, Ek|reflexivity].
    + injection H as <-. right. split; intros s; [reflexivity|apply incl_refl].
  - injection H as <-. right. destruct from; split; intros []; cbn; try apply incl_refl; try reflexivity; apply Hrm.
Qed.

Definition closed (P : side -> state6 -> Prop) (D : dgram -> Prop) (w : link) : Prop :=
  forall s, P s (c_state (l_conn (get w s))) /\ Forall (fun f => D (f_d f)) (bag w s).

Lemma closed_step (P : side -> state6 -> Prop) (D : dgram -> Prop) :
  (forall s c e o out, P s (c_state c) -> quiet D o -> step c e o = Ok out ->
     P s (c_state (out_conn out)) /\ Forall D (out_sent out)) ->
  forall w l w', closed P D w -> heal_label l -> link_step w l = Ok w' -> closed P D w'.
Proof.
  intros Hstep w l w' Hc Hl H.
  destruct (link_step_cases w l w' H) as [[s [o [x [fl [Ho [E ->]]]]]]|[Hg Hb]].
  - assert (Hq : quiet D o).
    { destruct Ho as [->|[f [Hin ->]]]; [destruct o; try contradiction; exact I|].
      destruct (Hc (other s)) as [_ Hf]. rewrite Forall_forall in Hf. exact (Hf f Hin). }
    apply side_step_inv in E as [out [Hs [-> ->]]].
    destruct (Hstep s _ _ _ _ (proj1 (Hc s)) Hq Hs) as [P1 P2].
    assert (Hnew : Forall (fun f => D (f_d f)) (bag w s ++ map (mkf (get w s)) (out_sent out))).
    { apply Forall_app. split; [apply Hc|apply Forall_map; exact P2]. }
    intros t. destruct s, t; try apply Hc; split; assumption.
  - intros t. rewrite Hg. split; [apply Hc|]. eapply incl_Forall; [apply Hb|apply Hc].
Qed.

Definition no_chunks : link -> Prop :=
  closed (fun s => match s with SA => connector_idle | SB => acceptor_waits end) hs_ctl.

Lemma no_chunks_run ls w w' : no_chunks w -> Forall heal_label ls -> link_run w ls = Ok w' -> no_chunks w'.
Proof.
  apply (grun_inv link llabel link_step), closed_step. intros [] c e o out Hp Ho H.
  - exact (connector_idle_step c e o out Hp Ho H).
  - exact (trans6_waits _ _ _ _ (step6_trans c e o out (quiet_link_op _ _ Ho) H) Hp Ho).
Qed.

(* both sides have called connect *)
Definition both_connecting : link -> Prop := closed (fun _ st => st = Connecting) is_connect.

Lemma both_connecting_run ls w w' :
  both_connecting w -> Forall heal_label ls -> link_run w ls = Ok w' -> both_connecting w'.
Proof.
  apply (grun_inv link llabel link_step), closed_step. intros _ c e o out Hp Ho H.
  pose proof (step6_trans c e o out (quiet_link_op _ _ Ho) H) as T. rewrite Hp in T.
  exact (trans6_connecting _ _ _ T Ho).
Qed.

(* x: an endpoint, y: its peer, bagx: what x has sent. An endpoint that has never been online has
   emitted nothing but handshake datagrams; one that has not got past Connecting nothing but
   Connects, and its peer is not online *)
Record role6 (x y : state6) (bagx : list flight) : Prop := {
  r6_never : never_online x -> Forall (fun f => hs_ctl (f_d f)) bagx;
  r6_early : early x -> Forall (fun f => is_connect (f_d f)) bagx /\ offline y;
}.

Definition role_inv6 (w : link) : Prop :=
  forall s, role6 (c_state (l_conn (get w s))) (c_state (l_conn (get w (other s)))) (bag w s).

Lemma role_inv6_new ra rb : role_inv6 (link_new ra rb).
Proof. intros []; split; intros _; repeat constructor. Qed.

Lemma role_inv6_step w l w' : role_inv6 w -> app_label l -> link_step w l = Ok w' -> role_inv6 w'.
Proof.
  intros Hr Hl H.
  destruct (link_step_cases w l w' H) as [[s [o [x [fl [Ho [E ->]]]]]]|[Hg Hb]].
  - apply side_step_inv in E as [out [Hs [-> ->]]].
    assert (Hlo : link_op o) by (destruct Ho as [->|[f [_ ->]]]; [destruct o; try contradiction|]; exact I).
    pose proof (step6_trans _ _ _ _ Hlo Hs) as T.
    destruct (Hr s) as [N1 E1]. destruct (Hr (other s)) as [N2 E2]. rewrite other_other in E2.
    assert (R1 : role6 (c_state (out_conn out)) (c_state (l_conn (get w (other s))))
                   (bag w s ++ map (mkf (get w s)) (out_sent out))).
    { split; intros Hx.
      - destruct (trans6_never _ _ _ _ T Hx) as [Q1 Q2]. apply Forall_app. split; [exact (N1 Q1)|apply Forall_map; exact Q2].
      - destruct (trans6_early _ _ _ _ T Hx) as [Q1 Q2]. destruct (E1 Q1) as [Q3 Q4].
        split; [apply Forall_app; split; [exact Q3|apply Forall_map; exact Q2]|exact Q4]. }
    assert (R2 : role6 (c_state (l_conn (get w (other s)))) (c_state (out_conn out)) (bag w (other s))).
    { split; [exact N2|]. intros Hx. destruct (E2 Hx) as [Q1 Q2]. split; [exact Q1|].
      destruct (c_state (out_conn out)) eqn:Es'; try exact I.
      destruct (trans6_online _ _ _ _ T Q2) as [d [-> Hd]]; [intros Hf; exact Hf|].
      destruct Ho as [E|[f [Hin E]]]; [rewrite E in Hl; destruct Hl|]. injection E as ->.
      rewrite Forall_forall in Q1. exact (Hd (Q1 f Hin)). }
    intros t. destruct s, t; assumption.
  - intros t. destruct (Hr t) as [N1 E1]. rewrite !Hg. split; intros Hx.
    + eapply incl_Forall; [apply Hb|exact (N1 Hx)].
    + destruct (E1 Hx) as [Q1 Q2]. split; [eapply incl_Forall; [apply Hb|exact Q1]|exact Q2].
Qed.

Lemma role_inv6_reach ra rb ls w :
  admissible_run (link_new ra rb) ls -> link_run (link_new ra rb) ls = Ok w -> role_inv6 w.
Proof.
  intros Ha Hr. exact (grun_inv link llabel link_step _ _ role_inv6_step ls _ w (role_inv6_new ra rb)
                         (admissible_labels _ _ _ Ha Hr) Hr).
Qed.

Lemma sched_inv w ls w' : link_inv w -> sched w ls w' -> link_inv w'.
Proof.
  intros Hi [Ha Hr]. destruct (link_run_inv ls w Hi Ha) as [w2 [Hr2 Hi2]]. rewrite Hr in Hr2.
  injection Hr2 as <-. exact Hi2.
Qed.

(* a side that has never been online *)
Definition blank (x : lside) : Prop := l_sub x = [] /\ l_del x = [] /\ l_ready x = 0.

Lemma never_online_blank w s : link_inv w -> never_online (c_state (l_conn (get w s))) -> blank (get w s).
Proof. intros Hi Hn. destruct (sv_fresh _ _ _ _ _ (linv_side w s Hi) Hn) as [H1 [H2 [_ H3]]]. repeat split; assumption. Qed.

Lemma never_online_undelivered w s : link_inv w -> never_online (c_state (l_conn (get w s))) ->
  l_del (get w (other s)) = [].
Proof.
  intros Hi Hn. destruct (never_online_blank w s Hi Hn) as [Hs _]. apply zlen_le0_nil.
  pose proof (sv_dle _ _ _ _ _ (linv_side w (other s) Hi)) as Hd. rewrite other_other, Hs in Hd. exact Hd.
Qed.

Lemma fresh_never_online w s f : link_inv w -> In f (bag w s) ->
  never_online (c_state (l_conn (get w (other s)))) -> fresh f (get w (other s)).
Proof.
  intros Hi Hin Hn. destruct (never_online_blank w (other s) Hi Hn) as [Hs [Hd _]].
  pose proof (linv_bag w s Hi) as Hb. unfold bag_inv in Hb. rewrite Forall_forall in Hb.
  unfold fresh. rewrite Hs, Hd. exact (flight_ok_fresh _ _ _ _ _ (proj1 (Hb f Hin))).
Qed.

Lemma pending_idle_nothing w oa t :
  link_inv w -> c_state (l_conn (k_a w)) = Online oa -> c_state (l_conn (k_b w)) = Pending t ->
  o_queue oa = [] ->
  l_sub (k_a w) = [] /\ l_del (k_a w) = [] /\ l_sub (k_b w) = [] /\ l_del (k_b w) = [].
Proof.
  intros Hi Hoa Hpb Hq.
  assert (Nb : never_online (c_state (l_conn (get w SB)))) by (cbn [get]; rewrite Hpb; exact I).
  destruct (never_online_blank w SB Hi Nb) as [SubB [DelB _]]. cbn [get] in SubB, DelB.
  split; [|split; [exact (never_online_undelivered w SB Hi Nb)|split; assumption]].
  exact (eq_trans (eq_sym (queue_empty_del w SA oa Hi Hoa Hq)) DelB).
Qed.

Lemma pending_token ra rb ls w oa t :
  admissible_run (link_new ra rb) ls -> link_run (link_new ra rb) ls = Ok w ->
  c_state (l_conn (k_a w)) = Online oa -> c_state (l_conn (k_b w)) = Pending t -> o_own oa = t.
Proof.
  intros Hadm Hrun Hoa Hpb. destruct (tok_inv_run ls _ w (tok_inv_new ra rb) Hadm Hrun) as [PA _].
  pose proof (pj_on _ _ _ PA oa Hoa) as H. rewrite Hpb in H. exact H.
Qed.

Lemma step_tick_hs c e t : never_online (c_state c) -> c_send c = Some t -> t <= e_now e ->
  exists sd, step c e OpTick = Ok (mk {| c_state := c_state c; c_send := sd |} e (tick_msg (c_state c)) [] [] ROk).
Proof.
  destruct c as [st sd]. cbn [c_state c_send]. intros Hn -> Ht. unfold step. cbn [c_state c_send].
  rewrite (triggered_some _ _ Ht).
  replace (match st with Online _ => _ | _ => false end) with false by (destruct st; try reflexivity; contradiction).
  apply (tick_action_hs {| c_state := st; c_send := None |}). intros on E. cbn in E. rewrite E in Hn. exact Hn.
Qed.

Lemma step_feed_connect c e r nt rnd' : c_state c = Unconnected -> token_random (e_rand e) = Ok (nt, rnd') ->
  exists sd, step c e (OpFeed (DControl (Some TOKEN_NONE) 0 (Connect r))) =
    Ok (mk {| c_state := Pending (Some nt); c_send := sd |} {| e_now := e_now e; e_rand := rnd' |}
           [DControl (Some nt) 0 ConnectAccept] [] [] ROk).
Proof.
  destruct c as [st sd]. cbn [c_state]. intros -> Hr. unfold step, feed. cbn -[tick_action]. rewrite Hr. cbn [bind].
  apply (tick_action_hs {| c_state := Pending (Some nt); c_send := sd |}). discriminate.
Qed.

Lemma step_feed_connect_accept c e tok : c_state c = Connecting ->
  step c e (OpFeed (DControl tok 0 ConnectAccept)) =
    Ok (mk {| c_state := Online (online_new tok tok); c_send := c_send c |} e [DControl tok 0 Accept] [EvReady] [] ROk).
Proof.
  destruct c as [st sd]. cbn [c_state]. intros ->. destruct tok; reflexivity.
Qed.

Lemma step_feed_accept c e t : c_state c = Pending t ->
  step c e (OpFeed (DControl t 0 Accept)) = Ok (mk c e [] [] [] ROk).
Proof.
  destruct c as [st sd]. cbn [c_state]. intros ->. unfold step, feed. cbn. rewrite tok_eqb_refl. reflexivity.
Qed.

Definition mkl (xa xb : lside) (ab ba : list flight) (now : Z) : link :=
  {| k_a := xa; k_b := xb; k_ab := ab; k_ba := ba; k_now := now |}.

Lemma tickA xa xb ab ba now dt out : step (l_conn xa) {| e_now := now + dt; e_rand := l_rand xa |} OpTick = Ok out ->
  sched (mkl xa xb ab ba now) [LTime dt; LApp SA OpTick]
        (mkl (after xa OpTick out) xb (ab ++ flights_of xa out) ba (now + dt)).
Proof. intros H. split; cbn; rewrite (side_step_unfold _ _ _ _ H); [repeat split|reflexivity]. Qed.
Lemma tickB xa xb ab ba now dt out : step (l_conn xb) {| e_now := now + dt; e_rand := l_rand xb |} OpTick = Ok out ->
  sched (mkl xa xb ab ba now) [LTime dt; LApp SB OpTick]
        (mkl xa (after xb OpTick out) ab (ba ++ flights_of xb out) (now + dt)).
Proof. intros H. split; cbn; rewrite (side_step_unfold _ _ _ _ H); [repeat split|reflexivity]. Qed.

Lemma drainA xa xb f ab ba now out :
  fresh f xb -> rand_ok {| e_now := now; e_rand := l_rand xb |} ->
  step (l_conn xb) {| e_now := now; e_rand := l_rand xb |} (OpFeed (f_d f)) = Ok out ->
  sched (mkl xa xb (f :: ab) ba now) (drain SA 1)
        (mkl xa (after xb (OpFeed (f_d f)) out) ab (ba ++ flights_of xb out) now).
Proof.
  intros H1 H2 H. eapply sched_cons; [exact (conj H1 H2)|cbn; rewrite (side_step_unfold _ _ _ _ H); reflexivity|].
  eapply sched_cons; [exact I|reflexivity|apply sched_nil].
Qed.
Lemma drainB xa xb f ab ba now out :
  fresh f xa -> rand_ok {| e_now := now; e_rand := l_rand xa |} ->
  step (l_conn xa) {| e_now := now; e_rand := l_rand xa |} (OpFeed (f_d f)) = Ok out ->
  sched (mkl xa xb ab (f :: ba) now) (drain SB 1)
        (mkl (after xa (OpFeed (f_d f)) out) xb (ab ++ flights_of xa out) ba now).
Proof.
  intros H1 H2 H. eapply sched_cons; [exact (conj H1 H2)|cbn; rewrite (side_step_unfold _ _ _ _ H); reflexivity|].
  eapply sched_cons; [exact I|reflexivity|apply sched_nil].
Qed.

Lemma fresh_ctl x d y : dgram_chunks d = [] -> l_sub y = [] ->
  fresh {| f_d := d; f_n := zlen (l_sub x); f_c := zlen (l_del x) |} y.
Proof.
  intros Hd Hy. split; cbn; [|rewrite Hd; intros c s r []]. rewrite Hy. pose proof (zlen_nonneg (l_del x)). cbn. lia.
Qed.

Definition hs_connect (dt : Z) : list llabel :=
  [LTime dt; LApp SA OpTick] ++ drain SA 1 ++ drain SB 1 ++ drain SA 1.
Definition hs_answer (dt : Z) : list llabel :=
  [LTime dt; LApp SB OpTick] ++ drain SB 1 ++ drain SA 1.

(* what they reach: A online with a fresh online record and told Ready once, B pending with the
   token A uses (so B has answered), no history touched, nothing in flight *)
Definition hs_end (w : link) (tok : option token) : Prop :=
  c_state (l_conn (k_a w)) = Online (online_new tok tok) /\ c_state (l_conn (k_b w)) = Pending tok /\
  l_ready (k_a w) = 1 /\ l_answered (k_b w) = true /\
  l_sub (k_a w) = [] /\ l_sub (k_b w) = [] /\ l_del (k_a w) = [] /\ l_del (k_b w) = [] /\
  k_ab w = [] /\ k_ba w = [].

(* B has not seen a Connect: A's timer runs out, A repeats the Connect, B answers, A is online *)
Lemma handshake_connect xa xb now ta nt rnd' :
  c_state (l_conn xa) = Connecting -> c_send (l_conn xa) = Some ta ->
  c_state (l_conn xb) = Unconnected -> token_random (l_rand xb) = Ok (nt, rnd') ->
  blank xa -> blank xb ->
  rand_ok {| e_now := now; e_rand := l_rand xa |} -> rand_ok {| e_now := now; e_rand := l_rand xb |} ->
  rand_ok {| e_now := now; e_rand := rnd' |} ->
  exists w', sched (mkl xa xb [] [] now) (hs_connect (Z.max 0 (ta - now))) w' /\ hs_end w' (Some nt) /\
    l_rand (k_a w') = l_rand xa /\ l_rand (k_b w') = rnd'.
Proof.
  destruct xa as [ca ra suba dela nvsa nvra rdya ansa], xb as [cb rb subb delb nvsb nvrb rdyb ansb].
  unfold blank. cbn [l_conn l_rand l_sub l_del l_ready]. intros Ca Sa Cb Hr [-> [-> ->]] [-> [-> ->]] Ra Rb Rb'.
  set (t1 := now + Z.max 0 (ta - now)).
  destruct (step_tick_hs ca {| e_now := t1; e_rand := ra |} ta) as [sd1 T1];
    [rewrite Ca; exact I|exact Sa|unfold t1; cbn; lia|]. rewrite Ca in T1.
  destruct (step_feed_connect cb {| e_now := t1; e_rand := rb |} None nt rnd' Cb Hr) as [sd2 T2].
  eexists. split.
  { eapply sched_app; [apply tickA, T1|]. cbn [app].
    eapply sched_app; [apply drainA; [apply fresh_ctl; reflexivity|exact Rb|exact T2]|].
    eapply sched_app; [apply drainB; [apply fresh_ctl; reflexivity|exact Ra|apply step_feed_connect_accept; reflexivity]|].
    apply drainA; [apply fresh_ctl; reflexivity|exact Rb'|apply step_feed_accept; reflexivity]. }
  repeat split. cbn. rewrite orb_false_r. apply orb_true_r.
Qed.

(* B is pending: its timer runs out, it repeats the ConnectAccept, A is online *)
Lemma handshake_answer xa xb now tok tb :
  c_state (l_conn xa) = Connecting -> c_state (l_conn xb) = Pending tok -> c_send (l_conn xb) = Some tb ->
  blank xa -> blank xb ->
  rand_ok {| e_now := now; e_rand := l_rand xa |} -> rand_ok {| e_now := now; e_rand := l_rand xb |} ->
  exists w', sched (mkl xa xb [] [] now) (hs_answer (Z.max 0 (tb - now))) w' /\ hs_end w' tok /\
    l_rand (k_a w') = l_rand xa /\ l_rand (k_b w') = l_rand xb.
Proof.
  destruct xa as [ca ra suba dela nvsa nvra rdya ansa], xb as [cb rb subb delb nvsb nvrb rdyb ansb].
  unfold blank. cbn [l_conn l_rand l_sub l_del l_ready]. intros Ca Cb Sb [-> [-> ->]] [-> [-> ->]] Ra Rb.
  set (t1 := now + Z.max 0 (tb - now)).
  destruct (step_tick_hs cb {| e_now := t1; e_rand := rb |} tb) as [sd1 T1];
    [rewrite Cb; exact I|exact Sb|unfold t1; cbn; lia|]. rewrite Cb in T1.
  eexists. split.
  { eapply sched_app; [apply tickB, T1|]. cbn [app].
    eapply sched_app; [apply drainB; [apply fresh_ctl; reflexivity|exact Ra|apply step_feed_connect_accept, Ca]|].
    apply drainA; [apply fresh_ctl; reflexivity|exact Rb|apply step_feed_accept; reflexivity]. }
  repeat split. cbn. rewrite orb_false_r. apply orb_true_r.
Qed.

Definition hs_schedule (fresh : bool) (na nb : nat) (dt : Z) : list llabel :=
  drops SA na ++ drops SB nb ++ (if fresh then hs_connect dt else hs_answer dt).

Lemma lose_all w : link_inv w ->
  exists na nb, sched w (drops SA na ++ drops SB nb) (mkl (k_a w) (k_b w) [] [] (k_now w)).
Proof.
  intros Hi. destruct (drop_all SA _ w eq_refl Hi) as [w1 [S1 [I1 [E1 [B1 [O1 N1]]]]]].
  destruct (drop_all SB _ w1 eq_refl I1) as [w2 [S2 [_ [E2 [B2 [O2 N2]]]]]]. cbn [other] in O1, O2.
  exists (length (bag w SA)), (length (bag w1 SB)).
  replace (mkl (k_a w) (k_b w) [] [] (k_now w)) with w2; [exact (sched_app _ _ _ _ _ S1 S2)|].
  destruct w2 as [xa xb ab ba now]. cbn [bag k_ab k_ba k_now] in *. unfold mkl. f_equal.
  - exact (eq_trans (E2 SA) (E1 SA)).
  - exact (eq_trans (E2 SB) (E1 SB)).
  - congruence.
  - exact B2.
  - congruence.
Qed.

Definition handshake_start (w : link) : Prop :=
  c_state (l_conn (k_a w)) = Connecting /\ acceptor_waits (c_state (l_conn (k_b w))).

(* the random streams: usable now, and B's still usable after it has drawn its token *)
Definition hs_rand_ok (w : link) : Prop :=
  rand_ok {| e_now := k_now w; e_rand := l_rand (k_a w) |} /\
  rand_ok {| e_now := k_now w; e_rand := l_rand (k_b w) |} /\
  (c_state (l_conn (k_b w)) = Unconnected ->
   forall t r, token_random (l_rand (k_b w)) = Ok (t, r) -> rand_ok {| e_now := k_now w; e_rand := r |}).

Theorem handshake_link w : link_inv w -> handshake_start w -> hs_rand_ok w ->
  exists fresh na nb dt w' tok,
    0 <= dt /\ sched w (hs_schedule fresh na nb dt) w' /\ hs_end w' tok /\
    rand_ok {| e_now := k_now w'; e_rand := l_rand (k_a w') |} /\
    rand_ok {| e_now := k_now w'; e_rand := l_rand (k_b w') |}.
Proof.
  intros Hi [Ca Wb] [Ra [Rb Rb']].
  assert (Ba : blank (k_a w)) by (apply (never_online_blank w SA Hi); cbn [get]; rewrite Ca; exact I).
  pose proof (never_online_blank w SB Hi (acceptor_waits_never _ Wb)) as Bb. cbn [get] in Bb.
  pose proof (sv_conn _ _ _ _ _ (linv_side w SA Hi)) as Hca. pose proof (sv_conn _ _ _ _ _ (linv_side w SB Hi)) as Hcb.
  unfold conn_ok6 in Hca, Hcb. cbn [get] in Hca, Hcb. rewrite Ca in Hca.
  destruct (c_send (l_conn (k_a w))) as [ta|] eqn:Sa; [|contradiction].
  destruct (lose_all w Hi) as [na [nb S0]].
  destruct (c_state (l_conn (k_b w))) as [| |tok| |] eqn:Cb; try contradiction.
  - pose proof Rb as [_ [nt [rnd' Hr]]]. cbn [e_rand] in Hr. specialize (Rb' eq_refl nt rnd' Hr).
    destruct (handshake_connect _ _ (k_now w) ta nt rnd' Ca Sa Cb Hr Ba Bb Ra Rb Rb') as [w' [S1 [E [Ea Eb]]]].
    exists true, na, nb, (Z.max 0 (ta - k_now w)), w', (Some nt). split; [lia|].
    split; [unfold hs_schedule; rewrite app_assoc; exact (sched_app _ _ _ _ _ S0 S1)|].
    split; [exact E|]. rewrite Ea, Eb. split; assumption.
  - destruct Hcb as [_ Hcb]. destruct (c_send (l_conn (k_b w))) as [tb|] eqn:Sb; [|contradiction].
    destruct (handshake_answer _ _ (k_now w) tok tb Ca Cb Sb Ba Bb Ra Rb) as [w' [S1 [E [Ea Eb]]]].
    exists false, na, nb, (Z.max 0 (tb - k_now w)), w', tok. split; [lia|].
    split; [unfold hs_schedule; rewrite app_assoc; exact (sched_app _ _ _ _ _ S0 S1)|].
    split; [exact E|]. rewrite Ea, Eb. split; assumption.
Qed.

Lemma feed_chunks_pending now y t ack rr n cs y' fl :
  c_state (l_conn y) = Pending t -> side_step now y (OpFeed (DChunks t ack rr n cs)) = Ok (y', fl) ->
  fl = [] /\ exists ob, c_state (l_conn y') = Online ob /\ o_own ob = t /\ o_their ob = t /\
    l_sub y' = l_sub y /\ l_rand y' = l_rand y.
Proof.
  intros Hp H. apply side_step_inv in H as [out [Hs [-> ->]]].
  destruct y as [[st sd] rnd sub del nvs nvr rdy ans]. cbn [l_conn c_state c_send] in Hp. subst st.
  unfold step, feed in Hs. cbn [l_conn c_state c_send e_now e_rand l_rand dgram_tok dgram_ack state_token] in Hs.
  rewrite tok_eqb_refl in Hs. cbn [negb] in Hs.
  destruct ((ack <? 0) || (SEQ_MOD <=? ack)); [discriminate|].
  destruct rr; cbn in Hs; (destruct (recv_chunks 0 false cs) as [[[a' r'] evs]| | |]; try discriminate);
    injection Hs as <-; (split; [reflexivity|]); eexists; repeat split.
Qed.

Lemma accept_first w f rest ack rr n cs t :
  link_inv w -> bag w SA = f :: rest -> f_d f = DChunks t ack rr n cs -> c_state (l_conn (k_b w)) = Pending t ->
  rand_ok {| e_now := k_now w; e_rand := l_rand (k_b w) |} ->
  exists w' ob, sched w (drain SA 1) w' /\ link_inv w' /\ get w' SA = get w SA /\ bag w' SA = rest /\
    bag w' SB = bag w SB /\ k_now w' = k_now w /\
    c_state (l_conn (k_b w')) = Online ob /\ o_own ob = t /\ o_their ob = t /\
    l_sub (k_b w') = l_sub (k_b w) /\ l_rand (k_b w') = l_rand (k_b w).
Proof.
  intros Hi Hb Hf Hp Hr.
  assert (Hfr : fresh f (get w (other SA))).
  { apply (fresh_never_online w SA f Hi); [rewrite Hb; left; reflexivity|]. cbn [other get]. rewrite Hp. exact I. }
  destruct (ldeliver_step w SA f rest Hi Hb Hfr Hr) as [A1 [y' [fl [T1 [L1 I1]]]]]. cbn [other get] in T1, L1, I1.
  rewrite Hf in T1. destruct (feed_chunks_pending _ _ t ack rr n cs y' fl Hp T1) as [-> [ob [Hob [Own [Th [Sub Rn]]]]]].
  destruct (ldrop_step (set_side w SB y' []) SA) as [w' [S2 [G2 [B2 [O2 [N2 I2]]]]]]. cbn [other] in O2.
  exists w', ob. split; [eapply sched_cons; [exact A1|exact L1|]; eapply sched_cons; [exact I|exact S2|apply sched_nil]|].
  split; [exact (I2 I1)|]. split; [rewrite G2; reflexivity|]. split; [rewrite B2; change (bag (set_side w SB y' []) SA) with (bag w SA); rewrite Hb; reflexivity|].
  split; [rewrite O2; apply app_nil_r|]. split; [rewrite N2; reflexivity|].
  change (k_b w') with (get w' SB). rewrite G2. repeat split; assumption.
Qed.

Definition quiet_end (w : link) : Prop :=
  l_del (k_b w) = l_sub (k_a w) /\ l_del (k_a w) = l_sub (k_b w) /\
  k_ab w = [] /\ k_ba w = [] /\
  exists oa ob, c_state (l_conn (k_a w)) = Online oa /\ c_state (l_conn (k_b w)) = Online ob /\
    o_queue oa = [] /\ o_queue ob = [] /\ pc_chunks (o_packet oa) = [] /\ pc_chunks (o_packet ob) = [] /\
    o_rr oa = false /\ o_rr ob = false.

Lemma heal_quiet w oa ob :
  link_inv w -> c_state (l_conn (k_a w)) = Online oa -> c_state (l_conn (k_b w)) = Online ob ->
  o_own oa = o_own ob -> can_send oa = false -> k_ab w = [] -> k_ba w = [] ->
  rand_ok {| e_now := k_now w; e_rand := l_rand (k_a w) |} ->
  rand_ok {| e_now := k_now w; e_rand := l_rand (k_b w) |} ->
  exists dt1 n1 dt2 n2 dt3 n3 w',
    0 <= dt1 /\ 0 <= dt2 /\ 0 <= dt3 /\ sched w (heal_schedule 0 0 dt1 n1 dt2 n2 dt3 n3) w' /\ link_inv w' /\
    l_sub (k_a w') = l_sub (k_a w) /\ l_sub (k_b w') = l_sub (k_b w) /\ quiet_end w'.
Proof.
  intros Hi Hoa Hob Htok Hcs Hab Hba Hra Hrb.
  destruct (flush_link w oa ob Hi Hoa Hob Htok) as [xa [oa1 [ds [Ef [Hoa1 [R1 [S1 G1]]]]]]].
  (* the flush emits nothing *)
  rewrite (flush_idle _ _ Hcs) in Ef. injection Ef as <- <-.
  destruct (rounds_link _ SA _ _ _ oa ob G1) as
    [dt1 [n1 [dt2 [n2 [dt3 [n3 [w' [oa' [ob' [D1 [D2 [D3 [S2 [I' [Sa [Sb [Db [Da [Oa [Ob [Qa [Qb [Pa [Pb [Ra [Rb [Ba Bb]]]]]]]]]]]]]]]]]]]]]]]]]]];
    [intros [] now; [exact Hra|exact Hrb]|cbn; rewrite Hab; reflexivity|exact Hba|exact Hoa1|exact Hob|exact R1|].
  exists dt1, n1, dt2, n2, dt3, n3, w'. do 3 (split; [assumption|]).
  split; [exact (sched_app _ _ _ _ _ S1 S2)|]. do 5 (split; [assumption|]).
  split; [exact Ba|]. split; [exact Bb|]. exists oa', ob'. repeat split; assumption.
Qed.

Lemma ready_kept ls w w' : link_run w ls = Ok w' -> l_ready (k_a w) <= l_ready (k_a w').
Proof.
  intros H. apply (grun_inv link llabel link_step (fun w0 => l_ready (k_a w) <= l_ready (k_a w0)) (fun _ => True))
    with (ls := ls) (w := w); [|lia|apply Forall_forall; intros; exact I|exact H].
  intros w0 l w1 Hle _ Hs. destruct (link_step_cases w0 l w1 Hs) as [[s [o [x [fl [_ [E ->]]]]]]|[Hg _]].
  - destruct s; [|exact Hle]. apply side_step_inv in E as [out [_ [-> _]]]. cbn.
    pose proof (ready_events_nonneg (out_events out)). cbn [get] in *. lia.
  - specialize (Hg SA). cbn [get] in Hg. rewrite Hg. exact Hle.
Qed.

Lemma sched_call w s o out : admissible w (LApp s o) ->
  step (l_conn (get w s)) {| e_now := k_now w; e_rand := l_rand (get w s) |} o = Ok out ->
  sched w [LApp s o] (set_side w s (after (get w s) o out) (flights_of (get w s) out)).
Proof.
  intros A H. eapply sched_cons; [exact A| |apply sched_nil]. cbn [link_step].
  rewrite (side_step_unfold _ _ _ _ H). reflexivity.
Qed.

Definition first_send (d : bytes) (v : bool) : list llabel :=
  [LApp SA (OpSend d v); LApp SA OpFlush] ++ drain SA 1.

Definition progress_schedule (fresh : bool) (na nb : nat) (dt : Z) (d : bytes) (v : bool)
    (dt1 : Z) (n1 : nat) (dt2 : Z) (n2 : nat) (dt3 : Z) (n3 : nat) : list llabel :=
  hs_schedule fresh na nb dt ++ first_send d v ++ heal_schedule 0 0 dt1 n1 dt2 n2 dt3 n3.

Theorem progress_link w d v :
  link_inv w -> handshake_start w -> hs_rand_ok w -> Z.of_nat (length d) < 1024 ->
  exists fresh na nb dt dt1 n1 dt2 n2 dt3 n3 w',
    0 <= dt /\ 0 <= dt1 /\ 0 <= dt2 /\ 0 <= dt3 /\
    sched w (progress_schedule fresh na nb dt d v dt1 n1 dt2 n2 dt3 n3) w' /\ link_inv w' /\
    l_ready (k_a w') = 1 /\ l_sub (k_a w') = (if v then [d] else []) /\ l_sub (k_b w') = [] /\ quiet_end w'.
Proof.
  intros Hi Hs Hr Hl.
  destruct (handshake_link w Hi Hs Hr) as [fresh [na [nb [dt [w1 [tok [Hdt [S1 [E1 [Ra Rb]]]]]]]]]].
  destruct E1 as [Da [Db [Ry [_ [SubA [SubB [_ [_ [Bab Bba]]]]]]]]]. pose proof (sched_inv _ _ _ Hi S1) as I1.
  assert (Hd : data_ok params6 d) by (split; [unfold MAX_PAYLOAD|change (2 ^ p_size_bits params6) with 1024]; lia).
  destruct (first_send_flush params6 (k_now w1) tok tok d v (or_introl eq_refl) Hd) as [o1 [Es [Ef [Own1 _]]]].
  set (e1 := {| e_now := k_now w1; e_rand := l_rand (k_a w1) |}).
  assert (T1 : step (l_conn (k_a w1)) e1 (OpSend d v) =
               Ok (mk {| c_state := Online o1; c_send := c_send (l_conn (k_a w1)) |} e1 [] [] [] ROk)).
  { unfold step. rewrite Da. cbn [e_now e1]. rewrite Es. reflexivity. }
  assert (A1 : admissible w1 (LApp SA (OpSend d v))).
  { split; [exact I|]. split; [eexists; exact Da|]. unfold window_ok. cbn [get]. rewrite Da. destruct v; [cbn; lia|exact I]. }
  pose proof (sched_call w1 SA _ _ A1 T1) as S2. set (w2 := set_side w1 SA _ _) in S2.
  assert (T2 : step (l_conn (get w2 SA)) {| e_now := k_now w2; e_rand := l_rand (get w2 SA) |} OpFlush =
               Ok (mk {| c_state := Online (o_clear o1); c_send := Some (k_now w1 + ms 500) |} e1
                      [DChunks tok 0 false 1 [first_chunk d v]] [] [] ROk)).
  { unfold step. cbn. rewrite Ef. reflexivity. }
  assert (A2 : admissible w2 (LApp SA OpFlush)) by (split; [exact I|]; split; [eexists; reflexivity|exact I]).
  pose proof (sched_call w2 SA _ _ A2 T2) as S3. set (w3 := set_side w2 SA _ _) in S3.
  pose proof (sched_inv _ _ _ (sched_inv _ _ _ I1 S2) S3) as I3.
  edestruct (accept_first w3) as [w4 [ob [S4 [I4 [Ea [Bab4 [Bba4 [N4 [Cb4 [Ownb [_ [Sub4 Rn4]]]]]]]]]]]];
    [exact I3|cbn; rewrite Bab; reflexivity|reflexivity|exact Db|exact Rb|].
  change (get w4 SA) with (k_a w4) in Ea. change (get w3 SA) with (k_a w3) in Ea.
  destruct (heal_quiet w4 (o_clear o1) ob I4) as [dt1 [n1 [dt2 [n2 [dt3 [n3 [w' [D1 [D2 [D3 [S5 [I5 [Sa [Sb Q]]]]]]]]]]]]]];
    [rewrite Ea; reflexivity|exact Cb4|cbn; congruence|reflexivity|exact Bab4|exact (eq_trans Bba4 Bba)|
     rewrite Ea, N4; exact Ra|rewrite Rn4, N4; exact Rb|].
  exists fresh, na, nb, dt, dt1, n1, dt2, n2, dt3, n3, w'. do 4 (split; [assumption|]).
  split.
  { unfold progress_schedule, first_send. eapply sched_app; [exact S1|]. eapply sched_app; [|exact S5].
    exact (sched_app _ _ _ _ _ (sched_app _ _ _ _ _ S2 S3) S4). }
  split; [exact I5|]. split.
  { pose proof (ready_kept _ _ _ (proj2 S5)) as Hm. rewrite Ea in Hm. cbn in Hm. change (ready_events []) with 0 in Hm.
    pose proof (sv_ready _ _ _ _ _ (linv_side w' SA I5)) as Hb. cbn [get] in Hb. lia. }
  split; [rewrite Sa, Ea; cbn; rewrite SubA; destruct v; reflexivity|]. split; [rewrite Sb, Sub4; exact SubB|exact Q].
Qed.

Lemma speak_chunks now x o x1 fl1 x2 fl2 :
  c_state (l_conn x) = Online o -> conn_ok6 (l_conn x) -> due (l_conn x) <= now ->
  o_queue o <> [] \/ can_send o = true ->
  side_step now x OpTick = Ok (x1, fl1) -> side_step now x1 OpFlush = Ok (x2, fl2) ->
  Forall is_chunks (map f_d (fl1 ++ fl2)).
Proof.
  intros Hon Hc Hdue Hbusy T1 T2.
  destruct (tick_side _ x o x1 fl1 Hon Hc Hdue T1) as [_ [_ [_ [_ [o1 [ds1 [Hon1 [-> Hcase]]]]]]]].
  destruct (flush_side _ x1 o1 x2 fl2 Hon1 T2) as [o2 [ds2 [Ef2 [_ [-> _]]]]].
  rewrite map_app, !map_fd_mkf. exact (busy_speaks_chunks _ _ _ _ _ _ _ Hcase Ef2 Hbusy).
Qed.

(* A lets both its deadlines pass, ticks and flushes; nothing is assumed about B *)
Lemma speak_alone w o :
  link_inv w -> c_state (l_conn (get w SA)) = Online o ->
  exists w' ds o2,
    sched w (speak SA (Z.max 0 (due (l_conn (get w SA)) - k_now w))) w' /\
    bag w' SA = bag w SA ++ map (mkf (get w SA)) ds /\ bag w' SB = bag w SB /\
    get w' SB = get w SB /\
    l_sub (get w' SA) = l_sub (get w SA) /\
    l_rand (get w' SA) = l_rand (get w SA) /\
    c_state (l_conn (get w' SA)) = Online o2 /\ o_own o2 = o_own o /\ o_their o2 = o_their o /\
    can_send o2 = false /\
    ds <> [] /\ Forall (dg_ok (o_their o) (o_rr o)) ds /\
    Forall (fun d => tight (zlen (l_sub (get w SA))) (dgram_chunks d)) ds /\
    (o_queue o <> [] \/ can_send o = true -> Forall is_chunks ds).
Proof.
  intros Hi Hon. remember (get w SA) as x eqn:Ex.
  set (dt := Z.max 0 (due (l_conn x) - k_now w)).
  pose proof (linv_side w SA Hi) as Hsx. rewrite <- Ex in Hsx.
  pose proof (sv_conn _ _ _ _ _ Hsx) as Hc.
  destruct (sv_online _ _ _ _ _ Hsx o Hon) as [a [Hsnd [Ha Hack]]].
  destruct (ltime_step w dt) as [w1 [S1 [G1 [B1 [N1 I1]]]]]. specialize (I1 Hi).
  assert (A2 : admissible w1 (LApp SA OpTick)) by (cbn; repeat split).
  destruct (lapp_step w1 SA OpTick I1 A2) as [x1 [fl1 [T1 [L1 I2]]]]. rewrite G1, <- Ex in T1.
  assert (Hdue : due (l_conn x) <= k_now w1) by (rewrite N1; unfold dt; lia).
  destruct (tick_side _ x o x1 fl1 Hon Hc Hdue T1) as [_ [_ [_ [_ [o1 [ds1 [Hon1 _]]]]]]].
  assert (A3 : admissible (set_side w1 SA x1 fl1) (LApp SA OpFlush)).
  { cbn [admissible]. rewrite get_set_same. split; [exact I|]. split; [exists o1; exact Hon1|exact I]. }
  destruct (lapp_step _ SA OpFlush I2 A3) as [x2 [fl2 [T2 [L2 I3]]]].
  rewrite get_set_same, now_set in T2.
  destruct (speak_side _ x o a x1 fl1 x2 fl2 Hon Hc Hsnd Hack Hdue T1 T2)
    as [o2 [ds [Hconn2 [Hfl [Es [Ed [Er [To [Tt [P1 [P2 [_ [P4 [P5 [P6 _]]]]]]]]]]]]]]].
  assert (Hcs : can_send o2 = false).
  { pose proof (sv_conn _ _ _ _ _ (linv_side _ SA I3)) as Hc2. unfold conn_ok6 in Hc2. rewrite get_set_same, Hconn2 in Hc2.
    destruct Hc2 as [[[Hn _] _] _]. apply idle_can_send; [rewrite P1 in Hn; exact Hn|exact P2]. }
  exists (set_side (set_side w1 SA x1 fl1) SA x2 fl2), ds, o2.
  split.
  { eapply sched_cons; [exact I|exact S1|]. eapply sched_cons; [exact A2|exact L1|].
    eapply sched_cons; [exact A3|exact L2|apply sched_nil]. }
  split. { rewrite !bag_set_same, B1, <- app_assoc, Hfl. reflexivity. }
  split. { change SB with (other SA). rewrite !bag_set_other. apply B1. }
  split. { change SB with (other SA). rewrite !get_set_other. apply G1. }
  rewrite get_set_same, Hconn2. repeat (split; [assumption || reflexivity|]).
  intros Hbusy. pose proof (speak_chunks _ x o x1 fl1 x2 fl2 Hon Hc Hdue Hbusy T1 T2) as H.
  rewrite Hfl, map_fd_mkf in H. exact H.
Qed.

Definition late_schedule (na nb : nat) (dt : Z) (n : nat)
    (dt1 : Z) (n1 : nat) (dt2 : Z) (n2 : nat) (dt3 : Z) (n3 : nat) : list llabel :=
  drops SA na ++ drops SB nb ++ speak SA dt ++ drain SA n ++ heal_schedule 0 0 dt1 n1 dt2 n2 dt3 n3.

Theorem late_accept_link w oa t :
  link_inv w -> c_state (l_conn (k_a w)) = Online oa -> c_state (l_conn (k_b w)) = Pending t ->
  o_own oa = t -> (o_queue oa <> [] \/ can_send oa = true) ->
  rand_ok {| e_now := k_now w; e_rand := l_rand (k_a w) |} ->
  rand_ok {| e_now := k_now w; e_rand := l_rand (k_b w) |} ->
  exists na nb dt n dt1 n1 dt2 n2 dt3 n3 w',
    0 <= dt /\ 0 <= dt1 /\ 0 <= dt2 /\ 0 <= dt3 /\
    sched w (late_schedule na nb dt n dt1 n1 dt2 n2 dt3 n3) w' /\ link_inv w' /\
    l_sub (k_a w') = l_sub (k_a w) /\ l_sub (k_b w') = l_sub (k_b w) /\ quiet_end w'.
Proof.
  intros Hi Hoa Hpb Htok Hbusy HrA HrB.
  set (subs := fun s => l_sub (get w s)). set (rnds := fun s => l_rand (get w s)).
  assert (Nb : never_online (c_state (l_conn (get w SB)))) by (cbn [get]; rewrite Hpb; exact I).
  destruct (never_online_blank w SB Hi Nb) as [SubB _]. pose proof (never_online_undelivered w SB Hi Nb) as DelA.
  cbn [get other] in SubB, DelA.
  pose proof (sv_conn _ _ _ _ _ (linv_side w SA Hi)) as HcA. unfold conn_ok6 in HcA. cbn [get] in HcA. rewrite Hoa in HcA.
  destruct HcA as [_ [HtA _]]. rewrite Htok in HtA.
  destruct (lose_all w Hi) as [na [nb S0]]. pose proof (sched_inv _ _ _ Hi S0) as I0.
  destruct (speak_alone _ oa I0 Hoa) as [w3 [ds [oa3 [S3 [B3 [O3 [X3 [Sub3 [Rn3 [Hoa3 [Own3 [Th3 [Cs3 [Ne3 [Dg3 [Ti3 Ch3]]]]]]]]]]]]]]]].
  cbn [mkl bag get k_a k_b k_ab k_ba k_now app] in *. pose proof (sched_inv _ _ _ I0 S3) as I3.
  rewrite <- HtA in Dg3.
  destruct (first_is_chunks _ _ _ _ Ne3 (Ch3 Hbusy) Dg3 Ti3) as [ak [rr [n [cs [rest [-> [Dgr Tir]]]]]]].
  edestruct (accept_first w3) as [w5 [ob [S5 [I5 [Ea [Bab5 [Bba5 [N5 [Cb5 [Ownb [Thb [Sub5 Rn5]]]]]]]]]]]];
    [exact I3|exact B3|reflexivity|rewrite X3; exact Hpb|rewrite X3; exact HrB|].
  assert (G5 : good w5 t subs rnds).
  { split; [exact I5|]. intros [|]; unfold subs, rnds.
    - exists oa3. rewrite Ea. repeat split; try assumption; congruence.
    - exists ob. cbn [get]. repeat split; try assumption; congruence. }
  destruct (drain_all SA t subs rnds (fun now => HrB) _ w5 ob G5 Bab5)
    as [w6 [ob6 [S6 [G6 [B6 [O6 [X6 [N6 [Hob6 _]]]]]]]]]; [|exact Cb5|].
  { unfold subs. cbn [get other]. eapply fl_ok_map; [reflexivity| |exact Dgr|exact Tir|right]; rewrite SubB, DelA; [cbn; lia|reflexivity]. }
  cbn [other get] in *.
  destruct (proj2 G6 SA) as [oa6 [Hoa6 [Own6 [_ [SubA6 RnA6]]]]]. destruct (proj2 G6 SB) as [ob6' [Hob6' [OwnB6 [_ [SubB6 RnB6]]]]].
  cbn [get] in *. rewrite Hob6 in Hob6'. injection Hob6' as <-.
  destruct (heal_quiet w6 oa6 ob6 (proj1 G6) Hoa6 Hob6) as [dt1 [n1 [dt2 [n2 [dt3 [n3 [w' [D1 [D2 [D3 [S7 [I7 [Sa [Sb Q]]]]]]]]]]]]]];
    [congruence| |exact B6|exact (eq_trans O6 (eq_trans Bba5 O3))|rewrite RnA6; exact HrA|rewrite RnB6; exact HrB|].
  { rewrite X6, Ea, Hoa3 in Hoa6. injection Hoa6 as <-. exact Cs3. }
  exists na, nb, (Z.max 0 (due (l_conn (k_a w)) - k_now w)), (S (length (map (mkf (k_a w)) rest))), dt1, n1, dt2, n2, dt3, n3, w'.
  split; [lia|]. do 3 (split; [assumption|]).
  split.
  { unfold late_schedule. rewrite app_assoc. eapply sched_app; [exact S0|]. eapply sched_app; [exact S3|].
    eapply sched_app; [|exact S7]. exact (sched_app _ _ _ _ _ S5 S6). }
  split; [exact I7|]. split; [rewrite Sa; exact SubA6|]. split; [rewrite Sb; exact SubB6|exact Q].
Qed.

Definition lossy_prefix (ls : list llabel) : Prop :=
  exists na nb post, ls = drops SA na ++ drops SB nb ++ post /\ orderly post.

Lemma lossy_prefix_app ls post : lossy_prefix ls -> orderly post -> lossy_prefix (ls ++ post).
Proof.
  intros [na [nb [p [-> O]]]] O'. exists na, nb, (p ++ post). split; [rewrite <- !app_assoc; reflexivity|].
  apply orderly_app; assumption.
Qed.

Lemma heal_labels_drops s n : Forall heal_label (drops s n).
Proof. induction n as [|n IH]; [constructor|]. constructor; [exact I|exact IH]. Qed.
Lemma heal_labels_drain s n : Forall heal_label (drain s n).
Proof. induction n as [|n IH]; [constructor|]. constructor; [exact I|]. constructor; [exact I|exact IH]. Qed.

Lemma heal_orderly dt1 n1 dt2 n2 dt3 n3 : orderly (heal_schedule 0 0 dt1 n1 dt2 n2 dt3 n3).
Proof. destruct (heal_schedule_shape 0 0 dt1 n1 dt2 n2 dt3 n3) as [post [-> O]]. exact O. Qed.

Lemma hs_schedule_shape fresh na nb dt : 0 <= dt ->
  let ls := hs_schedule fresh na nb dt in Forall heal_label ls /\ ticks ls = 1%nat /\ lossy_prefix ls.
Proof.
  intros H ls. unfold ls, hs_schedule. split; [|split].
  - repeat (apply Forall_app; split); try apply heal_labels_drops. destruct fresh; repeat constructor; exact H.
  - rewrite !ticks_app, !ticks_drops. destruct fresh; reflexivity.
  - eexists _, _, _. split; [reflexivity|]. destruct fresh; cbn; repeat split.
Qed.

Definition progress_label (d : bytes) (v : bool) (l : llabel) : Prop :=
  heal_label l \/ l = LApp SA (OpSend d v).
Definition is_send (l : llabel) : bool := match l with LApp _ (OpSend _ _) => true | _ => false end.
Definition sends (ls : list llabel) : nat := length (filter is_send ls).

Lemma sends_app a b : sends (a ++ b) = (sends a + sends b)%nat.
Proof. unfold sends. rewrite filter_app, app_length. reflexivity. Qed.
Lemma sends_heal ls : Forall heal_label ls -> sends ls = 0%nat.
Proof.
  induction 1 as [|l ls Hl _ IH]; [reflexivity|]. unfold sends in *. cbn [filter].
  destruct l as [s o|dt|s k|s k]; try exact IH. destruct o; try exact IH. contradiction.
Qed.

Lemma progress_shape fresh na nb dt d v dt1 n1 dt2 n2 dt3 n3 :
  0 <= dt -> 0 <= dt1 -> 0 <= dt2 -> 0 <= dt3 ->
  let ls := progress_schedule fresh na nb dt d v dt1 n1 dt2 n2 dt3 n3 in
  Forall (progress_label d v) ls /\ ticks ls = 4%nat /\ sends ls = 1%nat /\ lossy_prefix ls.
Proof.
  intros H0 H1 H2 H3 ls. unfold ls, progress_schedule.
  pose proof (heal_labels 0 0 dt1 n1 dt2 n2 dt3 n3 H1 H2 H3) as Hh.
  destruct (hs_schedule_shape fresh na nb dt H0) as [Hs [Ht Hp]].
  assert (Hl : forall l, Forall heal_label l -> Forall (progress_label d v) l).
  { intros l. apply Forall_impl. intros a Ha. left. exact Ha. }
  split; [|split; [|split]].
  - apply Forall_app. split; [apply Hl, Hs|]. apply Forall_app. split; [|apply Hl, Hh].
    constructor; [right; reflexivity|]. apply Hl. repeat constructor.
  - rewrite !ticks_app, Ht, ticks_heal. reflexivity.
  - rewrite !sends_app, (sends_heal _ Hs), (sends_heal _ Hh). reflexivity.
  - apply lossy_prefix_app; [exact Hp|]. apply orderly_app; [cbn; repeat split|apply heal_orderly].
Qed.

Lemma late_shape na nb dt n dt1 n1 dt2 n2 dt3 n3 :
  0 <= dt -> 0 <= dt1 -> 0 <= dt2 -> 0 <= dt3 ->
  let ls := late_schedule na nb dt n dt1 n1 dt2 n2 dt3 n3 in
  Forall heal_label ls /\ ticks ls = 4%nat /\ lossy_prefix ls.
Proof.
  intros H0 H1 H2 H3 ls. unfold ls, late_schedule. split; [|split].
  - apply Forall_app. split; [apply heal_labels_drops|]. apply Forall_app. split; [apply heal_labels_drops|].
    apply Forall_app. split; [repeat constructor; exact H0|].
    apply Forall_app. split; [apply heal_labels_drain|apply heal_labels; assumption].
  - rewrite !ticks_app, !ticks_drops, ticks_drain, ticks_heal. reflexivity.
  - eexists _, _, _. split; [reflexivity|].
    apply orderly_app; [exact I|]. apply orderly_app; [apply orderly_drain|apply heal_orderly].
Qed.
