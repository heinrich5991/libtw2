(* Reader::new: the header and the tables behind it are read (reader_parse), then
   Reader::check runs over them. Neither panics on any byte string, and a reader that comes
   out satisfies reader_inv -- the facts every accessor relies on. *)
From LibTw2 Require Import Base.Res Model.Datafile Proofs.DatafileBase.
From Coq Require Import ZArith List Lia Bool.
Import ListNotations.
Open Scope Z_scope.

Definition ok_with {E A} (r : res E A) (P : A -> Prop) : Prop :=
  match r with Ok a => P a | Err _ => True | Panic _ => False | OutOfFuel => False end.

Lemma ok_with_no_panic {E A} (r : res E A) P : ok_with r P -> no_panic r.
Proof. destruct r; cbn; auto. Qed.
Lemma ok_with_ok {E A} (r : res E A) P a : ok_with r P -> r = Ok a -> P a.
Proof. intros H ->. exact H. Qed.
Lemma ok_with_bind {E A B} (r : res E A) (f : A -> res E B) P Q :
  ok_with r P -> (forall a, P a -> ok_with (f a) Q) -> ok_with (bind r f) Q.
Proof. destruct r; cbn; auto. Qed.
Lemma ok_with_weaken {E A} (r : res E A) (P Q : A -> Prop) :
  ok_with r P -> (forall a, P a -> Q a) -> ok_with r Q.
Proof. destruct r; cbn; auto. Qed.

Definition header_ok (h : header) : Prop :=
  (h_version h = 3 \/ h_version h = 4) /\
  0 <= h_size h <= 2147483647 /\ 0 <= h_swaplen h <= 2147483647 /\
  0 <= h_num_item_types h <= 2147483647 /\ 0 <= h_num_items h <= 2147483647 /\
  0 <= h_num_data h <= 2147483647 /\ 0 <= h_size_items h <= 2147483647 /\
  0 <= h_size_data h <= 2147483647 /\ h_size_items h mod 4 = 0.

Lemma words9 l : zlen l = 36 ->
  exists w0 w1 w2 w3 w4 w5 w6 w7 w8, words_of_bytes l = [w0; w1; w2; w3; w4; w5; w6; w7; w8].
Proof.
  intros H. pose proof (words_of_bytes_zlen l) as HL. rewrite H in HL. change (36 / 4) with 9 in HL.
  unfold zlen in HL.
  destruct (words_of_bytes l) as [|w0 [|w1 [|w2 [|w3 [|w4 [|w5 [|w6 [|w7 [|w8 [|w9 r]]]]]]]]]];
    cbn [length] in HL; try lia.
  repeat eexists.
Qed.

(* HeaderRest::check as one test *)
Definition fields_ok (h : header) : bool :=
  (0 <=? h_size h) && (0 <=? h_swaplen h) && (0 <=? h_num_item_types h) && (0 <=? h_num_items h)
  && (0 <=? h_num_data h) && (0 <=? h_size_items h) && (0 <=? h_size_data h)
  && (u32_of (h_size_items h) mod 4 =? 0).

Lemma header_rest_check_eq h :
  header_rest_check h = if fields_ok h then Ok tt else Err MalformedHeader.
Proof.
  unfold header_rest_check, fields_ok. rewrite !Z.ltb_antisym.
  repeat (destruct (0 <=? _); [|reflexivity]). cbn [negb andb]. destruct (_ =? 0); reflexivity.
Qed.

Lemma header_read_spec bs : bytes_ok bs = true ->
  ok_with (header_read bs)
    (fun hr => header_ok (fst hr) /\ zlen bs = 36 + zlen (snd hr) /\ bytes_ok (snd hr) = true).
Proof.
  intros Hok. unfold header_read. destruct (cb_read_spec 36 bs) as (g & r & -> & -> & Hlen).
  apply bytes_ok_app in Hok. destruct Hok as [Hg Hr].
  destruct (zlen g <? 8) eqn:E8; [exact I|].
  assert (Hb : zlen (g ++ repeat 0 (36 - length g)) = 36).
  { rewrite zlen_app. unfold zlen in *. rewrite repeat_length. lia. }
  destruct (words9 _ Hb) as (w0 & w1 & w2 & w3 & w4 & w5 & w6 & w7 & w8 & Hw).
  assert (Hi : all_i32 (words_of_bytes (g ++ repeat 0 (36 - length g)))).
  { apply words_of_bytes_i32, bytes_ok_app. split; [exact Hg|apply bytes_ok_repeat0]. }
  rewrite Hw in *. repeat (apply Forall_cons_iff in Hi; destruct Hi as [? Hi]).
  unfold is_i32, i32_min, i32_max in *.
  destruct (negb _ && negb _); [exact I|].
  destruct (negb (w1 =? 3) && negb (w1 =? 4)) eqn:Ev; [exact I|].
  destruct (zlen g <? 36) eqn:E36; [exact I|].
  rewrite header_rest_check_eq. destruct (fields_ok _) eqn:Ef; [|exact I].
  unfold fields_ok in Ef. cbn [bind ok_with fst snd h_size h_swaplen h_num_item_types h_num_items
    h_num_data h_size_items h_size_data] in *.
  rewrite zlen_app. split; [|split; [lia|exact Hr]].
  unfold header_ok. cbn [h_version h_size h_swaplen h_num_item_types h_num_items h_num_data h_size_items h_size_data].
  rewrite u32_of_small in Ef by lia. lia.
Qed.

Definition total_size (h : header) : Z :=
  36 + 12 * h_num_item_types h + 4 * h_num_items h + 4 * h_num_data h
  + (if 4 <=? h_version h then 4 * h_num_data h else 0) + h_size_items h + h_size_data h.

Definition size_field (h : header) (crude : bool) : Z :=
  total_size h - 16 - (if crude then 4 * h_num_data h else 0).

Lemma calculate_total_size_eq h : header_ok h ->
  calculate_total_size h = if total_size h <=? 2147483647 then Ok (total_size h) else Err MalformedHeader.
Proof.
  intros Hh. red in Hh. unfold calculate_total_size, total_size.
  rewrite !assert_usize_ok by lia. cbn [bind].
  rewrite !usize_mul_ok by lia. cbn [bind].
  set (d := if 4 <=? h_version h then 4 * h_num_data h else 0).
  replace (if 4 <=? h_version h then Ok (4 * h_num_data h) else Ok 0) with (Ok d : res err Z)
    by (subst d; destruct (4 <=? _); reflexivity).
  assert (0 <= d <= 4 * h_num_data h) by (subst d; destruct (4 <=? _); lia).
  cbn [bind]. repeat (rewrite usize_add_ok by lia; cbn [bind]). reflexivity.
Qed.

Lemma total_size_lower h : header_ok h -> 36 + 4 * h_num_data h + h_size_data h <= total_size h.
Proof. intros Hh. red in Hh. unfold total_size. destruct (4 <=? h_version h); lia. Qed.

Lemma calculate_size_field_eq h c : header_ok h -> total_size h <= 2147483647 ->
  calculate_size_field h (total_size h) c = Ok (size_field h c).
Proof.
  intros Hh Ht. pose proof (total_size_lower h Hh) as Hl. red in Hh.
  unfold calculate_size_field, size_field.
  rewrite i32_sub_ok by (apply is_i32_iff; lia). cbn [bind].
  destruct c; [|rewrite Z.sub_0_r; reflexivity].
  rewrite i32_mul_ok by (apply is_i32_iff; lia). cbn [bind].
  apply i32_sub_ok, is_i32_iff. lia.
Qed.

Lemma calculate_swaplen_field_eq h c : header_ok h -> total_size h <= 2147483647 ->
  calculate_swaplen_field h (total_size h) c = Ok (size_field h c - h_size_data h).
Proof.
  intros Hh Ht. unfold calculate_swaplen_field. rewrite calculate_size_field_eq by assumption.
  cbn [bind]. pose proof (total_size_lower h Hh) as Hl. red in Hh.
  apply i32_sub_ok, is_i32_iff. unfold size_field. destruct c; lia.
Qed.

Lemma check_size_and_swaplen_eq h : header_ok h ->
  check_size_and_swaplen h =
    if total_size h <=? 2147483647 then
      if negb (h_size h =? size_field h false) && negb (h_size h =? size_field h true) then Err MalformedHeader
      else if negb (h_swaplen h =? size_field h false - h_size_data h)
              && negb (h_swaplen h =? size_field h true - h_size_data h) then Err MalformedHeader
      else Ok (total_size h, negb (h_size h =? size_field h false))
    else Err MalformedHeader.
Proof.
  intros Hh. unfold check_size_and_swaplen. rewrite calculate_total_size_eq by assumption.
  destruct (total_size h <=? 2147483647) eqn:Et; [|reflexivity]. cbn [bind].
  rewrite !calculate_size_field_eq, !calculate_swaplen_field_eq by (assumption || lia). cbn [bind].
  pose proof (total_size_lower h Hh). red in Hh.
  rewrite assert_u32_ok by (rewrite two32_eq; lia). reflexivity.
Qed.

Lemma check_size_and_swaplen_spec h : header_ok h ->
  ok_with (check_size_and_swaplen h) (fun p => fst p = total_size h /\ total_size h <= 2147483647).
Proof.
  intros Hh. rewrite check_size_and_swaplen_eq by assumption.
  destruct (total_size h <=? 2147483647) eqn:Et; [|exact I].
  do 2 (destruct (negb _ && negb _); [exact I|]). cbn. lia.
Qed.

Lemma read_words_spec per count cur : 0 <= per <= 3 -> 0 <= count <= 2147483647 -> bytes_ok cur = true ->
  ok_with (read_words per count cur)
    (fun wr => zlen cur = 4 * per * count + zlen (snd wr) /\ zlen (fst wr) = per * count
               /\ all_i32 (fst wr) /\ bytes_ok (snd wr) = true).
Proof.
  intros Hp Hc Hok. unfold read_words. cbv zeta. rewrite as_usize_small by lia.
  destruct (isize_max <? 4 * per * count) eqn:E; [unfold isize_max in E; nia|].
  destruct (cb_read_spec (4 * per * count) cur) as (g & r & -> & -> & Hlen).
  apply bytes_ok_app in Hok. destruct Hok as [Hg Hr].
  destruct (zlen g =? 4 * per * count) eqn:El; cbn [negb ok_with fst snd]; [|exact I].
  rewrite zlen_app, words_of_bytes_zlen. repeat split.
  - lia.
  - replace (zlen g) with (per * count * 4) by lia. apply Z.div_mul. lia.
  - apply words_of_bytes_i32, Hg.
  - exact Hr.
Qed.

Lemma item_types_of_zlen : forall ws, zlen (item_types_of ws) = zlen ws / 3.
Proof.
  fix IH 1. intros [|a [|b [|c r]]]; try reflexivity.
  cbn [item_types_of]. rewrite !zlen_cons, IH. pose proof (zlen_nonneg r). Z.div_mod_to_equations. lia.
Qed.

(* what Reader::new has in hand when it calls check() *)
Record reader_pre (r : reader) : Prop := {
  rp_hdr : header_ok (r_hdr r);
  rp_types_len : zlen (r_item_types r) = h_num_item_types (r_hdr r);
  rp_offsets_len : zlen (r_item_offsets r) = h_num_items (r_hdr r);
  rp_doffsets_len : zlen (r_data_offsets r) = h_num_data (r_hdr r);
  rp_uds_len : match r_uds r with Some u => zlen u = h_num_data (r_hdr r) /\ all_i32 u | None => True end;
  rp_raw_len : 4 * zlen (r_items_raw r) = h_size_items (r_hdr r);
  rp_offsets_i32 : all_i32 (r_item_offsets r);
  rp_raw_i32 : all_i32 (r_items_raw r);
  rp_data_len : h_size_data (r_hdr r) <= zlen (r_data r) }.

Theorem reader_parse_spec bs : bytes_ok bs = true -> ok_with (reader_parse bs) reader_pre.
Proof.
  intros Hok. unfold reader_parse.
  eapply ok_with_bind; [apply header_read_spec, Hok|]. intros [h cur] (Hh & Hlen & Hcur).
  eapply ok_with_bind; [apply check_size_and_swaplen_spec, Hh|]. intros [es crude] [Hes Ht].
  cbn [fst snd] in *. subst es. pose proof Hh as (Hv & H1 & H2 & H3 & H4 & H5 & H6 & H7 & H8).
  eapply (ok_with_bind _ _ (fun ver => has_compressed_data ver = (4 <=? h_version h))).
  { destruct Hv as [-> | ->]; [|destruct crude]; reflexivity. }
  intros ver Hvc.
  eapply ok_with_bind; [apply read_words_spec; [lia|lia|exact Hcur]|]. intros [tws cur1] (Hl1 & Hw1 & _ & Hc1).
  eapply ok_with_bind; [apply read_words_spec; [lia|lia|exact Hc1]|]. intros [ios cur2] (Hl2 & Hw2 & Hi2 & Hc2).
  eapply ok_with_bind; [apply read_words_spec; [lia|lia|exact Hc2]|]. intros [dos cur3] (Hl3 & Hw3 & _ & Hc3).
  cbn [fst snd] in *.
  eapply (ok_with_bind _ _ (fun uc =>
            match fst uc with Some u => zlen u = h_num_data h /\ all_i32 u | None => True end
            /\ bytes_ok (snd uc) = true
            /\ zlen cur3 = (if 4 <=? h_version h then 4 * h_num_data h else 0) + zlen (snd uc))).
  { rewrite Hvc. destruct (4 <=? h_version h); [|cbn; intuition lia].
    eapply ok_with_bind; [apply read_words_spec; [lia|lia|exact Hc3]|]. intros [u c4] (Hl & Hw & Hi & Hc).
    cbn [fst snd ok_with] in *. repeat split; try assumption; lia. }
  intros [uds cur4] (Hu & Hc4 & Hl4). cbn [fst snd] in *.
  assert (Hq : 4 * (h_size_items h / 4) = h_size_items h) by (clear -H8; Z.div_mod_to_equations; lia).
  rewrite as_usize_small, rsom_1_4_ok by lia. cbn [bind].
  eapply ok_with_bind; [apply read_words_spec; [lia|lia|exact Hc4]|].
  intros [raw cur5] (Hl5 & Hw5 & Hi5 & Hc5). cbn [fst snd] in *.
  destruct (zlen bs <? total_size h) eqn:Efs; [exact I|]. cbn [ok_with].
  constructor; cbn [r_hdr r_item_types r_item_offsets r_data_offsets r_uds r_items_raw r_version r_data];
    try assumption; try lia.
  - rewrite item_types_of_zlen, Hw1, Z.mul_comm. apply Z.div_mul. lia.
  - unfold total_size in Efs. lia.
Qed.

(* check(), first block: the item type table *)
Definition type_facts (ni : Z) (t : itype) : Prop :=
  0 <= t_type_id t < 65536 /\ 0 <= t_start t /\ 0 <= t_num t /\ t_start t + t_num t <= ni.

Lemma check_types_spec ni : 0 <= ni <= 2147483647 -> forall ts es prev seen, 0 <= es <= ni ->
  ok_with (check_types ni ts es prev seen) (fun _ => Forall (type_facts ni) ts).
Proof.
  intros Hni. induction ts as [|t rest IH]; intros es prev seen Hes; cbn [check_types ok_with]; [constructor|].
  destruct (negb ((0 <=? t_type_id t) && (t_type_id t <? 65536))) eqn:E1; [exact I|].
  destruct (match prev with Some p => negb (p <? t_type_id t) | None => false end); [exact I|].
  destruct (negb ((0 <=? t_num t) && (is_i32 (ni - t_start t) && (t_num t <=? ni - t_start t)))) eqn:E3; [exact I|].
  destruct (negb (t_start t =? es)) eqn:E4; [exact I|].
  rewrite i32_add_ok by (apply is_i32_iff; lia). cbn [bind].
  destruct (existsb _ seen); [exact I|].
  eapply ok_with_weaken; [apply IH; lia|]. cbn beta.
  intros _ Hrest. constructor; [unfold type_facts; lia|exact Hrest].
Qed.

Lemma firstn2_of_long (l : list Z) : 2 <= zlen l -> exists a b, firstn 2 l = [a; b] /\ In a l /\ In b l.
Proof.
  destruct l as [|a [|b l]]; rewrite ?zlen_cons, ?zlen_nil; try lia.
  intros _. exists a, b. cbn. auto.
Qed.

Lemma item_header_ok r i off : reader_pre r -> 0 <= i -> znth (r_item_offsets r) i = Some off ->
  0 <= off -> off mod 4 = 0 -> off + 8 <= h_size_items (r_hdr r) ->
  exists a b, item_header r i = Ok (a, b) /\ firstn 2 (skipn (Z.to_nat (off / 4)) (r_items_raw r)) = [a; b]
    /\ -2147483648 <= a <= 2147483647 /\ -2147483648 <= b <= 2147483647.
Proof.
  intros Hp Hi Hz Ho H4 Hs. destruct (rp_hdr r Hp) as (_ & _ & _ & _ & _ & _ & Hsi & _).
  pose proof (rp_raw_len r Hp) as Hl.
  assert (Hq : 0 <= off / 4 /\ off / 4 + 2 <= zlen (r_items_raw r)) by (Z.div_mod_to_equations; lia).
  unfold item_header. rewrite (index_of_znth _ _ _ _ Hi Hz). cbn [bind].
  rewrite assert_usize_ok by lia. cbn [bind]. rewrite rsom_1_4_ok by lia. cbn [bind].
  rewrite slice_from_ok by lia. cbn [bind].
  set (tail := skipn (Z.to_nat (off / 4)) (r_items_raw r)).
  assert (Hi32 : all_i32 tail) by apply all_i32_skipn, rp_raw_i32, Hp.
  pose proof (zlen_skipn (r_items_raw r) (off / 4) ltac:(lia) : zlen tail = _) as Hlen.
  rewrite slice_to_ok by lia. cbn [bind].
  destruct (firstn2_of_long tail) as (a & b & Hf & Ha & Hb); [lia|].
  change (Z.to_nat 2) with 2%nat. rewrite Hf. exists a, b.
  repeat split; auto; eapply all_i32_In; eauto.
Qed.

(* check(), second block: item offsets and sizes *)
Definition item_facts (r : reader) (i : Z) : Prop :=
  exists off a b, znth (r_item_offsets r) i = Some off /\ 0 <= off /\ off mod 4 = 0 /\
    item_header r i = Ok (a, b) /\
    0 <= b <= 2147483647 /\ b mod 4 = 0 /\ off + 8 + b <= h_size_items (r_hdr r).

Lemma range_step (P : Z -> Prop) i n : P i -> (forall j, i + 1 <= j < n -> P j) -> forall j, i <= j < n -> P j.
Proof. intros Hi H j Hj. destruct (Z.eq_dec j i) as [->|]; [exact Hi|apply H; lia]. Qed.

(* The loops of check() and of the accessors carry the number of rounds left as fuel. Their
   proofs all start alike: either the loop is over, or the bound on the fuel leaves a round. *)
Lemma check_items_spec r : reader_pre r -> forall fuel i offset,
  0 <= i -> h_num_items (r_hdr r) - i <= Z.of_nat fuel ->
  0 <= offset <= h_size_items (r_hdr r) -> offset mod 4 = 0 ->
  ok_with (check_items fuel r i offset)
    (fun _ => forall j, i <= j < h_num_items (r_hdr r) -> item_facts r j).
Proof.
  intros Hp. destruct (rp_hdr r Hp) as (_ & _ & _ & _ & Hni & _ & Hsi & _).
  induction fuel as [|fuel IH]; intros i offset Hi Hfuel Hoff H4; cbn [check_items];
    rewrite (as_usize_small (h_num_items (r_hdr r))) by lia;
    (destruct (h_num_items (r_hdr r) <=? i) eqn:E0; [cbn; intros; lia|]); [lia|].
  destruct (index_ok (EE := err) (r_item_offsets r) i site_index_item_offsets) as (off & Hidx & Hz).
  { rewrite (rp_offsets_len r Hp). lia. }
  rewrite Hidx. cbn [bind].
  destruct (off <? 0) eqn:E1; [exact I|].
  pose proof (all_i32_znth _ _ _ (rp_offsets_i32 r Hp) Hz) as Ho32.
  rewrite (as_usize_small off) by lia.
  destruct (negb (offset =? off)) eqn:E2; [exact I|]. assert (off = offset) as -> by lia.
  rewrite usize_add_ok by lia. cbn [bind].
  rewrite (as_usize_small (h_size_items (r_hdr r))) by lia.
  destruct (h_size_items (r_hdr r) <? offset + 8) eqn:E3; [exact I|].
  destruct (item_header_ok r i offset Hp Hi Hz) as (a & b & Hih & _ & _ & Hb); [lia|exact H4|lia|].
  rewrite Hih. cbn [bind snd].
  destruct (b <? 0) eqn:E4; [exact I|].
  rewrite (as_usize_small b) by lia.
  destruct (negb (b mod 4 =? 0)) eqn:E5; [exact I|]. assert (Hb4 : b mod 4 = 0) by lia.
  rewrite usize_add_ok by lia. cbn [bind].
  destruct (h_size_items (r_hdr r) <? offset + 8 + b) eqn:E6; [exact I|].
  eapply ok_with_weaken; [apply (IH (i + 1) (offset + 8 + b)); try lia; clear -H4 Hb4; Z.div_mod_to_equations; lia|].
  intros ? Hrest. apply range_step; [|exact Hrest]. exists offset, a, b. repeat split; auto; lia.
Qed.

(* check(), third block: data offsets and sizes *)
Definition data_facts (r : reader) (j : Z) : Prop :=
  exists o, znth (r_data_offsets r) j = Some o /\ 0 <= o <= h_size_data (r_hdr r) /\
    (forall o', j + 1 < h_num_data (r_hdr r) -> znth (r_data_offsets r) (j + 1) = Some o' -> o <= o') /\
    match r_uds r with
    | Some uds => exists u, znth uds j = Some u /\ 0 <= u <= 2147483647
    | None => True
    end.

Lemma check_data_spec r : reader_pre r -> forall fuel i previous,
  0 <= i -> h_num_data (r_hdr r) - i <= Z.of_nat fuel ->
  ok_with (check_data fuel r i previous)
    (fun _ => (forall j, i <= j < h_num_data (r_hdr r) -> data_facts r j)
              /\ (forall o, i < h_num_data (r_hdr r) -> znth (r_data_offsets r) i = Some o -> previous <= o)).
Proof.
  intros Hp. destruct (rp_hdr r Hp) as (_ & _ & _ & _ & _ & Hnd & _ & Hsd & _).
  pose proof (rp_doffsets_len r Hp) as Hdl.
  induction fuel as [|fuel IH]; intros i previous Hi Hfuel; cbn [check_data];
    rewrite (as_usize_small (h_num_data (r_hdr r))) by lia;
    (destruct (h_num_data (r_hdr r) <=? i) eqn:E0; [cbn; split; intros; lia|]); [lia|].
  eapply (ok_with_bind _ _ (fun _ => match r_uds r with
                                     | Some uds => exists u, znth uds i = Some u /\ 0 <= u <= 2147483647
                                     | None => True end)).
  { pose proof (rp_uds_len r Hp) as Hul. destruct (r_uds r) as [uds|]; [|exact I].
    destruct Hul as [Hul Hu32].
    destruct (index_ok (EE := err) uds i site_index_uds) as (u & Hidx & Hz); [lia|].
    rewrite Hidx. cbn [bind]. destruct (u <? 0) eqn:Eu; [exact I|].
    cbn. exists u. split; [exact Hz|]. pose proof (all_i32_znth _ _ _ Hu32 Hz). lia. }
  intros [] Hu.
  destruct (index_ok (EE := err) (r_data_offsets r) i site_index_data_offsets) as (o & Hidx & Hz); [lia|].
  rewrite Hidx. cbn [bind].
  destruct ((o <? 0) || (h_size_data (r_hdr r) <? o)) eqn:E1; [exact I|].
  destruct (o <? previous) eqn:E2; [exact I|].
  eapply ok_with_weaken; [apply (IH (i + 1) o); lia|]. cbn beta.
  intros ? [Hrest Hnext]. split.
  - apply range_step; [|exact Hrest]. exists o. repeat split; auto; lia.
  - intros o' _ Ho'. rewrite Hz in Ho'. injection Ho' as <-. lia.
Qed.

(* check(), fourth block: each item carries the type of its range *)
Definition item_type_is (r : reader) (j : Z) (ty : Z) : Prop :=
  exists a b, item_header r j = Ok (a, b) /\ ih_type_id a = ty.

Lemma check_type_items_spec r : forall fuel k hi ty,
  hi - k <= Z.of_nat fuel -> (forall j, k <= j < hi -> item_facts r j) ->
  ok_with (check_type_items fuel r k hi ty)
    (fun _ => forall j, k <= j < hi -> item_type_is r j (ty mod 65536)).
Proof.
  induction fuel as [|fuel IH]; intros k hi ty Hfuel Hf; cbn [check_type_items];
    (destruct (hi <=? k) eqn:E0; [cbn; intros; lia|]); [lia|].
  destruct (Hf k ltac:(lia)) as (off & a & b & _ & _ & _ & Hih & _).
  rewrite Hih. cbn [bind fst].
  destruct (negb (ih_type_id a =? ty mod 65536)) eqn:E1; [exact I|].
  eapply ok_with_weaken; [apply (IH (k + 1) hi ty); [lia|intros; apply Hf; lia]|].
  intros ? Hrest. apply range_step; [|exact Hrest]. exists a, b. split; [exact Hih|lia].
Qed.

Definition type_items_ok (r : reader) (t : itype) : Prop :=
  forall j, t_start t <= j < t_start t + t_num t -> item_type_is r j (t_type_id t).

Lemma check_types_items_spec r : reader_pre r ->
  (forall j, 0 <= j < h_num_items (r_hdr r) -> item_facts r j) ->
  forall ts, Forall (type_facts (h_num_items (r_hdr r))) ts ->
  ok_with (check_types_items r ts) (fun _ => Forall (type_items_ok r) ts).
Proof.
  intros Hp Hitems. destruct (rp_hdr r Hp) as (_ & _ & _ & _ & Hni & _).
  pose proof (rp_offsets_len r Hp) as Hlen. unfold zlen in Hlen.
  induction ts as [|t rest IH]; intros Hts; cbn [check_types_items]; [constructor|].
  inversion Hts as [|? ? (Hty & Hst & Hnum & Hsum) Hrest]; subst.
  rewrite i32_add_ok by (apply is_i32_iff; lia). cbn [bind].
  rewrite !as_usize_small by lia.
  eapply ok_with_bind; [apply check_type_items_spec; [lia|intros; apply Hitems; lia]|].
  intros [] Hthis. rewrite (Z.mod_small (t_type_id t)) in Hthis by lia.
  eapply ok_with_weaken; [apply IH, Hrest|]. intros ? Hall. constructor; assumption.
Qed.

Record reader_inv (r : reader) : Prop := {
  ri_pre : reader_pre r;
  ri_types : Forall (type_facts (h_num_items (r_hdr r))) (r_item_types r);
  ri_items : forall j, 0 <= j < h_num_items (r_hdr r) -> item_facts r j;
  ri_data : forall j, 0 <= j < h_num_data (r_hdr r) -> data_facts r j;
  ri_type_items : Forall (type_items_ok r) (r_item_types r) }.

Lemma reader_check_spec r : reader_pre r -> ok_with (reader_check r) (fun _ => reader_inv r).
Proof.
  intros Hp. destruct (rp_hdr r Hp) as (_ & _ & _ & _ & Hni & Hnd & Hsi & _ & Hsi4).
  pose proof (rp_offsets_len r Hp) as Hl. pose proof (rp_doffsets_len r Hp) as Hdl. unfold zlen in Hl, Hdl.
  unfold reader_check. cbv zeta.
  eapply ok_with_bind; [apply (check_types_spec (h_num_items (r_hdr r))); lia|].
  intros es Ht.
  destruct (negb (es =? h_num_items (r_hdr r))); [exact I|].
  eapply ok_with_bind; [apply (check_items_spec r Hp); [lia|lia|lia|reflexivity]|].
  intros offset Hitems.
  destruct (negb (offset =? as_usize (h_size_items (r_hdr r)))); [exact I|].
  eapply ok_with_bind; [apply (check_data_spec r Hp _ 0 0); lia|].
  intros [] [Hdata _].
  eapply ok_with_weaken; [apply (check_types_items_spec r Hp Hitems _ Ht)|].
  intros ? Hti. constructor; assumption.
Qed.

Theorem reader_new_spec bs : bytes_ok bs = true -> ok_with (reader_new bs) reader_inv.
Proof.
  intros Hok. unfold reader_new.
  eapply ok_with_bind; [apply reader_parse_spec, Hok|]. intros r Hp.
  eapply ok_with_bind; [apply reader_check_spec, Hp|]. intros [] Hinv. exact Hinv.
Qed.
