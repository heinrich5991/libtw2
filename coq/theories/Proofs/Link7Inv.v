(* C01 for 0.7: the invariant of the two-endpoint link and its preservation by every
   admissible label. Built like Link6Inv.v; the handshake has more states, and that an emitted
   control datagram is acceptable input (dgram_in_ok7) comes from Conn7Inv.step7_out. *)
From LibTw2 Require Import Base.Res Model.PacketTypes Model.ConnCore Model.Conn7 Model.LinkGhost Model.Link7
  Proofs.ConnCoreInv Proofs.Conn7Inv Proofs.LinkArith Proofs.LinkCore Proofs.LinkSide.
From Coq Require Import ZArith Lia Bool List.
Open Scope Z_scope.

Definition never_online7 (st : state7) : Prop :=
  match st with
  | Unconnected7 | Token7 _ | PendingConnect7 _ | Connecting7 _ _ | Pending7 _ _ => True
  | _ => False
  end.

(* what holds of one side, relative to the peer's histories *)
Record side_inv7 (x : lside7) (subY delY nvsY : list bytes) (ansY : bool) : Prop := {
  sv7_conn : conn_ok7 (l7_conn x);
  sv7_fresh : never_online7 (c7_state (l7_conn x)) ->
             l7_sub x = [] /\ l7_del x = [] /\ l7_nvs x = [] /\ l7_ready x = 0;
  sv7_online : forall o, c7_state (l7_conn x) = Online7 o ->
      exists a, snd_inv o (l7_sub x) (l7_nvs x) a /\ a <= zlen delY /\ o_ack o = seqof (zlen (l7_del x));
  sv7_prefix : l7_del x = firstn (Z.to_nat (zlen (l7_del x))) subY;
  sv7_dle : zlen (l7_del x) <= zlen subY;
  sv7_gap : zlen (l7_sub x) - zlen delY <= 511;
  sv7_nvr : incl (l7_nvr x) nvsY;
  sv7_ready : 0 <= l7_ready x <= 1;
  sv7_ans : 1 <= l7_ready x -> ansY = true;
}.

Definition flight_inv7 (x : lside7) (f : flight) : Prop :=
  flight_ok f (zlen (l7_sub x)) (zlen (l7_del x)) (l7_sub x) (l7_nvs x) /\
  dgram_in_ok7 (f_d f) /\
  (is_accept (f_d f) = true -> l7_answered x = true).
Definition bag_inv7 (fl : list flight) (x : lside7) : Prop := Forall (flight_inv7 x) fl.

Definition link_inv7 (w : link7) : Prop :=
  side_inv7 (k7_a w) (l7_sub (k7_b w)) (l7_del (k7_b w)) (l7_nvs (k7_b w)) (l7_answered (k7_b w)) /\
  side_inv7 (k7_b w) (l7_sub (k7_a w)) (l7_del (k7_a w)) (l7_nvs (k7_a w)) (l7_answered (k7_a w)) /\
  bag_inv7 (k7_ab w) (k7_a w) /\ bag_inv7 (k7_ba w) (k7_b w).

Definition grows7 (x x' : lside7) : Prop :=
  (exists e, l7_sub x' = l7_sub x ++ e) /\ (exists e, l7_del x' = l7_del x ++ e) /\
  incl (l7_nvs x) (l7_nvs x') /\ (l7_answered x = true -> l7_answered x' = true).

Lemma grows7_refl x : grows7 x x.
Proof.
  repeat split; try (exists []; rewrite app_nil_r; reflexivity); try apply incl_refl. auto.
Qed.

(* the side as LinkSide sees it *)
Definition phase7 (st : state7) : phase :=
  match st with Online7 o => On o | Disconnected7 => Closed | _ => Fresh end.
Definition hist7 (x : lside7) : hist :=
  {| h_sub := l7_sub x; h_del := l7_del x; h_nvs := l7_nvs x; h_nvr := l7_nvr x; h_ready := l7_ready x |}.

Lemma phase7_fresh st : phase7 st = Fresh <-> never_online7 st.
Proof. destruct st; cbn; split; intros H; try discriminate; try contradiction; auto. Qed.

Lemma phase7_on st o : phase7 st = On o <-> st = Online7 o.
Proof. destruct st; cbn; split; intros H; try discriminate; injection H as ->; reflexivity. Qed.

Lemma side_inv7_hist x subY delY nvsY ansY :
  side_inv7 x subY delY nvsY ansY <->
  conn_ok7 (l7_conn x) /\ hist_inv (phase7 (c7_state (l7_conn x))) (hist7 x) subY delY nvsY ansY.
Proof.
  split.
  - intros [C F O P D G N R A]. split; [exact C|]. constructor; try assumption.
    + intros E. apply F, phase7_fresh, E.
    + intros o E. apply O, phase7_on, E.
  - intros [C [F O P D G N R A]]. constructor; try assumption.
    + intros H. apply F, phase7_fresh, H.
    + intros o H. apply O, phase7_on, H.
Qed.

Lemma grows7_hist x x' :
  grows7 x x' <-> hgrows (hist7 x) (hist7 x') /\ (l7_answered x = true -> l7_answered x' = true).
Proof. unfold grows7, hgrows. cbn. tauto. Qed.

Lemma side_inv7_mono x y y' :
  side_inv7 x (l7_sub y) (l7_del y) (l7_nvs y) (l7_answered y) -> grows7 y y' ->
  side_inv7 x (l7_sub y') (l7_del y') (l7_nvs y') (l7_answered y').
Proof.
  intros Hi Hg. apply grows7_hist in Hg as [Hg Ha]. apply side_inv7_hist in Hi as [C Hh]. apply side_inv7_hist.
  split; [exact C|]. exact (hist_inv_peer _ _ (hist7 y) (hist7 y') _ _ Hh Hg Ha).
Qed.

Lemma flight_inv7_mono x x' f : flight_inv7 x f -> grows7 x x' -> flight_inv7 x' f.
Proof.
  intros [Hf [Hin Hca]] Hg. apply grows7_hist in Hg as [Hg Ha].
  split; [exact (flight_ok_grow f (hist7 x) (hist7 x') Hf Hg)|]. split; [exact Hin|intros H; apply Ha, Hca, H].
Qed.

Lemma bag_inv7_mono fl x x' : bag_inv7 fl x -> grows7 x x' -> bag_inv7 fl x'.
Proof. intros H Hg. eapply Forall_impl; [|exact H]. intros f Hf. eapply flight_inv7_mono; eassumption. Qed.

Definition after7 (x : lside7) (o : op7) (out : outcome7) : lside7 :=
  {| l7_conn := out7_conn out; l7_rand := e_rand (out7_env out);
     l7_sub := match o, out7_res out with Op7Send d true, R7Ok => l7_sub x ++ [d] | _, _ => l7_sub x end;
     l7_del := l7_del x ++ vital_payloads (out7_events out);
     l7_nvs := match o, out7_res out with Op7Send d false, R7Ok => d :: l7_nvs x | _, _ => l7_nvs x end;
     l7_nvr := l7_nvr x ++ nonvital_payloads (out7_events out);
     l7_ready := l7_ready x + ready_events (out7_events out);
     l7_answered := l7_answered x || existsb is_accept (out7_sent out) |}.

Definition flights_of7 (x : lside7) (out : outcome7) : list flight :=
  map (fun d => {| f_d := d; f_n := zlen (l7_sub x); f_c := zlen (l7_del x) |}) (out7_sent out).

Lemma side_step7_unfold now x o out :
  step7 (l7_conn x) {| e_now := now; e_rand := l7_rand x |} o = Ok out ->
  side_step7 now x o = Ok (after7 x o out, flights_of7 x out).
Proof. intros H. unfold side_step7. rewrite H. reflexivity. Qed.

Lemma hist_after7 x o out :
  hist7 (after7 x o out) =
  h_recv (match o, out7_res out with Op7Send d v, R7Ok => h_send (hist7 x) d v | _, _ => hist7 x end) (out7_events out).
Proof.
  unfold hist7, after7. cbn [l7_sub l7_del l7_nvs l7_nvr l7_ready].
  destruct o as [|d []| | | | | | |]; try reflexivity; destruct (out7_res out); reflexivity.
Qed.

Lemma hist_after7_nosend x o out :
  (forall d v, o <> Op7Send d v) -> hist7 (after7 x o out) = h_recv (hist7 x) (out7_events out).
Proof. intros Ho. destruct o; try reflexivity. exfalso. eapply Ho. reflexivity. Qed.

Lemma emit_in7 d : dgram_ok pp7 d -> emit_wf7 d -> dgram_in_ok7 d.
Proof.
  destruct d as [t r p|t a c|t a rr n cs]; cbn; [exact (fun _ _ => I)| |].
  - intros [H1 [H2 _]] [_ H3]. split; [exact H1|]. split; [exact H2|]. destruct c as [|[r|]| | | |r]; try exact I; apply H3.
  - intros [H1 [H2 [_ [_ [H5 _]]]]] _. split; [exact H1|]. split; [exact H2|].
    eapply Forall_impl; [|exact H5]. intros c [_ Hc]. exact Hc.
Qed.

(* what every case of the two step theorems establishes *)
Definition step_inv7 (x : lside7) (o : op7) (out : outcome7) (subY delY nvsY : list bytes) (ansY : bool) : Prop :=
  side_inv7 (after7 x o out) subY delY nvsY ansY /\ bag_inv7 (flights_of7 x out) (after7 x o out) /\
  grows7 x (after7 x o out).

(* it is enough to look at the histories and at the emitted datagrams as they stood before the call;
   that an emitted Accept is recorded in l7_answered is how `after7` is made *)
Lemma step_inv7_intro x o out subY delY nvsY ansY :
  conn_ok7 (out7_conn out) -> sent_ok7 (out7_sent out) ->
  hist_inv (phase7 (c7_state (out7_conn out))) (hist7 (after7 x o out)) subY delY nvsY ansY ->
  hgrows (hist7 x) (hist7 (after7 x o out)) ->
  flights_ok (l7_sub x) (l7_del x) (l7_nvs x) (out7_sent out) ->
  step_inv7 x o out subY delY nvsY ansY.
Proof.
  intros Hc [Hds Hem] Hh Hg Hfl. split; [apply side_inv7_hist; split; assumption|]. split.
  - apply Forall_map. unfold flights_ok in Hfl. rewrite Forall_forall in *. intros d Hin.
    split; [exact (flight_ok_grow _ (hist7 x) _ (Hfl d Hin) Hg)|].
    split; [apply emit_in7; [apply Hds, Hin|apply Hem, Hin]|]. intros Hca. apply orb_true_iff. right.
    apply existsb_exists. exists d. split; assumption.
  - apply grows7_hist. split; [exact Hg|]. cbn. intros ->. reflexivity.
Qed.

Lemma still_step7 x o out subY delY nvsY ansY :
  side_inv7 x subY delY nvsY ansY -> (forall d v, o <> Op7Send d v) -> still (out7_events out) ->
  conn_ok7 (out7_conn out) -> sent_ok7 (out7_sent out) ->
  phase_next (phase7 (c7_state (l7_conn x))) (phase7 (c7_state (out7_conn out))) (hist7 x) delY ->
  flights_ok (l7_sub x) (l7_del x) (l7_nvs x) (out7_sent out) ->
  step_inv7 x o out subY delY nvsY ansY.
Proof.
  intros Hi Ho Hq Hc Hds Hph Hfl. apply side_inv7_hist in Hi as [_ Hh].
  apply step_inv7_intro; try assumption; rewrite (hist_after7_nosend x o out Ho), (h_recv_still _ _ Hq).
  - eapply hist_inv_phase; eassumption.
  - apply hgrows_refl.
Qed.

Lemma same_phase_step7 x o out subY delY nvsY ansY :
  side_inv7 x subY delY nvsY ansY -> (forall d v, o <> Op7Send d v) -> still (out7_events out) ->
  conn_ok7 (out7_conn out) -> sent_ok7 (out7_sent out) ->
  phase7 (c7_state (out7_conn out)) = phase7 (c7_state (l7_conn x)) ->
  flights_ok (l7_sub x) (l7_del x) (l7_nvs x) (out7_sent out) ->
  step_inv7 x o out subY delY nvsY ansY.
Proof.
  intros Hi Ho Hq Hc Hds Hph Hfl. apply still_step7; try assumption. rewrite Hph.
  eapply phase_next_same, side_inv7_hist, Hi.
Qed.

Lemma control_flights7 x subY delY nvsY ansY tok c :
  side_inv7 x subY delY nvsY ansY -> c7_state (l7_conn x) <> Disconnected7 ->
  flights_ok (l7_sub x) (l7_del x) (l7_nvs x) [DControl tok (phase_ack (phase7 (c7_state (l7_conn x)))) c].
Proof.
  intros Hi Hd. apply side_inv7_hist in Hi as [_ Hh]. apply (control_flights_ok _ _ _ _ _ _ _ _ Hh).
  destruct (c7_state (l7_conn x)); try discriminate. contradiction.
Qed.

Lemma send_control_with7_shape st c tok ds : send_control_with7 st c tok = Ok ds ->
  ds = [DControl (Some tok) (match st with Online7 o => o_ack o | _ => 0 end) c].
Proof.
  unfold send_control_with7.
  destruct (match c with Connect (Some r) | TokenMsg r => tokb r TOKEN_NONE | _ => false end); [discriminate|].
  destruct (MAX_PACKETSIZE <? _); [discriminate|]. intros H. injection H as <-. reflexivity.
Qed.

(* a tick / feed branch that ends in one control datagram: expose the datagram *)
Ltac ctl7 Hstep :=
  unfold tick_action7, send_control7 in Hstep; cbn [c7_state their_token bind] in Hstep;
  match type of Hstep with context [send_control_with7 ?st ?c ?t] =>
    let ds := fresh "ds" in let Esc := fresh "Esc" in
    destruct (send_control_with7 st c t) as [ds| | |] eqn:Esc; cbn [bind] in Hstep; try discriminate;
    apply send_control_with7_shape in Esc; subst ds; injection Hstep as <-
  end.

Lemma phase7_ack st : match st with Online7 o => o_ack o | _ => 0 end = phase_ack (phase7 st).
Proof. destruct st; reflexivity. Qed.

Lemma online_parts7 x subY delY nvsY ansY on :
  side_inv7 x subY delY nvsY ansY -> c7_state (l7_conn x) = Online7 on ->
  pk_count_ok (o_packet on) /\ pk_count_ok (o_packet_nv on) /\ on_inv on (l7_sub x) (l7_del x) (l7_nvs x) delY.
Proof.
  intros Hi Hon. pose proof (sv7_conn _ _ _ _ _ Hi) as Hc. unfold conn_ok7 in Hc. rewrite Hon in Hc.
  destruct Hc as [[Hp [Hnv _]] _].
  split; [eapply pc_ok_count, Hp|]. split; [eapply pc_ok_count, Hnv|]. apply (sv7_online _ _ _ _ _ Hi), Hon.
Qed.

Lemma control_step7 x o st ctl tok ds c' e' subY delY nvsY ansY :
  side_inv7 x subY delY nvsY ansY -> (forall d v, o <> Op7Send d v) ->
  send_control_with7 st ctl tok = Ok ds ->
  phase7 st = phase7 (c7_state (l7_conn x)) -> c7_state (l7_conn x) <> Disconnected7 ->
  let out := mk7 c' e' ds [] [] R7Ok in
  conn_ok7 c' -> sent_ok7 ds -> phase7 (c7_state c') = phase7 (c7_state (l7_conn x)) ->
  step_inv7 x o out subY delY nvsY ansY.
Proof.
  intros Hi Ho Hsc Hst Hnd out Hc' Hds Hph. apply send_control_with7_shape in Hsc. subst ds.
  apply same_phase_step7; try assumption; [apply still_nil|]. cbn [out7_sent out mk7].
  rewrite phase7_ack, Hst. apply (control_flights7 _ _ _ _ _ _ _ Hi Hnd).
Qed.

(* the timer action, run on a connection in the phase of x (its state may be one the call moved to) *)
Lemma tick_action7_step x o c e out subY delY nvsY ansY :
  side_inv7 x subY delY nvsY ansY -> (forall d v, o <> Op7Send d v) ->
  tick_action7 c e = Ok out -> conn_ok7 (out7_conn out) -> sent_ok7 (out7_sent out) ->
  phase7 (c7_state c) = phase7 (c7_state (l7_conn x)) ->
  step_inv7 x o out subY delY nvsY ansY.
Proof.
  intros Hi Ho Ht Hc' Hds Hph.
  assert (Hnd : c7_state c <> Disconnected7 -> c7_state (l7_conn x) <> Disconnected7).
  { intros H E. rewrite E in Hph. destruct (c7_state c); try discriminate. contradiction. }
  unfold tick_action7, send_control7 in Ht.
  assert (Hctl : forall ctl tok s, (let* d := send_control_with7 (c7_state c) ctl tok in
                                    Ok (mk7 (set_send7 c s) e d [] [] R7Ok)) = Ok out ->
            c7_state c <> Disconnected7 -> step_inv7 x o out subY delY nvsY ansY).
  { intros ctl tok s H Hd. apply bind_ok in H as [ds [Hsc H]]. injection H as <-.
    eapply control_step7; try eassumption; auto. }
  assert (Hnop : (Ok (mk7 c e [] [] [] R7Ok) : res unit outcome7) = Ok out -> step_inv7 x o out subY delY nvsY ansY).
  { intros H. injection H as <-. apply same_phase_step7; try assumption; [apply still_nil|constructor]. }
  destruct (c7_state c) as [|own|own|own their|own their|on|] eqn:Es;
    try (apply Hnop, Ht); try (eapply Hctl; [exact Ht|discriminate]).
  destruct (can_send on); [|eapply Hctl; [exact Ht|discriminate]].
  apply bind_ok in Ht as [[o' ds] [Hf Ht]]. injection Ht as <-.
  symmetry in Hph. apply phase7_on in Hph. destruct (online_parts7 _ _ _ _ _ _ Hi Hph) as [Hcp [_ Hon]].
  destruct (flush_on _ _ _ _ _ _ _ _ Hf Hcp Hon). apply still_step7; try assumption. apply still_nil.
Qed.

Theorem app_step_inv7 now x subY delY nvsY ansY o :
  side_inv7 x subY delY nvsY ansY -> app_op7 o ->
  valid_op7 (l7_conn x) {| e_now := now; e_rand := l7_rand x |} o -> window_ok7 x o ->
  exists x' fl, side_step7 now x o = Ok (x', fl) /\ side_inv7 x' subY delY nvsY ansY /\
                bag_inv7 fl x' /\ grows7 x x'.
Proof.
  intros Hi Happ Hv Hw. pose proof (sv7_conn _ _ _ _ _ Hi) as Hc.
  destruct (step7_out _ _ _ Hc Hv) as [out [Hstep [Hc' Hds]]].
  exists (after7 x o out), (flights_of7 x out). split; [apply side_step7_unfold, Hstep|].
  change (step_inv7 x o out subY delY nvsY ansY).
  destruct o as [|data vital| | |reason|data|d| |]; try contradiction; cbn [valid_op7] in Hv; unfold step7 in Hstep; cbn [e_now e_rand] in Hstep.
  - destruct Hv as [Hu _]. rewrite Hu in Hstep. apply bind_ok in Hstep as [[t rnd'] [_ Hstep]].
    eapply tick_action7_step; try eassumption; [discriminate|]. rewrite Hu. reflexivity.
  - destruct Hv as [on Hon]. rewrite Hon in Hstep.
    apply bind_ok in Hstep as [[[o' ds] r] [Es Hstep]]. injection Hstep as <-.
    destruct (online_parts7 _ _ _ _ _ _ Hi Hon) as [Hcp [_ Hinv]].
    assert (Hwin : vital = true -> zlen (o_queue on) < 511).
    { intros ->. unfold window_ok7 in Hw. rewrite Hon in Hw. exact Hw. }
    destruct (send_on _ _ _ _ _ _ _ _ (hist7 x) _ Es Hcp Hinv Hwin) as [Hfl Hres].
    apply side_inv7_hist in Hi as [_ Hh]. rewrite Hon in Hh.
    destruct r; (apply step_inv7_intro; try assumption; rewrite hist_after7; cbn [out7_res out7_events out7_conn c7_state mk7];
                 rewrite (h_recv_still _ _ still_nil)).
    + apply (hist_inv_send on); assumption.
    + apply hgrows_send.
    + subst o'. exact Hh.
    + apply hgrows_refl.
  - destruct Hv as [on Hon]. rewrite Hon in Hstep.
    apply bind_ok in Hstep as [[o' ds] [Ef Hstep]]. injection Hstep as <-.
    destruct (online_parts7 _ _ _ _ _ _ Hi Hon) as [Hcp [_ Hinv]].
    destruct (flush_on _ _ _ _ _ _ _ _ Ef Hcp Hinv). apply still_step7; try assumption; [discriminate|apply still_nil].
  - destruct (match c7_state (l7_conn x) with
              | Online7 o => match queue_back (o_queue o) with Some rc => triggered (rc_next rc) now | None => false end
              | _ => false end) eqn:Ers.
    + (* the resend deadline has passed *)
      destruct (c7_state (l7_conn x)) as [|own|own|own their|own their|on|] eqn:Est; try discriminate.
      apply bind_ok in Hstep as [[c' ds] [Hr Hstep]]. injection Hstep as <-.
      unfold do_resend7 in Hr. apply bind_ok in Hr as [[[o' ds'] ts] [Hr E]]. injection E as <- <-.
      destruct (online_parts7 _ _ _ _ _ _ Hi Est) as [Hcp [Hcnv Hinv]].
      destruct (resend_on _ _ _ _ _ _ _ _ _ _ Hr Hcp Hcnv Hinv).
      apply still_step7; try assumption; [discriminate|apply still_nil].
    + destruct (triggered (c7_send (l7_conn x)) now).
      * eapply tick_action7_step; try eassumption; [discriminate|reflexivity].
      * injection Hstep as <-. apply same_phase_step7; try assumption; [discriminate|apply still_nil|reflexivity|constructor].
  - destruct Hv as [H2 [Hn Hl]]. rewrite Hn in Hstep. unfold send_control7 in Hstep.
    pose proof (fun tok => control_flights7 _ _ _ _ _ tok (Close reason) Hi H2) as Hcf.
    destruct (c7_state (l7_conn x)); try contradiction;
      apply bind_ok in Hstep as [ds [Hsc Hstep]]; injection Hstep as <-;
      apply send_control_with7_shape in Hsc as ->;
      (apply still_step7; try assumption; try exact I; [discriminate|apply still_nil|apply Hcf]).
  - destruct Hv as [on Hon]. unfold set_send7 in Hstep. rewrite Hon in Hstep.
    destruct (MAX_PAYLOAD <? Z.of_nat (length data)); injection Hstep as <-;
      (apply same_phase_step7; try assumption; [discriminate|apply still_nil|rewrite Hon; reflexivity|]);
      [constructor|apply connless_flights_ok].
Qed.

Lemma quiet_step7 x d e' evs ws subY delY nvsY ansY :
  side_inv7 x subY delY nvsY ansY -> still evs ->
  step_inv7 x (Op7Feed d) (mk7 (l7_conn x) e' [] evs ws R7Ok) subY delY nvsY ansY.
Proof.
  intros Hi Hq.
  apply same_phase_step7; [exact Hi|discriminate|exact Hq|exact (sv7_conn _ _ _ _ _ Hi)|exact sent_nil|reflexivity|constructor].
Qed.

Lemma close_step7 x d s e' reason subY delY nvsY ansY :
  side_inv7 x subY delY nvsY ansY ->
  step_inv7 x (Op7Feed d) (mk7 {| c7_state := Disconnected7; c7_send := s |} e' [] [EvDisconnect reason] [] R7Ok)
    subY delY nvsY ansY.
Proof.
  intros Hi. apply still_step7; [exact Hi|discriminate|repeat split|exact I|exact sent_nil|exact I|constructor].
Qed.

(* feed7 processes the acknowledgement of a datagram first *)
Definition acked7 (st : state7) (ack : Z) : state7 :=
  match st with Online7 o => Online7 (ack_chunks o ack) | s => s end.

Section Feed.
Variables (now : Z) (x y : lside7) (f : flight).
Hypothesis Hi : side_inv7 x (l7_sub y) (l7_del y) (l7_nvs y) (l7_answered y).
Hypothesis Hy : side_inv7 y (l7_sub x) (l7_del x) (l7_nvs x) (l7_answered x).
Hypothesis Hf : flight_inv7 y f.
Hypothesis Hfresh : fresh7 f x.

Lemma acked_phase7 st ack : c7_state (l7_conn x) = st -> dgram_ack_of (f_d f) = Some ack ->
  phase_next (phase7 st) (phase7 (acked7 st ack)) (hist7 x) (l7_del y).
Proof.
  intros Est Hack. destruct Hf as [[_ [Hfc [Hfa _]]] _]. rewrite (Hfa _ Hack). destruct Hfresh as [Hfr _].
  destruct st as [|own|own|own their|own their|on|]; try exact I; try reflexivity.
  pose proof (sv7_dle _ _ _ _ _ Hy). pose proof (sv7_gap _ _ _ _ _ Hy).
  apply (ack_on on (l7_sub x)); [apply (sv7_online _ _ _ _ _ Hi), Est|lia..].
Qed.

Lemma acked_step7 st ack d s e' : c7_state (l7_conn x) = st -> dgram_ack_of (f_d f) = Some ack ->
  let c1 := {| c7_state := acked7 st ack; c7_send := s |} in
  conn_ok7 c1 ->
  step_inv7 x (Op7Feed d) (mk7 c1 e' [] [] [] R7Ok) (l7_sub y) (l7_del y) (l7_nvs y) (l7_answered y).
Proof.
  intros Est Hack c1 Hc1.
  apply still_step7; [exact Hi|discriminate|apply still_nil|exact Hc1|exact sent_nil| |constructor].
  rewrite Est. apply acked_phase7; assumption.
Qed.

(* a chunk datagram, once the receiver is online with record o (acknowledgement processed) *)
Lemma chunks_arrive7 o s e tk ack rr n cs d out :
  f_d f = DChunks tk ack rr n cs ->
  on_inv o (l7_sub x) (l7_del x) (l7_nvs x) (l7_del y) -> pk_count_ok (o_packet o) -> pk_count_ok (o_packet_nv o) ->
  feed_online7 s e o rr cs = Ok out ->
  conn_ok7 (out7_conn out) -> sent_ok7 (out7_sent out) ->
  step_inv7 x (Op7Feed d) out (l7_sub y) (l7_del y) (l7_nvs y) (l7_answered y).
Proof.
  intros Efd Hon Hcp Hcnv Ht Hc' Hds. apply bind_ok in Ht as [[c3 sent] [Hrs Ht]].
  assert (H3 : exists o3 s3, c3 = {| c7_state := Online7 o3; c7_send := s3 |} /\
                 on_inv o3 (l7_sub x) (l7_del x) (l7_nvs x) (l7_del y) /\ flights_ok (l7_sub x) (l7_del x) (l7_nvs x) sent).
  { destruct rr.
    - unfold do_resend7 in Hrs. apply bind_ok in Hrs as [[[o' ds] ts] [Hr E]]. injection E as <- <-.
      destruct (resend_on _ _ _ _ _ _ _ _ _ _ Hr Hcp Hcnv Hon). eexists _, _. split; [reflexivity|split; assumption].
    - injection Hrs as <- <-. eexists _, _. split; [reflexivity|]. split; [exact Hon|constructor]. }
  destruct H3 as [o3 [s3 [-> [Hon3 Hfl]]]]. cbn [c7_state c7_send] in Ht.
  apply bind_ok in Ht as [[[ack' rr'] evs] [Hrc Ht]]. injection Ht as <-.
  apply side_inv7_hist in Hi as [_ Hh]. destruct Hf as [Hfok _]. destruct Hfresh as [_ Hold].
  apply step_inv7_intro; try assumption; rewrite hist_after7_nosend by discriminate; [|apply hgrows_recv].
  rewrite <- (f_equal dgram_chunks Efd : _ = cs) in Hrc.
  exact (hist_inv_recv _ _ _ _ _ _ f _ _ _ _ Hh Hfok Hold (sv7_gap _ _ _ _ _ Hy) Hon3 Hrc).
Qed.

Theorem feed_step_inv7 : rand_ok7 {| e_now := now; e_rand := l7_rand x |} ->
  exists x' fl, side_step7 now x (Op7Feed (f_d f)) = Ok (x', fl) /\
                side_inv7 x' (l7_sub y) (l7_del y) (l7_nvs y) (l7_answered y) /\
                bag_inv7 fl x' /\ grows7 x x'.
Proof.
  intros Hrand. pose proof (sv7_conn _ _ _ _ _ Hi) as Hc.
  assert (Hv : valid_op7 (l7_conn x) {| e_now := now; e_rand := l7_rand x |} (Op7Feed (f_d f))) by (split; [apply Hf|exact Hrand]).
  destruct (step7_out _ _ _ Hc Hv) as [out [Hstep [Hc' Hds]]].
  exists (after7 x (Op7Feed (f_d f)) out), (flights_of7 x out). split; [apply side_step7_unfold, Hstep|].
  change (step_inv7 x (Op7Feed (f_d f)) out (l7_sub y) (l7_del y) (l7_nvs y) (l7_answered y)).
  pose proof (proj2 (proj1 (side_inv7_hist _ _ _ _ _) Hi)) as Hh.
  unfold step7, feed7 in Hstep. cbn [e_now e_rand] in Hstep.
  destruct (f_d f) as [tk rs pl|tk ack ctl|tk ack rr n cs] eqn:Efd.
  { destruct (negb (otokb tk _)); [injection Hstep as <-; apply quiet_step7; [assumption|repeat split]|].
    destruct (negb (otokb rs _)); injection Hstep as <-; (apply quiet_step7; [assumption|repeat split]). }
  all: match type of Hstep with context [if negb (tokb ?a ?b) then _ else _] => destruct (negb (tokb a b)) end;
    [injection Hstep as <-; apply quiet_step7; [assumption|repeat split]|];
    destruct ((ack <? 0) || (SEQ_MOD <=? ack)); [discriminate|];
    assert (Hack : dgram_ack_of (f_d f) = Some ack) by (rewrite Efd; reflexivity).
  - destruct ctl as [|resp| | |reason|resp];
      try (injection Hstep as <-; apply (acked_step7 _ _ _ _ _ eq_refl Hack), Hc').
    + (* Connect: the acceptor, having handed out its token, answers with Accept *)
      destruct (c7_state (l7_conn x)) as [|own|own|own their|own their|on|] eqn:Est;
        try (injection Hstep as <-; apply (acked_step7 _ _ _ _ _ Est Hack), Hc').
      destruct resp as [t|]; [|injection Hstep as <-; apply (acked_step7 _ _ _ _ _ Est Hack), Hc'].
      eapply tick_action7_step; try eassumption; [discriminate|]. rewrite Est. reflexivity.
    + (* Accept: the connecting endpoint goes online and reports Ready *)
      destruct (c7_state (l7_conn x)) as [|own|own|own their|own their|on|] eqn:Est;
        try (injection Hstep as <-; apply (acked_step7 _ _ _ _ _ Est Hack), Hc').
      injection Hstep as <-.
      apply step_inv7_intro; try assumption; rewrite ?hist_after7_nosend by discriminate; [| |constructor].
      * apply hist_inv_ready; [exact Hh|]. apply Hf. rewrite Efd. reflexivity.
      * apply hgrows_recv.
    + injection Hstep as <-. apply close_step7; assumption.
    + destruct (c7_state (l7_conn x)) as [|own|own|own their|own their|on|] eqn:Est;
        try (injection Hstep as <-; apply (acked_step7 _ _ _ _ _ Est Hack), Hc').
      * (* an unconnected endpoint becomes the acceptor: it draws its token and hands it out *)
        apply bind_ok in Hstep as [[nt rnd'] [_ Hstep]]. apply bind_ok in Hstep as [ds [Hsc Hstep]]. injection Hstep as <-.
        eapply control_step7; try eassumption; rewrite ?Est; try discriminate; reflexivity.
      * (* the token arrives: the connecting side sends its Connect *)
        eapply tick_action7_step; try eassumption; [discriminate|]. rewrite Est. reflexivity.
      * (* asked again: the token is repeated *)
        apply bind_ok in Hstep as [ds [Hsc Hstep]]. injection Hstep as <-.
        eapply control_step7; try eassumption; rewrite ?Est; try discriminate; reflexivity.
  - destruct (c7_state (l7_conn x)) as [|own|own|own their|own their|on|] eqn:Est; cbn [c7_state] in Hstep;
      try (injection Hstep as <-; apply (acked_step7 _ _ _ _ _ Est Hack), Hc').
    + (* pending: the first chunk datagram takes the acceptor online *)
      eapply (chunks_arrive7 (online_new (Some own) (Some their))); try eassumption;
        [exact (on_inv_new (hist7 x) _ _ _ _ _ _ Hh)|split; [reflexivity|cbn; lia]|split; [reflexivity|cbn; lia]].
    + destruct (online_parts7 _ _ _ _ _ _ Hi Est) as [Hcp [Hcnv _]].
      destruct (ack_chunks_same on ack) as [_ [_ [Ep [Env _]]]].
      eapply (chunks_arrive7 (ack_chunks on ack)); try eassumption; rewrite ?Ep, ?Env; try assumption.
      apply (acked_phase7 _ _ Est Hack).
Qed.
End Feed.

Definition admissible7 (w : link7) (l : llabel7) : Prop :=
  match l with
  | L7App s o =>
    app_op7 o /\ valid_op7 (l7_conn (get7 w s)) {| e_now := k7_now w; e_rand := l7_rand (get7 w s) |} o /\
    window_ok7 (get7 w s) o
  | L7Time _ => True
  | L7Deliver from k =>
    match nth_error (bag7 w from) k with
    | Some f => fresh7 f (get7 w (other7 from)) /\
                rand_ok7 {| e_now := k7_now w; e_rand := l7_rand (get7 w (other7 from)) |}
    | None => True
    end
  | L7Drop _ _ => True
  end.

Fixpoint admissible_run7 (w : link7) (ls : list llabel7) : Prop :=
  match ls with
  | [] => True
  | l :: r => admissible7 w l /\ match link_step7 w l with Ok w' => admissible_run7 w' r | _ => True end
  end.

Lemma link_inv7_sym w :
  link_inv7 w ->
  side_inv7 (k7_b w) (l7_sub (k7_a w)) (l7_del (k7_a w)) (l7_nvs (k7_a w)) (l7_answered (k7_a w)).
Proof. intros [_ [H _]]. exact H. Qed.

Lemma remove_nth7_forall {A} (P : A -> Prop) k l : Forall P l -> Forall P (remove_nth7 k l).
Proof.
  revert k. induction l as [|x l IH]; intros k H; destruct k; cbn; try constructor; inversion H; subst; try assumption.
  apply IH; assumption.
Qed.

Lemma other_other7 s : other7 (other7 s) = s.
Proof. destruct s; reflexivity. Qed.

Lemma link_inv7_side w s : link_inv7 w ->
  side_inv7 (get7 w s) (l7_sub (get7 w (other7 s))) (l7_del (get7 w (other7 s))) (l7_nvs (get7 w (other7 s)))
    (l7_answered (get7 w (other7 s))) /\
  bag_inv7 (bag7 w s) (get7 w s).
Proof. intros [Ha [Hb [Hab Hba]]]. destruct s; split; assumption. Qed.

Lemma set_side_inv7 w s x' fl : link_inv7 w ->
  side_inv7 x' (l7_sub (get7 w (other7 s))) (l7_del (get7 w (other7 s))) (l7_nvs (get7 w (other7 s)))
    (l7_answered (get7 w (other7 s))) ->
  bag_inv7 fl x' -> grows7 (get7 w s) x' -> link_inv7 (set_side7 w s x' fl).
Proof.
  intros [Ha [Hb [Hab Hba]]] Hi' Hfl Hg. unfold link_inv7. destruct s; cbn in *.
  - split; [exact Hi'|]. split; [exact (side_inv7_mono _ _ _ Hb Hg)|].
    split; [|exact Hba]. apply Forall_app. split; [eapply bag_inv7_mono; eassumption|exact Hfl].
  - split; [exact (side_inv7_mono _ _ _ Ha Hg)|]. split; [exact Hi'|].
    split; [exact Hab|]. apply Forall_app. split; [eapply bag_inv7_mono; eassumption|exact Hfl].
Qed.

Theorem link_step_inv7 w l : link_inv7 w -> admissible7 w l ->
  exists w', link_step7 w l = Ok w' /\ link_inv7 w'.
Proof.
  intros Hinv Hadm. destruct l as [s o|dt|from k|from k]; cbn [link_step7 admissible7] in *.
  - destruct Hadm as [Happ [Hv Hw]]. destruct (link_inv7_side w s Hinv) as [Hs _].
    destruct (app_step_inv7 _ _ _ _ _ _ _ Hs Happ Hv Hw) as [x' [fl [E [Hi' [Hfl Hg]]]]].
    rewrite E. eexists. split; [reflexivity|]. apply set_side_inv7; assumption.
  - eexists. split; [reflexivity|]. exact Hinv.
  - destruct (nth_error (bag7 w from) k) as [f|] eqn:Ek; [|eexists; split; [reflexivity|exact Hinv]].
    destruct Hadm as [Hfresh Hrand]. destruct (link_inv7_side w from Hinv) as [Hy Hbag].
    destruct (link_inv7_side w (other7 from) Hinv) as [Hx _]. rewrite other_other7 in Hx.
    assert (Hf : flight_inv7 (get7 w from) f) by (eapply Forall_forall; [exact Hbag|eapply nth_error_In, Ek]).
    destruct (feed_step_inv7 _ _ _ f Hx Hy Hf Hfresh Hrand) as [x' [fl [E [Hi' [Hfl Hg]]]]].
    rewrite E. eexists. split; [reflexivity|]. apply set_side_inv7; try assumption. rewrite other_other7. exact Hi'.
  - eexists. split; [reflexivity|]. destruct Hinv as [Ha [Hb [Hab Hba]]]. unfold link_inv7. destruct from; cbn.
    + split; [exact Ha|]. split; [exact Hb|]. split; [apply remove_nth7_forall, Hab|exact Hba].
    + split; [exact Ha|]. split; [exact Hb|]. split; [exact Hab|apply remove_nth7_forall, Hba].
Qed.

Theorem link_run_inv7 ls : forall w, link_inv7 w -> admissible_run7 w ls ->
  exists w', link_run7 w ls = Ok w' /\ link_inv7 w'.
Proof.
  induction ls as [|l ls IH]; intros w Hi Ha; cbn [link_run7 admissible_run7] in *.
  - exists w. split; [reflexivity|exact Hi].
  - destruct Ha as [Ha1 Ha2]. destruct (link_step_inv7 w l Hi Ha1) as [w1 [Hs Hi1]]. rewrite Hs in *.
    apply IH; assumption.
Qed.

Lemma link7_new_inv ra rb : link_inv7 (link7_new ra rb).
Proof.
  assert (H : forall r subY delY nvsY ansY, side_inv7 (lside7_new r) subY delY nvsY ansY).
  { intros. apply side_inv7_hist. split; [exact I|apply hist_inv_new]. }
  unfold link_inv7, link7_new. cbn. split; [apply H|]. split; [apply H|]. split; constructor.
Qed.

(* an executable version of the assumptions, for concrete traces *)
Definition rand_okb7 (rnd : list token) : bool :=
  forallb (fun t => Nat.eqb (length t) 4) rnd && match token_random7 rnd with Ok _ => true | _ => false end.

Definition valid_appb7 (x : lside7) (o : op7) : bool :=
  match o with
  | Op7Connect => match c7_state (l7_conn x) with Unconnected7 => true | _ => false end && rand_okb7 (l7_rand x)
  | Op7Send _ vital =>
    match c7_state (l7_conn x) with
    | Online7 on => if vital then zlen (o_queue on) <? 511 else true
    | _ => false
    end
  | Op7Flush | Op7SendConnless _ => match c7_state (l7_conn x) with Online7 _ => true | _ => false end
  | Op7Disconnect r =>
    match c7_state (l7_conn x) with Disconnected7 => false | _ => true end
    && negb (existsb (fun b => b =? 0) r) && (length r <=? 127)%nat
  | Op7Tick => true
  | _ => false
  end.

Definition freshb7 (f : flight) (rcv : lside7) : bool :=
  (zlen (l7_sub rcv) - f_c f <? 1024) &&
  forallb (fun c => match ch_vital c with
                    | Some (s, _) => zlen (l7_del rcv) - idx_of (f_n f) s <? 768
                    | None => true
                    end) (dgram_chunks (f_d f)).

Definition admissibleb7 (w : link7) (l : llabel7) : bool :=
  match l with
  | L7App s o => valid_appb7 (get7 w s) o
  | L7Time _ | L7Drop _ _ => true
  | L7Deliver from k =>
    match nth_error (bag7 w from) k with
    | Some f => freshb7 f (get7 w (other7 from)) && rand_okb7 (l7_rand (get7 w (other7 from)))
    | None => true
    end
  end.

Fixpoint admissible_runb7 (w : link7) (ls : list llabel7) : bool :=
  match ls with
  | [] => true
  | l :: r => admissibleb7 w l && match link_step7 w l with Ok w' => admissible_runb7 w' r | _ => true end
  end.

Lemma rand_okb7_ok now rnd : rand_okb7 rnd = true -> rand_ok7 {| e_now := now; e_rand := rnd |}.
Proof.
  unfold rand_okb7, rand_ok7. cbn. intros H. apply andb_true_iff in H as [H1 H2]. split.
  - rewrite forallb_forall in H1. apply Forall_forall. intros t Ht. apply Nat.eqb_eq, H1, Ht.
  - destruct (token_random7 rnd) as [[t r]| | |]; try discriminate. eexists _, _. reflexivity.
Qed.

Lemma admissibleb_ok7 w l : admissibleb7 w l = true -> admissible7 w l.
Proof.
  destruct l as [s o|dt|from k|from k]; cbn [admissibleb7 admissible7]; try (intros _; exact I).
  - intros H. unfold valid_appb7 in H.
    destruct o as [|data vital| | |reason|data|d| |]; try discriminate; cbn [app_op7 valid_op7 window_ok7].
    + apply andb_true_iff in H as [H1 H2].
      destruct (c7_state (l7_conn (get7 w s))) eqn:E; try discriminate.
      split; [exact I|]. split; [|exact I]. split; [reflexivity|apply rand_okb7_ok, H2].
    + destruct (c7_state (l7_conn (get7 w s))) as [|own|own|own their|own their|on|] eqn:E; try discriminate.
      split; [exact I|]. split; [eexists; reflexivity|]. destruct vital; [lia|exact I].
    + destruct (c7_state (l7_conn (get7 w s))) eqn:E; try discriminate. split; [exact I|]. split; [eexists; reflexivity|exact I].
    + repeat split.
    + apply andb_true_iff in H as [H H3]. apply andb_true_iff in H as [H1 H2].
      split; [exact I|]. split; [|exact I]. repeat split.
      * intros E. rewrite E in H1. discriminate.
      * apply negb_true_iff, H2.
      * apply Nat.leb_le, H3.
    + destruct (c7_state (l7_conn (get7 w s))) eqn:E; try discriminate. split; [exact I|]. split; [eexists; reflexivity|exact I].
  - destruct (nth_error (bag7 w from) k) as [f|]; [|intros _; exact I].
    intros H. apply andb_true_iff in H as [H1 H2]. split; [|apply rand_okb7_ok, H2].
    unfold freshb7 in H1. apply andb_true_iff in H1 as [Ha Hb]. split; [lia|].
    intros c s r Hin Hv. rewrite forallb_forall in Hb. specialize (Hb c Hin). rewrite Hv in Hb. lia.
Qed.

Lemma admissible_runb_ok7 ls : forall w, admissible_runb7 w ls = true -> admissible_run7 w ls.
Proof.
  induction ls as [|l ls IH]; intros w H; cbn [admissible_runb7 admissible_run7] in *; [exact I|].
  apply andb_true_iff in H as [H1 H2]. split; [apply admissibleb_ok7, H1|].
  destruct (link_step7 w l); try exact I. apply IH, H2.
Qed.
