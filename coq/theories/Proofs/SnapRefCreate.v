(* CSnapshotDelta::CreateDelta (Model/SnapRef.v) on two laid-out snapshots, in closed form
   (ref_create_delta_spec): no ints at all, or the wire form (Proofs/SnapWire.v) of the keys of A that B
   lacks and of the items of B that are new or differ - for items in any order, as long as the hash
   list finds every key (no bucket holds more than 64) and the table of sizes is one the reference
   can hold and reads like libtw2 (ref_table_ok). *)
From LibTw2 Require Import Base.Res Base.Bits Model.Varint Model.Snap Model.SnapRef
  Proofs.SnapBase Proofs.SnapRep Proofs.SnapDelta Proofs.SnapWire Proofs.SnapC09 Proofs.SnapSer Proofs.SnapRefLayout.
From Coq Require Import ZArith List Lia Bool Permutation.
Import ListNotations.
Open Scope Z_scope.

Lemma bucket_count_cons k keys h :
  bucket_count (k :: keys) h = (if calc_hash_id k =? h then 1 else 0) + bucket_count keys h.
Proof. unfold bucket_count. cbn [filter]. destruct (calc_hash_id k =? h); cbn [length]; lia. Qed.

Lemma bucket_count_app a b h : bucket_count (a ++ b) h = bucket_count a h + bucket_count b h.
Proof. unfold bucket_count. rewrite filter_app, app_length. lia. Qed.

Lemma bucket_count_range keys h : 0 <= bucket_count keys h <= Z.of_nat (length keys).
Proof. unfold bucket_count. pose proof (filter_length_le' (fun k => calc_hash_id k =? h) keys). lia. Qed.

Lemma calc_hash_range k : 0 <= calc_hash_id k < 256.
Proof. unfold calc_hash_id, REF_HASHLIST_SIZE. apply Z.mod_pos_bound. lia. Qed.

Lemma bucket_count_out keys h : ~ (0 <= h < 256) -> bucket_count keys h = 0.
Proof.
  intros Hh. induction keys as [|k keys IH]; [reflexivity|]. rewrite bucket_count_cons, IH.
  pose proof (calc_hash_range k). destruct (Z.eqb_spec (calc_hash_id k) h); lia.
Qed.

Definition buckets_fine (keys : list Z) : Prop := forall h, bucket_count keys h <= REF_BUCKET_SIZE.

Lemma ref_buckets_ok_iff S : ref_buckets_ok S = true <-> buckets_fine (map fst (rs_offs S)).
Proof.
  unfold ref_buckets_ok. rewrite forallb_forall. split; intros H h.
  - destruct (Z_lt_le_dec h 0); [rewrite bucket_count_out; unfold REF_BUCKET_SIZE; lia|].
    destruct (Z_lt_le_dec h 256); [|rewrite bucket_count_out; unfold REF_BUCKET_SIZE; lia].
    apply Z.leb_le, H. apply in_map_iff. exists (Z.to_nat h). split; [lia|]. apply in_seq. lia.
  - intros _. apply Z.leb_le, H.
Qed.

Lemma ref_buckets_ok_few S : Z.of_nat (length (rs_offs S)) <= REF_BUCKET_SIZE -> ref_buckets_ok S = true.
Proof.
  intros H. apply ref_buckets_ok_iff. intros h.
  pose proof (bucket_count_range (map fst (rs_offs S)) h) as Hr. rewrite map_length in Hr. lia.
Qed.

Lemma ref_buckets_ok_full S h : REF_BUCKET_SIZE < bucket_count (map fst (rs_offs S)) h -> ref_buckets_ok S = false.
Proof.
  intros Hc. destruct (ref_buckets_ok S) eqn:E; [|reflexivity]. apply ref_buckets_ok_iff in E. specialize (E h). lia.
Qed.

Lemma filter_length_perm {T} (p : T -> bool) l l' : Permutation l l' -> length (filter p l) = length (filter p l').
Proof.
  induction 1 as [|x a b _ IH|x y a|a b c _ IH1 _ IH2]; [reflexivity| | |congruence].
  - cbn [filter]. destruct (p x); cbn [length]; congruence.
  - cbn [filter]. destruct (p x), (p y); reflexivity.
Qed.

Lemma buckets_fine_perm l l' : Permutation l l' -> buckets_fine l -> buckets_fine l'.
Proof. intros Hp H h. unfold bucket_count. rewrite <- (filter_length_perm _ _ _ Hp). apply H. Qed.

Lemma hashed_absent key h : forall keys i cnt, ~ In key keys -> hashed_from (gen_hash keys) h key i cnt = -1.
Proof.
  induction keys as [|k keys IH]; intros i cnt Hni; [reflexivity|]. cbn [gen_hash map hashed_from].
  assert (k <> key) by (intros ->; apply Hni; left; reflexivity).
  assert (~ In key keys) by (intros Hin; apply Hni; right; exact Hin).
  destruct (calc_hash_id k =? h); [|apply IH; assumption].
  destruct (cnt <? REF_BUCKET_SIZE); [|reflexivity].
  destruct (Z.eqb_spec k key); [contradiction|apply IH; assumption].
Qed.

(* cnt entries of the bucket have been passed; the key is reached before the bucket is full *)
Lemma hashed_present key : forall pre post i cnt, ~ In key pre ->
  cnt + bucket_count pre (calc_hash_id key) < REF_BUCKET_SIZE ->
  hashed_from (gen_hash (pre ++ key :: post)) (calc_hash_id key) key i cnt = i + Z.of_nat (length pre).
Proof.
  induction pre as [|k pre IH]; intros post i cnt Hni Hc; cbn [app gen_hash map hashed_from].
  - rewrite !Z.eqb_refl. destruct (Z.ltb_spec cnt REF_BUCKET_SIZE); [cbn [length]; lia|].
    change (bucket_count [] (calc_hash_id key)) with 0 in Hc. lia.
  - fold (gen_hash (pre ++ key :: post)).
    assert (k <> key) by (intros ->; apply Hni; left; reflexivity).
    assert (~ In key pre) by (intros Hin; apply Hni; right; exact Hin).
    rewrite bucket_count_cons in Hc. pose proof (bucket_count_range pre (calc_hash_id key)).
    destruct (calc_hash_id k =? calc_hash_id key).
    + destruct (Z.ltb_spec cnt REF_BUCKET_SIZE); [|lia].
      destruct (Z.eqb_spec k key); [contradiction|]. rewrite IH by (assumption || lia). cbn [length]. lia.
    + rewrite IH by (assumption || lia). cbn [length]. lia.
Qed.

(* while no bucket holds more than 64 keys the hash list is a lookup *)
Section Lookup.
  Variable vu : items.
  Hypothesis Hnd : NoDup (map fst vu).
  Hypothesis Hb : buckets_fine (map fst vu).

  Lemma index_hashed_none k : aget k vu = None -> index_hashed (gen_hash (map fst vu)) k = -1.
  Proof. intros H. apply hashed_absent, aget_none, H. Qed.

  Lemma index_hashed_some k d : aget k vu = Some d ->
    exists pre post, vu = pre ++ (k, d) :: post
      /\ index_hashed (gen_hash (map fst vu)) k = Z.of_nat (length pre).
  Proof.
    intros H. apply aget_in, in_split in H. destruct H as (pre & post & Hv).
    exists pre, post. split; [exact Hv|]. subst vu. destruct (nodup_mid _ _ _ _ Hnd) as [Hpre _].
    specialize (Hb (calc_hash_id k)). rewrite map_app in *. cbn [map fst] in *.
    rewrite bucket_count_app, bucket_count_cons, Z.eqb_refl in Hb.
    pose proof (bucket_count_range (map fst post) (calc_hash_id k)).
    unfold index_hashed. rewrite hashed_present, map_length by (assumption || lia). lia.
  Qed.
End Lookup.

Lemma all_from_iff f : forall d lo,
  all_from f d lo = true <-> (forall x, lo <= x < lo + 2 ^ Z.of_nat d -> f x = true).
Proof.
  induction d as [|d IH]; intros lo; cbn [all_from].
  - change (2 ^ Z.of_nat 0) with 1. split; [intros H x Hx; replace x with lo by lia; exact H|intros H; apply H; lia].
  - assert (E : 2 ^ Z.of_nat (S d) = 2 * 2 ^ Z.of_nat d) by (rewrite Nat2Z.inj_succ, Z.pow_succ_r by lia; reflexivity).
    assert (Hpos : 0 < 2 ^ Z.of_nat d) by (apply Z.pow_pos_nonneg; lia).
    rewrite andb_true_iff, !IH, E. split.
    + intros [H1 H2] x Hx. destruct (Z_lt_le_dec x (lo + 2 ^ Z.of_nat d)); [apply H1|apply H2]; lia.
    + intros H. split; intros x Hx; apply H; lia.
Qed.

(* all_types is unfolded in the goal, never in a hypothesis: checking that step the other way round
   makes the kernel walk both trees of 32768 leaves *)
Lemma all_types_iff f : all_types f = true <-> forall ty, 0 <= ty <= 32767 -> f ty = true.
Proof.
  unfold all_types. rewrite all_from_iff. change (2 ^ Z.of_nat 15) with 32768. split; intros H x Hx; apply H; lia.
Qed.

Lemma all_types_intro f : (forall ty, 0 <= ty <= 32767 -> f ty = true) -> all_types f = true.
Proof. apply all_types_iff. Qed.

Lemma ref_table_ok_at sz ty : ref_table_ok sz = true -> 0 <= ty <= 32767 ->
  match sz ty with Some s => ty < 64 /\ 0 < s /\ 4 * s <= 32767 | None => True end.
Proof.
  unfold ref_table_ok. intros Ht Hr. apply (proj1 (all_types_iff _)) with (ty := ty) in Ht; [|exact Hr].
  destruct (sz ty) as [s|]; [|exact I]. unfold REF_MAX_NETOBJSIZES in Ht.
  rewrite !andb_true_iff, !Z.ltb_lt, Z.leb_le in Ht. tauto.
Qed.

Lemma table_sizes_ok sz : ref_table_ok sz = true -> ref_sizes_ok sz = true.
Proof.
  unfold ref_sizes_ok. intros Ht. apply all_types_iff. intros ty Hr.
  pose proof (ref_table_ok_at sz ty Ht Hr) as H. destruct (sz ty) as [s|]; [|reflexivity].
  unfold REF_MAX_NETOBJSIZES. rewrite !andb_true_iff, Z.ltb_lt, !Z.leb_le. lia.
Qed.

Lemma include_size_spec sz ty : ref_table_ok sz = true -> 0 <= ty <= 32767 ->
  (if REF_MAX_NETOBJSIZES <=? ty then Ok true
   else if ty <? 0 then Panic site_ref_sizes
   else Ok (ref_sizes sz ty =? 0))
  = (Ok (match sz ty with Some _ => false | None => true end) : res unit bool).
Proof.
  intros Ht Hr. pose proof (ref_table_ok_at sz ty Ht Hr) as H.
  unfold ref_sizes, REF_MAX_NETOBJSIZES. destruct (Z.ltb_spec ty 0); [lia|].
  destruct (sz ty) as [s|]; [|destruct (64 <=? ty); reflexivity].
  destruct (Z.leb_spec 64 ty); [lia|]. destruct (Z.eqb_spec (4 * s) 0); [lia|reflexivity].
Qed.

Definition emitted (chA : items) (e : Z * list Z) : bool := absent chA (fst e) || needed (snd e).
Definition rdiffs (chA vB : items) : items := filter (emitted chA) (diffs chA vB).
Definition ref_del (vuA vuB : items) : list Z := filter (absent vuB) (map fst vuA).
(* the room the updates may take in the output buffer: type, id, size and data per item *)
Definition wsum (l : items) : Z := 3 * Z.of_nat (length l) + Z.of_nat (length (flat l)).
Definition keys_pos (keys : list Z) : Prop := forall k, In k keys -> 0 <= k <= i32_max.

Lemma ref_del_in vuA vuB k : In k (ref_del vuA vuB) <-> In k (map fst vuA) /\ absent vuB k = true.
Proof. apply filter_In. Qed.
Lemma ref_del_length vuA vuB : (length (ref_del vuA vuB) <= length vuA)%nat.
Proof. unfold ref_del. rewrite <- (map_length fst vuA). apply filter_length_le'. Qed.

Lemma wsum_cons k d t : wsum ((k, d) :: t) = 3 + Z.of_nat (length d) + wsum t.
Proof. unfold wsum. cbn [length flat flat_map snd]. rewrite app_length. fold (flat t). lia. Qed.
Lemma wsum_nonneg l : 0 <= wsum l.
Proof. unfold wsum. lia. Qed.

Lemma key_pos_ty k : 0 <= k <= i32_max ->
  Z.shiftr k 16 = key_to_raw_type_id k /\ Z.land k 65535 = key_to_id k /\ 0 <= key_to_raw_type_id k <= 32767.
Proof.
  intros Hk. unfold i32_max in Hk. rewrite key_to_ty_arith, key_to_id_arith, shiftr_div by lia.
  change 65535 with (2 ^ 16 - 1). rewrite land_pow2_mask by lia. change (2 ^ 16) with 65536.
  assert (E : u32_of k = k) by (unfold u32_of, two32; apply Z.mod_small; lia). rewrite E.
  split; [reflexivity|]. split; [reflexivity|]. Z.div_mod_to_equations; lia.
Qed.

Lemma c_size_t_small x : 0 <= x < 18446744073709551616 -> c_size_t x = x.
Proof. intros H. unfold c_size_t. apply Z.mod_small. exact H. Qed.

Lemma rdiffs_cons chA k d t : rdiffs chA ((k, d) :: t) =
  if emitted chA (k, diff_of chA (k, d)) then (k, diff_of chA (k, d)) :: rdiffs chA t else rdiffs chA t.
Proof. reflexivity. Qed.

Lemma upd_enc_eq sz k d : upd_enc sz (k, d) = key_to_raw_type_id k :: key_to_id k :: size_field sz k d ++ d.
Proof. reflexivity. Qed.

Section Create.
  Variable sz : osize.
  Hypothesis Hsz : ref_table_ok sz = true.
  Variables vuA vuB : items.
  Hypothesis HlimA : lim_ok vuA.
  Hypothesis HlimB : lim_ok vuB.
  Hypothesis HndA : NoDup (map fst vuA).
  Hypothesis HndB : NoDup (map fst vuB).
  Hypothesis HkB : keys_pos (map fst vuB).
  Hypothesis HbA : buckets_fine (map fst vuA).
  Hypothesis HbB : buckets_fine (map fst vuB).
  Hypothesis Hsl : same_len vuA vuB.
  Let sA := ref_layout vuA.
  Let sB := ref_layout vuB.

  (* the item A holds under the key is found through the hash list and subtracted; an item A lacks is sent as it is *)
  Lemma past_diff k d : (forall f, aget k vuA = Some f -> length f = length d) ->
    (if index_hashed (gen_hash (map fst vuA)) k =? -1 then Ok (true, d)
     else let* ppos := cs_item_pos sA (index_hashed (gen_hash (map fst vuA)) k) in
          let* pd := cs_read sA (ppos + 1) (Z.of_nat (length d)) in
          Ok (needed (diff_item pd d), diff_item pd d))
    = (Ok (emitted vuA (k, diff_of vuA (k, d)), diff_of vuA (k, d)) : res unit (bool * list Z)).
  Proof.
    intros Hlen. unfold emitted, absent, diff_of. cbn [fst snd]. destruct (aget k vuA) as [f|] eqn:Hf.
    - destruct (index_hashed_some vuA HndA HbA k f Hf) as (pre & post & Hv & ->).
      destruct (Z.eqb_spec (Z.of_nat (length pre)) (-1)); [lia|].
      unfold sA. rewrite (lay_pos vuA HlimA pre k f post Hv). cbn [bind].
      rewrite <- (Hlen f eq_refl), (lay_read vuA HlimA pre k f post Hv). reflexivity.
    - rewrite (index_hashed_none vuA k Hf), Z.eqb_refl. reflexivity.
  Qed.

  Lemma cd_updates_spec : forall todo done p, vuB = done ++ todo -> 0 <= p -> p + wsum todo <= 16384 ->
    cd_updates (ref_sizes sz) sA sB (gen_hash (map fst vuA)) (map fst todo) (Z.of_nat (length done)) p
    = Ok (Z.of_nat (length (rdiffs vuA todo)), flat_map (upd_enc sz) (rdiffs vuA todo)).
  Proof.
    induction todo as [|[k d] todo IH]; intros done p Hv Hp Hw; [reflexivity|].
    cbn [map fst cd_updates]. rewrite wsum_cons in Hw. pose proof (wsum_nonneg todo) as Hw0.
    assert (Hk : 0 <= k <= i32_max).
    { apply HkB. rewrite Hv, map_app. apply in_or_app. right. left. reflexivity. }
    assert (Hlen : forall f, aget k vuA = Some f -> length f = length d).
    { intros f Hf. apply (Hsl k f d Hf). rewrite Hv. apply aget_mid. rewrite Hv in HndB. apply (nodup_mid _ _ _ _ HndB). }
    destruct (key_pos_ty k Hk) as (Ety & Eid & Rty). rewrite Ety, Eid.
    unfold sB. rewrite (lay_size vuB HlimB done k d todo Hv). cbn [bind].
    assert (Hdl : 4 * Z.of_nat (length d) <= 65536).
    { pose proof (lim_ok_words vuB HlimB) as Hwd. rewrite Hv, ilen_app, ilen_cons in Hwd.
      pose proof (ilen_nonneg done). pose proof (ilen_nonneg todo). lia. }
    rewrite c_size_t_small by lia.
    replace (4 * Z.of_nat (length d) / 4) with (Z.of_nat (length d)) by (rewrite Z.mul_comm, Z_div_mult by lia; reflexivity).
    rewrite (lay_pos vuB HlimB done k d todo Hv). cbn [bind].
    rewrite (include_size_spec sz _ Hsz Rty). cbn [bind].
    rewrite c_int_small by (unfold i32_max; lia).
    set (incl := match sz (key_to_raw_type_id k) with Some _ => false | None => true end).
    assert (Hhl : 2 <= (if incl then 3 else 2) <= 3) by (destruct incl; lia).
    unfold REF_BUF_INTS. destruct (Z.ltb_spec 16384 (p + (if incl then 3 else 2) + Z.of_nat (length d))); [lia|].
    rewrite (lay_read vuB HlimB done k d todo Hv). cbn [bind].
    assert (Hnext : forall p', 0 <= p' -> p' <= p + 3 + Z.of_nat (length d) ->
      cd_updates (ref_sizes sz) sA sB (gen_hash (map fst vuA)) (map fst todo) (Z.of_nat (length done) + 1) p'
      = Ok (Z.of_nat (length (rdiffs vuA todo)), flat_map (upd_enc sz) (rdiffs vuA todo))).
    { intros p' H0 H1.
      replace (Z.of_nat (length done) + 1) with (Z.of_nat (length (done ++ [(k, d)]))) by (rewrite app_length; cbn [length]; lia).
      apply IH; [rewrite <- app_assoc; exact Hv|exact H0|lia]. }
    assert (Hsf : (if incl then [Z.of_nat (length d)] else []) = size_field sz k (diff_of vuA (k, d))).
    { unfold size_field, incl. rewrite diff_len by exact Hlen. destruct (sz (key_to_raw_type_id k)); reflexivity. }
    rewrite (past_diff k d Hlen), rdiffs_cons. cbn [bind].
    destruct (emitted vuA (k, diff_of vuA (k, d))); rewrite Hnext by lia; cbn [bind]; [|reflexivity].
    cbn [length flat_map]. rewrite upd_enc_eq, <- Hsf. f_equal. f_equal; [lia|].
    cbn [app]. rewrite <- app_assoc. reflexivity.
  Qed.

  Lemma deleted_spec :
    filter (fun k => index_hashed (gen_hash (map fst vuB)) k =? -1) (map fst vuA) = ref_del vuA vuB.
  Proof.
    apply filter_ext. intros k. unfold absent. destruct (aget k vuB) as [d|] eqn:Hd.
    - destruct (index_hashed_some vuB HndB HbB k d Hd) as (pre & post & _ & ->). apply Z.eqb_neq. lia.
    - rewrite (index_hashed_none vuB k Hd). reflexivity.
  Qed.

  Theorem ref_create_delta_spec :
    3 + Z.of_nat (length vuA) + wsum vuB <= 16384 ->
    ref_create_delta (ref_sizes sz) sA sB
    = Ok (if (Z.of_nat (length (ref_del vuA vuB)) =? 0) && (Z.of_nat (length (rdiffs vuA vuB)) =? 0) then []
          else wire_ints sz (ref_del vuA vuB) (rdiffs vuA vuB)).
  Proof.
    intros Hfit. unfold ref_create_delta, sA, sB.
    rewrite (lay_keys vuB HlimB). cbn [bind]. rewrite (lay_keys vuA HlimA). cbn [bind].
    rewrite deleted_spec.
    pose proof (ref_del_length vuA vuB) as Hdl.
    pose proof (wsum_nonneg vuB). unfold REF_BUF_INTS.
    destruct (Z.ltb_spec 16384 (3 + Z.of_nat (length (ref_del vuA vuB)))); [lia|].
    pose proof (cd_updates_spec vuB [] (3 + Z.of_nat (length (ref_del vuA vuB))) eq_refl) as Hc.
    cbn [length Z.of_nat] in Hc. fold sA sB in Hc. unfold sA, sB in Hc. rewrite Hc by lia. cbn [bind].
    destruct ((Z.of_nat (length (ref_del vuA vuB)) =? 0) && (Z.of_nat (length (rdiffs vuA vuB)) =? 0)); reflexivity.
  Qed.
End Create.
