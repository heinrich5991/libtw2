(* C20: peer ids. Live pids are distinct in every state; a pid is gone after disconnect / reject /
   ignore / a Close from the peer; a live pid keeps its address (and token flag) for as long as it
   lives, and every event carries the pid under which the table holds the event's address. The last
   two make "the calls on the pid that belongs to address a" (NetEndpointSpec.proj_op) well-defined.
   None of this needs the API contract. *)
From LibTw2 Require Import Base.Res Model.PacketTypes Model.ConnCore Model.Conn6 Model.NetEndpoint
  Proofs.ConnCoreInv Proofs.Conn6Inv Proofs.NetEndpointSpec Proofs.NetEndpointInv.
From Coq Require Import ZArith Lia Bool List Permutation.
Open Scope Z_scope.

Definition keeps (ps ps' : ptable) : Prop :=
  forall pid p', get_peer ps' pid = Some p' ->
    match get_peer ps pid with Some p => p_addr p' = p_addr p /\ p_token p' = p_token p | None => True end.

Lemma keeps_refl ps : keeps ps ps.
Proof. intros pid p' H. rewrite H. split; reflexivity. Qed.

Lemma keeps_set_conn ps pid c : keeps ps (set_conn ps pid c).
Proof.
  intros q p' H. destruct (Z.eq_dec q pid) as [->|Hne].
  - destruct (get_peer ps pid) as [p|] eqn:Hg; [|exact I].
    rewrite (get_peer_set_conn _ _ c _ Hg) in H. injection H as <-. split; reflexivity.
  - rewrite (get_peer_set_conn_other _ _ c _ Hne) in H. rewrite H. split; reflexivity.
Qed.

Lemma keeps_remove ps pid ps' : NoDup (pids ps) -> swap_remove ps pid = Some ps' -> keeps ps ps'.
Proof.
  intros Hnd Hs q p' H. rewrite (get_peer_remove _ _ _ q Hnd Hs) in H.
  destruct (pid =? q); [discriminate|]. rewrite H. split; reflexivity.
Qed.

Lemma keeps_app ps pid x : keeps ps (ps ++ [(pid, x)]).
Proof.
  intros q p' H. rewrite get_peer_app in H. destruct (get_peer ps q) as [p|]; [|exact I].
  injection H as <-. split; reflexivity.
Qed.

Lemma keeps_tick e ps ps' s : tick_all e ps = Ok (ps', s) -> keeps ps ps'.
Proof.
  intros Ht. pattern ps, ps', s. apply (tick_all_ind e); [apply keeps_refl| |exact Ht].
  clear. intros pid p out r r' s _ _ IH q p' Hq. cbn [get_peer] in *. destruct (pid =? q).
  - injection Hq as <-. split; reflexivity.
  - exact (IH q p' Hq).
Qed.

(* every event names the pid under which the table holds the event's address: the state before the
   call for what a peer's connection reports, the state after it for a new pending peer *)
Definition event_pid_ok (n n' : net) (ev : nev) : Prop :=
  match ne_kind ev, ne_pid ev with
  | NKConn _, Some pid => exists p, get_peer (n_peers n) pid = Some p /\ p_addr p = ne_addr ev
  | NKConn (EvConnless _), None => view n (ne_addr ev) = None \/
                                   exists c tok, view n (ne_addr ev) = Some (c, tok) /\ is_unconnected c = true
  | NKConn _, None => False
  | NKConnect, Some pid => get_peer (n_peers n) pid = None /\
                           exists p, get_peer (n_peers n') pid = Some p /\ p_addr p = ne_addr ev
  | NKConnect, None => False
  end.

Inductive effect (n : net) : net -> list nev -> Prop :=
| eff_quiet evs : Forall (fun ev => ne_pid ev = None /\ event_pid_ok n n ev) evs -> effect n n evs
| eff_arrive pid x n' evs : get_peer (n_peers n) pid = None -> n_peers n' = n_peers n ++ [(pid, x)] ->
    Forall (eq {| ne_addr := p_addr x; ne_pid := Some pid; ne_kind := NKConnect |}) evs -> effect n n' evs
| eff_stay pid p c evs : get_peer (n_peers n) pid = Some p -> existsb is_disconnect evs = false ->
    effect n (with_peers n (set_conn (n_peers n) pid c)) (conn_events (p_addr p) pid evs)
| eff_leave pid p n' evs : get_peer (n_peers n) pid = Some p -> remove_peer n pid = Ok n' ->
    effect n n' (conn_events (p_addr p) pid evs)
| eff_tick e ps' s : tick_all e (n_peers n) = Ok (ps', s) -> effect n (with_peers n ps') [].

(* disconnect, reject, ignore: the peer leaves, nothing is reported *)
Definition leaves (o : nop) : option Z :=
  match o with NDisconnect pid _ | NReject pid _ | NIgnore pid => Some pid | _ => None end.

Lemma leaves_after_call n e o out pid : net_step n e o = Ok out -> leaves o = Some pid ->
  exists p ao, get_peer (n_peers n) pid = Some p /\ (forall a, proj_op n a o = pid_op n a pid ao) /\
    exists n' ds, remove_peer n pid = Ok n' /\ out = nmk n' (to_addr (p_addr p) ds) [] [] ROk None /\
      astep (n_accept n) (Some (p_conn p, p_token p)) e ao = Ok (amk None ds [] [] ROk).
Proof.
  intros H Ho. destruct o as [| | |q r|q r|q| | | |]; try discriminate Ho; injection Ho as ->; cbn [net_step] in H.
  - destruct (get_peer (n_peers n) pid) as [p|]; [|discriminate].
    exists p, (AReject r). split; [reflexivity|]. split; [reflexivity|]. cbn [astep].
    destruct (is_unconnected (p_conn p)); [|discriminate].
    destruct (existsb (fun b => b =? 0) r); [discriminate|].
    destruct (MAX_PACKETSIZE <? control_size params6 None (Close r)); [discriminate|]. cbn [negb] in *.
    apply bind_ok in H as [n2 [Er H]]. injection H as <-.
    exists n2, [DControl None 0 (Close r)]. repeat split. exact Er.
  - destruct (get_peer (n_peers n) pid) as [p|]; [|discriminate].
    exists p, (ADisconnect r). split; [reflexivity|]. split; [reflexivity|]. cbn [astep].
    destruct (is_unconnected (p_conn p)); [discriminate|].
    apply bind_ok in H as [o1 [Ep H]]. apply peer_call_inv in Ep as [o6 [Es ->]]. cbn [no_net no_sent nmk] in H. rewrite remove_stored in H.
    apply bind_ok in H as [n2 [Er H]]. injection H as <-. rewrite Es.
    exists n2, (out_sent o6). repeat split. exact Er.
  - apply bind_ok in H as [n2 [Er H]]. injection H as <-.
    destruct (remove_peer_inv _ _ _ Er) as [ps' [Hs _]]. destruct (swap_remove_inv _ _ _ Hs) as [p [Hg _]].
    exists p, AIgnore. split; [exact Hg|]. split; [reflexivity|]. exists n2, []. repeat split. exact Er.
Qed.

(* accept, send, flush: one call into the peer's connection, which stays *)
Definition stays (o : nop) : option Z :=
  match o with NAccept pid | NSend pid _ _ | NFlush pid => Some pid | _ => None end.

Lemma stays_after_call n e o out pid : net_step n e o = Ok out -> stays o = Some pid ->
  exists p o6 ao, get_peer (n_peers n) pid = Some p /\
    out = nmk (with_peers n (set_conn (n_peers n) pid (out_conn o6))) (to_addr (p_addr p) (out_sent o6))
              (conn_events (p_addr p) pid (out_events o6)) (conn_warns (p_addr p) pid (out_warns o6)) (out_res o6) None /\
    existsb is_disconnect (out_events o6) = false /\
    (forall a, proj_op n a o = pid_op n a pid ao) /\
    astep (n_accept n) (Some (p_conn p, p_token p)) e ao = Ok (of_conn (p_token p) o6 false (out_res o6)).
Proof.
  intros H Ho. destruct o as [| |q| | | |q d vital|q| |]; try discriminate Ho; injection Ho as ->; cbn [net_step] in H.
  - destruct (get_peer (n_peers n) pid) as [p|] eqn:Hg; [|discriminate].
    destruct (is_unconnected (p_conn p)) eqn:Eu; [|discriminate]. cbn [negb] in H.
    apply bind_ok in H as [o1 [Ep H]]. apply peer_call_inv in Ep as [o6 [Es ->]]. cbn [no_warns no_events nmk] in H.
    destruct (out_warns o6) eqn:Ew; [|discriminate]. destruct (out_events o6) eqn:Ee; [|discriminate]. injection H as <-.
    exists p, o6, AAccept. rewrite Ew, Ee. repeat split. cbn [astep]. rewrite Eu, Es. cbn [negb bind]. rewrite Ew, Ee. reflexivity.
  - destruct (get_peer (n_peers n) pid) as [p|] eqn:Hg; [|discriminate]. apply peer_call_inv in H as [o6 [Es ->]].
    exists p, o6, (ASend d vital). repeat split; [rewrite (proj1 (step_quiet _ _ _ _ Es I)); reflexivity|cbn [astep]; rewrite Es; reflexivity].
  - destruct (get_peer (n_peers n) pid) as [p|] eqn:Hg; [|discriminate]. apply peer_call_inv in H as [o6 [Es ->]].
    exists p, o6, AFlush. repeat split; [rewrite (proj1 (step_quiet _ _ _ _ Es I)); reflexivity|cbn [astep]; rewrite Es; reflexivity].
Qed.

Lemma stateless_effect n a known r out :
  view n a = None \/ (exists c tok, view n a = Some (c, tok) /\ is_unconnected c = true) ->
  feed_stateless n a known r = Ok out -> effect n (no_net out) (no_events out).
Proof.
  intros Hv H. apply feed_stateless_inv in H.
  destruct (is_connect r) as [tok|], (negb known && n_accept n);
    try (destruct H as [-> [_ H]]; apply eff_quiet, Forall_forall; intros ev Hev; destruct (H ev Hev) as [payload ->]; split; [reflexivity|exact Hv]).
  destruct H as [n' [pid [En ->]]]. destruct (new_peer_inv _ _ _ _ _ En) as [Hg [Hps _]].
  apply (eff_arrive n pid (peer_new a tok)); [exact Hg|exact Hps|repeat constructor].
Qed.

Theorem step_effect n e o out : NoDup (pids (n_peers n)) -> net_step n e o = Ok out ->
  effect n (no_net out) (no_events out).
Proof.
  intros Hnd H. destruct (leaves o) as [pid|] eqn:El.
  { destruct (leaves_after_call n e o out pid H El) as [p [ao [Hg [_ [n' [ds [Er [-> _]]]]]]]]. exact (eff_leave n pid p n' [] Hg Er). }
  destruct (stays o) as [pid|] eqn:Est.
  { destruct (stays_after_call n e o out pid H Est) as [p [o6 [ao [Hg [-> [Ed _]]]]]]. exact (eff_stay n pid p _ _ Hg Ed). }
  destruct o as [a0 r|a0| | | | | | |a0 d|]; try discriminate El; try discriminate Est; cbn [net_step] in H.
  - unfold net_feed in H. pose proof (stateless_effect n a0) as Hst. unfold view, view_tab in Hst.
    destruct (pid_from_addr (n_peers n) a0) as [[pid p]|] eqn:Ef; [|apply (Hst false r out); [left; reflexivity|exact H]].
    destruct (is_unconnected (p_conn p)) eqn:Eu; [apply (Hst true r out); [right; eexists _, _; split; [reflexivity|exact Eu]|exact H]|].
    destruct (pid_from_addr_get _ _ _ _ Hnd Ef) as [Hg <-]. apply feed_peer_inv in H as [o6 [n' [_ [Hn' ->]]]].
    destruct (existsb is_disconnect (out_events o6)) eqn:Ed; [exact (eff_leave n pid p n' _ Hg Hn')|subst n'; exact (eff_stay n pid p _ _ Hg Ed)].
  - apply bind_ok in H as [[n1 pid] [En H]]. apply bind_ok in H as [o6 [_ H]]. injection H as <-.
    destruct (new_peer_inv _ _ _ _ _ En) as [Hg [Hps _]].
    apply (eff_arrive n pid (with_conn (peer_new a0 false) (out_conn o6))); [exact Hg| |constructor].
    cbn [no_net nmk with_peers n_peers]. rewrite Hps. apply set_conn_app_new, Hg.
  - destruct (MAX_PAYLOAD <? Z.of_nat (length d)); injection H as <-; apply eff_quiet; constructor.
  - apply bind_ok in H as [[ps' s] [Et H]]. injection H as <-. exact (eff_tick n e ps' s Et).
Qed.

Lemma remove_peer_pids n pid n' : NoDup (pids (n_peers n)) -> remove_peer n pid = Ok n' ->
  NoDup (pids (n_peers n')) /\ pid_live n' pid = false.
Proof.
  intros Hnd Hr. apply remove_peer_inv in Hr as [ps' [Hs ->]]. destruct (swap_remove_pids _ _ _ Hnd Hs) as [H1 H2].
  split; [exact H1|]. unfold pid_live. cbn [with_peers n_peers]. apply get_peer_None in H2. rewrite H2. reflexivity.
Qed.

Theorem step_pids n e o out : NoDup (pids (n_peers n)) -> net_step n e o = Ok out -> NoDup (pids (n_peers (no_net out))).
Proof.
  intros Hnd H. destruct (step_effect n e o out Hnd H) as [evs _|pid x n' evs Hg Hps _|pid p c evs _ _|pid p n' evs _ Hr|e' ps' s Ht].
  - exact Hnd.
  - rewrite Hps. unfold pids. rewrite map_app. apply (Permutation_NoDup (Permutation_cons_append _ _)).
    constructor; [apply get_peer_None, Hg|exact Hnd].
  - cbn [with_peers n_peers]. rewrite set_conn_pids. exact Hnd.
  - apply (remove_peer_pids _ _ _ Hnd Hr).
  - cbn [with_peers n_peers]. rewrite (proj1 (tick_all_keys _ _ _ _ Ht)). exact Hnd.
Qed.

Theorem run_pids tr : forall n now n' now' recs, NoDup (pids (n_peers n)) ->
  run_net n now tr = Ok (n', now', recs) ->
  NoDup (pids (n_peers n')) /\ Forall (fun r => NoDup (pids (n_peers (nr_post r)))) recs.
Proof.
  induction tr as [|l tr IH]; intros n now n' now' recs Hnd H.
  - cbn [run_net] in H. injection H as <- _ <-. split; [exact Hnd|constructor].
  - destruct l as [dt|rnd o]; cbn [run_net] in H.
    + destruct (run_net n (now + dt) tr) as [[[n1 now1] recs1]| | |] eqn:Er; try discriminate.
      injection H as <- _ <-. destruct (IH _ _ _ _ _ Hnd Er) as [H1 H2]. split; [exact H1|]. constructor; [exact Hnd|exact H2].
    + destruct (net_step n (mkenv now rnd) o) as [out| | |] eqn:Es; try discriminate.
      destruct (run_net (no_net out) now tr) as [[[n1 now1] recs1]| | |] eqn:Er; try discriminate.
      injection H as <- _ <-. pose proof (step_pids _ _ _ _ Hnd Es) as Hnd1.
      destruct (IH _ _ _ _ _ Hnd1 Er) as [H1 H2]. split; [exact H1|]. constructor; [exact Hnd1|exact H2].
Qed.

Theorem gone_after_call n e o out pid : NoDup (pids (n_peers n)) -> net_step n e o = Ok out ->
  (exists r, o = NDisconnect pid r) \/ (exists r, o = NReject pid r) \/ o = NIgnore pid ->
  pid_live (no_net out) pid = false.
Proof.
  intros Hnd H Ho. assert (Hl : leaves o = Some pid) by (destruct Ho as [[r ->]|[[r ->]| ->]]; reflexivity).
  destruct (leaves_after_call _ _ _ _ _ H Hl) as [p [ao [_ [_ [n' [ds [Er [-> _]]]]]]]]. apply (remove_peer_pids _ _ _ Hnd Er).
Qed.

(* a Disconnect event (the peer's Close) names a pid that is gone when the call returns *)
Theorem closed_pid_gone n e o out a pid reason : NoDup (pids (n_peers n)) -> net_step n e o = Ok out ->
  In {| ne_addr := a; ne_pid := Some pid; ne_kind := NKConn (EvDisconnect reason) |} (no_events out) ->
  pid_live (no_net out) pid = false.
Proof.
  intros Hnd H.
  destruct (step_effect n e o out Hnd H) as [evs He|q x n' evs _ _ He|q p c evs _ Hd|q p n' evs _ Hr|e' ps' s _]; intros Hin.
  - rewrite Forall_forall in He. destruct (He _ Hin) as [Hp _]. discriminate Hp.
  - rewrite Forall_forall in He. discriminate (He _ Hin).
  - apply in_map_iff in Hin as [ev [Hev Hin]]. injection Hev as _ _ ->.
    replace (existsb is_disconnect evs) with true in Hd; [discriminate|].
    symmetry. apply existsb_exists. eexists. split; [exact Hin|reflexivity].
  - apply in_map_iff in Hin as [ev [Hev _]]. injection Hev as _ <- _. apply (remove_peer_pids _ _ _ Hnd Hr).
  - destruct Hin.
Qed.

Theorem gone_after_close n e a r out pid reason : NoDup (pids (n_peers n)) -> net_step n e (NFeed a r) = Ok out ->
  In {| ne_addr := a; ne_pid := Some pid; ne_kind := NKConn (EvDisconnect reason) |} (no_events out) ->
  pid_live (no_net out) pid = false.
Proof. apply closed_pid_gone. Qed.

Theorem step_keeps n e o out : NoDup (pids (n_peers n)) -> net_step n e o = Ok out ->
  keeps (n_peers n) (n_peers (no_net out)).
Proof.
  intros Hnd H. destruct (step_effect n e o out Hnd H) as [evs _|pid x n' evs _ Hps _|pid p c evs _ _|pid p n' evs _ Hr|e' ps' s Ht].
  - apply keeps_refl.
  - rewrite Hps. apply keeps_app.
  - apply keeps_set_conn.
  - apply remove_peer_inv in Hr as [ps' [Hs ->]]. exact (keeps_remove _ _ _ Hnd Hs).
  - exact (keeps_tick _ _ _ _ Ht).
Qed.

Theorem step_event_pids n e o out : NoDup (pids (n_peers n)) -> net_step n e o = Ok out ->
  Forall (event_pid_ok n (no_net out)) (no_events out).
Proof.
  intros Hnd H. destruct (step_effect n e o out Hnd H) as [evs He|pid x n' evs Hg Hps He|pid p c evs Hg _|pid p n' evs Hg _|e' ps' s _].
  - revert He. apply Forall_impl. intros ev [_ He]. exact He.
  - revert He. apply Forall_impl. intros ev <-. split; [exact Hg|].
    exists x. split; [rewrite Hps, get_peer_app, Hg, Z.eqb_refl; reflexivity|reflexivity].
  - apply Forall_map, Forall_forall. intros ev _. destruct ev; exists p; (split; [exact Hg|reflexivity]).
  - apply Forall_map, Forall_forall. intros ev _. destruct ev; exists p; (split; [exact Hg|reflexivity]).
  - constructor.
Qed.

(* Net::feed_impl before fix b23a063: whoever has a peer gets the datagram, pending or not *)
Definition net_feed_before_fix (n : net) (e : env) (a : addr) (r : raw) : res unit nout :=
  match pid_from_addr (n_peers n) a with
  | Some (pid, p) => feed_peer n e a pid p r
  | None => feed_stateless n a false r
  end.
(* Net::reject before fix e2e7a4f: Connection::disconnect on the pending peer's connection *)
Definition net_reject_before_fix (n : net) (e : env) (pid : Z) (reason : bytes) : res unit nout :=
  match get_peer (n_peers n) pid with
  | None => Panic site_invalid_pid
  | Some p =>
    if negb (is_unconnected (p_conn p)) then Panic site_reject_not_pending else
    let* o1 := peer_call n e pid p (OpDisconnect reason) in
    let* n2 := remove_peer (no_net o1) pid in
    Ok (nmk n2 (no_sent o1) [] [] ROk None)
  end.
