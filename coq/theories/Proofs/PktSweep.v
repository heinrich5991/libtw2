(* List and byte-string facts the packet proofs share. *)
From LibTw2 Require Import Base.Res Base.Bits.
From Coq Require Import ZArith Lia Bool List.
Open Scope Z_scope.

Lemma implb_elim (a b : bool) : implb a b = true -> a = true -> b = true.
Proof. destruct a, b; simpl; congruence. Qed.

Definition is_nil {A} (l : list A) : bool := match l with [] => true | _ => false end.
Lemma is_nil_true {A} (l : list A) : is_nil l = true -> l = [].
Proof. destruct l; simpl; congruence. Qed.
Lemma is_nil_false {A} (l : list A) : is_nil l = false -> l <> [].
Proof. destruct l; simpl; congruence. Qed.

Lemma firstn_app_exact {A} (a b : list A) : firstn (length a) (a ++ b) = a.
Proof. rewrite firstn_app, Nat.sub_diag, firstn_all. cbn [firstn]. apply app_nil_r. Qed.

Lemma skipn_app_exact {A} (a b : list A) : skipn (length a) (a ++ b) = b.
Proof. rewrite skipn_app, Nat.sub_diag, skipn_all. reflexivity. Qed.

Lemma bytes_ok_app a b : bytes_ok (a ++ b) = bytes_ok a && bytes_ok b.
Proof. unfold bytes_ok. apply forallb_app. Qed.
Lemma bytes_ok_firstn n l : bytes_ok l = true -> bytes_ok (firstn n l) = true.
Proof.
  revert n. induction l as [|b l IH]; intros n H; [destruct n; reflexivity|].
  destruct n as [|n]; [reflexivity|]. unfold bytes_ok in *. cbn [firstn forallb] in *.
  apply andb_true_iff in H as [Hb Hl]. rewrite Hb. cbn [andb]. apply IH, Hl.
Qed.
Lemma bytes_ok_skipn n l : bytes_ok l = true -> bytes_ok (skipn n l) = true.
Proof.
  revert n. induction l as [|b l IH]; intros n H; [destruct n; reflexivity|].
  destruct n as [|n]; [exact H|]. unfold bytes_ok in *. cbn [skipn forallb] in *.
  apply andb_true_iff in H as [Hb Hl]. apply IH, Hl.
Qed.
