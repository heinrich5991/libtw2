(* The message-level reader: tick markers are nested and increasing, every record
   is reported in the tick doc/teehistorian.md assigns to it, positions and inputs
   are running sums. *)
From LibTw2 Require Import Base.Res Model.Varint Model.Packer Model.Teehistorian
  Proofs.TeehistFrag Proofs.TeehistParsers Proofs.TeehistReader Proofs.TeehistMsgs.
From Coq Require Import List Lia Arith ZArith Bool.
Import ListNotations.
Open Scope Z_scope.

Lemma checked_add_some a b c : checked_add a b = Some c -> c = a + b.
Proof. unfold checked_add. destruct (is_i32 (a + b)); [|discriminate]. intros H. injection H as <-. reflexivity. Qed.

Lemma nested_payload it open lo r : is_marker it = false ->
  nested open lo (it :: r) = (open <> None /\ nested open lo r).
Proof. destruct it; try discriminate; reflexivity. Qed.

Lemma item_ticks_payload it open r : is_marker it = false ->
  item_ticks open (it :: r) = open :: item_ticks open r.
Proof. destruct it; try discriminate; reflexivity. Qed.

(* one step of the documentation's loop *)
Definition doc_step (tick : Z) (ic : option Z) (m : dmsg) : Z * option Z :=
  match m with
  | DTickSkip dt => (tick + (dt + 1), None)
  | DPlayer cid => (match ic with Some p => if cid <=? p then tick + 1 else tick | None => tick end, Some cid)
  | DOther => (tick, ic)
  end.

Lemma doc_ticks_cons tick ic m ms :
  doc_ticks_from tick ic (m :: ms) =
  fst (doc_step tick ic m) :: doc_ticks_from (fst (doc_step tick ic m)) (snd (doc_step tick ic m)) ms.
Proof. destruct m; reflexivity. Qed.

Lemma doc_reported_cons tick ic f fs :
  doc_reported_from tick ic (f :: fs) =
  (if reported f then [fst (doc_step tick ic (dmsg_of f))] else [])
  ++ doc_reported_from (fst (doc_step tick ic (dmsg_of f))) (snd (doc_step tick ic (dmsg_of f))) fs.
Proof.
  unfold doc_reported_from. cbn [map]. rewrite doc_ticks_cons. cbn [combine filter fst snd].
  destruct (reported f); reflexivity.
Qed.

(* one call of Reader::read that knows the kind of an in-tick record: open a tick,
   or close the tick at a non-increasing cid, or go on to read the record *)
Lemma emit_pre_round n r k : normal k = true ->
  emit_pre (S n) r k =
  if negb (r_in_tick r) then
    let (its, x) := emit_pre n (set_in_tick true (set_next None r)) k in (TickStart (r_tick r) :: its, x)
  else if prevcond r k then
    match checked_add (r_tick r) 1 with
    | None => ([], None)
    | Some t' =>
      let (its, x) := emit_pre n (set_in_tick false (set_prev None (set_tick t' (set_next None r)))) k in
      (TickEnd (r_tick r) :: its, x)
    end
  else ([], Some r).
Proof.
  intros Hk. assert (Hf : is_finish k = false) by (destruct k; (reflexivity || discriminate)).
  rewrite emit_pre_S, before_item_eq, Hk, Hf. cbn [andb].
  destruct (negb (r_in_tick r)); [reflexivity|]. destruct (prevcond r k); [|reflexivity].
  destruct (checked_add (r_tick r) 1); reflexivity.
Qed.

Lemma emit_pre_skip r : emit_pre 4 r IKTickSkip = ([], Some r).
Proof. reflexivity. Qed.

Lemma emit_pre_finish r :
  emit_pre 4 (set_next None r) IKFinish =
  if r_in_tick r then ([TickEnd (r_tick r)], Some (set_in_tick false (set_next None r)))
  else ([], Some (set_next None r)).
Proof.
  rewrite emit_pre_S, before_item_eq. cbn [normal is_tick_skip is_finish negb andb prevcond player_cid].
  change (r_in_tick (set_next None r)) with (r_in_tick r). destruct (r_in_tick r); reflexivity.
Qed.

Lemma after_item_skip r dt x r2 : after_item r (FTickSkip dt) = Ok (x, r2) ->
  r_tick r2 = r_tick r + 1 + dt /\ r_prev r2 = None /\ r_in_tick r2 = negb (r_in_tick r)
  /\ x = Some (if r_in_tick r then TickEnd (r_tick r) else TickStart (r_tick r + 1 + dt))
  /\ r_players r2 = r_players r /\ r_inputs r2 = r_inputs r.
Proof.
  unfold after_item. cbn [fitem_cid]. destruct (i32_max <? dt); [discriminate|].
  destruct (checked_add (r_tick r) 1) as [t1|] eqn:E1; [|discriminate].
  destruct (checked_add t1 dt) as [t2|] eqn:E2; [|discriminate].
  apply checked_add_some in E1, E2. subst t1 t2.
  destruct (r_in_tick r); intros H; injection H as <- <-; cbn; auto 6.
Qed.

Lemma after_item_flags r f x r2 : reported f = true -> after_item r f = Ok (x, r2) ->
  r_tick r2 = r_tick r /\ r_in_tick r2 = r_in_tick r
  /\ r_prev r2 = match dmsg_of f with DPlayer c => Some c | _ => r_prev r end
  /\ exists it, x = Some it /\ is_marker it = false.
Proof.
  unfold after_item. destruct (bump_cid_eq r f) as [c ->].
  destruct f; try discriminate; intros _; by_tests; intros H; try discriminate;
    injection H as <- <-; cbn; eauto 8.
Qed.

Definition st_rel (r : reader) (open : option Z) (lo : Z) : Prop :=
  if r_in_tick r then open = Some (r_tick r) /\ lo = r_tick r + 1
  else open = None /\ lo <= r_tick r.

(* the markers before an in-tick record leave the reader inside the tick the
   documentation's loop is in after that record *)
Lemma emit_pre_ticks k : normal k = true -> forall n r open lo pre r1, st_rel r open lo ->
  emit_pre n r k = (pre, Some r1) ->
  r_in_tick r1 = true
  /\ r_tick r1 = (if prevcond r k then r_tick r + 1 else r_tick r)
  /\ r_prev r1 = (if prevcond r k then None else r_prev r)
  /\ forall rest, (nested (Some (r_tick r1)) (r_tick r1 + 1) rest -> nested open lo (pre ++ rest))
                  /\ item_ticks open (pre ++ rest) = item_ticks (Some (r_tick r1)) rest.
Proof.
  intros Hk. induction n as [|n IH]; intros r open lo pre r1 Hst H; [discriminate|].
  rewrite emit_pre_round in H by exact Hk. unfold st_rel in Hst.
  destruct (r_in_tick r) eqn:Eit; cbn [negb] in H.
  - destruct Hst as [-> ->]. destruct (prevcond r k).
    + (* the tick is closed: the next call opens tick + 1, with no previous cid *)
      destruct (checked_add (r_tick r) 1) as [t'|] eqn:Ea; [|discriminate]. apply checked_add_some in Ea. subst t'.
      destruct (emit_pre n _ k) as [its x] eqn:Ee. injection H as <- ->.
      eapply IH in Ee as [Hit [Ht [Hp Hrest]]]; [|split; [reflexivity|apply Z.le_refl]].
      rewrite prevcond_none in Ht, Hp by reflexivity.
      do 3 (split; [assumption|]). intros rest. destruct (Hrest rest) as [Hn Hi].
      split; [intros Hr; split; [reflexivity|exact (Hn Hr)]|exact Hi].
    + injection H as <- <-. do 3 (split; [assumption || reflexivity|]). intros rest. split; [exact (fun Hr => Hr)|reflexivity].
  - destruct Hst as [-> Hlo]. destruct (emit_pre n _ k) as [its x] eqn:Ee. injection H as <- ->.
    eapply IH in Ee as [Hit [Ht [Hp Hrest]]]; [|split; reflexivity].
    do 3 (split; [assumption|]). intros rest. destruct (Hrest rest) as [Hn Hi].
    split; [intros Hr; split; [reflexivity|split; [exact Hlo|exact (Hn Hr)]]|exact Hi].
Qed.

Lemma doc_step_normal r k f : kind_matches k f -> normal k = true ->
  reported f = true
  /\ doc_step (r_tick r) (r_prev r) (dmsg_of f)
     = (if prevcond r k then r_tick r + 1 else r_tick r,
        match dmsg_of f with DPlayer c => Some c | _ => if prevcond r k then None else r_prev r end).
Proof.
  intros Hkm Hk. unfold prevcond.
  destruct k; try discriminate Hk; cbn [kind_matches] in Hkm; decompose record Hkm; subst.
  all: try (destruct f; try discriminate Hkm).
  all: cbn [player_cid dmsg_of doc_step reported]; split; try reflexivity.
  all: destruct (r_prev r) as [p|]; [destruct (cid <=? p)|]; reflexivity.
Qed.

Lemma mstep_ticks r k f open lo pre r1 it r2 :
  kind_matches k f -> k <> IKFinish -> st_rel r open lo ->
  emit_pre 4 (set_next None r) k = (pre, Some r1) -> after_item r1 f = Ok (Some it, r2) ->
  r_tick r2 = fst (doc_step (r_tick r) (r_prev r) (dmsg_of f))
  /\ r_prev r2 = snd (doc_step (r_tick r) (r_prev r) (dmsg_of f))
  /\ exists open' lo', st_rel r2 open' lo'
     /\ forall rest, (nested open' lo' rest -> nested open lo (pre ++ it :: rest))
          /\ item_ticks open (pre ++ it :: rest)
             = (if reported f then [Some (r_tick r2)] else []) ++ item_ticks open' rest.
Proof.
  intros Hkm Hfin Hst Hpre Haf. destruct (normal k) eqn:Hk.
  - destruct (doc_step_normal r k f Hkm Hk) as [Hrep ->]. cbn [fst snd].
    destruct (emit_pre_ticks k Hk 4 (set_next None r) _ _ _ _ Hst Hpre) as [Hit [Ht [Hp Hrest]]].
    change (prevcond (set_next None r) k) with (prevcond r k) in Ht, Hp. cbn [set_next r_tick r_prev] in Ht, Hp.
    destruct (after_item_flags _ _ _ _ Hrep Haf) as [Ht2 [Hit2 [Hp2 [it' [Hx Hmk]]]]].
    injection Hx as <-. rewrite Hp, <- Ht in *. rewrite Hrep.
    split; [exact Ht2|]. split; [exact Hp2|].
    exists (Some (r_tick r2)), (r_tick r2 + 1). split; [unfold st_rel; rewrite Hit2, Hit; auto|].
    intros rest. destruct (Hrest (it :: rest)) as [Hn Hi]. rewrite Hi, Ht2.
    rewrite item_ticks_payload by exact Hmk. split; [|reflexivity].
    intros Hr. apply Hn. rewrite nested_payload by exact Hmk. split; [discriminate|exact Hr].
  - assert (k = IKTickSkip) as -> by (destruct k; try discriminate Hk; try reflexivity; contradiction).
    destruct Hkm as [dt [-> Hdt]]. rewrite emit_pre_skip in Hpre. injection Hpre as <- <-.
    destruct (after_item_skip _ _ _ _ Haf) as [Ht [Hp [Hit [Hx _]]]].
    cbn [set_next r_tick r_in_tick] in Ht, Hit, Hx. injection Hx as ->.
    cbn [dmsg_of doc_step fst snd reported app]. split; [lia|]. split; [exact Hp|].
    unfold st_rel in *. rewrite Hit, Ht. destruct (r_in_tick r); destruct Hst as [-> Hlo].
    + exists None, lo. cbn [negb nested item_ticks]. repeat split; (reflexivity || lia || assumption).
    + eexists _, _. cbn [negb nested item_ticks]. split; [split; reflexivity|].
      repeat split; (reflexivity || lia || assumption).
Qed.

Theorem mrun_ticks v bs ms : decodes v bs ms ->
  forall r items rf open lo, mrun r ms = (items, Some rf) -> st_rel r open lo ->
    nested open lo items
    /\ item_ticks open items = map Some (doc_reported_from (r_tick r) (r_prev r) (map snd ms)).
Proof.
  induction 1 as [bs r0 Hk|bs k rr f r' ms Hk Hr Hnf Hd IH]; intros r items rf open lo Hm Hst;
    cbn [map snd]; rewrite doc_reported_cons.
  - rewrite mrun_cons, emit_pre_finish in Hm. unfold st_rel in Hst.
    destruct (r_in_tick r); injection Hm as <- _; destruct Hst as [-> Hlo]; cbn; auto.
  - pose proof (decode_rest_kind _ _ _ _ Hr) as Hkm.
    destruct (mrun_cons_inv _ _ _ _ _ _ Hkm Hnf Hm) as [pre [r1 [it [r2 [its [Hpre [Haf [Emr ->]]]]]]]].
    destruct (mstep_ticks _ _ _ _ _ _ _ _ _ Hkm Hnf Hst Hpre Haf) as [Ht [Hp [open' [lo' [Hst' Hrest]]]]].
    destruct (IH r2 its rf open' lo' Emr Hst') as [IHn IHt].
    destruct (Hrest its) as [Hn Hi]. rewrite <- Ht, <- Hp, Hi, IHt.
    split; [exact (Hn IHn)|]. destruct (reported f); reflexivity.
Qed.

Lemma aget_aremove {V} k k' (m : amap V) : aget k' (aremove k m) = if k' =? k then None else aget k' m.
Proof.
  induction m as [|[k0 v0] m IH]; cbn [aremove aget].
  - destruct (k' =? k); reflexivity.
  - destruct (Z.eqb_spec k k0) as [->|Hne].
    + rewrite IH. destruct (Z.eqb_spec k' k0); reflexivity.
    + cbn [aget]. rewrite IH. destruct (Z.eqb_spec k' k0) as [->|Hne'].
      * destruct (Z.eqb_spec k0 k); [congruence|reflexivity].
      * reflexivity.
Qed.

Lemma aget_aset {V} k k' (v : V) (m : amap V) : aget k' (aset k v m) = if k' =? k then Some v else aget k' m.
Proof.
  unfold aset. cbn [aget]. destruct (Z.eqb_spec k' k) as [->|Hne]; [reflexivity|].
  rewrite aget_aremove. destruct (Z.eqb_spec k' k); [contradiction|reflexivity].
Qed.

Definition agrees {V} (f : Z -> option V) (m : amap V) : Prop := forall c, f c = aget c m.

Lemma agrees_aset {V} (f : Z -> option V) m k v : agrees f m -> agrees (upd f k (Some v)) (aset k v m).
Proof. intros H c. rewrite aget_aset. unfold upd. destruct (c =? k); [reflexivity|apply H]. Qed.

Lemma agrees_aremove {V} (f : Z -> option V) m k : agrees f m -> agrees (upd f k None) (aremove k m).
Proof. intros H c. rewrite aget_aremove. unfold upd. destruct (c =? k); [reflexivity|apply H]. Qed.

Lemma emit_pre_maps : forall n r k pre x, emit_pre n r k = (pre, x) ->
  payload pre = [] /\ (forall r1, x = Some r1 -> r_players r1 = r_players r /\ r_inputs r1 = r_inputs r).
Proof.
  induction n as [|n IH]; intros r k pre x H; [injection H as <- <-; split; [reflexivity|discriminate]|].
  rewrite emit_pre_S in H. destruct (before_item r k) as [it r'|e|r'] eqn:Eb.
  - destruct (emit_pre n (set_next None r') k) as [its x'] eqn:Ee. injection H as <- <-.
    destruct (before_item_frame _ _ _ _ Eb) as [Hmk [_ [_ [Hp Hi]]]].
    destruct (IH _ _ _ _ Ee) as [Hpay Hmaps]. split.
    + unfold payload. cbn [filter]. rewrite Hmk. exact Hpay.
    + intros r1 Hx. rewrite <- Hp, <- Hi. exact (Hmaps r1 Hx).
  - injection H as <- <-. split; [reflexivity|discriminate].
  - injection H as <- <-. apply before_item_read in Eb. subst. split; [reflexivity|].
    intros r1 Hx. injection Hx as <-. auto.
Qed.

Lemma after_item_sums r f it r2 pos inp : reported f = true -> after_item r f = Ok (Some it, r2) ->
  agrees pos (r_players r) -> agrees inp (r_inputs r) ->
  is_marker it = false /\
  exists pos' inp', agrees pos' (r_players r2) /\ agrees inp' (r_inputs r2)
    /\ forall l, sums_ok pos' inp' l -> sums_ok pos inp ((f, it) :: l).
Proof.
  unfold after_item. destruct (bump_cid_eq r f) as [c ->]. intros Hrep H Hpos Hinp.
  destruct f; try discriminate Hrep; cbn beta iota zeta in H;
    cbn [set_max_cid set_prev r_players r_inputs] in H;
    try (destruct (cid <? 0); [discriminate|]).
  - (* PlayerDiff *)
    destruct (aget cid (r_players r)) as [[ox oy]|] eqn:Eg; [|discriminate].
    injection H as <- <-. split; [reflexivity|]. eexists _, inp.
    split; [apply agrees_aset, Hpos|]. split; [exact Hinp|].
    intros l Hl. exists ox, oy. rewrite Hpos, Eg. auto.
  - (* PlayerNew *)
    destruct (aget cid (r_players r)) eqn:Eg; [discriminate|].
    injection H as <- <-. split; [reflexivity|]. eexists _, inp.
    split; [apply agrees_aset, Hpos|]. split; [exact Hinp|].
    intros l Hl. split; [reflexivity|exact Hl].
  - (* PlayerOld *)
    destruct (aget cid (r_players r)) as [[ox oy]|] eqn:Eg; [|discriminate].
    injection H as <- <-. split; [reflexivity|]. eexists _, inp.
    split; [apply agrees_aremove, Hpos|]. split; [exact Hinp|].
    intros l Hl. exists ox, oy. rewrite Hpos, Eg. auto.
  - (* InputDiff *)
    destruct (aget cid (r_inputs r)) as [old|] eqn:Eg; [|discriminate].
    injection H as <- <-. split; [reflexivity|]. eexists pos, _.
    split; [exact Hpos|]. split; [apply agrees_aset, Hinp|].
    intros l Hl. exists old. rewrite Hinp, Eg. auto.
  - (* InputNew *)
    injection H as <- <-. split; [reflexivity|]. eexists pos, _.
    split; [exact Hpos|]. split; [apply agrees_aset, Hinp|].
    intros l Hl. split; [reflexivity|exact Hl].
  - injection H as <- <-. split; [reflexivity|]. exists pos, inp. cbn [sums_ok]. auto.
  - injection H as <- <-. split; [reflexivity|]. exists pos, inp. cbn [sums_ok]. auto.
  - injection H as <- <-. split; [reflexivity|]. exists pos, inp. cbn [sums_ok]. auto.
Qed.

Lemma payload_app a b : payload (a ++ b) = payload a ++ payload b.
Proof. apply filter_app. Qed.

Theorem mrun_sums v bs ms : decodes v bs ms ->
  forall r items rf pos inp, mrun r ms = (items, Some rf) ->
    agrees pos (r_players r) -> agrees inp (r_inputs r) ->
    length (filter reported (map snd ms)) = length (payload items)
    /\ sums_ok pos inp (combine (filter reported (map snd ms)) (payload items)).
Proof.
  induction 1 as [bs r0 Hk|bs k rr f r' ms Hk Hr Hnf Hd IH]; intros r items rf pos inp Hm Hpos Hinp.
  - rewrite mrun_cons in Hm. unfold mrest in Hm.
    destruct (emit_pre 4 (set_next None r) IKFinish) as [pre [r1|]] eqn:Ee; [|discriminate].
    injection Hm as <- _. rewrite (proj1 (emit_pre_maps _ _ _ _ _ Ee)). split; [reflexivity|exact I].
  - pose proof (decode_rest_kind _ _ _ _ Hr) as Hkm.
    destruct (mrun_cons_inv _ _ _ _ _ _ Hkm Hnf Hm) as [pre [r1 [it [r2 [its [Ee [Eaf [Emr ->]]]]]]]].
    destruct (emit_pre_maps _ _ _ _ _ Ee) as [Hpay Hmaps].
    destruct (Hmaps r1 eq_refl) as [Hp1 Hi1]. cbn [set_next r_players r_inputs] in Hp1, Hi1.
    rewrite <- Hp1 in Hpos. rewrite <- Hi1 in Hinp.
    rewrite payload_app, Hpay. cbn [app map snd filter]. unfold payload at 1 2. cbn [filter].
    fold (payload its). destruct (reported f) eqn:Erep.
    + destruct (after_item_sums r1 f it r2 pos inp Erep Eaf Hpos Hinp) as [Hmk [pos' [inp' [Hp' [Hi' Hs]]]]].
      destruct (IH r2 its rf pos' inp' Emr Hp' Hi') as [Hlen Hsum].
      rewrite Hmk. cbn [negb length combine]. split; [rewrite Hlen; reflexivity|exact (Hs _ Hsum)].
    + (* TICK_SKIP: its item is a marker *)
      destruct f; try discriminate Erep; [destruct (Hnf (kind_matches_finish _ Hkm))|].
      destruct (after_item_skip _ _ _ _ Eaf) as [_ [_ [_ [Hx [Hp2 Hi2]]]]]. injection Hx as ->.
      rewrite <- Hp2 in Hpos. rewrite <- Hi2 in Hinp.
      destruct (r_in_tick r1); exact (IH r2 its rf pos inp Emr Hpos Hinp).
Qed.

Definition wrap32 (z : Z) : Z := i32_of (u32_of z).

Lemma wadd_wrap a b : wadd (wrap32 a) b = wrap32 (a + b).
Proof.
  unfold wadd, wrap32, i32_of, u32_of, two31, two32. f_equal.
  destruct (a mod 4294967296 <? 2147483648).
  - rewrite Zplus_mod_idemp_l. reflexivity.
  - replace (a mod 4294967296 - 4294967296 + b) with (a mod 4294967296 + b + (-1) * 4294967296) by lia.
    rewrite Z_mod_plus_full, Zplus_mod_idemp_l. reflexivity.
Qed.

Definition zsum (ds : list Z) : Z := fold_right Z.add 0 ds.

Lemma wadd_fold_wrapped ds : forall a, fold_left wadd ds (wrap32 a) = wrap32 (a + zsum ds).
Proof.
  induction ds as [|d ds IH]; intros a; cbn [fold_left zsum fold_right].
  - f_equal. lia.
  - rewrite wadd_wrap, IH. f_equal. fold (zsum ds). lia.
Qed.

Lemma wadd_fold x0 d ds : fold_left wadd (d :: ds) x0 = wrap32 (x0 + d + zsum ds).
Proof.
  cbn [fold_left]. change (wadd x0 d) with (wrap32 (x0 + d)). apply wadd_fold_wrapped.
Qed.
