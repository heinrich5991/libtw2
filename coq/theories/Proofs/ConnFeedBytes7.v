(* C03 at the byte level (0.7): feeding BYTES = the library's packet reader (Model/Packet7.v; the
   0.7 Packet::read takes no token hint) followed by the connection's feed on the value it
   returns. Twin of ConnFeedBytes6.v. *)
From LibTw2 Require Import Base.Res Model.PacketTypes Model.PacketBase Model.Packet7 Model.PacketInst
  Model.ConnCore Model.Conn7 Proofs.ConnInert Proofs.Packet7Chunks Proofs.Packet7Total.
From Coq Require Import ZArith Lia Bool List.
Open Scope Z_scope.

Definition ctl_of7 (c : control7) : control :=
  match c with
  | C7KeepAlive => KeepAlive | C7Connect r => Connect (Some r) | C7Accept => Accept
  | C7Close r => Close r | C7Token r => TokenMsg r
  end.

(* the value feed_impl works on: the packet as read, its chunks as the chunk iterator yields them *)
Definition abstract7 (p : packet7) : dgram :=
  match p with
  | P7Connless pl tok resp => DConnless (Some tok) (Some resp) pl
  | P7Connected ack tok (P7Control c) => DControl (Some tok) ack (ctl_of7 c)
  | P7Connected ack tok (P7Chunks rr n payload) =>
    DChunks (Some tok) ack rr n (match chunks_iter_all7 payload n with Ok (cvs, _, _) => map fst cvs | _ => [] end)
  end.

(* Connection::feed with a 1400-byte scratch buffer *)
Definition feed_bytes7 (c : conn7) (e : env) (bs : bytes) : res unit outcome7 :=
  match snd (read7_tw bs 1400) with
  | Ok (p, _) => step7 c e (Op7Feed (abstract7 p))
  | Err _ => step7 c e Op7FeedGarbage          (* Warning::Read(e); nothing else happens *)
  | Panic s => Panic s
  | OutOfFuel => OutOfFuel
  end.

Definition read_packet7 (bs : bytes) : option packet7 :=
  match snd (read7_tw bs 1400) with Ok (p, _) => Some p | _ => None end.

Definition carried_token7 (bs : bytes) : option token :=
  match read_packet7 bs with Some (P7Connected _ tok _) => Some tok | _ => None end.

(* the protocol's documented exception: an endpoint that has answered a token request and waits
   for the connect still answers token requests that carry the header token ff ff ff ff *)
Definition token_request_exception7 (c : conn7) (bs : bytes) : bool :=
  match c7_state c, read_packet7 bs with
  | PendingConnect7 _, Some (P7Connected _ tok (P7Control (C7Token _))) => tokb tok PacketTypes.TOKEN_NONE
  | _, _ => false
  end.

Definition connless_tokens_right7 (c : conn7) (bs : bytes) : bool :=
  match read_packet7 bs with
  | Some (P7Connless _ tok resp) =>
    otokb (Some tok) (own_token (c7_state c)) && otokb (Some resp) (their_token (c7_state c))
  | _ => false
  end.

Lemma read7_tw_total bs : bytes_ok bs = true ->
  match snd (read7_tw bs 1400) with Ok (p, _) => expressible7 p = true | Err _ => True | _ => False end.
Proof.
  intros Hb. pose proof (Packet7Total.read7_good tw_decomp bs 1400 None Hb (le_n _) I) as H.
  unfold Packet7Total.good_result7 in H. unfold read7_tw.
  destruct (snd (read7 tw_decomp bs 1400)) as [[p vs]| | |]; tauto.
Qed.

Theorem inert7_bytes c e bs t :
  token_fixed7 c t -> bytes_ok bs = true ->
  carried_token7 bs <> Some t -> token_request_exception7 c bs = false -> connless_tokens_right7 c bs = false ->
  exists ws, feed_bytes7 c e bs = Ok (mk7 c e [] [] ws R7Ok).
Proof.
  intros Hfix Hb Htok Hex Hcl.
  unfold feed_bytes7, carried_token7, token_request_exception7, connless_tokens_right7, read_packet7 in *.
  pose proof (read7_tw_total bs Hb) as Hgood.
  destruct (snd (read7_tw bs 1400)) as [[p vs]|er|s|]; try contradiction.
  - destruct p as [pl tok resp|ack tok ty].
    + unfold step7. cbn [abstract7].
      destruct (inert7_connless c e (Some tok) (Some resp) pl) as [w Hw]; [|exists [w]; exact Hw].
      apply andb_false_iff in Hcl as [H|H]; [left|right]; intros E; apply otokb_true in E; rewrite E in H; discriminate.
    + exists [W7TokenMismatch]. unfold step7. apply inert7 with (t := t); [exact Hfix| | |].
      * destruct ty; reflexivity.
      * assert (Hc : carried7 (abstract7 (P7Connected ack tok ty)) = tok) by (destruct ty; reflexivity).
        rewrite Hc. intros E. apply Htok. rewrite E. reflexivity.
      * unfold exception7. destruct (c7_state c); try reflexivity; destruct ty as [rr n pl|[| | | |]]; try reflexivity.
        exact Hex.
  - exists []. reflexivity.
Qed.

Theorem exception7_bytes c e bs own ack their :
  c7_state c = PendingConnect7 own -> own <> PacketTypes.TOKEN_NONE -> bytes_ok bs = true ->
  read_packet7 bs = Some (P7Connected ack PacketTypes.TOKEN_NONE (P7Control (C7Token their))) ->
  feed_bytes7 c e bs = Ok (mk7 c e [DControl (Some their) 0 (TokenMsg own)] [] [] R7Ok).
Proof.
  intros Hst Hown Hb Hrd. unfold feed_bytes7, read_packet7 in *.
  pose proof (read7_tw_total bs Hb) as Hx.
  destruct (snd (read7_tw bs 1400)) as [[p vs]|er|s|]; try discriminate.
  injection Hrd as ->. cbn [expressible7] in Hx.
  unfold step7. cbn [abstract7 ctl_of7].
  apply exception7_answer; [exact Hst|exact Hown|reflexivity|unfold SEQ_MOD; lia].
Qed.
