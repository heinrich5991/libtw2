(* On a reader that passed check() (reader_inv) every accessor returns a value or an
   error -- no panic, no fuel exhaustion -- and what it returns lies inside the item area
   / the data section. *)
From LibTw2 Require Import Base.Res Model.Datafile Proofs.DatafileBase Proofs.DatafileCheck.
From Coq Require Import ZArith List Lia Bool.
Import ListNotations.
Open Scope Z_scope.

(* an ItemView is the sub-slice [iv_off, iv_off+iv_len) of items_raw, behind an item header *)
Definition view_inside (r : reader) (v : item_view) : Prop :=
  2 <= iv_off v /\ 0 <= iv_len v /\ iv_off v + iv_len v <= zlen (r_items_raw r) /\
  iv_data v = firstn (Z.to_nat (iv_len v)) (skipn (Z.to_nat (iv_off v)) (r_items_raw r)) /\
  0 <= iv_type v < 65536 /\ 0 <= iv_id v < 65536.

Lemma ih_type_id_range a : 0 <= ih_type_id a < 65536.
Proof. unfold ih_type_id. apply Z.mod_pos_bound. lia. Qed.
Lemma ih_id_range a : 0 <= ih_id a < 65536.
Proof. unfold ih_id. apply Z.mod_pos_bound. lia. Qed.

Lemma view_inside_i32 r v : reader_pre r -> view_inside r v -> all_i32 (iv_data v).
Proof. intros Hp (_ & _ & _ & -> & _). apply all_i32_firstn, all_i32_skipn, rp_raw_i32, Hp. Qed.

Lemma item_spec r i : reader_inv r -> 0 <= i < h_num_items (r_hdr r) ->
  exists v a b, item r i = Ok v /\ view_inside r v /\ item_header r i = Ok (a, b)
    /\ iv_type v = ih_type_id a /\ iv_id v = ih_id a /\ iv_len v = b / 4
    /\ exists off, znth (r_item_offsets r) i = Some off /\ iv_off v = off / 4 + 2.
Proof.
  intros Hinv Hi. pose proof (ri_pre r Hinv) as Hp.
  destruct (ri_items r Hinv i Hi) as (off & a & b & Hz & Ho & H4 & Hih & Hb & Hb4 & Hs).
  destruct (rp_hdr r Hp) as (_ & _ & _ & _ & _ & _ & Hsi & _). pose proof (rp_raw_len r Hp) as Hl.
  assert (Hq : 0 <= off / 4 /\ 4 * (off / 4) = off /\ 0 <= b / 4 /\ 4 * (b / 4) = b)
    by (Z.div_mod_to_equations; lia).
  unfold item. rewrite Hih. cbn [bind snd fst].
  rewrite (index_of_znth _ _ _ _ (proj1 Hi) Hz). cbn [bind].
  rewrite assert_usize_ok by lia. cbn [bind]. rewrite rsom_1_4_ok by lia. cbn [bind].
  rewrite slice_from_ok by lia. cbn [bind].
  pose proof (zlen_skipn (r_items_raw r) (off / 4) ltac:(lia)) as Hl1.
  rewrite slice_from_ok by lia. cbn [bind].
  pose proof (zlen_skipn (skipn (Z.to_nat (off / 4)) (r_items_raw r)) 2 ltac:(lia)) as Hl2.
  rewrite assert_usize_ok by lia. cbn [bind]. rewrite rsom_1_4_ok by lia. cbn [bind].
  rewrite slice_to_ok by lia. cbn [bind]. rewrite skipn_skipn'.
  eexists. exists a, b. split; [reflexivity|]. cbn [iv_type iv_id iv_off iv_len iv_data].
  split; [|repeat split; auto; exists off; auto].
  unfold view_inside. cbn [iv_type iv_id iv_off iv_len iv_data].
  repeat split; try lia; try apply ih_type_id_range; try apply ih_id_range.
  f_equal. f_equal. lia.
Qed.

Lemma collect_range_spec {A} (f : Z -> res err A) (P : A -> Prop) : forall fuel lo hi,
  hi - lo <= Z.of_nat fuel -> (forall k, lo <= k < hi -> exists x, f k = Ok x /\ P x) ->
  exists l, collect_range fuel f lo hi = Ok l /\ Forall P l.
Proof.
  induction fuel as [|fuel IH]; intros lo hi Hfuel Hf; cbn [collect_range];
    (destruct (hi <=? lo) eqn:E0; [exists []; auto|]); [lia|].
  destruct (Hf lo ltac:(lia)) as (x & -> & HP). cbn [bind].
  destruct (IH (lo + 1) hi ltac:(lia) ltac:(intros; apply Hf; lia)) as (l & -> & HPl).
  cbn [bind]. eauto.
Qed.

(* the same loop over the positions of a list: element by element, related by R *)
Lemma collect_range_list {A B} (f : Z -> res err A) (R : B -> A -> Prop) (l : list B) fuel :
  (length l < fuel)%nat ->
  (forall pre x post, l = pre ++ x :: post -> exists v, f (zlen pre) = Ok v /\ R x v) ->
  exists vs, collect_range fuel f 0 (zlen l) = Ok vs /\ Forall2 R l vs.
Proof.
  intros Hfuel Hf.
  assert (H : forall suf pre fu, (length suf < fu)%nat -> l = pre ++ suf ->
            exists vs, collect_range fu f (zlen pre) (zlen l) = Ok vs /\ Forall2 R suf vs).
  { induction suf as [|x suf IH]; intros pre fu Hfu Hl; (destruct fu as [|fu]; [cbn in Hfu; lia|]);
      cbn [collect_range].
    - rewrite app_nil_r in Hl. subst pre. rewrite Z.leb_refl. eauto.
    - assert (zlen l = zlen pre + 1 + zlen suf) by (rewrite Hl, zlen_app, zlen_cons; lia).
      pose proof (zlen_nonneg suf). destruct (zlen l <=? zlen pre) eqn:E0; [lia|].
      destruct (Hf pre x suf Hl) as (v & -> & Hv). cbn [bind].
      destruct (IH (pre ++ [x]) fu) as (vs & Hvs & Hall);
        [cbn [length] in Hfu; lia|rewrite <- app_assoc; exact Hl|].
      rewrite zlen_snoc in Hvs. rewrite Hvs. cbn [bind]. eauto. }
  exact (H l [] fuel Hfuel eq_refl).
Qed.

Lemma Forall2_map_inv {A B} (h : A -> B) (P : A -> Prop) l vs :
  Forall2 (fun x v => h v = x /\ P v) l vs -> map h vs = l /\ Forall P vs.
Proof. induction 1 as [|x v l vs [Hv HP] _ [IH1 IH2]]; cbn [map]; [auto|]. rewrite Hv, IH1. auto. Qed.

Lemma item_type_indices_spec r ty : reader_inv r ->
  exists s e, item_type_indices r ty = Ok (s, e) /\ 0 <= s <= e /\ e <= h_num_items (r_hdr r)
    /\ ((s = 0 /\ e = 0) \/ exists t, In t (r_item_types r) /\ t_type_id t = ty /\ s = t_start t /\ e = t_start t + t_num t).
Proof.
  intros Hinv. pose proof (ri_types r Hinv) as Ht.
  destruct (rp_hdr r (ri_pre r Hinv)) as (_ & _ & _ & _ & Hni & _).
  unfold item_type_indices. induction (r_item_types r) as [|t rest IH]; cbn [item_type_indices_loop].
  - exists 0, 0. repeat split; auto; lia.
  - inversion Ht as [|? ? (Hty & Hst & Hnum & Hsum) Hrest]; subst.
    rewrite (Z.mod_small (t_type_id t)) by lia.
    destruct (t_type_id t =? ty) eqn:E.
    + rewrite !assert_usize_ok by lia. cbn [bind]. rewrite usize_add_ok by lia. cbn [bind].
      exists (t_start t), (t_start t + t_num t). repeat split; try lia.
      right. exists t. repeat split; auto; [left; reflexivity|lia].
    + destruct (IH Hrest) as (s & e & H1 & H2 & H3 & H4). exists s, e. repeat split; auto; try lia.
      destruct H4 as [H4|(t' & Hin & H5)]; [left; exact H4|right; exists t'; split; [right; exact Hin|exact H5]].
Qed.

Lemma find_loop_spec r item_id : reader_inv r -> forall fuel lo hi,
  0 <= lo -> hi <= h_num_items (r_hdr r) -> hi - lo <= Z.of_nat fuel ->
  exists o, find_loop fuel r lo hi item_id = Ok o /\ match o with Some v => view_inside r v | None => True end.
Proof.
  intros Hinv. induction fuel as [|fuel IH]; intros lo hi Hlo Hhi Hfuel; cbn [find_loop];
    (destruct (hi <=? lo) eqn:E0; [exists None; auto|]); [lia|].
  destruct (item_spec r lo Hinv ltac:(lia)) as (v & a & b & -> & Hin & _). cbn [bind].
  destruct (iv_id v =? item_id); [exists (Some v); auto|apply IH; lia].
Qed.

Lemma find_item_spec r ty id : reader_inv r ->
  exists o, find_item r ty id = Ok o /\ match o with Some v => view_inside r v | None => True end.
Proof.
  intros Hinv. unfold find_item. destruct (item_type_indices_spec r ty Hinv) as (s & e & -> & H1 & H2 & _).
  cbn [bind fst snd]. apply find_loop_spec; try assumption; try lia.
  pose proof (rp_offsets_len r (ri_pre r Hinv)) as Hlen. unfold zlen in Hlen. lia.
Qed.

Definition zcase (data_len : Z) (z : zres) : res err bytes :=
  match z with
  | ZOk out => if zlen out =? data_len then Ok out else Err CompressionWrongSize
  | ZErr code => Err (CompressionError code)
  end.

Lemma seek_read_exact_inside (data : bytes) start len : 0 <= start -> 0 <= len -> start + len <= zlen data ->
  seek_read_exact data start len = Ok (firstn (Z.to_nat len) (skipn (Z.to_nat start) data)).
Proof.
  intros Hs Hl Hb. unfold seek_read_exact. cbv zeta.
  rewrite (Z.max_r 0 (zlen data - start)), Z.min_l, Z.eqb_refl by lia. cbn [negb].
  destruct (len <=? 0) eqn:E; [|reflexivity]. replace len with 0 by lia. reflexivity.
Qed.

Lemma data_size_file_spec r i : reader_inv r -> 0 <= i < h_num_data (r_hdr r) ->
  exists o e, znth (r_data_offsets r) i = Some o /\ 0 <= o <= e /\ e <= h_size_data (r_hdr r)
    /\ (if i <? h_num_data (r_hdr r) - 1 then znth (r_data_offsets r) (i + 1) = Some e else e = h_size_data (r_hdr r))
    /\ data_size_file r i = Ok (e - o).
Proof.
  intros Hinv Hi. pose proof (ri_pre r Hinv) as Hp.
  destruct (rp_hdr r Hp) as (_ & _ & _ & _ & _ & Hnd & _ & Hsd & _). pose proof (rp_doffsets_len r Hp) as Hdl.
  destruct (ri_data r Hinv i Hi) as (o & Hz & Ho & Hnext & _).
  exists o. unfold data_size_file. rewrite (index_of_znth _ _ _ _ (proj1 Hi) Hz). cbn [bind].
  rewrite usize_sub_ok by lia. cbn [bind]. rewrite Hdl, (as_usize_small o) by lia.
  destruct (i <? h_num_data (r_hdr r) - 1) eqn:E.
  - destruct (ri_data r Hinv (i + 1) ltac:(lia)) as (e & Hz' & He & _). specialize (Hnext e ltac:(lia) Hz').
    exists e. rewrite (index_of_znth _ (i + 1) _ _ ltac:(lia) Hz'). cbn [bind]. rewrite as_usize_small by lia.
    replace (o <=? e) with true by lia. cbn [negb]. rewrite usize_sub_ok by lia. repeat split; auto; lia.
  - exists (h_size_data (r_hdr r)). cbn [bind]. rewrite as_usize_small by lia.
    replace (o <=? h_size_data (r_hdr r)) with true by lia. cbn [negb]. rewrite usize_sub_ok by lia. repeat split; auto; lia.
Qed.

Lemma read_data_spec unc r i : reader_inv r -> 0 <= i < h_num_data (r_hdr r) ->
  exists off len,
    read_data_src r i = Ok (off, len) /\ 0 <= off /\ 0 <= len /\ off + len <= h_size_data (r_hdr r)
    /\ h_size_data (r_hdr r) <= zlen (r_data r)
    /\ znth (r_data_offsets r) i = Some off
    /\ (if i <? h_num_data (r_hdr r) - 1 then znth (r_data_offsets r) (i + 1) = Some (off + len)
        else off + len = h_size_data (r_hdr r))
    /\ let raw := firstn (Z.to_nat len) (skipn (Z.to_nat off) (r_data r)) in
       match r_uds r with
       | None => read_data unc r i = Ok raw
       | Some uds => exists u, znth uds i = Some u /\ 0 <= u <= 2147483647 /\ read_data unc r i = zcase u (unc u raw)
       end.
Proof.
  intros Hinv Hi. pose proof (rp_data_len r (ri_pre r Hinv)) as Hdata.
  destruct (rp_hdr r (ri_pre r Hinv)) as (_ & _ & _ & _ & _ & _ & _ & Hsd & _).
  destruct (data_size_file_spec r i Hinv Hi) as (o & e & Hz & Hoe & He & Hend & Hsize).
  assert (Hsrc : read_data_src r i = Ok (o, e - o)).
  { unfold read_data_src. rewrite Hsize. cbn [bind]. rewrite (index_of_znth _ _ _ _ (proj1 Hi) Hz). cbn [bind].
    rewrite u32_of_small by lia. reflexivity. }
  exists o, (e - o). replace (o + (e - o)) with e by lia.
  split; [exact Hsrc|]. do 4 (split; [lia|]). split; [exact Hz|]. split; [exact Hend|].
  cbv zeta. unfold read_data. rewrite Hsrc. cbn [bind fst snd].
  rewrite seek_read_exact_inside by lia. cbn [bind].
  destruct (ri_data r Hinv i Hi) as (_ & _ & _ & _ & Hu).
  destruct (r_uds r) as [uds|]; [|reflexivity].
  destruct Hu as (u & Hzu & Hu). exists u. repeat split; try lia; auto.
  rewrite (index_of_znth _ _ _ _ (proj1 Hi) Hzu). cbn [bind]. rewrite as_usize_small by lia. reflexivity.
Qed.

Lemma zcase_no_panic u z : no_panic (zcase u z).
Proof. destruct z; cbn; [destruct (_ =? _)|]; exact I. Qed.

Lemma read_data_no_panic unc r i : reader_inv r -> 0 <= i < h_num_data (r_hdr r) -> no_panic (read_data unc r i).
Proof.
  intros Hinv Hi. destruct (read_data_spec unc r i Hinv Hi) as (off & len & _ & _ & _ & _ & _ & _ & _ & H).
  cbv zeta in H. destruct (r_uds r).
  - destruct H as (u & _ & _ & ->). apply zcase_no_panic.
  - rewrite H. exact I.
Qed.

Lemma data_iter_loop_no_panic unc r : reader_inv r -> forall fuel lo hi,
  0 <= lo -> hi <= h_num_data (r_hdr r) -> hi - lo <= Z.of_nat fuel ->
  exists l, data_iter_loop fuel unc r lo hi = Ok l.
Proof.
  intros Hinv. induction fuel as [|fuel IH]; intros lo hi Hlo Hhi Hfuel; cbn [data_iter_loop];
    (destruct (hi <=? lo) eqn:E0; [eauto|]); [lia|].
  pose proof (read_data_no_panic unc r lo Hinv ltac:(lia)) as Hnp.
  destruct (IH (lo + 1) hi ltac:(lia) Hhi ltac:(lia)) as (l & ->). cbn [bind].
  destruct (read_data unc r lo); cbn in Hnp; try contradiction; eauto.
Qed.

Definition value_inside (r : reader) (v : value) : Prop :=
  match v with
  | VItem it => view_inside r it
  | VOptItem (Some it) => view_inside r it
  | VItems l => Forall (view_inside r) l
  | VRange s e => 0 <= s <= e /\ e <= h_num_items (r_hdr r)
  | VTypes l => Forall (fun t => 0 <= t < 65536) l
  | _ => True
  end.

Lemma item_type_spec r i : reader_inv r -> 0 <= i < h_num_item_types (r_hdr r) ->
  exists t, item_type r i = Ok t /\ 0 <= t < 65536.
Proof.
  intros Hinv Hi. pose proof (ri_pre r Hinv) as Hp.
  destruct (index_ok (EE := err) (r_item_types r) i site_index_item_types) as (t & Hidx & Hz).
  { rewrite (rp_types_len r Hp). lia. }
  unfold item_type. rewrite Hidx. cbn [bind].
  pose proof (ri_types r Hinv) as Ht. rewrite Forall_forall in Ht.
  destruct (Ht t (znth_In _ _ _ Hz)) as (Hty & _).
  rewrite assert_u16_ok by lia. eauto.
Qed.

Lemma items_range_spec r lo hi : reader_inv r -> 0 <= lo -> hi <= h_num_items (r_hdr r) ->
  exists l, collect_range (S (length (r_item_offsets r))) (item r) lo hi = Ok l /\ Forall (view_inside r) l.
Proof.
  intros Hinv Hlo Hhi. apply collect_range_spec.
  - pose proof (rp_offsets_len r (ri_pre r Hinv)) as Hlen. unfold zlen in Hlen. lia.
  - intros k Hk. destruct (item_spec r k Hinv ltac:(lia)) as (v & a & b & Hvk & Hin & _). eauto.
Qed.

Theorem run_call_spec unc r c : reader_inv r -> valid_call r c = true ->
  ok_with (run_call unc r c) (value_inside r).
Proof.
  intros Hinv Hv. pose proof (ri_pre r Hinv) as Hp.
  destruct (rp_hdr r Hp) as (_ & _ & _ & Hnit & Hni & Hnd & _).
  pose proof (rp_offsets_len r Hp) as Hlo. pose proof (rp_doffsets_len r Hp) as Hld.
  pose proof (rp_types_len r Hp) as Hlt. unfold zlen in Hlo, Hld, Hlt.
  destruct c; cbn [run_call valid_call] in *;
    unfold items, item_types, item_type_items, data_iter, num_items, num_data, num_item_types;
    rewrite ?assert_usize_ok by lia; cbn [bind]; try exact I.
  - destruct (item_spec r i Hinv ltac:(lia)) as (v & a & b & -> & Hin & _). exact Hin.
  - destruct (item_type_spec r i Hinv ltac:(lia)) as (t & -> & _). exact I.
  - destruct (item_type_indices_spec r type_id Hinv) as (s & e & -> & H1 & H2 & _). cbn. lia.
  - destruct (find_item_spec r type_id id Hinv) as (o & -> & Hin). destruct o; [exact Hin|exact I].
  - destruct (items_range_spec r 0 (h_num_items (r_hdr r)) Hinv) as (l & -> & HP); try lia. exact HP.
  - destruct (collect_range_spec (item_type r) (fun t => 0 <= t < 65536) (S (length (r_item_types r))) 0
                (h_num_item_types (r_hdr r))) as (l & -> & HP); [lia|intros; apply item_type_spec; [exact Hinv|lia]|exact HP].
  - destruct (item_type_indices_spec r type_id Hinv) as (s & e & -> & H1 & H2 & _). cbn [bind fst snd].
    destruct (items_range_spec r s e Hinv) as (l & -> & HP); try lia. exact HP.
  - pose proof (read_data_no_panic unc r i Hinv ltac:(lia)) as Hnp.
    destruct (read_data unc r i); cbn in *; auto.
  - destruct (data_iter_loop_no_panic unc r Hinv (S (length (r_data_offsets r))) 0 (h_num_data (r_hdr r)))
      as (l & ->); try lia. exact I.
Qed.
