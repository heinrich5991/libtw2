(* Memory lemmas for Model/Buffer.v: set_nth / store_bytes / slice, stated
   pointwise (nth_error) so that framing conditions compose by arithmetic. *)
From LibTw2 Require Import Base.Res Model.Buffer.
From Coq Require Import List Arith Lia Bool ZArith.
Import ListNotations.
Open Scope nat_scope.

Lemma list_ext_nth_error {A} (l1 l2 : list A) :
  length l1 = length l2 ->
  (forall i, i < length l1 -> nth_error l1 i = nth_error l2 i) -> l1 = l2.
Proof.
  revert l2. induction l1 as [|a l1 IH]; intros [|b l2] Hl H; try discriminate; [reflexivity|].
  cbn [length] in Hl. f_equal.
  - specialize (H 0). cbn in H. assert (Some a = Some b) as E by (apply H; lia). congruence.
  - apply IH; [lia|]. intros i Hi. apply (H (S i)). cbn [length]. lia.
Qed.

Lemma set_nth_length b : forall m i m', set_nth i b m = Some m' -> length m' = length m.
Proof.
  induction m as [|h t IH]; intros i m' H; [destruct i; discriminate H|].
  destruct i as [|i]; cbn [set_nth] in H.
  - injection H as <-. reflexivity.
  - destruct (set_nth i b t) as [t'|] eqn:E; [|discriminate]. injection H as <-.
    cbn [length]. f_equal. apply (IH _ _ E).
Qed.

Lemma set_nth_some b : forall m i, i < length m -> exists m', set_nth i b m = Some m'.
Proof.
  induction m as [|h t IH]; intros i Hi; cbn [length] in Hi; [lia|].
  destruct i as [|i]; cbn [set_nth]; [eauto|].
  destruct (IH i) as [t' E]; [lia|]. rewrite E. eauto.
Qed.

Lemma set_nth_nth b : forall m i m' j, set_nth i b m = Some m' ->
  nth_error m' j = if j =? i then Some b else nth_error m j.
Proof.
  induction m as [|h t IH]; intros i m' j H; [destruct i; discriminate H|].
  destruct i as [|i]; cbn [set_nth] in H.
  - injection H as <-. destruct j; reflexivity.
  - destruct (set_nth i b t) as [t'|] eqn:E; [|discriminate]. injection H as <-.
    destruct j as [|j]; [reflexivity|]. cbn [nth_error]. rewrite (IH _ _ j E). reflexivity.
Qed.

(* store_bytes inside the memory succeeds, keeps the length, and changes exactly [at, at+|bs|) *)
Lemma store_bytes_spec : forall bs m at_, at_ + length bs <= length m ->
  exists m', store_bytes m at_ bs = Some m' /\ length m' = length m
    /\ (forall i, i < length bs -> nth_error m' (at_ + i) = nth_error bs i)
    /\ (forall j, j < at_ \/ at_ + length bs <= j -> nth_error m' j = nth_error m j).
Proof.
  induction bs as [|b bs IH]; intros m at_ H; cbn [store_bytes length] in *.
  - exists m. split; [reflexivity|]. split; [reflexivity|]. split; [intros i Hi; lia|reflexivity].
  - destruct (set_nth_some b m at_) as [m1 E1]; [lia|]. rewrite E1.
    pose proof (set_nth_length _ _ _ _ E1) as L1.
    destruct (IH m1 (S at_)) as [m' [E' [L' [In' Out']]]]; [lia|].
    exists m'. split; [exact E'|]. split; [lia|]. split.
    + intros [|i] Hi.
      * rewrite Out', (set_nth_nth _ _ _ _ _ E1), Nat.add_0_r, Nat.eqb_refl by lia. reflexivity.
      * rewrite Nat.add_succ_r. apply (In' i). lia.
    + intros j Hj. rewrite Out', (set_nth_nth _ _ _ _ _ E1) by lia.
      replace (j =? at_) with false by (symmetry; apply Nat.eqb_neq; lia). reflexivity.
Qed.

Lemma nth_error_firstn_lt {A} : forall n (l : list A) i, i < n -> nth_error (firstn n l) i = nth_error l i.
Proof.
  induction n as [|n IH]; intros l i Hi; [lia|].
  destruct l as [|h t]; [reflexivity|]. destruct i as [|i]; [reflexivity|].
  cbn [firstn nth_error]. apply IH. lia.
Qed.

Lemma nth_error_firstn_skipn {A} (m : list A) off n i : i < n ->
  nth_error (firstn n (skipn off m)) i = nth_error m (off + i).
Proof.
  intros Hi. rewrite nth_error_firstn_lt by exact Hi.
  revert m. induction off as [|off IH]; intros m; [reflexivity|].
  destruct m as [|h t]; [destruct i; reflexivity|]. cbn [skipn Nat.add nth_error]. apply IH.
Qed.

Lemma slice_some m off n : off + n <= length m -> slice m off n = Some (firstn n (skipn off m)).
Proof. intros H. unfold slice. apply Nat.leb_le in H. rewrite H. reflexivity. Qed.

Lemma slice_inv m off n l : slice m off n = Some l ->
  off + n <= length m /\ length l = n /\ forall i, i < n -> nth_error l i = nth_error m (off + i).
Proof.
  unfold slice. destruct (Nat.leb_spec (off + n) (length m)); [|discriminate].
  intros E. injection E as <-. split; [assumption|]. split.
  - rewrite firstn_length, skipn_length. lia.
  - intros i Hi. apply nth_error_firstn_skipn, Hi.
Qed.

(* a slice is determined by its pointwise content *)
Lemma slice_eq m off n l : off + n <= length m -> length l = n ->
  (forall i, i < n -> nth_error m (off + i) = nth_error l i) -> slice m off n = Some l.
Proof.
  intros H L N. rewrite slice_some by exact H. f_equal.
  apply list_ext_nth_error.
  - rewrite firstn_length, skipn_length. lia.
  - intros i Hi. rewrite firstn_length, skipn_length in Hi.
    rewrite nth_error_firstn_skipn by lia. apply N. lia.
Qed.
