(* C14: decoding the canonical bytes of a described value gives the value back,
   without warnings (induction over the member list) *)
From LibTw2 Require Import Base.Res Model.Varint Model.Packer Model.Codec
  Proofs.VarintArith Proofs.VarintProofs Proofs.PackerProofs Proofs.CodecStr.
From Coq Require Import ZArith Lia Bool List ZifyBool.
Open Scope Z_scope.

Lemma rd_int x rest : is_i32 x = true -> bytes_ok rest = true ->
  unpack_step (write_int_bytes x ++ rest) KInt = (rest, Ok (FInt x), []).
Proof. intros Hx Hr. apply (unpack_step_field (FInt x) rest Hx Hr). intros r; discriminate. Qed.

Lemma rd_str s rest : has_nul s = false -> bytes_ok s = true -> bytes_ok rest = true ->
  unpack_step ((s ++ [0]) ++ rest) KStr = (rest, Ok (FStr s), []).
Proof.
  intros Hn Hs Hr. apply (unpack_step_field (FStr s) rest); [|exact Hr|intros r; discriminate].
  cbn [field_wf]. rewrite Hn, Hs. reflexivity.
Qed.

Lemma rd_data d rest : Z.of_nat (length d) <= i32_max -> bytes_ok d = true -> bytes_ok rest = true ->
  unpack_step ((write_int_bytes (Z.of_nat (length d)) ++ d) ++ rest) KData = (rest, Ok (FData d), []).
Proof.
  intros Hl Hd Hr. apply (unpack_step_field (FData d) rest); [|exact Hr|intros r; discriminate].
  cbn [field_wf]. rewrite Hd. replace (Z.of_nat (length d) <=? i32_max) with true by lia. reflexivity.
Qed.

Lemma rd_raw s rest : bytes_ok s = true -> bytes_ok rest = true ->
  unpack_step (s ++ rest) (KRaw (length s)) = (rest, Ok (FRaw s), []).
Proof. intros Hs Hr. apply (unpack_step_field (FRaw s) rest Hs Hr). intros r; discriminate. Qed.

Lemma has_cc_nul s : has_cc s = false -> has_nul s = false.
Proof.
  unfold has_cc, has_nul. induction s as [|b s IH]; cbn [existsb]; [reflexivity|].
  intros H. apply orb_false_iff in H as [Hb Hs]. rewrite IH by exact Hs. lia.
Qed.

Lemma check_int_val i x v : check_int i x = Ok v -> i <> IBool -> v = VInt x.
Proof.
  destruct i; cbn [check_int]; intros H Hb; try (injection H as <-; reflexivity).
  - destruct (_ && _); [injection H as <-; reflexivity|discriminate].
  - destruct (0 <=? x); [injection H as <-; reflexivity|discriminate].
  - destruct (a <=? x); [injection H as <-; reflexivity|discriminate].
  - exfalso; apply Hb; reflexivity.
  - destruct (elookup t x); [injection H as <-; reflexivity|discriminate].
Qed.

Lemma check_int_typed i x v : check_int i x = Ok v -> is_i32 x = true -> typed_int i v = true.
Proof.
  intros Hc Hx. destruct i;
    try (rewrite (check_int_val _ x v Hc) by discriminate; cbn [typed_int]; rewrite Hx, Hc; reflexivity).
  cbn [check_int] in Hc. destruct (_ && _); [injection Hc as <-; reflexivity|discriminate].
Qed.

Lemma typed_int_check i v : typed_int i v = true ->
  exists x, is_i32 x = true /\ check_int i x = Ok v /\ enc_value (MI i) v = write_int_bytes x.
Proof.
  destruct i, v; cbn [typed_int]; intros H; try discriminate;
    try (apply andb_true_iff in H as [Hi Hc]; destruct (check_int _ v) as [w| | |] eqn:E; try discriminate;
         pose proof (check_int_val _ _ _ E ltac:(discriminate)) as ->; exists v; repeat split; assumption).
  exists (if b then 1 else 0). destruct b; cbn; repeat split.
Qed.

Lemma bytes_ok_firstn n s : bytes_ok s = true -> bytes_ok (firstn n s) = true.
Proof.
  unfold bytes_ok. revert n. induction s as [|b s IH]; intros [|n] H; cbn [firstn forallb] in *; try reflexivity.
  apply andb_true_iff in H as [Hb Hs]. rewrite Hb, IH by exact Hs. reflexivity.
Qed.

Lemma be16_ok x : 0 <= x < 65536 -> bytes_ok (be16 x) = true /\ (x / 256) * 256 + x mod 256 = x.
Proof.
  intros H. unfold be16, bytes_ok, byte_ok. cbn [forallb].
  pose proof (Z.div_mod x 256). pose proof (Z.mod_pos_bound x 256).
  assert (0 <= x / 256 < 256) by (split; [apply Z.div_pos; lia|apply Z.div_lt_upper_bound; lia]).
  split; lia.
Qed.

Lemma elookup_from t x r : elookup t x = Some r -> efrom r = x.
Proof. unfold elookup. intros H. apply find_some in H as [_ H]. lia. Qed.

Lemma elookup_in t x r : elookup t x = Some r -> In r t.
Proof. unfold elookup. intros H. apply find_some in H as [H _]. exact H. Qed.

Lemma write_field_canon m w v : mop_ok m = true -> typed m v = true -> wop_of m = Some w ->
  exists f, write_field m w v = Ok f /\ field_wf f = true /\ field_bytes f = enc_value m v.
Proof.
  intros Hm Ht Hw. destruct m as [i| | | | | | | | | | | | | |]; cbn [wop_of] in Hw; cbn [typed mop_ok] in *;
    [|injection Hw as <-; destruct v; try discriminate; eexists;
      (split; [reflexivity|split; [cbn [field_wf]|reflexivity]]) ..|discriminate].
  - destruct i; injection Hw as <-; cbn [typed_int] in Ht; destruct v; try discriminate;
      try (apply andb_true_iff in Ht as [Hi Hc]; exists (FInt v); repeat split; assumption).
    + exists (FInt (if b then 1 else 0)). destruct b; repeat split.
    + (* to_i32 gives back the constant that from_i32 matched *)
      apply andb_true_iff in Ht as [Hi Hc]. cbn [check_int] in Hc. cbn [write_field].
      destruct (elookup t v) as [r|] eqn:E; [|discriminate].
      exists (FInt (eto r)). split; [reflexivity|].
      unfold etbl_ok in Hm. rewrite forallb_forall in Hm. specialize (Hm r (elookup_in _ _ _ E)).
      pose proof (elookup_from _ _ _ E) as Hf.
      replace (eto r) with v by lia. split; [exact Hi|reflexivity].
  - exact Ht.
  - apply andb_true_iff in Ht as [Hc Hs]. apply negb_true_iff in Hc. rewrite (has_cc_nul _ Hc), Hs. reflexivity.
  - destruct (print_int_str v) as [-> ->]. reflexivity.
  - exact Ht.
  - exact Ht.
  - exact (proj1 (andb_prop _ _ Ht)).
  - exact (proj1 (andb_prop _ _ Ht)).
  - unfold bytes_ok. cbn [forallb]. rewrite Ht. reflexivity.
  - apply be16_ok. lia.
  - exact (proj1 (andb_prop _ _ Ht)).
  - exact Ht.
  - exact Ht.
  - exact Ht.
Qed.

Lemma enc_value_ok m v : mop_ok m = true -> typed m v = true -> bytes_ok (enc_value m v) = true.
Proof.
  intros Hm Ht. destruct (wop_of m) as [w|] eqn:Ew.
  - destruct (write_field_canon m w v Hm Ht Ew) as (f & _ & Hwf & <-). apply field_bytes_ok, Hwf.
  - destruct m as [i| | | | | | | | | | | | | |]; try destruct i; try discriminate.
    destruct v; try discriminate. reflexivity.
Qed.

Lemma decode_op_canon demo m v rest : mop_ok m = true -> typed m v = true -> takes_rest m = false ->
  bytes_ok rest = true ->
  decode_op demo m (enc_value m v ++ rest) = (rest, Ok v, []).
Proof.
  intros Hm Ht Hr Hrest. destruct m as [i| | | | | | | | | | | | | |]; cbn [takes_rest] in Hr; try discriminate;
    cbn [typed mop_ok] in *;
    [|destruct v; try discriminate; cbn [decode_op enc_value]; unfold step_bytes ..].
  - destruct (typed_int_check _ _ Ht) as [x [Hx [Hc ->]]].
    cbn [decode_op]. unfold step_int. rewrite rd_int by assumption. cbn [int_of]. rewrite Hc. reflexivity.
  - apply andb_true_iff in Ht as [Hn Hs]. apply negb_true_iff in Hn. rewrite rd_str by assumption. reflexivity.
  - apply andb_true_iff in Ht as [Hc Hs]. apply negb_true_iff in Hc.
    rewrite rd_str by (try apply has_cc_nul; assumption). cbn [payload]. rewrite Hc. reflexivity.
  - destruct (print_int_str v) as [Hn Hs].
    rewrite rd_str by assumption. cbn [payload]. rewrite parse_print_int by exact Ht. reflexivity.
  - apply andb_true_iff in Ht as [Hl Hs]. rewrite rd_data by (try lia; assumption). reflexivity.
  - apply andb_true_iff in Ht as [Hs Hl]. apply Nat.eqb_eq in Hl. subst n.
    rewrite rd_raw by assumption. cbn [payload]. rewrite Hm. reflexivity.
  - apply andb_true_iff in Ht as [Hs Hl]. apply Nat.eqb_eq in Hl. subst n.
    rewrite rd_raw by assumption. cbn [payload]. rewrite Hm. reflexivity.
  - change 1%nat with (length [v]). rewrite rd_raw; [reflexivity| |exact Hrest].
    unfold bytes_ok. cbn [forallb]. rewrite Ht. reflexivity.
  - destruct (be16_ok v ltac:(lia)) as [Hb He].
    change 2%nat with (length (be16 v)). rewrite rd_raw by assumption. cbn [payload be16]. rewrite He. reflexivity.
  - rewrite rd_int by assumption. reflexivity.
  - apply andb_true_iff in Ht as [Hn Hs]. apply negb_true_iff in Hn. rewrite rd_str by assumption. reflexivity.
Qed.

Lemma decode_op_canon_last demo m v : typed m v = true -> takes_rest m = true ->
  decode_op demo m (enc_value m v) = ([], Ok v, []).
Proof.
  intros Ht Hr. destruct m; cbn [takes_rest] in Hr; try discriminate; cbn [typed] in Ht;
    destruct v; try discriminate; cbn [decode_op enc_value].
  - reflexivity.
  - apply andb_true_iff in Ht as [_ Hl]. apply Nat.eqb_eq in Hl.
    unfold step_bytes. cbn [unpack_step payload]. rewrite Hl. cbn [Nat.eqb].
    rewrite Nat.sub_0_r, firstn_all. reflexivity.
  - reflexivity.
  - destruct demo; reflexivity.
Qed.

Lemma enc_values_ok ms : forall vs, forallb mop_ok ms = true -> well_typed ms vs = true ->
  bytes_ok (enc_values ms vs) = true.
Proof.
  induction ms as [|m ms IH]; intros [|v vs] Hm Ht; cbn [well_typed enc_values forallb] in *; try reflexivity; try discriminate.
  apply andb_true_iff in Hm as [Hm1 Hm2]. apply andb_true_iff in Ht as [Ht1 Ht2].
  apply bytes_ok_app; [apply enc_value_ok; assumption|apply IH; assumption].
Qed.

Theorem decode_ops_canon demo ms : forall vs, forallb mop_ok ms = true -> rest_only_last ms = true ->
  well_typed ms vs = true ->
  decode_ops demo ms (enc_values ms vs) = ([], Ok vs, []).
Proof.
  induction ms as [|m ms IH]; intros [|v vs] Hm Hl Ht; cbn [well_typed] in Ht; try discriminate; [reflexivity|].
  cbn [forallb] in Hm. apply andb_true_iff in Hm as [Hm1 Hm2]. apply andb_true_iff in Ht as [Ht1 Ht2].
  cbn [enc_values decode_ops].
  destruct ms as [|m' ms'].
  - destruct vs; [|discriminate Ht2]. cbn [enc_values]. rewrite app_nil_r.
    destruct (takes_rest m) eqn:Er.
    + rewrite decode_op_canon_last by assumption. reflexivity.
    + rewrite <- (app_nil_r (enc_value m v)). rewrite decode_op_canon by (try assumption; reflexivity). reflexivity.
  - cbn [rest_only_last] in Hl. apply andb_true_iff in Hl as [Hnr Hl]. apply negb_true_iff in Hnr.
    rewrite decode_op_canon; [|assumption|assumption|assumption|apply enc_values_ok; assumption].
    rewrite IH by assumption. reflexivity.
Qed.

Lemma finish_nil demo : finish_warns demo [] = false.
Proof. destruct demo; reflexivity. Qed.

Lemma decode_w_canonical c demo vs : forallb mop_ok (c_dec c) = true -> rest_only_last (c_dec c) = true ->
  well_typed (c_dec c) vs = true ->
  decode_w c demo (canonical c vs) = (Ok vs, []).
Proof.
  intros Hm Hl Ht. unfold decode_w, decode_body, canonical.
  rewrite decode_ops_canon by assumption. rewrite finish_nil. reflexivity.
Qed.

Theorem decode_canonical c demo vs : forallb mop_ok (c_dec c) = true -> rest_only_last (c_dec c) = true ->
  well_typed (c_dec c) vs = true ->
  decode c demo (canonical c vs) = Ok (vs, []).
Proof. intros Hm Hl Ht. unfold decode. rewrite decode_w_canonical by assumption. reflexivity. Qed.
