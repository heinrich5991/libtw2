(* The concrete teehistorian parsers (header, Kind::decode, every Kind::decode_rest)
   are prefix-stable and never panic. *)
From LibTw2 Require Import Base.Res Model.Varint Model.Packer Model.Teehistorian Proofs.TeehistFrag.
From Coq Require Import List Lia Arith ZArith Bool.
Import ListNotations.
Open Scope Z_scope.

(* read_int looks only at the bytes it consumes, and ends in Ok or UnexpectedEnd *)

Definition st_app (st : rstate) (q : bytes) : rstate :=
  {| r_src := r_src st; r_acc := r_acc st; r_len := r_len st; r_ws := r_ws st; r_rest := r_rest st ++ q |}.

Lemma read_loop_good k : forall i st,
  match read_loop k i st with
  | Ok st' => (exists c, r_rest st = c ++ r_rest st')
              /\ forall q, read_loop k i (st_app st q) = Ok (st_app st' q)
  | Err _ => True
  | _ => False
  end.
Proof.
  induction k as [|k IH]; intros i st; cbn [read_loop].
  - split; [exists []; reflexivity|reflexivity].
  - change (r_src (st_app st ?q)) with (r_src st).
    destruct (Z.land (r_src st) 128 =? 0); [split; [exists []; reflexivity|reflexivity]|].
    change (r_rest (st_app st ?q)) with (r_rest st ++ q).
    destruct (r_rest st) as [|b rest]; [exact I|]. cbn [app].
    match goal with |- context [read_loop k (i + 1) ?s] =>
      specialize (IH (i + 1) s); destruct (read_loop k (i + 1) s) end; try exact IH.
    destruct IH as [[c Hc] Hq]. split; [exists (b :: c); cbn [r_rest] in Hc; rewrite Hc; reflexivity|exact Hq].
Qed.

Lemma read_int_good bs :
  match read_int bs with
  | Ok (v, ws, r) => (exists c, bs = c ++ r /\ (1 <= length c)%nat)
                     /\ forall q, read_int (bs ++ q) = Ok (v, ws, r ++ q)
  | Err _ => True
  | _ => False
  end.
Proof.
  unfold read_int. destruct bs as [|b0 rest]; [exact I|]. cbn [app].
  match goal with |- context [read_loop 4 0 ?s] =>
    pose proof (read_loop_good 4 0 s) as H; destruct (read_loop 4 0 s) as [st| | |] end; try exact H.
  destruct H as [[c Hc] Hq]. cbn [r_rest] in Hc. split.
  - exists (b0 :: c). rewrite Hc. split; [reflexivity|cbn [length]; lia].
  - intros q. specialize (Hq q). unfold st_app in Hq at 1. cbn [r_src r_acc r_len r_ws r_rest] in Hq.
    rewrite Hq. reflexivity.
Qed.

Lemma split_nul_app bs s r : split_nul bs = Some (s, r) ->
  bs = s ++ 0 :: r /\ forall q, split_nul (bs ++ q) = Some (s, r ++ q).
Proof.
  revert s r. induction bs as [|b bs IH]; intros s r H; cbn [split_nul] in H; [discriminate|].
  destruct (b =? 0) eqn:Eb.
  - injection H as <- <-. apply Z.eqb_eq in Eb. subst b. split; [reflexivity|].
    intros q. cbn [app split_nul]. reflexivity.
  - destruct (split_nul bs) as [[s' r']|] eqn:Es; [|discriminate]. injection H as <- <-.
    destruct (IH _ _ eq_refl) as [Hb Hq]. split; [rewrite Hb at 1; reflexivity|].
    intros q. cbn [app split_nul]. rewrite Eb, Hq. reflexivity.
Qed.

Definition not_rest (k : kind) : bool := match k with KRest => false | _ => true end.

Lemma firstn_app_le' {A} (l1 l2 : list A) n : (n <= length l1)%nat -> firstn n (l1 ++ l2) = firstn n l1.
Proof.
  intros H. rewrite firstn_app. replace (n - length l1)%nat with 0%nat by lia.
  cbn [firstn]. apply app_nil_r.
Qed.

(* an Unpacker read either yields a field of the requested kind or UnexpectedEnd;
   unless it reads "the rest", a field it has read stays as it is when more input arrives *)
Definition field_is (k : kind) (f : field) : Prop :=
  match k, f with
  | KInt, FInt _ | KStr, FStr _ | KData, FData _ | KRaw _, FRaw _ | KRest, FRest _ => True
  | _, _ => False
  end.

Lemma unpack_step_good bs k :
  match unpack_step bs k with
  | (r, Ok f, ws) =>
    field_is k f /\ (not_rest k = true ->
      (exists c, bs = c ++ r) /\ forall q, unpack_step (bs ++ q) k = (r ++ q, Ok f, ws))
  | (_, Err _, _) => True
  | _ => False
  end.
Proof.
  destruct k as [| | |n|]; cbn [unpack_step].
  - pose proof (read_int_good bs) as H. destruct (read_int bs) as [[[v ws] r]| | |]; try exact H.
    destruct H as [[c [Hc _]] Hq]. split; [exact I|]. intros _. split; [eauto|].
    intros q. rewrite Hq. reflexivity.
  - destruct (split_nul bs) as [[s r]|] eqn:Es; [|exact I].
    destruct (split_nul_app _ _ _ Es) as [Hb Hq]. split; [exact I|]. intros _. split.
    + exists (s ++ [0]). rewrite <- app_assoc. exact Hb.
    + intros q. rewrite Hq. reflexivity.
  - pose proof (read_int_good bs) as H. destruct (read_int bs) as [[[v ws] r]| | |]; try exact H.
    destruct H as [[c [Hc _]] Hq].
    destruct (Z.ltb_spec v 0) as [|Hv]; [exact I|].
    destruct (Z.ltb_spec (Z.of_nat (length r)) v) as [|Hl]; [exact I|].
    assert (Hn : (Z.to_nat v <= length r)%nat) by lia.
    split; [exact I|]. intros _. split.
    + exists (c ++ firstn (Z.to_nat v) r). rewrite <- app_assoc, firstn_skipn. exact Hc.
    + intros q. rewrite Hq, app_length.
      destruct (Z.ltb_spec v 0); [lia|].
      destruct (Z.ltb_spec (Z.of_nat (length r + length q)) v); [lia|].
      rewrite skipn_app_le, firstn_app_le' by exact Hn. reflexivity.
  - destruct (Nat.ltb_spec (length bs) n) as [|Hl]; [exact I|].
    split; [exact I|]. intros _. split.
    + exists (firstn n bs). symmetry. apply firstn_skipn.
    + intros q. rewrite app_length.
      destruct (Nat.ltb_spec (length bs + length q) n); [lia|].
      rewrite skipn_app_le, firstn_app_le' by exact Hl. reflexivity.
  - split; [exact I|discriminate].
Qed.

Lemma pbind_inv {A B} (p : parser A) (f : A -> parser B) bs b r :
  pbind p f bs = ROk b r -> exists a r1, p bs = ROk a r1 /\ f a r1 = ROk b r.
Proof. unfold pbind. destruct (p bs) as [a r1| | |]; try discriminate. intros H. eauto. Qed.

Lemma pret_inv {A} (a b : A) bs r : pret a bs = ROk b r -> a = b /\ bs = r.
Proof. unfold pret. intros H. injection H as <- <-. auto. Qed.

(* a parser the retry loop can be run over: an answer other than "need more" is final
   (more input changes neither the value nor what is left over), and it never panics *)
Definition pgood {A} (p : parser A) : Prop :=
  forall bs,
    match p bs with
    | ROk a r => (exists c, bs = c ++ r) /\ forall q, p (bs ++ q) = ROk a (r ++ q)
    | RMore => True
    | RFail e => forall q, p (bs ++ q) = RFail e
    | RPanic _ => False
    end.

Lemma pgood_ret {A} (a : A) : pgood (pret a).
Proof. intros bs. split; [exists []; reflexivity|reflexivity]. Qed.
Lemma pgood_fail {A} e : pgood (@pfail A e).
Proof. intros bs q. reflexivity. Qed.
Lemma pgood_if {A} (c : bool) (p q : parser A) : pgood p -> pgood q -> pgood (if c then p else q).
Proof. destruct c; auto. Qed.

(* the continuation has to be good only on the values the first parser can return *)
Lemma pgood_bind_on {A B} (Q : A -> Prop) (p : parser A) (f : A -> parser B) :
  pgood p -> (forall bs a r, p bs = ROk a r -> Q a) -> (forall a, Q a -> pgood (f a)) -> pgood (pbind p f).
Proof.
  intros Hp HQ Hf bs. unfold pbind. specialize (Hp bs). specialize (HQ bs).
  destruct (p bs) as [a r| |e|s]; try assumption.
  - destruct Hp as [[c Hc] Hq]. specialize (Hf a (HQ a r eq_refl) r).
    destruct (f a r) as [b r'| |e|s]; try assumption.
    + destruct Hf as [[c' Hc'] Hq']. split.
      * exists (c ++ c'). rewrite <- app_assoc, <- Hc'. exact Hc.
      * intros q. rewrite Hq. apply Hq'.
    + intros q. rewrite Hq. apply Hf.
  - intros q. rewrite Hp. reflexivity.
Qed.

Lemma pgood_bind {A B} (p : parser A) (f : A -> parser B) :
  pgood p -> (forall a, pgood (f a)) -> pgood (pbind p f).
Proof. intros Hp Hf. apply (pgood_bind_on (fun _ => True)); auto. Qed.

Lemma p_step_shape k bs f r : p_step k bs = ROk f r -> field_is k f.
Proof.
  unfold p_step. pose proof (unpack_step_good bs k) as G.
  destruct (unpack_step bs k) as [[r' [f'|e|s|]] ws]; try discriminate.
  intros H. injection H as <- _. apply G.
Qed.

Lemma p_step_nopanic k bs s : p_step k bs <> RPanic s.
Proof.
  unfold p_step. pose proof (unpack_step_good bs k) as G.
  destruct (unpack_step bs k) as [[r' [f|e|z|]] ws]; try discriminate; contradiction.
Qed.

Lemma p_step_good k : not_rest k = true -> pgood (p_step k).
Proof.
  intros Hk bs. unfold p_step. pose proof (unpack_step_good bs k) as G.
  destruct (unpack_step bs k) as [[r [f|e|s|]] ws]; try exact G.
  destruct G as [_ G]. destruct (G Hk) as [Hc Hq]. split; [exact Hc|].
  intros q. rewrite Hq. reflexivity.
Qed.

(* a read followed by the match on the field it must have returned (p_int .. p_raw) *)
Lemma typed_step_good {A} k (g : field -> parser A) :
  not_rest k = true -> (forall f, field_is k f -> pgood (g f)) -> pgood (pbind (p_step k) g).
Proof.
  intros Hk Hg. apply (pgood_bind_on (field_is k)); [apply p_step_good, Hk|apply p_step_shape|exact Hg].
Qed.

Lemma p_int_good : pgood p_int.
Proof. apply typed_step_good; [reflexivity|]. intros [] H; try contradiction. apply pgood_ret. Qed.
Lemma p_str_good : pgood p_str.
Proof. apply typed_step_good; [reflexivity|]. intros [] H; try contradiction. apply pgood_ret. Qed.
Lemma p_data_good : pgood p_data.
Proof. apply typed_step_good; [reflexivity|]. intros [] H; try contradiction. apply pgood_ret. Qed.
Lemma p_raw_good n : pgood (p_raw n).
Proof. apply typed_step_good; [reflexivity|]. intros [] H; try contradiction. apply pgood_ret. Qed.

Create HintDb pgood discriminated.
#[export] Hint Resolve pgood_ret pgood_fail pgood_if pgood_bind
  p_int_good p_str_good p_data_good p_raw_good : pgood.

Lemma p_ints_good n : pgood (p_ints n).
Proof. induction n; cbn [p_ints]; auto with pgood. Qed.

Lemma p_fields_good ks : forallb not_rest ks = true -> pgood (p_fields ks).
Proof.
  induction ks as [|k ks IH]; cbn [p_fields forallb]; intros H; [apply pgood_ret|].
  apply andb_true_iff in H as [Hk Hks]. auto using p_step_good with pgood.
Qed.

Lemma p_args_good room : forall i n, pgood (p_args room i n).
Proof. induction room; intros i n; cbn [p_args]; auto 6 with pgood. Qed.

#[export] Hint Resolve p_ints_good p_args_good : pgood.

Lemma decode_kind_good v : pgood (decode_kind v).
Proof. unfold decode_kind. auto 20 with pgood. Qed.

Lemma decode_console_good : pgood decode_console.
Proof. unfold decode_console. auto 8 with pgood. Qed.

(* the second Unpacker runs over `data`, which is fixed once it has been cut out, so it
   need not be stable (Antibot reads "the rest"); it must still not panic *)
Lemma p_fields_nopanic ks : forall bs s, p_fields ks bs <> RPanic s.
Proof.
  induction ks as [|k ks IH]; intros bs s; cbn [p_fields]; [discriminate|].
  unfold pbind. pose proof (p_step_nopanic k bs) as Hk.
  destruct (p_step k bs) as [f r| | |z]; try discriminate; [|destruct (Hk z eq_refl)].
  specialize (IH r s). destruct (p_fields ks r); try discriminate. exact IH.
Qed.

Lemma decode_ex_good : pgood decode_ex.
Proof.
  unfold decode_ex. apply pgood_bind; [apply p_raw_good|]. intros uuid.
  apply pgood_bind; [apply p_data_good|]. intros data.
  destruct (find_ex uuid ex_uuids) as [t|]; [|apply pgood_ret].
  intros bs. pose proof (p_fields_nopanic (tag_kinds t) data) as Hn.
  destruct (p_fields (tag_kinds t) data) as [fs r| |e|s]; try exact I; try reflexivity.
  - split; [exists []; reflexivity|reflexivity].
  - exact (Hn s eq_refl).
Qed.

Lemma decode_rest_good k : pgood (decode_rest k).
Proof.
  destruct k; cbn [decode_rest];
    auto using decode_console_good, decode_ex_good, p_fields_good with pgood.
Qed.

Lemma pgood_suffix {A} (p : parser A) bs a r : pgood p -> p bs = ROk a r -> (length r <= length bs)%nat.
Proof.
  intros Hp H. specialize (Hp bs). rewrite H in Hp. destruct Hp as [[c ->] _].
  rewrite app_length. lia.
Qed.

(* the same notion for attempts, which report the number of bytes read instead of the rest *)
Definition ogood {A} (o : bytes -> outcome A pfailure) : Prop :=
  forall bs,
    match o bs with
    | POk a n => (n <= length bs)%nat /\ forall q, o (bs ++ q) = POk a n
    | PNeedMore => True
    | PFail e => (forall q, o (bs ++ q) = PFail e) /\ forall s, e <> FPanic s
    end.

Lemma consumed_app {A} (c r q : list A) :
  (length ((c ++ r) ++ q) - length (r ++ q) = length (c ++ r) - length r)%nat.
Proof. rewrite !app_length. lia. Qed.

Lemma to_outcome_good {A} (p : parser A) : pgood p -> ogood (to_outcome p).
Proof.
  intros Hp bs. unfold to_outcome. specialize (Hp bs).
  destruct (p bs) as [a r| |e|s]; [|exact I| |contradiction].
  - destruct Hp as [[c ->] Hq]. split; [lia|]. intros q. rewrite Hq, consumed_app. reflexivity.
  - split; [|discriminate]. intros q. rewrite Hp. reflexivity.
Qed.

Section Hdr.
  Variable hdr : bytes -> hverdict.

  Lemma header_frame_good : pgood (header_frame hdr).
  Proof. unfold header_frame. auto 6 with pgood. Qed.

  Lemma parse_header_good : ogood (parse_header hdr).
  Proof.
    intros bs. unfold parse_header. pose proof (header_frame_good bs) as Hp.
    destruct (header_frame hdr bs) as [[v|c0] r| |e|s]; [| |exact I| |contradiction].
    - destruct Hp as [[c ->] Hq]. split; [lia|]. intros q. rewrite Hq, consumed_app. reflexivity.
    - destruct Hp as [_ Hq]. split; [|discriminate]. intros q. rewrite Hq. reflexivity.
    - split; [|discriminate]. intros q. rewrite Hp. reflexivity.
  Qed.

  Lemma parse_at_good p : ogood (parse_at hdr p).
  Proof.
    destruct p as [|v|k]; cbn [parse_at pty].
    - apply parse_header_good.
    - apply to_outcome_good, decode_kind_good.
    - apply to_outcome_good, decode_rest_good.
  Qed.

  (* both hypotheses of the generic theorem, for every parser the reader uses *)
  Theorem parsers_ok_stable : forall p bs a n q,
    parse_at hdr p bs = POk a n -> (n <= length bs)%nat /\ parse_at hdr p (bs ++ q) = POk a n.
  Proof.
    intros p bs a n q H. pose proof (parse_at_good p bs) as G. rewrite H in G.
    split; [apply G|apply G].
  Qed.

  Theorem parsers_fail_stable : forall p bs e q,
    parse_at hdr p bs = PFail e -> parse_at hdr p (bs ++ q) = PFail e.
  Proof.
    intros p bs e q H. pose proof (parse_at_good p bs) as G. rewrite H in G. apply G.
  Qed.

  Theorem parsers_no_panic : forall p bs s, parse_at hdr p bs <> PFail (FPanic s).
  Proof.
    intros p bs s H. pose proof (parse_at_good p bs) as G. rewrite H in G. exact (proj2 G s eq_refl).
  Qed.
End Hdr.
