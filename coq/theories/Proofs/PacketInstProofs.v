(* The hypotheses the packet theorems make about the coder hold for the model of the real
   coder over the built-in table: round trip and capacity from the lemmas of C07
   (Proofs/HuffmanDecode.v), byte-ness of the decoder's output directly from its definition. *)
From LibTw2 Require Import Base.Res Model.Huffman Gen.HuffTable Model.PacketBase Model.PacketInst
  Proofs.HuffmanBits Proofs.HuffmanCompress Proofs.HuffmanDecode Proofs.HuffmanTable Props.C07.
From Coq Require Import ZArith List Lia Bool.
Import ListNotations.
Open Scope Z_scope.

Lemma tw_wf : wf_table tw_table = true.
Proof. exact C07_builtin_wf. Qed.

Theorem tw_rt : forall x c y, bytes_ok x = true -> tw_comp x c = Some y ->
  forall c', (length x <= c')%nat -> tw_decomp y c' = Some x.
Proof.
  intros x c y Hx Hc c' Hl. unfold tw_comp in Hc.
  destruct (compress tw_table x false c) as [cc| | |] eqn:E; try discriminate. injection Hc as <-.
  unfold tw_decomp.
  pose proof (roundtrip tw_table x false c cc [] c' (dec_fuel cc c') tw_wf Hx E Hl) as R.
  rewrite app_nil_r in R. rewrite R; [reflexivity|]. unfold dec_fuel. lia.
Qed.

(* every byte the decoder pushes is a leaf index below 256 found in the table *)
Lemma lookup_nonneg t i nd : lookup t i = Some nd -> 0 <= i.
Proof. unfold lookup. destruct (Z.leb_spec 0 i); cbn [andb]; [lia|discriminate]. Qed.

Lemma dec_bits_bytes t root : forall bs nd out room,
  bytes_ok out = true ->
  match dec_bits t root bs nd out room with
  | DCont _ out' _ => bytes_ok out' = true
  | DDone out' => bytes_ok out' = true
  | _ => True
  end.
Proof.
  induction bs as [|bit bs IH]; intros nd out room Ho; cbn [dec_bits]; [exact Ho|].
  set (idx := if bit then snd nd else fst nd).
  unfold get_node. destruct (lookup t idx) as [n|] eqn:El; [|exact I].
  apply lookup_nonneg in El.
  destruct (NUM_SYMBOLS <=? idx); [apply IH, Ho|].
  destruct (idx =? EOF); [exact Ho|].
  destruct (Z.leb_spec 256 idx); [exact I|].
  destruct room as [|r]; [exact I|].
  apply IH. unfold bytes_ok in *. cbn [forallb]. rewrite Ho, andb_true_r. unfold byte_ok. lia.
Qed.

Lemma dec_loop_bytes t root : forall fuel input nd out room d,
  bytes_ok out = true -> dec_loop fuel t root input nd out room = Ok d -> bytes_ok d = true.
Proof.
  induction fuel as [|f IH]; intros input nd out room d Ho; cbn [dec_loop]; [discriminate|].
  set (byte := match input with [] => 0 | b :: _ => b end).
  pose proof (dec_bits_bytes t root (byte_bits 8 byte) nd out room Ho) as Hb.
  destruct (dec_bits t root (byte_bits 8 byte) nd out room) as [nd' o' r'|o'| |p]; try discriminate.
  - apply IH, Hb.
  - intros H. injection H as <-. unfold bytes_ok in *. rewrite forallb_forall in *.
    intros x Hin. apply Hb. apply in_rev. exact Hin.
Qed.

Lemma decompress_bytes fuel t y c d : decompress fuel t y c = Ok d -> bytes_ok d = true.
Proof.
  unfold decompress. destruct (get_node t ROOT_IDX) as [[root|sr]|e|p|]; try discriminate.
  apply dec_loop_bytes. reflexivity.
Qed.

Theorem tw_ok : forall y c d, tw_decomp y c = Some d -> (length d <= c)%nat /\ bytes_ok d = true.
Proof.
  intros y c d H. unfold tw_decomp in H.
  (* `discriminate` without the name would also try E and evaluate the decoder on the table *)
  destruct (decompress (dec_fuel y c) tw_table y c) as [dd| | |] eqn:E; try discriminate H.
  injection H as <-. split.
  - pose proof (proj1 (decoder_total tw_table y c tw_wf)) as Hok. rewrite E in Hok. exact Hok.
  - exact (decompress_bytes _ _ _ _ _ E).
Qed.
