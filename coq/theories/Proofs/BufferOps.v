(* The operations of a BufferRef under the invariant
     initialized <= capacity,  offset + capacity <= size of the allocation:
   none of the index / ghost checks fires, a write stores exactly the fitting
   prefix, nothing outside [offset+initialized, offset+capacity) changes. *)
From LibTw2 Require Import Base.Res Model.Buffer Proofs.BufferMem.
From Coq Require Import List Arith Lia Bool ZArith.
Import ListNotations.
Open Scope nat_scope.

Definition view_ok (total : nat) (v : view) : Prop :=
  v_init v <= v_cap v /\ v_off v + v_cap v <= total.

Definition view_okb (total : nat) (v : view) : bool :=
  (v_init v <=? v_cap v) && (v_off v + v_cap v <=? total).

Lemma view_okb_iff total v : view_okb total v = true <-> view_ok total v.
Proof.
  unfold view_okb, view_ok. rewrite andb_true_iff, !Nat.leb_le. reflexivity.
Qed.

Definition acc_ok (m : bytes) (v : view) (acc : bytes) : Prop :=
  length acc = v_init v /\ forall i, i < v_init v -> nth_error m (v_off v + i) = nth_error acc i.

Lemma acc_ok_nil m v : v_init v = 0 -> acc_ok m v [].
Proof. intros H. split; [symmetry; exact H|]. intros i Hi. lia. Qed.

Lemma acc_ok_app m m' v acc data : acc_ok m v acc ->
  (forall j, j < v_off v + v_init v -> nth_error m' j = nth_error m j) ->
  (forall i, i < length data -> nth_error m' (v_off v + v_init v + i) = nth_error data i) ->
  acc_ok m' (with_init v (v_init v + length data)) (acc ++ data).
Proof.
  intros [La Na] Hold Hnew. split; cbn [with_init v_off v_init]; [rewrite app_length; lia|].
  intros i Hi. destruct (Nat.lt_ge_cases i (v_init v)).
  - rewrite nth_error_app1, Hold by lia. apply Na. assumption.
  - rewrite nth_error_app2 by lia. rewrite <- Hnew by lia. f_equal. lia.
Qed.

Lemma cap_ltb_init v : v_init v <= v_cap v -> (v_cap v <? v_init v) = false.
Proof. apply Nat.ltb_ge. Qed.

Lemma with_init_same v : with_init v (v_init v) = v.
Proof. destruct v; reflexivity. Qed.

Lemma with_init_eq v a b : a = b -> with_init v a = with_init v b.
Proof. intros ->; reflexivity. Qed.

Lemma with_init_ok total v i : view_ok total v -> i <= v_cap v -> view_ok total (with_init v i).
Proof. unfold view_ok, with_init. cbn. lia. Qed.

Definition fit (v : view) (bs : bytes) : nat := Nat.min (length bs) (room v).

Lemma fit_le_room v bs : fit v bs <= room v.
Proof. unfold fit. lia. Qed.

Lemma firstn_fit v bs : firstn (room v) bs = firstn (fit v bs) bs.
Proof.
  unfold fit. destruct (Nat.le_ge_cases (length bs) (room v)).
  - rewrite Nat.min_l by assumption. rewrite !firstn_all2 by lia. reflexivity.
  - rewrite Nat.min_r by assumption. reflexivity.
Qed.

Lemma length_firstn_room v bs : length (firstn (room v) bs) = fit v bs.
Proof. rewrite firstn_length. unfold fit. apply Nat.min_comm. Qed.

(* BufferRef::extend / write is store_bytes of the prefix that fits, and the counter advanced by
   its length: Ok iff everything fits, one item more than fits is pulled from the iterator on failure *)
Lemma extend_loop_store : forall bs m m' v k, v_init v <= v_cap v ->
  store_bytes m (v_off v + v_init v) (firstn (room v) bs) = Some m' ->
  extend_loop m v bs k =
    (m', with_init v (v_init v + length (firstn (room v) bs)),
     Ok (length bs <=? room v, k + (if length bs <=? room v then length bs else S (room v)))).
Proof.
  induction bs as [|b bs IH]; intros m m' v k Hi; cbn [extend_loop].
  - rewrite firstn_nil. cbn [store_bytes length Nat.leb]. intros [= <-].
    rewrite !Nat.add_0_r, with_init_same. reflexivity.
  - unfold room. destruct (Nat.ltb_spec (v_init v) (v_cap v)) as [Hlt|Hge].
    + replace (v_cap v - v_init v) with (S (room (with_init v (S (v_init v)))))
        by (unfold room, with_init; cbn [v_cap v_init]; lia).
      cbn [firstn store_bytes length Nat.leb].
      destruct (set_nth (v_off v + v_init v) b m) as [m1|]; [|discriminate].
      rewrite <- Nat.add_succ_r. intros E.
      rewrite (IH m1 m' (with_init v (S (v_init v))) (S k)) by (cbn [with_init v_cap v_init]; assumption || lia).
      unfold with_init. cbn [v_off v_cap v_init]. do 3 f_equal; [lia|].
      destruct (length bs <=? _); lia.
    + replace (v_cap v - v_init v) with 0 by lia. cbn [firstn store_bytes length Nat.leb]. intros [= <-].
      rewrite Nat.add_0_r, with_init_same. do 4 f_equal. lia.
Qed.

Lemma extend_store bs m m' v : v_init v <= v_cap v ->
  store_bytes m (v_off v + v_init v) (firstn (room v) bs) = Some m' ->
  extend m v bs =
    (m', with_init v (v_init v + length (firstn (room v) bs)),
     Ok (length bs <=? room v, if length bs <=? room v then length bs else S (room v))).
Proof.
  intros Hi E. unfold extend. rewrite (cap_ltb_init v Hi).
  exact (extend_loop_store bs m m' v 0 Hi E).
Qed.

Lemma extend_exact bs m v : view_ok (length m) v ->
  exists m', extend m v bs =
     (m', with_init v (v_init v + Nat.min (length bs) (room v)),
      Ok (length bs <=? room v, if length bs <=? room v then length bs else S (room v)))
   /\ length m' = length m
   /\ slice m' (v_off v + v_init v) (Nat.min (length bs) (room v)) = Some (firstn (room v) bs)
   /\ forall j, j < v_off v + v_init v \/ v_off v + v_init v + Nat.min (length bs) (room v) <= j ->
        nth_error m' j = nth_error m j.
Proof.
  intros [Hi Ht]. fold (fit v bs). rewrite <- length_firstn_room.
  pose proof (fit_le_room v bs) as Hf. rewrite <- length_firstn_room in Hf.
  set (data := firstn (room v) bs) in *. unfold room in Hf.
  destruct (store_bytes_spec data m (v_off v + v_init v)) as [m' [E [L [In' Out']]]]; [lia|].
  exists m'. split; [exact (extend_store bs m m' v Hi E)|]. split; [exact L|]. split; [|exact Out'].
  apply slice_eq; [lia|reflexivity|exact In'].
Qed.

Lemma advance_spec v n total : view_ok total v ->
  match advance v n with
  | (v', Ok _) => v' = with_init v (v_init v + Z.to_nat n) /\ v_init v + Z.to_nat n <= v_cap v
  | (v', Panic s) => v' = v /\ (s = site_advance_overflow \/ s = site_advance_assert)
  | _ => False
  end.
Proof.
  intros [Hi Ht]. unfold advance.
  destruct (Z.ltb_spec usize_max (Z.of_nat (v_init v) + n)); [split; [reflexivity|left; reflexivity]|].
  destruct (Z.leb_spec (Z.of_nat (v_init v) + n) (Z.of_nat (v_cap v))).
  - split; [reflexivity|]. lia.
  - split; [reflexivity|right; reflexivity].
Qed.

Lemma remaining_spec v total : view_ok total v -> remaining v = Ok (room v).
Proof.
  intros [Hi _]. unfold remaining. rewrite (cap_ltb_init v Hi). reflexivity.
Qed.

Lemma initialized_spec m v acc : view_ok (length m) v -> acc_ok m v acc -> initialized m v = Ok acc.
Proof.
  intros [Hi Ht] [La Na]. unfold initialized. rewrite (cap_ltb_init v Hi).
  rewrite (slice_eq m (v_off v) (v_init v) acc); [reflexivity|lia|exact La|exact Na].
Qed.

Lemma cap_view_spec v n total : view_ok total v -> v_init v = 0 ->
  exists c, cap_view v n = Ok c /\ v_off c = v_off v /\ v_init c = 0 /\ v_cap c <= v_cap v
    /\ ((0 <= n)%Z -> Z.of_nat (v_cap c) = Z.min n (Z.of_nat (v_cap v))).
Proof.
  intros [Hi Ht] H0. unfold cap_view. rewrite H0. cbn [Nat.eqb negb].
  destruct (Z.ltb_spec n (Z.of_nat (v_cap v))).
  - replace (v_cap v <? Z.to_nat n) with false by (symmetry; apply Nat.ltb_ge; lia).
    eexists. split; [reflexivity|]. cbn [v_off v_init v_cap]. repeat split; try lia.
  - rewrite Nat.ltb_irrefl. eexists. split; [reflexivity|]. cbn [v_off v_init v_cap]. repeat split; lia.
Qed.

Lemma apply_caps_spec caps : forall v total, view_ok total v -> v_init v = 0 ->
  exists c, apply_caps v caps = Ok c /\ v_off c = v_off v /\ v_init c = 0 /\ v_cap c <= v_cap v
    /\ (forallb is_usize caps = true ->
        Z.of_nat (v_cap c) = fold_left Z.min caps (Z.of_nat (v_cap v))).
Proof.
  induction caps as [|n caps IH]; intros v total Hok H0; cbn [apply_caps fold_left forallb].
  - exists v. repeat split; lia.
  - destruct (cap_view_spec v n total Hok H0) as [c1 [E1 [Ho1 [Hi1 [Hc1 Hn1]]]]]. rewrite E1.
    destruct (IH c1 total) as [c [E [Ho [Hi [Hc Hn]]]]].
    { destruct Hok. unfold view_ok. lia. }
    { exact Hi1. }
    exists c. rewrite E. repeat split; try lia.
    intros Hw. apply andb_true_iff in Hw as [Hw1 Hw2]. rewrite (Hn Hw2). rewrite Hn1.
    + rewrite Z.min_comm. reflexivity.
    + unfold is_usize in Hw1. lia.
Qed.

(* what BufferRefBuffer::buffer + CapAtBuffer::buffer hand to a nested closure: a view of (part of)
   the parent's spare part with nothing initialized yet *)
Definition child_at (v c : view) : Prop :=
  v_off c = v_off v + v_init v /\ v_init c = 0 /\ v_cap c <= room v.

Lemma open_child_spec v caps total : view_ok total v ->
  exists c, open_child v caps = Ok c /\ child_at v c
    /\ (forallb is_usize caps = true ->
        Z.of_nat (v_cap c) = fold_left Z.min caps (Z.of_nat (room v))).
Proof.
  intros [Hi Ht]. unfold open_child, child_of. rewrite (cap_ltb_init v Hi).
  destruct (apply_caps_spec caps {| v_off := v_off v + v_init v; v_cap := v_cap v - v_init v; v_init := 0 |} total)
    as (c & E & Ho & H0 & Hc & Hn); [unfold view_ok; cbn; lia|reflexivity|].
  exists c. split; [exact E|]. split; [exact (conj Ho (conj H0 Hc))|exact Hn].
Qed.

Lemma child_ok v c total : view_ok total v -> child_at v c -> view_ok total c.
Proof. unfold view_ok, child_at, room. lia. Qed.

Lemma child_fresh m v c : child_at v c -> acc_ok m c [].
Proof. intros (_ & H0 & _). apply acc_ok_nil, H0. Qed.

Lemma acc_ok_of_slice m v acc : slice m (v_off v) (v_init v) = Some acc -> acc_ok m v acc.
Proof.
  intros H. destruct (slice_inv _ _ _ _ H) as [_ [L N]]. split; [exact L|].
  intros i Hi. symmetry. apply N, Hi.
Qed.

Lemma slice_of_acc_ok m v acc : v_off v + v_init v <= length m -> acc_ok m v acc ->
  slice m (v_off v) (v_init v) = Some acc.
Proof. intros Hl [L N]. apply slice_eq; assumption. Qed.
