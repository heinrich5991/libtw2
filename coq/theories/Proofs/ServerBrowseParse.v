(* C18: the integer and string readers of parse_server_info against their specifications.
   - parse_i32 (the checked_mul / checked_add loop of <i32 as FromStr>::from_str) computes the
     decimal value of sign? digit+ and fails exactly when the text is not of that form or the
     value is outside the i32 range;
   - the str::from_utf8 check in front of it is redundant for integers;
   - truncated_arraystring returns a prefix of at most `cap` bytes that ends on a character boundary. *)
From LibTw2 Require Import Base.Res Model.ServerBrowse.
From Coq Require Import ZArith Lia Bool List Arith.
Open Scope Z_scope.

Fixpoint digits_value (acc : Z) (ds : bytes) : Z :=
  match ds with [] => acc | d :: r => digits_value (acc * 10 + (d - 48)) r end.

Lemma is_digit_range d : is_digit d = true -> 0 <= d - 48 <= 9.
Proof. unfold is_digit. lia. Qed.

Lemma digits_value_mono : forall ds acc, forallb is_digit ds = true -> 0 <= acc -> acc <= digits_value acc ds.
Proof.
  induction ds as [|d ds IH]; cbn [digits_value forallb]; intros acc H Hacc; [lia|].
  apply andb_true_iff in H as [Hd Hds]. apply is_digit_range in Hd.
  specialize (IH (acc * 10 + (d - 48)) Hds). lia.
Qed.

(* both signs at once: the accumulator is `signed pos a` for the magnitude a read so far
   (the negative branch accumulates -value with checked_sub) *)
Definition signed (pos : bool) (v : Z) : Z := if pos then v else - v.

Lemma parse_digits_signed pos : forall ds a, 0 <= a -> is_i32 (signed pos a) = true ->
  parse_digits pos (signed pos a) ds =
  if forallb is_digit ds then
    (if is_i32 (signed pos (digits_value a ds)) then Some (signed pos (digits_value a ds)) else None)
  else None.
Proof.
  induction ds as [|d ds IH]; intros a Ha Hr; cbn [parse_digits forallb digits_value].
  - rewrite Hr. reflexivity.
  - destruct (is_digit d) eqn:Hd; cbn [andb]; [|reflexivity].
    pose proof (is_digit_range d Hd) as Hd'.
    replace (if pos then signed pos a * 10 + (d - 48) else signed pos a * 10 - (d - 48))
      with (signed pos (a * 10 + (d - 48))) by (destruct pos; cbn [signed]; lia).
    destruct (is_i32 (signed pos (a * 10 + (d - 48)))) eqn:E.
    + (* still in range: so was the product *)
      replace (is_i32 (signed pos a * 10)) with true
        by (revert E; unfold is_i32, i32_min, i32_max; destruct pos; cbn [signed]; lia).
      apply IH; [lia|exact E].
    + (* out of range now, and the value only moves further out *)
      cbn [negb].
      replace (if negb (is_i32 (signed pos a * 10)) then None else None) with (@None Z)
        by (destruct (is_i32 (signed pos a * 10)); reflexivity).
      destruct (forallb is_digit ds) eqn:Hds; [|reflexivity].
      pose proof (digits_value_mono ds (a * 10 + (d - 48)) Hds ltac:(lia)).
      replace (is_i32 (signed pos (digits_value (a * 10 + (d - 48)) ds))) with false; [reflexivity|].
      revert E. unfold is_i32, i32_min, i32_max. destruct pos; cbn [signed]; lia.
Qed.

Lemma parse_digits_0 pos ds :
  parse_digits pos 0 ds =
  if forallb is_digit ds then
    (if is_i32 (signed pos (digits_value 0 ds)) then Some (signed pos (digits_value 0 ds)) else None)
  else None.
Proof.
  rewrite <- (parse_digits_signed pos ds 0); destruct pos; reflexivity || lia.
Qed.

(* str::parse::<i32>: [+-]? digit+, decimal value, inside the i32 range *)
Theorem parse_i32_decimal s :
  parse_i32 s =
  match s with
  | [] => None
  | c :: r =>
    let '(neg, ds) := if c =? 45 then (true, r) else if c =? 43 then (false, r) else (false, s) in
    match ds with
    | [] => None
    | _ => if forallb is_digit ds then
             let v := if neg then - digits_value 0 ds else digits_value 0 ds in
             if is_i32 v then Some v else None
           else None
    end
  end.
Proof.
  unfold parse_i32. destruct s as [|c r]; [reflexivity|]. rewrite !parse_digits_0.
  destruct (c =? 45) eqn:E45; [apply Z.eqb_eq in E45; subst c; reflexivity|].
  destruct (c =? 43); reflexivity.
Qed.

Corollary parse_i32_range s v : parse_i32 s = Some v -> is_i32 v = true.
Proof.
  rewrite parse_i32_decimal. destruct s as [|c r]; [discriminate|].
  destruct (if c =? 45 then _ else _) as [neg [|d ds]]; [discriminate|].
  destruct (forallb _ _); [|discriminate]. cbv zeta.
  destruct (is_i32 _) eqn:E; [|discriminate]. intros [= <-]. exact E.
Qed.

(* whatever parses as an integer is ASCII, so the from_utf8 check cannot be what rejects it *)
Lemma digits_utf8 ds : forallb is_digit ds = true -> utf8_valid ds = true.
Proof.
  induction ds as [|d ds IH]; cbn [forallb utf8_valid]; intros H; [reflexivity|].
  apply andb_true_iff in H as [Hd Hds]. unfold is_digit in Hd.
  replace (d <? 128) with true by lia. apply IH, Hds.
Qed.

Lemma utf8_valid_ascii c r : (c <? 128) = true -> utf8_valid (c :: r) = utf8_valid r.
Proof. intros H. destruct r; cbn [utf8_valid]; rewrite H; reflexivity. Qed.

Lemma parse_digits_0_digits pos ds v : parse_digits pos 0 ds = Some v -> forallb is_digit ds = true.
Proof. rewrite parse_digits_0. destruct (forallb is_digit ds); [reflexivity|discriminate]. Qed.

Theorem parse_i32_ascii s v : parse_i32 s = Some v -> utf8_valid s = true.
Proof.
  unfold parse_i32. destruct s as [|c r]; [discriminate|].
  destruct ((c =? 43) || (c =? 45)) eqn:E.
  - (* the sign is ASCII *)
    destruct r as [|d r]; [discriminate|]. intros H%parse_digits_0_digits.
    rewrite utf8_valid_ascii by lia. apply digits_utf8, H.
  - intros H%parse_digits_0_digits. apply digits_utf8, H.
Qed.

Lemma trunc_search_prefix n s : exists k, trunc_search n s = firstn k s /\ (k <= n)%nat
  /\ is_char_boundary s k = true.
Proof.
  induction n as [|n IH]; cbn [trunc_search].
  - exists 0%nat. cbn [is_char_boundary]. auto.
  - destruct (is_char_boundary s (S n)) eqn:E.
    + exists (S n). auto.
    + destruct IH as [k [H1 [H2 H3]]]. exists k. split; [exact H1|]. split; [lia|exact H3].
Qed.

Theorem truncated_arraystring_spec cap s :
  exists k, truncated_arraystring cap s = Ok (firstn k s) /\ (k <= cap)%nat
    /\ is_char_boundary s k = true /\ ((length s <= cap)%nat -> firstn k s = s).
Proof.
  unfold truncated_arraystring. destruct (cap <? length s)%nat eqn:E.
  - destruct (trunc_search_prefix cap s) as [k [H1 [H2 H3]]]. rewrite H1.
    replace (cap <? length (firstn k s))%nat with false
      by (symmetry; apply Nat.ltb_ge; rewrite firstn_length; lia).
    exists k. split; [reflexivity|]. split; [exact H2|]. split; [exact H3|].
    apply Nat.ltb_lt in E. lia.
  - rewrite E. apply Nat.ltb_ge in E. exists (length s). rewrite firstn_all.
    split; [reflexivity|]. split; [exact E|]. split; [|reflexivity].
    unfold is_char_boundary. destruct (length s) eqn:L; [reflexivity|]. rewrite <- L.
    replace (nth_error s (length s)) with (@None Z) by (symmetry; apply nth_error_None; lia).
    apply Nat.eqb_refl.
Qed.
