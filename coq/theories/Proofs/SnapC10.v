(* C10 assembled. *)
From LibTw2 Require Import Base.Res Model.Varint Model.Packer Model.Snap Proofs.SnapBase Proofs.SnapRep Proofs.SnapDelta
  Proofs.SnapApply Proofs.SnapOk Proofs.SnapTotal Proofs.SnapTotal2 Proofs.SnapC09 Proofs.SnapSer Proofs.SnapReg
  Proofs.SnapObs Proofs.SnapBuilder Proofs.SnapBuilder2 Proofs.SnapBuilder3 Proofs.SnapWireInst.
From Coq Require Import ZArith List Lia Bool Permutation.
Import ListNotations.
Open Scope Z_scope.

Definition ops_ok (ops : list (tyid * Z * list Z)) : Prop :=
  forall t id data, In (t, id, data) ops -> op_ok t id data.

Definition like (S S' : snap) : Prop :=
  sn_ext S' = sn_ext S /\ good (sn_raw S')
  /\ exists ch ch', rep (sn_raw S) ch /\ rep (sn_raw S') ch' /\ (forall k, aget k ch' = aget k ch).

Lemma like_observables S S' : like S S' ->
  (forall E, @snap_items E S' = @snap_items E S)
  /\ (forall E t id, @snap_item E S' t id = @snap_item E S t id)
  /\ crc (sn_raw S') = crc (sn_raw S).
Proof.
  intros (He & _ & ch & ch' & R & R' & Hl).
  destruct (same_observables S' S ch' ch R' R Hl He) as (O1 & O2 & O3 & _). repeat split; assumption.
Qed.

Lemma built_consistent ops : ops_ok ops ->
  let b := build ops builder_new in
  bgood b /\ good (sn_raw (b_snap b)) /\ build_from_raw (sn_raw (b_snap b)) = (Ok (b_snap b), []).
Proof.
  intros Hok b. pose proof (build_bgood ops Hok builder_new bgood_new) as G.
  split; [exact G|]. split; [apply (bg_raw _ G)|apply (builder_consistent _ G)].
Qed.

Theorem built_roundtrip ops : ops_ok ops ->
  let S := b_snap (build ops builder_new) in
  exists l bs S', snap_ints (sn_raw S) = Ok l /\ ints_to_bytes l = Ok bs
    /\ 4 * Z.of_nat (length l) <= MAX_SNAPSHOT_SIZE
    /\ snap_read_from_ints l = (Ok S', []) /\ snap_read_bytes bs = (Ok S', []) /\ like S S'.
Proof.
  intros Hok S. destruct (built_consistent ops Hok) as (_ & GR & Ec).
  destruct (consistent_roundtrip S [] GR Ec) as (l & S' & El & Hli & Hlen & Ers & HL).
  exists l, (enc l), S'. rewrite (snap_read_bytes_enc l Hli), (ints_to_bytes_enc l Hli).
  repeat (split; [assumption || reflexivity|]). exact HL.
Qed.

Theorem built_after_delta opsA opsB : ops_ok opsA -> ops_ok opsB ->
  let A := b_snap (build opsA builder_new) in
  let B := b_snap (build opsB builder_new) in
  k09 (sn_raw A) (sn_raw B) = false ->
  exists d S', create_raw (sn_raw A) (sn_raw B) = Ok d /\ snap_read_with_delta A d = (Ok S', []) /\ like B S'.
Proof.
  intros HokA HokB A B Hk. destruct (built_consistent opsA HokA) as (_ & GRA & _).
  destruct (built_consistent opsB HokB) as (_ & GRB & EcB).
  destruct (consistent_after_delta (sn_raw A) B [] GRA GRB EcB Hk) as (d & S' & Ed & _ & Er & HL).
  exists d, S'. split; [exact Ed|]. split; [exact Er|exact HL].
Qed.

Lemma rep_lookups_unique S ch1 ch2 : rep S ch1 -> rep S ch2 -> forall k, aget k ch1 = aget k ch2.
Proof.
  intros R1 R2 k.
  destruct (aget k ch1) as [d|] eqn:E1.
  - destruct (rep_get_some _ _ _ _ R1 E1) as (r & Hr & _ & Hs).
    destruct (rep_in _ _ _ _ R2 (aget_in _ _ _ Hr)) as (d' & Hd' & _ & Hs').
    specialize (Hs unit). rewrite (Hs' unit) in Hs. injection Hs as <-. symmetry. exact Hd'.
  - apply (rep_get_none _ _ _ R1) in E1. apply (rep_get_none _ _ _ R2) in E1. symmetry. exact E1.
Qed.

(* the delta depends on the base only through its lookups *)
Lemma created_same_base A A' B chA chA' chB :
  rep A chA -> rep A' chA' -> (forall k, aget k chA' = aget k chA) ->
  created A' B chA' chB = created A B chA chB.
Proof.
  intros R R' Hl. destruct (same_lookups _ _ _ _ R' R Hl) as (_ & _ & Hk).
  unfold created. rewrite Hk.
  assert (Hd : diffs chA' (view B chB) = diffs chA (view B chB)).
  { unfold diffs. apply map_ext. intros kd. unfold diff_of. rewrite Hl. reflexivity. }
  rewrite Hd. reflexivity.
Qed.

(* a copy of the base snapshot yields the same delta *)
Lemma create_raw_like A R B d : good (sn_raw A) -> like A R -> good B ->
  create_raw (sn_raw A) B = Ok d -> create_raw (sn_raw R) B = Ok d.
Proof.
  intros GA (_ & GR & chA & chR & HA & HR & Hlk) GB Hcr. destruct (g_rep _ GB) as [chB HB].
  destruct (create_raw_ok _ _ chA chB d HA HB (g_keys _ GA) (g_keys _ GB) Hcr) as [Hk ->].
  rewrite <- (created_same_base _ _ B _ _ chB HA HR Hlk).
  apply create_raw_spec; [exact HR|exact HB|apply (g_keys _ GR)|apply (g_keys _ GB)|].
  intros k f d Hf. rewrite Hlk in Hf. apply (k09_false _ _ _ _ HA HB Hk k f d Hf).
Qed.

(* the delta the sender takes from its base A to a consistent snapshot H, applied to a copy of A,
   gives a copy of H *)
Theorem delta_to_copy A R H d : good (sn_raw A) -> like A R -> good (sn_raw H) ->
  build_from_raw (sn_raw H) = (Ok H, []) -> create_raw (sn_raw A) (sn_raw H) = Ok d ->
  exists X, snap_read_with_delta R d = (Ok X, []) /\ like H X.
Proof.
  intros GA L GH Ec Hcr. pose proof (create_raw_like A R _ d GA L GH Hcr) as HcrR. destruct L as (_ & GR & _).
  destruct (g_rep _ GR) as [chR HR]. destruct (g_rep _ GH) as [chH HH].
  destruct (create_raw_ok _ _ chR chH d HR HH (g_keys _ GR) (g_keys _ GH) HcrR) as [Hk _].
  destruct (consistent_after_delta (sn_raw R) H [] GR GH Ec Hk) as (d' & X & Ed & _ & Er & HL).
  rewrite HcrR in Ed. injection Ed as <-. exists X. split; [exact Er|exact HL].
Qed.

(* a new UUID type on a recycled builder, which holds the registry items only *)
Lemma reg_items_sizes l : length (reg_items l) = length l /\ length (flat (reg_items l)) = (4 * length l)%nat.
Proof.
  unfold reg_items. rewrite map_length. split; [reflexivity|].
  induction l as [|[u t] l IH]; [reflexivity|]. cbn [map flat flat_map snd length uuid_to_item_data app]. fold (flat (map (fun ut : Z * Z => (key TYPE_ID_EX (snd ut), uuid_to_item_data (fst ut))) l)).
  cbn [length]. lia.
Qed.

Lemma reg_items_fresh ext k : (forall u t, In (u, t) ext -> k <> key TYPE_ID_EX t) -> aget k (reg_items ext) = None.
Proof.
  intros H. apply aget_none. unfold reg_items. rewrite map_map. cbn [fst]. intros Hin.
  apply in_map_iff in Hin. destruct Hin as [[u t] [E Hin]]. apply (H u t Hin). symmetry. exact E.
Qed.

Lemma builder_add_room b u id data :
  rep (sn_raw (b_snap b)) (reg_items (sn_ext (b_snap b))) ->
  (forall u' t, In (u', t) (sn_ext (b_snap b)) -> 16384 <= t < b_next b) ->
  aget u (sn_ext (b_snap b)) = None -> 16384 <= b_next b < 32768 -> 0 <= id <= 65535 ->
  Z.of_nat (length (sn_ext (b_snap b))) + 2 <= MAX_SNAPSHOT_ITEMS ->
  ser_size (Z.of_nat (length (sn_ext (b_snap b))) + 2)
           (4 * Z.of_nat (length (sn_ext (b_snap b))) + 4 + Z.of_nat (length data)) <= MAX_SNAPSHOT_SIZE ->
  snd (builder_add b (Uuid u) id data) = Ok tt.
Proof.
  intros R He Hu Hn Hid Hroom1 Hroom2. set (ext := sn_ext (b_snap b)) in *.
  destruct (rep_lengths _ _ R) as [L1 L2]. destruct (reg_items_sizes ext) as [Lr1 Lr2]. rewrite Lr1 in L1. rewrite Lr2 in L2.
  unfold builder_add. fold ext. rewrite Hu, (proj2 (Z.leb_le _ _)) by (unfold OFFSET_EXTENDED_TYPE_ID; lia).
  cbn [negb]. rewrite (proj2 (Z.leb_gt _ _)) by (unfold MAX_EXTENDED_TYPE_ID; lia).
  set (R1 := pushed (sn_raw (b_snap b)) (key TYPE_ID_EX (b_next b)) (uuid_to_item_data u)).
  assert (Hk0 : aget (key TYPE_ID_EX (b_next b)) (rs_offs (sn_raw (b_snap b))) = None).
  { apply (rep_get_none _ _ _ R), reg_items_fresh. intros u' t Hin E. pose proof (He u' t Hin).
    apply key_inj in E; unfold TYPE_ID_EX; lia. }
  assert (Hk1 : aget (key (b_next b) id) (rs_offs R1) = None).
  { unfold R1. cbn [pushed rs_offs]. rewrite aget_ains_other.
    - apply (rep_get_none _ _ _ R), reg_items_fresh. intros u' t Hin E. pose proof (He u' t Hin).
      apply key_inj in E; unfold TYPE_ID_EX in *; lia.
    - intros E. apply key_inj in E; unfold TYPE_ID_EX in *; lia. }
  destruct (pushed_length _ _ (uuid_to_item_data u) Hk0) as [P1 P2]. fold R1 in P1, P2.
  unfold MAX_SNAPSHOT_ITEMS, MAX_SNAPSHOT_SIZE, ser_size in *.
  rewrite add_item_push; [|exact Hk0|].
  2:{ apply fits_iff. unfold MAX_SNAPSHOT_ITEMS, MAX_SNAPSHOT_SIZE, ser_size. rewrite L1, L2. cbn [length uuid_to_item_data]. lia. }
  fold R1. cbn [b_snap sn_raw]. rewrite add_item_push; [reflexivity|exact Hk1|].
  apply fits_iff. unfold MAX_SNAPSHOT_ITEMS, MAX_SNAPSHOT_SIZE, ser_size. rewrite P1, P2, L1, L2. cbn [length uuid_to_item_data]. lia.
Qed.

(* recycling a copy: the builder knows exactly the UUID types, and a new one gets a fresh number *)
Theorem built_recycle ops S' : ops_ok ops ->
  let b := build ops builder_new in
  like (b_snap b) S' ->
  exists b', snap_recycle S' = Ok b' /\ bgood b' /\ b_next b' = b_next b /\ sn_ext (b_snap b') = sn_ext (b_snap b)
    /\ forall u id data, op_ok (Uuid u) id data ->
       let r := builder_add b' (Uuid u) id data in
       bgood (fst r)
       /\ (forall u' t, aget u' (sn_ext (b_snap b)) = Some t -> aget u' (sn_ext (b_snap (fst r))) = Some t)
       /\ (aget u (sn_ext (b_snap b)) = None ->
            (forall u', aget u' (sn_ext (b_snap b)) <> Some (b_next b))
            /\ (snd r = Ok tt -> aget u (sn_ext (b_snap (fst r))) = Some (b_next b))
            /\ (b_next b < 32768 ->
                Z.of_nat (length (sn_ext (b_snap b))) + 2 <= MAX_SNAPSHOT_ITEMS ->
                ser_size (Z.of_nat (length (sn_ext (b_snap b))) + 2)
                         (4 * Z.of_nat (length (sn_ext (b_snap b))) + 4 + Z.of_nat (length data)) <= MAX_SNAPSHOT_SIZE ->
                snd r = Ok tt)).
Proof.
  intros Hok b (He & GR' & ch & ch' & R & R' & Hl).
  destruct (built_consistent ops Hok) as (G & _). fold b in G.
  destruct (bg_st _ G) as (ch0 & R0 & B0). pose proof (bg_next _ G) as Hn.
  (* the builder state transfers to S' *)
  assert (Hl0 : forall k, aget k ch0 = aget k ch').
  { intros k. rewrite Hl. apply (rep_lookups_unique _ _ _ R0 R). }
  pose proof (bstate_lookups ch0 ch' _ _ Hl0 B0) as B'. rewrite <- He in B'.
  destruct (recycle_builder_state S' ch' (b_next b) GR' R' B' Hn) as (b' & Er & Gb' & Hnext & Hext' & Rreg).
  rewrite He in Hext'. exists b'. split; [exact Er|]. split; [exact Gb'|]. split; [exact Hnext|]. split; [exact Hext'|].
  intros u id data Hop r. split; [apply (builder_add_bgood b' (Uuid u) id data Gb' Hop)|].
  rewrite <- Hext', <- Hnext. split; [intros u' t; apply builder_add_keeps|]. intros Hu.
  assert (Hnum : forall u' t, aget u' (sn_ext (b_snap b')) = Some t -> 16384 <= t < b_next b').
  { rewrite Hext', Hnext. intros u' t Hu'. apply (bs_entry _ _ _ B0 u' t Hu'). }
  split; [intros u' Hu'; apply Hnum in Hu'; lia|]. split; [apply builder_add_number, Hu|].
  intros Hlt. apply builder_add_room; [rewrite Hext', <- He; exact Rreg| |exact Hu|lia|apply Hop].
  intros u' t Hin. apply (Hnum u'), in_aget; [|exact Hin].
  rewrite Hext'. apply sortedb_nodup, (bs_sorted _ _ _ B0).
Qed.
