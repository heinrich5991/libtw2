(* The map accessors are total on every accepted datafile, and every index they hand out
   (layers of a group, data blocks of layers / images / info) lies inside its range. *)
From LibTw2 Require Import Base.Res Model.Datafile Model.MapReader
  Proofs.DatafileBase Proofs.DatafileCheck Proofs.DatafileAccess Proofs.MapViews.
From Coq Require Import ZArith List Lia Bool.
Import ListNotations.
Open Scope Z_scope.

Definition in_rg (rg : Z * Z) (i : Z) : Prop := fst rg <= i < snd rg.
Definition opt_in (rg : Z * Z) (o : option Z) : Prop := match o with Some i => in_rg rg i | None => True end.

Lemma extra_offset_nonneg version flags o : extra_offset version flags = Some o -> 0 <= o.
Proof.
  unfold extra_offset. intros H.
  destruct (version =? 2); [|destruct (version =? 3); [|discriminate]];
    repeat (destruct (flags =? _); [injection H as <-; cbn; lia|]); discriminate.
Qed.

Lemma extra_data_spec raw version flags ts : all_i32 raw ->
  ok_with (extra_data raw version flags ts) (fun x => -2147483648 <= x <= 2147483647).
Proof.
  intros Hraw. unfold extra_data. destruct (extra_offset version flags) as [o|] eqn:Eo; [|exact I].
  destruct (zlen raw <=? o) eqn:E1; [exact I|]. apply extra_offset_nonneg in Eo.
  destruct (index_ok (EE := terr) raw o site_map_extra_index) as (x & -> & Hz); [lia|].
  cbn. eapply all_i32_znth; eauto.
Qed.

Lemma ok_with_lift_err {E1 E2 A} (f : E1 -> E2) (x : res E1 A) P : ok_with x P -> ok_with (lift_err f x) P.
Proof. destruct x; cbn; auto. Qed.

(* One step through the straight-line code of a from_raw function: the leading call is
   replaced by what its specification says of its value. After an `optional` the caller
   names the view; a `let*` of a compound expression is left to the caller as well, who
   says what is needed of its value (ok_with_bind with an explicit P). ow_walk goes on
   until such a place, closing the branches that end in an error. *)
Ltac mi_solve := unfold mi_ok; cbn; lia.
Ltac ow_step :=
  lazymatch goal with
  | |- ok_with (Ok _) _ => cbn [ok_with]
  | |- ok_with (Err _) _ => exact I
  | |- ok_with (bind (mandatory ?mi ?raw _ _) _) _ =>
      eapply ok_with_bind; [apply (mandatory_spec mi raw); [mi_solve|assumption]|];
      let v := fresh "v" in let Hv := fresh "Hv" in intros v Hv; cbv beta in Hv
  | |- ok_with (bind (optional ?mi ?raw _) _) _ =>
      eapply ok_with_bind; [apply (optional_spec mi raw); [mi_solve|assumption]|]; cbv beta
  | |- ok_with (bind (mandatory_rest_unreachable ?mi ?raw _) _) _ =>
      eapply ok_with_bind; [apply (mandatory_rest_unreachable_spec mi raw); [mi_solve|assumption|reflexivity]|]; cbv beta
  | |- ok_with (bind (fld ?v ?k) _) _ =>
      eapply ok_with_bind; [eapply fld_spec; [eassumption|reflexivity]|];
      let x := fresh "x" in let Hx := fresh "Hx" in intros x Hx; cbv beta in Hx
  | |- ok_with (bind (get_index ?i ?rg _) _) _ =>
      eapply ok_with_bind; [apply get_index_spec; assumption|];
      let x := fresh "i" in let Hx := fresh "Hi" in intros x Hx; cbv beta in Hx
  | |- ok_with (bind (get_index_opt ?i ?rg _) _) _ =>
      eapply ok_with_bind; [apply get_index_opt_spec; assumption|];
      let x := fresh "o" in let Hx := fresh "Ho" in intros x Hx; cbv beta in Hx
  | |- ok_with (bind (extra_data ?raw ?v ?f ?ts) _) _ =>
      eapply ok_with_bind; [apply extra_data_spec; assumption|];
      let x := fresh "x" in let Hx := fresh "Hx" in intros x Hx; cbv beta in Hx
  | |- ok_with (bind (musize_add ?a ?b) _) _ => rewrite (musize_add_spec a b) by lia; cbn [bind]
  | |- ok_with (bind (Ok _) _) _ => cbn [bind]
  | |- ok_with (if ?c then _ else _) _ => destruct c eqn:?
  end.
Ltac ow_walk := repeat (ow_step; try exact I).

Lemma group_from_raw_spec raw li : all_i32 raw -> range_ok li ->
  ok_with (group_from_raw raw li)
    (fun g => fst li <= fst (g_layers g) /\ fst (g_layers g) <= snd (g_layers g) /\ snd (g_layers g) <= snd li).
Proof.
  intros Hraw [Hr1 Hr2]. unfold group_from_raw. cbv zeta.
  ow_step. ow_step. intros v2 Hv2. ow_step. intros v3 Hv3.
  ow_walk.
  eapply (ok_with_bind _ _ (fun _ => True)).
  { destruct v2 as [v2|]; ow_walk. }
  intros clipping _.
  eapply ok_with_bind; [eapply name_spec; [exact Hv3|reflexivity]|]. intros name _.
  repeat ow_step. cbn [g_layers fst snd]. lia.
Qed.

Lemma sounds_from_raw_spec raw di si legacy : all_i32 raw -> range_ok di -> range_ok si ->
  ok_with (sounds_from_raw raw di si legacy) (fun s => in_rg di (s_data s) /\ opt_in si (s_sound s)).
Proof.
  intros Hraw Hdi Hsi. unfold sounds_from_raw. ow_step.
  eapply (ok_with_bind _ _ (fun _ => True)).
  { destruct legacy; [exact I|]. eapply ok_with_weaken; [apply mandatory_spec; [mi_solve|assumption]|auto]. }
  intros _ _. ow_walk. cbn [s_data s_sound]. auto.
Qed.

Lemma quads_from_raw_spec raw di ii : all_i32 raw -> range_ok di -> range_ok ii ->
  ok_with (quads_from_raw raw di ii) (fun q => in_rg di (q_data q) /\ opt_in ii (q_image q)).
Proof.
  intros Hraw Hdi Hii. unfold quads_from_raw. ow_step. ow_step. intros v2 Hv2.
  eapply ok_with_bind; [eapply name_spec; [exact Hv2|reflexivity]|]. intros name _.
  ow_walk. cbn [q_data q_image]. auto.
Qed.

Definition tt_data_ok (di : Z * Z) (t : tilemap_type) : Prop :=
  match t with
  | TNormal _ _ _ d | TGame d => in_rg di d
  | TTele a b | TSpeedup a b | TFront a b | TSwitch a b | TTune a b => in_rg di a /\ in_rg di b
  end.

Lemma tilemap_from_raw_spec raw di ei ii : all_i32 raw -> range_ok di -> range_ok ei -> range_ok ii ->
  ok_with (tilemap_from_raw raw di ei ii)
    (fun tm => tt_data_ok di (tm_type tm) /\ 0 < tm_width tm <= 2147483647 /\ 0 < tm_height tm <= 2147483647).
Proof.
  intros Hraw Hdi Hei Hii. unfold tilemap_from_raw. cbv zeta.
  ow_step. ow_step. ow_step. intros v3 Hv3.
  ow_walk.
  eapply (ok_with_bind _ _ (fun _ => True)); [ow_walk|]. intros env _.
  ow_walk.
  (* the kind of layer: each kind's data indices come from get_index *)
  eapply (ok_with_bind _ _ (tt_data_ok di)).
  { ow_walk; cbn [tt_data_ok]; auto. }
  intros ty Hty.
  eapply ok_with_bind; [eapply name_spec; [exact Hv3|reflexivity]|]. intros name _.
  ow_walk. cbn [tm_type tm_width tm_height]. repeat split; auto; lia.
Qed.

Definition layer_ok (di : Z * Z) (l : layer) : Prop :=
  match l_t l with
  | LTilemap tm => tt_data_ok di (tm_type tm) /\ 0 < tm_width tm <= 2147483647 /\ 0 < tm_height tm <= 2147483647
  | LQuads q => in_rg di (q_data q)
  | LSounds s => in_rg di (s_data s)
  end.

Lemma layer_from_raw_spec raw di ei ii si : all_i32 raw -> range_ok di -> range_ok ei -> range_ok ii -> range_ok si ->
  ok_with (layer_from_raw raw di ei ii si) (layer_ok di).
Proof.
  intros Hraw Hdi Hei Hii Hsi. unfold layer_from_raw.
  ow_step. intros [v1 rest] [Hv1 Hrest]. cbn [fst snd] in Hv1, Hrest. cbv zeta.
  ow_walk.
  eapply (ok_with_bind _ _ (fun t => layer_ok di {| l_detail := false; l_t := t |})); [|auto].
  destruct (_ =? MAP_ITEMTYPE_LAYER_V1_TILEMAP); [|destruct (_ =? MAP_ITEMTYPE_LAYER_V1_QUADS); [|destruct (_ || _); [|exact I]]].
  - eapply ok_with_bind; [apply ok_with_lift_err, tilemap_from_raw_spec; assumption|]. intros tm Htm. exact Htm.
  - eapply ok_with_bind; [apply ok_with_lift_err, quads_from_raw_spec; assumption|]. intros q [Hq _]. exact Hq.
  - eapply ok_with_bind; [apply ok_with_lift_err, sounds_from_raw_spec; assumption|]. intros s [Hs _]. exact Hs.
Qed.

Lemma image_from_raw_spec raw di : all_i32 raw -> range_ok di ->
  ok_with (image_from_raw raw di) (fun im => in_rg di (im_name im) /\ opt_in di (im_data im)).
Proof.
  intros Hraw Hdi. unfold image_from_raw. ow_step. ow_step.
  eapply (ok_with_bind _ _ (opt_in di)); [ow_walk; assumption|]. intros data Hdata.
  ow_walk. cbn [im_name im_data]. auto.
Qed.

Definition info_ok (di : Z * Z) (i : info) : Prop :=
  opt_in di (in_author i) /\ opt_in di (in_version i) /\ opt_in di (in_credits i)
  /\ opt_in di (in_license i) /\ opt_in di (in_settings i).

Lemma info_from_raw_spec raw di : all_i32 raw -> range_ok di -> ok_with (info_from_raw raw di) (info_ok di).
Proof.
  intros Hraw Hdi. unfold info_from_raw. cbv zeta. ow_step.
  eapply ok_with_bind; [apply (from_slice_rest_spec MapItemInfoV2 raw); [mi_solve|assumption]|]. intros f2 Hf2.
  ow_walk.
  eapply (ok_with_bind _ _ (opt_in di)).
  { destruct f2 as [| |v2 rest]; try exact I. destruct Hf2 as [Hv2 _]. ow_step. apply get_index_opt_spec; assumption. }
  intros settings Hs. cbn [ok_with]. repeat split; assumption.
Qed.

Lemma counts_bound r : reader_pre r -> 0 <= h_num_items (r_hdr r) <= 2147483647 /\ 0 <= h_num_data (r_hdr r) <= 2147483647.
Proof. intros Hp. pose proof (rp_hdr r Hp) as Hh. red in Hh. lia. Qed.

Lemma indices_range r ty : reader_inv r -> exists s e, item_type_indices r ty = Ok (s, e) /\ range_ok (s, e)
  /\ e <= h_num_items (r_hdr r)
  /\ (forall j, s <= j < e -> exists v, item r j = Ok v /\ all_i32 (iv_data v) /\ iv_type v = ty).
Proof.
  intros Hinv. destruct (item_type_indices_spec r ty Hinv) as (s & e & Hse & H1 & H2 & H3).
  destruct (counts_bound r (ri_pre r Hinv)) as [Hni _].
  exists s, e. split; [exact Hse|]. split; [unfold range_ok; cbn; lia|]. split; [exact H2|].
  intros j Hj. destruct H3 as [[-> ->]|(t & Hin & Hty & -> & ->)]; [lia|].
  destruct (item_spec r j Hinv ltac:(lia)) as (v & a & b & Hv & Hvin & Hih & Htyv & _).
  exists v. split; [exact Hv|]. split.
  - exact (view_inside_i32 r v (ri_pre r Hinv) Hvin).
  - pose proof (ri_type_items r Hinv) as Hti. rewrite Forall_forall in Hti.
    destruct (Hti t Hin j Hj) as (a' & b' & Hih' & Ha'). congruence.
Qed.

Lemma item_in_range r ty s e i : reader_inv r -> item_type_indices r ty = Ok (s, e) -> s <= i < e ->
  exists v, item r i = Ok v /\ all_i32 (iv_data v) /\ iv_type v = ty.
Proof.
  intros Hinv Hse Hi. destruct (indices_range r ty Hinv) as (s' & e' & Hse' & _ & _ & Hitems).
  rewrite Hse in Hse'. injection Hse' as <- <-. exact (Hitems i Hi).
Qed.

Lemma data_range r : reader_inv r -> data_indices r = Ok (0, h_num_data (r_hdr r)) /\ range_ok (0, h_num_data (r_hdr r)).
Proof.
  intros Hinv. destruct (counts_bound r (ri_pre r Hinv)) as [_ Hnd].
  unfold data_indices, num_data. rewrite assert_usize_ok by lia. split; [reflexivity|]. split; cbn; lia.
Qed.

Lemma find_item_ok r ty id : reader_inv r ->
  exists o, find_item r ty id = Ok o /\ match o with Some v => all_i32 (iv_data v) | None => True end.
Proof.
  intros Hinv. destruct (find_item_spec r ty id Hinv) as (o & Ho & Hv). exists o. split; [exact Ho|].
  destruct o as [v|]; [|exact I]. exact (view_inside_i32 r v (ri_pre r Hinv) Hv).
Qed.

Theorem map_version_total r : reader_inv r -> no_panic (map_version r).
Proof.
  intros Hinv. unfold map_version. destruct (find_item_ok r MAP_ITEMTYPE_VERSION 0 Hinv) as (o & -> & Hd).
  cbn [lift lift_err bind]. destruct o as [v|]; [|exact I].
  eapply ok_with_no_panic, ok_with_bind; [apply (from_slice_rest_spec MapItemCommonV0 (iv_data v)); [mi_solve|exact Hd]|].
  intros f Hf. destruct f as [| |item rest]; [exact I|destruct Hf; discriminate|].
  destruct Hf as [Hf _]. eapply fld_spec; [exact Hf|reflexivity].
Qed.

Theorem map_check_version_total r : reader_inv r -> no_panic (map_check_version r).
Proof.
  intros Hinv. unfold map_check_version. pose proof (map_version_total r Hinv) as H.
  destruct (map_version r); cbn in *; auto. destruct (negb _); exact I.
Qed.

Theorem map_info_total r : reader_inv r -> ok_with (map_info r) (info_ok (0, h_num_data (r_hdr r))).
Proof.
  intros Hinv. unfold map_info. destruct (find_item_ok r MAP_ITEMTYPE_INFO 0 Hinv) as (o & -> & Hd).
  cbn [lift lift_err bind]. destruct o as [v|]; [|exact I].
  destruct (data_range r Hinv) as [-> Hrg]. cbn [bind].
  apply ok_with_lift_err, info_from_raw_spec; assumption.
Qed.

Theorem map_group_total r i s e : reader_inv r -> map_group_indices r = Ok (s, e) -> s <= i < e ->
  ok_with (map_group r i)
    (fun g => exists ls le, item_type_indices r MAP_ITEMTYPE_LAYER = Ok (ls, le)
                            /\ ls <= fst (g_layers g) /\ fst (g_layers g) <= snd (g_layers g) /\ snd (g_layers g) <= le).
Proof.
  intros Hinv Hgi Hi. unfold map_group_indices in Hgi.
  destruct (item_type_indices r MAP_ITEMTYPE_GROUP) as [[s' e']| | |] eqn:Hse; try discriminate. injection Hgi as -> ->.
  destruct (item_in_range r _ s e i Hinv Hse Hi) as (v & Hv & Hd & Hty).
  unfold map_group. rewrite Hv. cbn [lift lift_err bind]. rewrite Hty, Z.eqb_refl. cbn [negb].
  destruct (indices_range r MAP_ITEMTYPE_LAYER Hinv) as (ls & le & Hl & Hlr & _ & _).
  rewrite Hl. cbn [lift lift_err bind].
  apply ok_with_lift_err. eapply ok_with_weaken; [apply group_from_raw_spec; assumption|].
  intros g Hg. exists ls, le. auto.
Qed.

Theorem map_layer_total r k s e : reader_inv r -> item_type_indices r MAP_ITEMTYPE_LAYER = Ok (s, e) -> s <= k < e ->
  ok_with (map_layer r k) (layer_ok (0, h_num_data (r_hdr r))).
Proof.
  intros Hinv Hli Hk. destruct (item_in_range r _ s e k Hinv Hli Hk) as (v & Hv & Hd & Hty).
  unfold map_layer. rewrite Hv. cbn [lift lift_err bind]. rewrite Hty, Z.eqb_refl. cbn [negb].
  destruct (data_range r Hinv) as [-> Hrg]. cbn [bind].
  destruct (indices_range r MAP_ITEMTYPE_ENVELOPE Hinv) as (es & ee & -> & Her & _).
  destruct (indices_range r MAP_ITEMTYPE_IMAGE Hinv) as (is & ie & -> & Hir & _).
  destruct (indices_range r MAP_ITEMTYPE_DDRACE_SOUND Hinv) as (ss & se & -> & Hsr & _).
  cbn [lift lift_err bind]. apply ok_with_lift_err, layer_from_raw_spec; assumption.
Qed.

Theorem map_image_total r i s e : reader_inv r -> item_type_indices r MAP_ITEMTYPE_IMAGE = Ok (s, e) -> s <= i < e ->
  ok_with (map_image r i)
    (fun im => in_rg (0, h_num_data (r_hdr r)) (im_name im) /\ opt_in (0, h_num_data (r_hdr r)) (im_data im)).
Proof.
  intros Hinv Hii Hi. destruct (item_in_range r _ s e i Hinv Hii Hi) as (v & Hv & Hd & _).
  unfold map_image. rewrite Hv. cbn [lift lift_err bind].
  destruct (data_range r Hinv) as [-> Hrg]. cbn [bind].
  apply ok_with_lift_err, image_from_raw_spec; assumption.
Qed.

Definition gl_inv (st : gl_state) : Prop :=
  (gl_giwh st = None -> gl_game st = None) /\ (gl_giwh st <> None -> gl_group st <> None).

Lemma gl_put_spec st t :
  ok_with (gl_put st t)
    (fun o => match o with Some st1 => gl_giwh st1 = gl_giwh st /\ gl_group st1 = gl_group st | None => True end).
Proof.
  destruct t; cbn [gl_put]; try exact I;
    match goal with |- ok_with (match ?slot with _ => _ end) _ => destruct slot end; cbn; auto.
Qed.

Lemma gl_layer_spec r i g k st s e : reader_inv r -> item_type_indices r MAP_ITEMTYPE_LAYER = Ok (s, e) -> s <= k < e ->
  gl_inv st -> ok_with (gl_layer r i g k st) gl_inv.
Proof.
  intros Hinv Hli Hk [Hst1 Hst2]. unfold gl_layer.
  eapply ok_with_bind; [apply (map_layer_total r k s e Hinv Hli Hk)|]. intros l _.
  destruct (l_t l) as [q|tm|sn]; try (cbn; split; assumption).
  eapply ok_with_bind; [apply gl_put_spec|]. intros [st1|] Hput; [|cbn; split; assumption].
  destruct Hput as [Eg Egr]. destruct (gl_giwh st1) as [[[k0 w] h]|] eqn:E1.
  - destruct (negb _); [exact I|]. destruct (_ || _); [exact I|].
    split; [congruence|]. rewrite Egr. intros _. apply Hst2. congruence.
  - split; cbn; [discriminate|intros _; discriminate].
Qed.

Lemma gl_layers_spec r i g s e : reader_inv r -> item_type_indices r MAP_ITEMTYPE_LAYER = Ok (s, e) ->
  forall fuel k hi st, s <= k -> hi <= e -> hi - k <= Z.of_nat fuel -> gl_inv st ->
  ok_with (gl_layers fuel r i g k hi st) gl_inv.
Proof.
  intros Hinv Hli. induction fuel as [|fuel IH]; intros k hi st Hk Hhi Hfuel Hst; cbn [gl_layers];
    (destruct (hi <=? k) eqn:E0; [exact Hst|]); [lia|].
  eapply ok_with_bind; [apply (gl_layer_spec r i g k st s e Hinv Hli); [lia|exact Hst]|].
  intros st1 Hst1. apply IH; auto; lia.
Qed.

Lemma gl_groups_spec r gs ge : reader_inv r -> map_group_indices r = Ok (gs, ge) ->
  forall fuel i hi st, gs <= i -> hi <= ge -> hi - i <= Z.of_nat fuel -> gl_inv st ->
  ok_with (gl_groups fuel r i hi st) gl_inv.
Proof.
  intros Hinv Hgi. induction fuel as [|fuel IH]; intros i hi st Hi Hhi Hfuel Hst; cbn [gl_groups];
    (destruct (hi <=? i) eqn:E0; [exact Hst|]); [lia|].
  eapply ok_with_bind; [apply (map_group_total r i gs ge Hinv Hgi); lia|].
  intros g (ls & le & Hl & H1 & H2 & H3).
  eapply ok_with_bind.
  - apply (gl_layers_spec r i g ls le Hinv Hl); auto; try lia.
    destruct (indices_range r MAP_ITEMTYPE_LAYER Hinv) as (s' & e' & Hse & [Hr _] & Hle & _).
    rewrite Hse in Hl. injection Hl as -> ->. cbn [fst snd] in Hr.
    pose proof (rp_offsets_len r (ri_pre r Hinv)) as Hlen. unfold zlen in Hlen. lia.
  - intros st1 Hst1. apply IH; auto; lia.
Qed.

Theorem map_game_layers_total r : reader_inv r -> no_panic (map_game_layers r).
Proof.
  intros Hinv. unfold map_game_layers.
  destruct (indices_range r MAP_ITEMTYPE_GROUP Hinv) as (gs & ge & Hse & [Hr1 Hr2] & Hle & _).
  assert (Hgi : map_group_indices r = Ok (gs, ge)) by (unfold map_group_indices; rewrite Hse; reflexivity).
  rewrite Hgi. cbn [bind fst snd] in *. cbv zeta.
  apply (ok_with_no_panic _ (fun _ => True)). eapply ok_with_bind.
  - apply (gl_groups_spec r gs ge Hinv Hgi); try lia.
    + pose proof (rp_offsets_len r (ri_pre r Hinv)) as Hlen. unfold zlen in Hlen. lia.
    + split; cbn; [reflexivity|congruence].
  - intros st [H1 H2]. destruct (gl_game st) eqn:Egame; [|exact I].
    destruct (gl_giwh st) as [[[k0 w] h]|] eqn:Eg; [|discriminate (H1 eq_refl)].
    destruct (gl_group st) eqn:Egr; [exact I|]. exfalso. apply H2; [discriminate|reflexivity].
Qed.

Lemma map_read_spec unc r i : reader_inv r -> 0 <= i < h_num_data (r_hdr r) ->
  ok_with (map_read unc r i) (fun d => zlen d <= 2147483647).
Proof.
  intros Hinv Hi. unfold map_read, lift.
  destruct (read_data_spec unc r i Hinv Hi) as (off & len & _ & Ho & Hl & Hb & _ & _ & _ & H).
  cbv zeta in H. pose proof (rp_hdr r (ri_pre r Hinv)) as Hh. red in Hh.
  destruct (r_uds r).
  - destruct H as (u & _ & Hu & ->). destruct (unc u _); [|exact I]. cbn.
    destruct (zlen out =? u) eqn:E; cbn; [lia|exact I].
  - rewrite H. cbn. unfold zlen. rewrite firstn_length. lia.
Qed.

Lemma position0_bound b : forall n, position0 b = Some n -> 0 <= n < zlen b.
Proof.
  induction b as [|x b IH]; intros n H; cbn [position0] in H; [discriminate|].
  rewrite zlen_cons. pose proof (zlen_nonneg b).
  destruct (x =? 0); [inversion H; lia|].
  destruct (position0 b) as [m|]; [|discriminate]. inversion H; subst. specialize (IH m eq_refl). lia.
Qed.

Lemma settings_iter_total s : zlen s <= 2147483647 -> forall fuel pos,
  0 <= pos <= zlen s -> zlen s - pos < Z.of_nat fuel -> exists l, settings_iter fuel s pos = Ok l.
Proof.
  intros Hs. induction fuel as [|fuel IH]; intros pos Hpos Hfuel; [lia|]. cbn [settings_iter].
  rewrite slice_from_ok by lia. cbn [bind].
  destruct (position0 (skipn (Z.to_nat pos) s)) as [len|] eqn:Ep; [|eauto].
  apply position0_bound in Ep. rewrite zlen_skipn in Ep by lia.
  rewrite musize_add_spec by lia. cbn [bind].
  rewrite slice_to_ok by lia. cbn [bind].
  rewrite slice_from_ok by (rewrite zlen_firstn by lia; lia). cbn [bind].
  rewrite musize_add_spec by lia. cbn [bind].
  destruct (IH (pos + len + 1)) as (l & ->); [lia|lia|]. cbn [bind]. eauto.
Qed.

Theorem map_data_total unc r i : reader_inv r -> 0 <= i < h_num_data (r_hdr r) ->
  no_panic (map_string unc r i) /\ no_panic (map_image_name unc r i)
  /\ ok_with (map_settings unc r i) (fun raw => exists l, map_settings_list raw = Ok l)
  /\ (forall size bad, no_panic (map_tiles_raw unc size bad r i))
  /\ (forall size bad w h, no_panic (map_tiles unc size bad r i w h)).
Proof.
  intros Hinv Hi. pose proof (map_read_spec unc r i Hinv Hi) as Hr.
  unfold map_string, map_image_name, map_settings, map_tiles, map_tiles_raw.
  destruct (map_read unc r i) as [d| | |]; cbn [bind ok_with no_panic] in *; auto; try (repeat split; intros; exact I).
  repeat split.
  - destruct (pop_last d) as [[[|p|p] body]|]; try exact I. destruct (existsb _ body); exact I.
  - destruct (pop_last d) as [[[|p|p] body]|]; try exact I. destruct (existsb _ body); exact I.
  - destruct (pop_last d) as [[[|p|p] body]|]; try exact I. cbn [ok_with].
    apply (settings_iter_total d Hr (S (length d)) 0); [pose proof (zlen_nonneg d)|unfold zlen]; lia.
  - intros size bad. destruct (negb _); exact I.
  - intros size bad w h. destruct (negb (zlen d mod size =? 0)); cbn [bind]; [exact I|]. destruct (negb _); exact I.
Qed.
