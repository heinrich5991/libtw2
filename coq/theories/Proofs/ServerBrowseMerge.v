(* C18, merging: for the parts of one multi-part info, PartialServerInfo::merge applied along
   an order of part indices ends in a state that depends only on the *set* of parts merged
   (clients up to the documented sort).

   `rep = false` is the code as it is (known finding K18: `received` is not accumulated): the
   statement holds for orders without a repeated part.  `rep = true` is the one-line repair
   `self.received |= other.received`: the statement holds for every order, with any repetition.
   Both are proved by induction over the order list with one invariant. *)
From LibTw2 Require Import Base.Res Model.ServerBrowse Proofs.ServerBrowseSort.
From Coq Require Import ZArith Lia Bool List Arith Sorting.Permutation.
Open Scope Z_scope.

Definition hdr (p : psi) : sinfo := set_clients (p_info p) [].
Definition cl (p : psi) : list client := i_clients (p_info p).
Definition ver (p : psi) : siv := i_version (p_info p).
Definition tok (p : psi) : Z := i_token (p_info p).
Definition bit0 (p : psi) : bool := negb (Z.land (p_received p) 1 =? 0).
(* the part that carries the header of an extended info: packet number 0 *)
Definition is_main (p : psi) : bool := siv_eqb (ver p) V6Ex && bit0 p.

Definition opt_eqb {A} (f : A -> A -> bool) (a b : option A) : bool :=
  match a, b with Some x, Some y => f x y | None, None => true | _, _ => false end.

Definition hdr_eqb (a b : sinfo) : bool :=
  siv_eqb (i_version a) (i_version b) && (i_token a =? i_token b)
  && bytes_eqb (i_ver a) (i_ver b) && bytes_eqb (i_name a) (i_name b)
  && opt_eqb bytes_eqb (i_hostname a) (i_hostname b) && bytes_eqb (i_map a) (i_map b)
  && opt_eqb Z.eqb (i_map_crc a) (i_map_crc b) && opt_eqb Z.eqb (i_map_size a) (i_map_size b)
  && bytes_eqb (i_game_type a) (i_game_type b) && (i_flags a =? i_flags b)
  && opt_eqb Z.eqb (i_progression a) (i_progression b) && opt_eqb Z.eqb (i_skill_level a) (i_skill_level b)
  && (i_num_players a =? i_num_players b) && (i_max_players a =? i_max_players b)
  && (i_num_clients a =? i_num_clients b) && (i_max_clients a =? i_max_clients b).

Lemma siv_eqb_eq a b : siv_eqb a b = true <-> a = b.
Proof. destruct a, b; cbn; split; intros H; try discriminate; reflexivity. Qed.

Lemma bytes_eqb_eq : forall a b, bytes_eqb a b = true -> a = b.
Proof.
  induction a as [|x a IH]; destruct b as [|y b]; cbn [bytes_eqb]; intros H; try discriminate; [reflexivity|].
  apply andb_true_iff in H as [H1 H2]. apply Z.eqb_eq in H1. subst. f_equal. apply IH, H2.
Qed.

Lemma opt_eqb_eq {A} (f : A -> A -> bool) (a b : option A) :
  (forall x y, f x y = true -> x = y) -> opt_eqb f a b = true -> a = b.
Proof. intros Hf. destruct a, b; cbn; intros H; try discriminate; [f_equal; apply Hf, H|reflexivity]. Qed.

Lemma hdr_eqb_eq a b : hdr_eqb a b = true -> set_clients a [] = set_clients b [].
Proof.
  unfold hdr_eqb. intros H.
  repeat match type of H with _ && _ = true => apply andb_true_iff in H; destruct H as [H ?] end.
  repeat match goal with
  | H : siv_eqb _ _ = true |- _ => apply siv_eqb_eq in H
  | H : bytes_eqb _ _ = true |- _ => apply bytes_eqb_eq in H
  | H : (_ =? _) = true |- _ => apply Z.eqb_eq in H
  | H : opt_eqb bytes_eqb _ _ = true |- _ => apply (opt_eqb_eq _ _ _ bytes_eqb_eq) in H
  | H : opt_eqb Z.eqb _ _ = true |- _ => apply (opt_eqb_eq _ _ _ (fun x y => proj1 (Z.eqb_eq x y))) in H
  end.
  destruct a, b; cbn in *; subst; reflexivity.
Qed.

Definition disjoint (p q : psi) : bool := Z.land (p_received p) (p_received q) =? 0.
(* two parts that are both / both not the main part of an extended info carry the same header
   (for 64-player legacy infos: all parts carry the same header) *)
Definition compat (p q : psi) : bool :=
  negb (Bool.eqb (is_main p) (is_main q)) || hdr_eqb (p_info p) (p_info q).
Definition part_wf (p : psi) : bool :=
  negb (p_received p =? 0) || match cl p with [] => true | _ => false end.

Fixpoint all_later {A} (f : A -> A -> bool) (l : list A) : bool :=
  match l with [] => true | a :: l' => forallb (f a) l' && all_later f l' end.

Definition same_info (parts : list psi) : bool :=
  match parts with
  | [] => false
  | p0 :: _ =>
    is_multipart (ver p0)
    && forallb (fun p => (tok p =? tok p0) && siv_eqb (ver p) (ver p0) && part_wf p) parts
    && all_later disjoint parts
    && forallb (fun p => forallb (compat p) parts) parts
  end.

Definition order_ok (parts : list psi) (o : list nat) : bool :=
  match o with [] => false | _ => forallb (fun i => (i <? length parts)%nat) o end.

Definition same_set (o1 o2 : list nat) : bool :=
  forallb (fun i => mem_nat i o2) o1 && forallb (fun i => mem_nat i o1) o2.

Definition clients_of (parts : list psi) (l : list nat) : list client :=
  flat_map (fun i => match nth_error parts i with Some p => cl p | None => [] end) l.

Definition received_clients (parts : list psi) (o : list nat) : list client :=
  clients_of parts (nodup Nat.eq_dec o).

(* the first part is the initial state, the others are merged into it; None if a merge fails *)
Definition merge_step (rep : bool) (parts : list psi) (acc : option psi) (j : nat) : option psi :=
  match acc, nth_error parts j with
  | Some st, Some p => match merge_gen rep st p with (st', Ok _) => Some st' | _ => None end
  | _, _ => None
  end.

Definition merged (rep : bool) (parts : list psi) (o : list nat) : option psi :=
  match o with
  | [] => None
  | i :: o' => fold_left (merge_step rep parts) o' (nth_error parts i)
  end.

Lemma land_lor_0 a b m : Z.land a m = 0 -> Z.land b m = 0 -> Z.land (Z.lor a b) m = 0.
Proof. intros Ha Hb. rewrite Z.land_lor_distr_l, Ha, Hb. reflexivity. Qed.

Lemma lor_land_absorb a m : Z.lor (Z.land a m) m = m.
Proof.
  apply Z.bits_inj. intros n. rewrite Z.lor_spec, Z.land_spec.
  destruct (Z.testbit a n), (Z.testbit m n); reflexivity.
Qed.

(* `Z.land u m = m`: the mask m lies within u *)
Lemma lor_absorb u m : Z.land u m = m -> Z.lor m u = u.
Proof. intros H. rewrite <- H at 1. rewrite Z.land_comm. apply lor_land_absorb. Qed.

Lemma land_lor_sub a u m : Z.land u m = m -> Z.land (Z.lor a u) m = m.
Proof. intros H. rewrite Z.land_lor_distr_l, H. apply lor_land_absorb. Qed.

Lemma land_lor_self m u : Z.land (Z.lor m u) m = m.
Proof. rewrite Z.lor_comm. apply land_lor_sub, Z.land_diag. Qed.

Lemma land_sub_bit u m : Z.land u m = m -> Z.land u 1 = 0 -> Z.land m 1 = 0.
Proof.
  intros H H1. rewrite <- H, <- Z.land_assoc, (Z.land_comm m 1), Z.land_assoc, H1. reflexivity.
Qed.

Lemma land1_testbit a : Z.land a 1 <> 0 -> Z.testbit a 0 = true.
Proof.
  intros H. destruct (Z.testbit a 0) eqn:E; [reflexivity|]. exfalso. apply H.
  change 1 with (Z.ones 1). rewrite Z.land_ones by lia. change (2 ^ 1) with 2.
  rewrite <- Z.bit0_mod, E. reflexivity.
Qed.

Lemma bit0_overlap a b : Z.land a b = 0 -> Z.land a 1 <> 0 -> Z.land b 1 <> 0 -> False.
Proof.
  intros H Ha Hb. apply land1_testbit in Ha. apply land1_testbit in Hb.
  apply (f_equal (fun x => Z.testbit x 0)) in H. rewrite Z.land_spec, Ha, Hb, Z.bits_0 in H. discriminate.
Qed.

Definition head_part (parts : list psi) : psi :=
  match parts with p :: _ => p | [] => {| p_info := default_info; p_received := 0 |} end.

Lemma same_info_inv parts : same_info parts = true ->
  is_multipart (ver (head_part parts)) = true
  /\ forallb (fun p => (tok p =? tok (head_part parts)) && siv_eqb (ver p) (ver (head_part parts)) && part_wf p) parts = true
  /\ all_later disjoint parts = true
  /\ forallb (fun p => forallb (compat p) parts) parts = true.
Proof.
  unfold same_info. destruct parts as [|q l]; [discriminate|]. cbn [head_part]. intros H.
  repeat (apply andb_true_iff in H; destruct H as [H ?]). auto.
Qed.

Section Family.
Variable parts : list psi.
Hypothesis Hsame : same_info parts = true.

Definition part (i : nat) : option psi := nth_error parts i.
Definition mask (i : nat) : Z := match part i with Some p => p_received p | None => 0 end.
Definition mask_union (S : list nat) : Z := fold_right (fun i acc => Z.lor (mask i) acc) 0 S.

Definition p0 : psi := head_part parts.

Lemma same_multipart : is_multipart (ver p0) = true.
Proof. apply (same_info_inv parts Hsame). Qed.

Lemma same_each i p : part i = Some p ->
  tok p = tok p0 /\ ver p = ver p0 /\ part_wf p = true.
Proof.
  intros Hp. destruct (same_info_inv parts Hsame) as (_ & H1 & _ & _).
  rewrite forallb_forall in H1. unfold part in Hp. apply nth_error_In in Hp.
  specialize (H1 _ Hp). repeat (apply andb_true_iff in H1; destruct H1 as [H1 ?]).
  apply Z.eqb_eq in H1. apply siv_eqb_eq in H0. auto.
Qed.

Lemma all_later_nth {A} (f : A -> A -> bool) (l : list A) :
  (forall a b, f a b = f b a) -> all_later f l = true ->
  forall i j a b, i <> j -> nth_error l i = Some a -> nth_error l j = Some b -> f a b = true.
Proof.
  intros Hsym. induction l as [|x l IH]; intros H i j a b Hij Ha Hb.
  - destruct i; discriminate.
  - cbn [all_later] in H. apply andb_true_iff in H as [Hx Hl]. rewrite forallb_forall in Hx.
    destruct i as [|i], j as [|j]; cbn [nth_error] in Ha, Hb.
    + contradiction Hij; reflexivity.
    + injection Ha as <-. apply Hx. eapply nth_error_In; exact Hb.
    + injection Hb as <-. rewrite Hsym. apply Hx. eapply nth_error_In; exact Ha.
    + apply (IH Hl i j); [lia|assumption|assumption].
Qed.

Lemma same_disjoint i j p q : i <> j -> part i = Some p -> part j = Some q ->
  Z.land (p_received p) (p_received q) = 0.
Proof.
  intros Hij Hp Hq. destruct (same_info_inv parts Hsame) as (_ & _ & H0 & _).
  assert (Hs : forall a b, disjoint a b = disjoint b a) by (intros a b; unfold disjoint; rewrite Z.land_comm; reflexivity).
  pose proof (all_later_nth disjoint parts Hs H0 i j p q Hij Hp Hq) as D.
  apply Z.eqb_eq in D. exact D.
Qed.

Lemma same_compat i j p q : part i = Some p -> part j = Some q ->
  is_main p = is_main q -> hdr p = hdr q.
Proof.
  intros Hp Hq Hm. destruct (same_info_inv parts Hsame) as (_ & _ & _ & H).
  rewrite forallb_forall in H.
  specialize (H p (nth_error_In _ _ Hp)). rewrite forallb_forall in H.
  specialize (H q (nth_error_In _ _ Hq)). unfold compat in H. rewrite Hm, Bool.eqb_reflx in H.
  cbn [negb orb] in H. apply hdr_eqb_eq, H.
Qed.

Lemma mask_part i p : part i = Some p -> mask i = p_received p.
Proof. unfold mask. intros ->. reflexivity. Qed.

Lemma union_disjoint i p : part i = Some p -> forall S, ~ In i S ->
  Z.land (mask_union S) (p_received p) = 0.
Proof.
  intros Hp. induction S as [|j S IH]; intros Hni; cbn [mask_union fold_right]; [apply Z.land_0_l|].
  apply land_lor_0; [|apply IH; intros H; apply Hni; right; exact H].
  unfold mask. destruct (part j) as [q|] eqn:Hq; [|apply Z.land_0_l].
  apply (same_disjoint j i); [intros ->; apply Hni; left; reflexivity|exact Hq|exact Hp].
Qed.

Lemma union_absorb i : forall S, In i S -> Z.land (mask_union S) (mask i) = mask i.
Proof.
  induction S as [|j S IH]; intros Hin; [contradiction|]. cbn [mask_union fold_right].
  destruct Hin as [->|Hin].
  - apply land_lor_self.
  - apply land_lor_sub, IH, Hin.
Qed.

Lemma union_bit0 S : Z.land (mask_union S) 1 = 0 -> forall j, In j S -> Z.land (mask j) 1 = 0.
Proof.
  intros H j Hj. apply (land_sub_bit (mask_union S)); [apply union_absorb, Hj|exact H].
Qed.

Lemma mask_union_bit S n : Z.testbit (mask_union S) n = existsb (fun i => Z.testbit (mask i) n) S.
Proof.
  induction S as [|i S IH]; cbn [mask_union fold_right existsb]; [apply Z.bits_0|].
  fold (mask_union S). rewrite Z.lor_spec, IH. reflexivity.
Qed.

Lemma existsb_same_set {A} (f : A -> bool) l1 l2 : (forall x, In x l1 <-> In x l2) ->
  existsb f l1 = existsb f l2.
Proof.
  intros H. apply eq_true_iff_eq. rewrite !existsb_exists. split; intros [x [Hx Hf]]; exists x; split; auto; apply H; exact Hx.
Qed.

Lemma mask_union_set S1 S2 : (forall x, In x S1 <-> In x S2) -> mask_union S1 = mask_union S2.
Proof.
  intros H. apply Z.bits_inj. intros n. rewrite !mask_union_bit. apply existsb_same_set, H.
Qed.

Lemma clients_of_set S1 S2 : (forall x, In x S1 <-> In x S2) ->
  Permutation (clients_of parts (nodup Nat.eq_dec S1)) (clients_of parts (nodup Nat.eq_dec S2)).
Proof.
  intros H. unfold clients_of. apply Permutation_flat_map.
  apply NoDup_Permutation; try apply NoDup_nodup.
  intros x. rewrite !nodup_In. apply H.
Qed.

(* q goes first among the parts S: it is the main part if S has one *)
Definition prio (S : list nat) (q : psi) : Prop :=
  forall j pj, In j S -> part j = Some pj -> is_main pj = true -> is_main q = true.

Lemma prio_hdr S k1 q1 k2 q2 :
  In k1 S -> part k1 = Some q1 -> prio S q1 -> In k2 S -> part k2 = Some q2 -> prio S q2 ->
  hdr q1 = hdr q2.
Proof.
  intros Hk1 Hq1 Hp1 Hk2 Hq2 Hp2. apply (same_compat k1 k2 _ _ Hq1 Hq2).
  destruct (is_main q1) eqn:E1, (is_main q2) eqn:E2; try reflexivity.
  - rewrite (Hp2 k1 q1 Hk1 Hq1 E1) in E2. discriminate.
  - rewrite (Hp1 k2 q2 Hk2 Hq2 E2) in E1. discriminate.
Qed.

(* the state after merging the parts S: its header is that of a part k of S that goes first; its
   mask is that of k in the code as it is, the union of the masks of S with the repair *)
Definition carrier (rep : bool) (S : list nat) (st : psi) (k : nat) (pk : psi) : Prop :=
  In k S /\ part k = Some pk /\ hdr st = hdr pk /\ prio S pk
  /\ p_received st = if rep then mask_union S else p_received pk.

(* ... and its clients are those of the parts of S, each part once *)
Definition Inv (rep : bool) (S : list nat) (st : psi) : Prop :=
  (exists k pk, carrier rep S st k pk)
  /\ Permutation (cl st) (clients_of parts (nodup Nat.eq_dec S)).

Lemma carrier_set rep S1 S2 st k pk : (forall x, In x S1 <-> In x S2) ->
  carrier rep S1 st k pk -> carrier rep S2 st k pk.
Proof.
  intros Hset (Hk & Hpk & Hh & Hprio & Hrecv).
  split; [apply Hset, Hk|]. split; [exact Hpk|]. split; [exact Hh|]. split.
  - intros j pj Hj. apply Hprio, Hset, Hj.
  - rewrite Hrecv. destruct rep; [apply mask_union_set, Hset|reflexivity].
Qed.

Lemma nodup_cons_in i S : In i S -> nodup Nat.eq_dec (i :: S) = nodup Nat.eq_dec S.
Proof. intros H. cbn [nodup]. destruct (in_dec Nat.eq_dec i S); [reflexivity|contradiction]. Qed.
Lemma nodup_cons_notin i S : ~ In i S -> nodup Nat.eq_dec (i :: S) = i :: nodup Nat.eq_dec S.
Proof. intros H. cbn [nodup]. destruct (in_dec Nat.eq_dec i S); [contradiction|reflexivity]. Qed.

Lemma Inv_init rep i p : part i = Some p -> Inv rep [i] p.
Proof.
  intros Hp. split.
  - exists i, p. split; [left; reflexivity|]. split; [exact Hp|]. split; [reflexivity|]. split.
    + intros j pj [<-|[]] Hj. rewrite Hp in Hj. injection Hj as <-. auto.
    + destruct rep; [|reflexivity]. cbn [mask_union fold_right]. rewrite (mask_part _ _ Hp), Z.lor_0_r. reflexivity.
  - rewrite nodup_cons_notin by (intros []). unfold clients_of, part in *. cbn [nodup flat_map].
    rewrite Hp, app_nil_r. reflexivity.
Qed.

Lemma merge_gen_same rep a b : tok a = tok b -> ver a = ver b -> is_multipart (ver a) = true ->
  merge_gen rep a b =
  if Z.land (p_received a) (p_received b) =? p_received b then (a, Ok tt)
  else if negb (Z.land (p_received a) (p_received b) =? 0) then (a, Err OverlappingInfos)
  else
    let (s, o) := if siv_eqb (ver a) V6Ex && (Z.land (p_received a) 1 =? 0) then (b, a) else (a, b) in
    ({| p_info := set_clients (p_info s) (cl s ++ cl o);
        p_received := if rep then Z.lor (p_received s) (p_received o) else p_received s |}, Ok tt).
Proof.
  unfold tok, ver. intros Ht Hv Hm. unfold merge_gen.
  rewrite Ht, Z.eqb_refl, <- Hv, (proj2 (siv_eqb_eq _ _) eq_refl), Hm. reflexivity.
Qed.

Lemma hdr_tok_ver a b : hdr a = hdr b -> tok a = tok b /\ ver a = ver b.
Proof. intros H. split; [exact (f_equal i_token H)|exact (f_equal i_version H)]. Qed.

Lemma cl_mk i cs r : cl {| p_info := set_clients i cs; p_received := r |} = cs.
Proof. reflexivity. Qed.

Lemma hdr_set_clients i cs : set_clients (set_clients i cs) [] = set_clients i [].
Proof. reflexivity. Qed.

Lemma is_main_bit p : is_main p = true -> Z.land (p_received p) 1 <> 0.
Proof.
  unfold is_main, bit0. intros H. apply andb_true_iff in H as [_ H].
  apply negb_true_iff, Z.eqb_neq in H. exact H.
Qed.

Lemma is_main_ver p : is_main p = true -> ver p = V6Ex.
Proof. unfold is_main. intros H. apply andb_true_iff in H as [H _]. apply siv_eqb_eq, H. Qed.

Lemma part_wf_empty p : part_wf p = true -> p_received p = 0 -> cl p = [].
Proof. unfold part_wf. intros H E. rewrite E in H. destruct (cl p); [reflexivity|discriminate]. Qed.

(* k goes on carrying a state with the same header if it still goes first when part i joins *)
Lemma carrier_cons rep S st k pk i p st' : carrier rep S st k pk -> part i = Some p ->
  hdr st' = hdr st -> (is_main p = true -> is_main pk = true) ->
  p_received st' = (if rep then mask_union (i :: S) else p_received st) ->
  carrier rep (i :: S) st' k pk.
Proof.
  intros (Hk & Hpk & Hh & Hprio & Hrecv) Hp Hh' Hm Hr'.
  split; [right; exact Hk|]. split; [exact Hpk|]. split; [congruence|]. split.
  - intros j pj [<-|Hj] Hpj; [rewrite Hp in Hpj; injection Hpj as <-; exact Hm|exact (Hprio j pj Hj Hpj)].
  - rewrite Hr'. destruct rep; [reflexivity|exact Hrecv].
Qed.

(* one merge step keeps the invariant; without the repair the part must be new *)
Lemma Inv_step rep S st i p : Inv rep S st -> part i = Some p -> (rep = false -> ~ In i S) ->
  exists st', merge_gen rep st p = (st', Ok tt) /\ Inv rep (i :: S) st'.
Proof.
  intros ((k & pk & Hc) & Hperm) Hp Hnew. pose proof Hc as (Hk & Hpk & Hh & Hprio & Hrecv).
  destruct (same_each _ _ Hp) as (Htp & Hvp & Hwf). destruct (same_each _ _ Hpk) as (Htk & Hvk & _).
  destruct (hdr_tok_ver _ _ Hh) as [Ht Hv].
  rewrite merge_gen_same; [|congruence|congruence|rewrite Hv, Hvk; apply same_multipart].
  assert (Hun : mask_union (i :: S) = Z.lor (p_received p) (mask_union S))
    by (cbn [mask_union fold_right]; rewrite (mask_part _ _ Hp); reflexivity).
  destruct (in_dec Nat.eq_dec i S) as [Hin|Hnin].
  - (* a part merged before: only with the repair; it is recognised *)
    destruct rep; [|exfalso; exact (Hnew eq_refl Hin)].
    assert (Hsub : Z.land (mask_union S) (p_received p) = p_received p)
      by (rewrite <- (mask_part _ _ Hp); apply union_absorb, Hin).
    rewrite Hrecv, Hsub, Z.eqb_refl. exists st. split; [reflexivity|]. split.
    + exists k, pk. apply (carrier_cons _ _ _ _ _ _ _ _ Hc Hp); [reflexivity|exact (Hprio i p Hin Hp)|].
      rewrite Hun, (lor_absorb _ _ Hsub). exact Hrecv.
    + rewrite nodup_cons_in by exact Hin. exact Hperm.
  - (* a new part: its mask is disjoint from the state's *)
    assert (Hdis : Z.land (p_received st) (p_received p) = 0).
    { rewrite Hrecv. destruct rep.
      - apply (union_disjoint i p Hp), Hnin.
      - apply (same_disjoint k i); [intros ->; contradiction|exact Hpk|exact Hp]. }
    rewrite Hdis.
    assert (Hcl : clients_of parts (nodup Nat.eq_dec (i :: S)) = cl p ++ clients_of parts (nodup Nat.eq_dec S)).
    { rewrite nodup_cons_notin by exact Hnin. unfold clients_of at 1. cbn [flat_map].
      unfold part in Hp. rewrite Hp. reflexivity. }
    destruct (0 =? p_received p) eqn:Ez.
    + (* an empty mask: nothing to add, the part is not the main part and carries no client *)
      apply Z.eqb_eq in Ez. exists st. split; [reflexivity|]. split.
      * exists k, pk. apply (carrier_cons _ _ _ _ _ _ _ _ Hc Hp); [reflexivity| |].
        -- intros Hmain%is_main_bit. rewrite <- Ez, Z.land_0_l in Hmain. contradiction Hmain; reflexivity.
        -- rewrite Hun, <- Ez, Z.lor_0_l. destruct rep; [exact Hrecv|reflexivity].
      * rewrite Hcl, (part_wf_empty p Hwf (eq_sym Ez)). exact Hperm.
    + apply Z.eqb_neq in Ez. cbn [Z.eqb negb].
      destruct (siv_eqb (ver st) V6Ex && (Z.land (p_received st) 1 =? 0)) eqn:Esw;
        (eexists; split; [reflexivity|]); (split; [|rewrite cl_mk, Hcl]).
      * (* swapped: the new part becomes `self`; nothing merged so far was the main part *)
        apply andb_true_iff in Esw as [_ Eb0]. apply Z.eqb_eq in Eb0.
        exists i, p. split; [left; reflexivity|]. split; [exact Hp|]. split; [reflexivity|]. split.
        -- intros j pj [<-|Hj] Hpj Hmain; [rewrite Hp in Hpj; injection Hpj as <-; exact Hmain|].
           exfalso. rewrite Hrecv in Eb0. destruct rep.
           ++ apply (is_main_bit _ Hmain). rewrite <- (mask_part _ _ Hpj). exact (union_bit0 S Eb0 j Hj).
           ++ exact (is_main_bit _ (Hprio j pj Hj Hpj Hmain) Eb0).
        -- cbn [p_received]. destruct rep; [rewrite Hrecv, Hun|]; reflexivity.
      * apply Permutation_app_head, Hperm.
      * (* not swapped *)
        exists k, pk. apply (carrier_cons _ _ _ _ _ _ _ _ Hc Hp); [reflexivity| |].
        -- (* a main part: this is an extended info, the state already has bit 0, the masks overlap *)
           intros Hmain. exfalso. pose proof (is_main_ver _ Hmain) as Hex.
           rewrite Hvp, <- Hvk, <- Hv in Hex. rewrite Hex in Esw. apply Z.eqb_neq in Esw.
           exact (bit0_overlap _ _ Hdis Esw (is_main_bit _ Hmain)).
        -- cbn [p_received]. rewrite Hun. destruct rep; [rewrite Hrecv; apply Z.lor_comm|reflexivity].
      * apply (Permutation_trans (Permutation_app_comm _ _)), Permutation_app_head, Hperm.
Qed.

Lemma mem_nat_In i l : mem_nat i l = true <-> In i l.
Proof.
  unfold mem_nat. rewrite existsb_exists. split.
  - intros [x [Hx E]]. apply Nat.eqb_eq in E. subst. exact Hx.
  - intros H. exists i. split; [exact H|apply Nat.eqb_refl].
Qed.

Lemma has_repeat_NoDup o : has_repeat o = false <-> NoDup o.
Proof.
  induction o as [|i o IH]; cbn [has_repeat].
  - split; [constructor|reflexivity].
  - rewrite orb_false_iff, IH. split.
    + intros [Hm Hn]. constructor; [|exact Hn]. intros Hin. apply mem_nat_In in Hin. congruence.
    + intros H. inversion H as [|? ? Hni Hn]; subst. split; [|exact Hn].
      destruct (mem_nat i o) eqn:E; [|reflexivity]. apply mem_nat_In in E. contradiction.
Qed.

Lemma same_set_In o1 o2 : same_set o1 o2 = true -> forall x, In x o1 <-> In x o2.
Proof.
  unfold same_set. intros H. apply andb_true_iff in H as [H1 H2].
  rewrite forallb_forall in H1, H2. intros x. split; intros Hx.
  - apply mem_nat_In, H1, Hx.
  - apply mem_nat_In, H2, Hx.
Qed.

Lemma fold_Inv rep : forall o' S st, Inv rep S st ->
  (forall j, In j o' -> (j < length parts)%nat) ->
  (rep = false -> NoDup o' /\ forall j, In j o' -> ~ In j S) ->
  exists st', fold_left (merge_step rep parts) o' (Some st) = Some st' /\ Inv rep (rev o' ++ S) st'.
Proof.
  induction o' as [|j o' IH]; intros S st HI Hval Hnew.
  - exists st. split; [reflexivity|exact HI].
  - assert (Hj : (j < length parts)%nat) by (apply Hval; left; reflexivity).
    destruct (nth_error parts j) as [p|] eqn:Hp; [|apply nth_error_None in Hp; lia].
    destruct (Inv_step rep S st j p HI Hp) as [st1 [Hm HI1]].
    { intros Hr. destruct (Hnew Hr) as [_ H]. apply H. left; reflexivity. }
    cbn [fold_left]. unfold merge_step at 2. rewrite Hp, Hm.
    destruct (IH (j :: S) st1 HI1) as [st' [Hf HI']].
    { intros x Hx. apply Hval. right; exact Hx. }
    { intros Hr. destruct (Hnew Hr) as [Hnd Hni]. inversion Hnd as [|? ? Hjo Hnd']; subst.
      split; [exact Hnd'|]. intros x Hx [<-|Hxs]; [contradiction|].
      apply (Hni x); [right; exact Hx|exact Hxs]. }
    exists st'. split; [exact Hf|]. cbn [rev]. rewrite <- app_assoc. exact HI'.
Qed.

Lemma order_ok_inv o : order_ok parts o = true ->
  exists i o', o = i :: o' /\ forall j, In j o -> (j < length parts)%nat.
Proof.
  unfold order_ok. destruct o as [|i o']; [discriminate|]. intros H.
  exists i, o'. split; [reflexivity|]. rewrite forallb_forall in H.
  intros j Hj. apply Nat.ltb_lt, H, Hj.
Qed.

Lemma Inv_set rep S1 S2 st : (forall x, In x S1 <-> In x S2) -> Inv rep S1 st -> Inv rep S2 st.
Proof.
  intros HS ((k & pk & Hc) & Hperm). split; [exists k, pk; exact (carrier_set _ _ _ _ _ _ HS Hc)|].
  rewrite Hperm. apply clients_of_set, HS.
Qed.

(* any order over the parts ends in the state that `carrier` describes, in terms of the set alone *)
Theorem merged_spec rep o : order_ok parts o = true -> (rep = false -> has_repeat o = false) ->
  exists st k pk, merged rep parts o = Some st /\ carrier rep o st k pk
    /\ Permutation (cl st) (received_clients parts o).
Proof.
  intros Hok Hrep. destruct (order_ok_inv o Hok) as (i & o' & -> & Hval).
  assert (Hi : (i < length parts)%nat) by (apply Hval; left; reflexivity).
  destruct (nth_error parts i) as [p|] eqn:Hp; [|apply nth_error_None in Hp; lia].
  destruct (fold_Inv rep o' [i] p (Inv_init rep i p Hp)) as [st [Hf HI]].
  { intros j Hj. apply Hval. right; exact Hj. }
  { intros Hr. specialize (Hrep Hr). apply has_repeat_NoDup in Hrep.
    inversion Hrep as [|? ? Hni Hnd]; subst. split; [exact Hnd|].
    intros j Hj [<-|[]]. contradiction. }
  apply (Inv_set _ _ (i :: o')) in HI; [|intros x; rewrite in_app_iff, <- in_rev; cbn [In]; tauto].
  destruct HI as ((k & pk & Hc) & Hperm).
  exists st, k, pk. split; [cbn [merged]; rewrite Hp; exact Hf|]. split; [exact Hc|exact Hperm].
Qed.

Definition info_of (r : res unit (sinfo * psi)) : res unit sinfo :=
  match r with Ok (i, _) => Ok i | Err e => Err e | Panic s => Panic s | OutOfFuel => OutOfFuel end.

(* get_info looks at the header and, through the sort, at the clients up to their order *)
Lemma get_info_spec st h cs : hdr st = h -> Permutation (cl st) cs ->
  get_info st =
  if i32_max <? Z.of_nat (length cs) then Panic site_assert_i32 else
  if negb (Z.of_nat (length cs) =? i_num_clients h) then Err tt else
  Ok (set_clients h (sort_clients cs),
      {| p_info := set_clients h (sort_clients cs); p_received := p_received st |}).
Proof.
  intros <- Hp. unfold get_info. fold (cl st).
  change (sort_info (p_info st)) with (set_clients (hdr st) (sort_clients (cl st))).
  rewrite (Permutation_length Hp), (sort_clients_canonical _ _ Hp). reflexivity.
Qed.

Lemma get_info_equiv s1 s2 : hdr s1 = hdr s2 -> Permutation (cl s1) (cl s2) ->
  info_of (get_info s1) = info_of (get_info s2).
Proof.
  intros Hh Hp. rewrite (get_info_spec s1 _ _ Hh Hp), (get_info_spec s2 _ _ eq_refl (Permutation_refl _)).
  destruct (_ <? _); [reflexivity|]. destruct (negb _); reflexivity.
Qed.

(* any two orders over the same set of parts end in the same state, up to the order of the clients *)
Theorem merge_order_free rep o1 o2 :
  order_ok parts o1 = true -> order_ok parts o2 = true -> same_set o1 o2 = true ->
  (rep = false -> has_repeat o1 = false /\ has_repeat o2 = false) ->
  exists s1 s2, merged rep parts o1 = Some s1 /\ merged rep parts o2 = Some s2
    /\ hdr s1 = hdr s2 /\ Permutation (cl s1) (cl s2)
    /\ (rep = true -> p_received s1 = p_received s2)
    /\ info_of (get_info s1) = info_of (get_info s2).
Proof.
  intros H1 H2 Hs Hrep. pose proof (same_set_In _ _ Hs) as Hset.
  destruct (merged_spec rep o1 H1) as (s1 & k1 & q1 & Hm1 & Hc1 & Hp1); [intros Hr; apply (Hrep Hr)|].
  destruct (merged_spec rep o2 H2) as (s2 & k2 & q2 & Hm2 & Hc2 & Hp2); [intros Hr; apply (Hrep Hr)|].
  apply (carrier_set _ _ o1) in Hc2; [|intros x; symmetry; apply Hset].
  destruct Hc1 as (Hk1 & Hq1 & Hh1 & Hg1 & Hr1). destruct Hc2 as (Hk2 & Hq2 & Hh2 & Hg2 & Hr2).
  assert (Hh : hdr s1 = hdr s2) by (rewrite Hh1, Hh2; exact (prio_hdr o1 _ _ _ _ Hk1 Hq1 Hg1 Hk2 Hq2 Hg2)).
  assert (Hp : Permutation (cl s1) (cl s2)) by (rewrite Hp1, Hp2; apply clients_of_set, Hset).
  exists s1, s2. split; [exact Hm1|]. split; [exact Hm2|]. split; [exact Hh|]. split; [exact Hp|]. split.
  - intros ->. congruence.
  - apply get_info_equiv; assumption.
Qed.

(* complete exactly when the parts merged carry as many clients as the (main) part announces;
   the info handed out then lists exactly those clients, each part's clients once, sorted *)
Theorem merge_complete_gen rep o m pm :
  order_ok parts o = true -> (rep = false -> has_repeat o = false) ->
  In m o -> nth_error parts m = Some pm ->
  (forall j pj, In j o -> nth_error parts j = Some pj -> is_main pj = true -> is_main pm = true) ->
  Z.of_nat (length (received_clients parts o)) <= i32_max ->
  exists st, merged rep parts o = Some st /\
    match get_info st with
    | Ok (i, st') =>
      Z.of_nat (length (received_clients parts o)) = i_num_clients (p_info pm)
      /\ i_clients i = sort_clients (received_clients parts o)
      /\ Permutation (i_clients i) (received_clients parts o)
      /\ set_clients i [] = hdr pm
      /\ take_info st = Ok (i, {| p_info := default_info; p_received := u64_ones |})
    | Err _ => Z.of_nat (length (received_clients parts o)) <> i_num_clients (p_info pm)
    | _ => False
    end.
Proof.
  intros Hok Hrep Hm Hpm Hmain Hlen.
  destruct (merged_spec rep o Hok Hrep) as (st & k & pk & Hmg & (Hk & Hpk & Hh & Hprio & _) & Hp).
  exists st. split; [exact Hmg|].
  assert (Hhm : hdr st = hdr pm) by (rewrite Hh; exact (prio_hdr o _ _ _ _ Hk Hpk Hprio Hm Hpm Hmain)).
  unfold take_info. rewrite (get_info_spec st _ _ Hhm Hp).
  replace (i32_max <? Z.of_nat (length (received_clients parts o))) with false by lia.
  change (i_num_clients (hdr pm)) with (i_num_clients (p_info pm)).
  destruct (Z.of_nat (length (received_clients parts o)) =? i_num_clients (p_info pm)) eqn:E; cbn [negb bind].
  - apply Z.eqb_eq in E. split; [exact E|]. split; [reflexivity|].
    split; [apply sort_clients_perm|]. split; reflexivity.
  - apply Z.eqb_neq in E. exact E.
Qed.

(* the usual case: pm is any part of a 64-player legacy info / the main part of an extended info *)
Theorem merge_complete_iff rep o m pm :
  order_ok parts o = true -> (rep = false -> has_repeat o = false) ->
  In m o -> nth_error parts m = Some pm -> (ver pm = V6Ex -> is_main pm = true) ->
  Z.of_nat (length (received_clients parts o)) <= i32_max ->
  exists st, merged rep parts o = Some st /\
    match get_info st with
    | Ok (i, st') =>
      Z.of_nat (length (received_clients parts o)) = i_num_clients (p_info pm)
      /\ i_clients i = sort_clients (received_clients parts o)
      /\ Permutation (i_clients i) (received_clients parts o)
      /\ set_clients i [] = hdr pm
      /\ take_info st = Ok (i, {| p_info := default_info; p_received := u64_ones |})
    | Err _ => Z.of_nat (length (received_clients parts o)) <> i_num_clients (p_info pm)
    | _ => False
    end.
Proof.
  intros Hok Hrep Hm Hpm Hmain. apply (merge_complete_gen rep o m pm Hok Hrep Hm Hpm).
  intros j pj Hj Hpj Hmj. apply Hmain.
  destruct (same_each _ _ Hpj) as (_ & Hv1 & _). destruct (same_each _ _ Hpm) as (_ & Hv2 & _).
  apply is_main_ver in Hmj. congruence.
Qed.

End Family.
