(* Whenever the C++ reference decoder (Model/HuffmanRef.v: LUT, 32-bit bit buffer, refill,
   bit-by-bit tail walk) returns successfully, the Rust decoder returns the same bytes,
   for every capacity that holds them. *)
From LibTw2 Require Import Base.Res Base.Bits Model.Huffman Model.HuffmanRef
  Proofs.HuffmanBits Proofs.HuffmanTable Proofs.HuffmanCompress Proofs.HuffmanDecode.
From Coq Require Import ZArith List Lia Bool.
Import ListNotations.
Open Scope Z_scope.

Section RefDec.
Variable t : table.
Hypothesis Hwf : wf_table t = true.
(* tree_table t = true, written out (a constant in the way makes the kernel compare two
   unfolded 24-level fixpoints) *)
Hypothesis Htree : depths_ok t 24 ROOT_IDX 0 = true.

Definition good (k : nat) (idx : Z) : Prop :=
  exists d, (k + d = 24)%nat /\ subtree_ok t d idx = true /\ depths_ok t d idx (Z.of_nat k) = true.

Lemma good_root : good 0 ROOT_IDX.
Proof.
  (* `auto` / `assumption` would try Hwf on the last goal and unfold both 24-level checks *)
  destruct (wf_root t Hwf) as (_ & _ & _ & Hs). exists 24%nat.
  split; [reflexivity|]. split; [exact Hs|exact Htree].
Qed.

Lemma good_step k idx : good k idx -> NUM_SYMBOLS <= idx ->
  exists nd, lookup t idx = Some nd /\ good (S k) (fst nd) /\ good (S k) (snd nd).
Proof.
  intros (d & Hk & Hs & Hd) Hi.
  destruct (subtree_ok_inner t d idx Hi Hs) as (d' & nd & -> & Hl & Hs0 & Hs1).
  destruct (depths_ok_inner t _ idx _ Hi Hd) as (? & nd' & [= <-] & Hl' & Hd0 & Hd1).
  rewrite Hl in Hl'. injection Hl' as <-. exists nd. split; [exact Hl|].
  replace (Z.of_nat k + 1) with (Z.of_nat (S k)) in Hd0, Hd1 by lia.
  split; exists d'; (split; [lia|split; assumption]).
Qed.

Lemma good_leaf k idx : good k idx -> idx < NUM_SYMBOLS ->
  0 <= idx < 257 /\ snd (sym_repr t idx) = Z.of_nat k /\ (k <= 24)%nat.
Proof.
  intros (d & Hk & Hs & Hd) Hi.
  rewrite subtree_ok_leaf in Hs by exact Hi. rewrite depths_ok_leaf in Hd by exact Hi.
  apply Z.leb_le in Hs. unfold NUM_SYMBOLS in Hi. split; [lia|]. split; [|lia]. unfold sym_repr.
  destruct (lookup t idx) as [nd|]; [|discriminate]. now apply Z.eqb_eq in Hd.
Qed.

Lemma walk_app bs1 : forall bs2 idx c, walk t bs1 idx = Some c -> walk t (bs1 ++ bs2) idx = walk t bs2 c.
Proof.
  induction bs1 as [|b bs1 IH]; intros bs2 idx c H.
  - cbn [walk] in H. injection H as ->. reflexivity.
  - apply walk_cons_inv in H as (nd & Hi & Hl & H). cbn [app].
    rewrite (walk_inner _ _ _ _ _ Hi Hl). now apply IH.
Qed.

Lemma walk_good bs : forall k idx c, good k idx -> walk t bs idx = Some c -> good (k + length bs) c.
Proof.
  induction bs as [|b bs IH]; intros k idx c Hg H.
  - cbn [walk] in H. injection H as <-. cbn [length]. now rewrite Nat.add_0_r.
  - apply walk_cons_inv in H as (nd' & Hi & Hl' & H).
    destruct (good_step k idx Hg Hi) as (nd & Hl & Hg0 & Hg1). rewrite Hl in Hl'. injection Hl' as <-.
    replace (k + length (b :: bs))%nat with (S k + length bs)%nat by (cbn [length]; lia).
    apply (IH (S k) (if b then snd nd else fst nd)); [destruct b; assumption|exact H].
Qed.

Variable y : bytes.

Definition sb (p : Z) : bool := if p <? 0 then false else nth (Z.to_nat p) (bits_of_bytes y) false.

Fixpoint sbits (p : Z) (n : nat) : list bool :=
  match n with
  | O => []
  | S n' => sb p :: sbits (p + 1) n'
  end.

Lemma sbits_length p n : length (sbits p n) = n.
Proof. revert p. induction n; intros; cbn [sbits length]; [reflexivity|]. now rewrite IHn. Qed.

Lemma sbits_app p a b : sbits p (a + b) = sbits p a ++ sbits (p + Z.of_nat a) b.
Proof.
  revert p. induction a; intros p.
  - cbn [Nat.add sbits app]. f_equal. lia.
  - cbn [Nat.add sbits app]. f_equal. rewrite IHa. f_equal. f_equal. lia.
Qed.

Lemma bits_of_nth v off k i d : (i < k)%nat -> nth i (bits_of v off k) d = Z.testbit v (off + Z.of_nat i).
Proof.
  revert off i. induction k; intros off i Hi; [lia|]. cbn [bits_of]. destruct i as [|i].
  - cbn [nth]. f_equal. lia.
  - cbn [nth]. rewrite IHk by lia. f_equal. lia.
Qed.

Lemma sb_byte pre b r i : y = pre ++ b :: r -> 0 <= i < 8 ->
  sb (8 * Z.of_nat (length pre) + i) = Z.testbit b i.
Proof.
  intros Hy Hi. unfold sb. destruct (Z.ltb_spec (8 * Z.of_nat (length pre) + i) 0); [lia|].
  rewrite Hy, bits_of_bytes_app, bits_of_bytes_cons.
  replace (Z.to_nat (8 * Z.of_nat (length pre) + i)) with (length (bits_of_bytes pre) + Z.to_nat i)%nat
    by (rewrite bits_of_bytes_length; lia).
  rewrite app_nth2_plus. rewrite app_nth1 by (rewrite byte_bits_length; lia).
  rewrite byte_bits_bits_of, bits_of_nth by lia. f_equal. lia.
Qed.

Lemma sb_beyond p : 8 * Z.of_nat (length y) <= p -> sb p = false.
Proof.
  intros H. unfold sb. destruct (Z.ltb_spec p 0); [reflexivity|].
  apply nth_overflow. rewrite bits_of_bytes_length. lia.
Qed.

Definition agrees (bits p n : Z) : Prop := forall j, 0 <= j < n -> Z.testbit bits j = sb (p + j).

Lemma agrees_shr bits p n m n' : 0 <= m -> n' + m <= n -> agrees bits p n ->
  agrees (Z.shiftr bits m) (p + m) n'.
Proof. intros Hm Hn H j Hj. rewrite Z.shiftr_spec, H by lia. f_equal. lia. Qed.

Lemma agrees_bit0 bits p n : agrees bits p n -> 0 < n -> Z.testbit bits 0 = sb p.
Proof. intros H Hn. rewrite (H 0) by lia. f_equal. lia. Qed.

(* past the end of the input both sides are zero *)
Lemma agrees_end bits p bc : 0 <= bc -> 0 <= bits < 2 ^ bc -> agrees bits p bc ->
  8 * Z.of_nat (length y) <= p + bc -> forall n, agrees bits p n.
Proof.
  intros Hbc Hbits Hag Hp n j Hj. destruct (Z_lt_le_dec j bc); [apply Hag; lia|].
  rewrite (testbit_small bits bc) by lia. symmetry. apply sb_beyond. lia.
Qed.

Lemma lut_walk_spec : forall k idx bits p c,
  agrees bits p (Z.of_nat k) -> NUM_SYMBOLS <= idx -> lut_walk t k idx bits = Ok c ->
  exists m, (m <= k)%nat /\ walk t (sbits p m) idx = Some c
            /\ ((c < NUM_SYMBOLS /\ (1 <= m)%nat) \/ (m = k /\ NUM_SYMBOLS <= c)).
Proof.
  induction k as [|k IH]; intros idx bits p c Hag Hi H.
  - cbn [lut_walk] in H. injection H as <-. exists 0%nat. cbn [sbits walk]. auto.
  - cbn [lut_walk] in H. destruct (lookup t idx) as [nd|] eqn:Hl; [|discriminate].
    rewrite (agrees_bit0 _ _ _ Hag) in H by lia. set (c0 := if sb p then snd nd else fst nd) in *.
    destruct (Z.ltb_spec c0 NUM_SYMBOLS) as [Hc|Hc].
    + injection H as <-. exists 1%nat. cbn [sbits]. rewrite (walk_inner _ _ _ _ _ Hi Hl).
      split; [lia|]. split; [reflexivity|]. left. split; [exact Hc|lia].
    + destruct (IH c0 (Z.shiftr bits 1) (p + 1) c) as (m & Hm & Hw & Hcase); [|exact Hc|exact H|].
      { eapply agrees_shr; [..|exact Hag]; lia. }
      exists (S m). split; [lia|]. split.
      * cbn [sbits]. now rewrite (walk_inner _ _ _ _ _ Hi Hl).
      * destruct Hcase as [[H1 H2]|[H1 H2]]; [left; split; [exact H1|lia]|right; split; [lia|exact H2]].
Qed.

Lemma ref_slow_spec : forall fuel k idx bits bc p s bits' bc',
  good k idx -> NUM_SYMBOLS <= idx -> agrees bits p (24 - Z.of_nat k) ->
  ref_slow fuel t idx bits bc = Ok (s, bits', bc') ->
  exists m, (1 <= m)%nat /\ walk t (sbits p m) idx = Some s /\ s < NUM_SYMBOLS
            /\ bits' = Z.shiftr bits (Z.of_nat m) /\ bc' = (bc - Z.of_nat m) mod two32.
Proof.
  induction fuel as [|f IH]; intros k idx bits bc p s bits' bc' Hg Hi Hag H; [discriminate|].
  cbn [ref_slow] in H.
  destruct (good_step k idx Hg Hi) as (nd & Hl & Hg0 & Hg1). rewrite Hl in H.
  assert (Hk : (k < 24)%nat) by (destruct Hg0 as (d & ? & _); lia).
  rewrite (agrees_bit0 _ _ _ Hag) in H by lia. set (c0 := if sb p then snd nd else fst nd) in *.
  assert (Hgc : good (S k) c0) by (unfold c0; destruct (sb p); assumption).
  destruct (Z.ltb_spec c0 NUM_SYMBOLS) as [Hc|Hc].
  - injection H as <- <- <-. exists 1%nat. cbn [sbits]. rewrite (walk_inner _ _ _ _ _ Hi Hl).
    repeat split; try lia; reflexivity.
  - destruct ((bc - 1) mod two32 =? 0); [discriminate|].
    destruct (IH (S k) c0 (Z.shiftr bits 1) ((bc - 1) mod two32) (p + 1) s bits' bc' Hgc Hc) as
      (m & Hm & Hw & Hs & Hb & Hbc); [|exact H|].
    { eapply agrees_shr; [..|exact Hag]; lia. }
    exists (S m). split; [lia|]. split.
    + cbn [sbits]. now rewrite (walk_inner _ _ _ _ _ Hi Hl).
    + split; [exact Hs|]. split.
      * rewrite Hb, Z.shiftr_shiftr by lia. f_equal. lia.
      * rewrite Hbc, Zminus_mod_idemp_l. f_equal. lia.
Qed.

Hypothesis Hy : bytes_ok y = true.

(* either the input is used up and Bits continues exactly like the stream (all further bits are
   zero on both sides; Bitcount may have wrapped around and is irrelevant), or Bits holds
   Bitcount valid stream bits and the bytes read so far account for them *)
Definition Inv (lo : Z) (p bits bc : Z) (src : bytes) : Prop :=
  (src = [] /\ 0 <= bits /\ forall n, agrees bits p n)
  \/ (lo <= bc <= 31 /\ 0 <= bits < 2 ^ bc /\ agrees bits p bc
      /\ exists pre, y = pre ++ src /\ p + bc = 8 * Z.of_nat (length pre)).

Lemma byte_in_range pre b r : y = pre ++ b :: r -> 0 <= b < 256.
Proof.
  intros H. apply (bytes_ok_range y b Hy). rewrite H. apply in_or_app. right. now left.
Qed.

(* {B}: after the refill at least 24 bits are valid, or the input is used up *)
Lemma fill_inv : forall src p bits bc bits1 bc1 src1,
  Inv 0 p bits bc src -> ref_fill bits bc src = (bits1, bc1, src1) -> Inv 24 p bits1 bc1 src1.
Proof.
  induction src as [|b r IH]; intros p bits bc bits1 bc1 src1 Hinv Hf.
  - cbn [ref_fill] in Hf. injection Hf as <- <- <-. left. split; [reflexivity|].
    destruct Hinv as [(_ & H0 & Hag)|(Hbc & Hbits & Hag & pre & Hpre & Hp)]; [exact (conj H0 Hag)|].
    split; [lia|]. apply (agrees_end bits p bc); try assumption; [lia|].
    rewrite app_nil_r in Hpre. subst pre. lia.
  - destruct Hinv as [(E & _)|(Hbc & Hbits & Hag & pre & Hpre & Hp)]; [discriminate E|].
    cbn [ref_fill] in Hf. destruct (Z.ltb_spec bc 24) as [Hlt|Hge].
    + pose proof (byte_in_range pre b r Hpre) as Hb.
      pose proof (shiftl_u32 b 8 bc ltac:(lia) ltac:(lia) ltac:(lia) ltac:(lia)) as Hsh.
      fold two32 in Hsh.
      assert (Hbc8 : (bc + 8) mod two32 = bc + 8) by (apply Z.mod_small; unfold two32; lia).
      rewrite Hsh, Hbc8 in Hf. fold (acc bits b bc) in Hf.
      apply (IH p (acc bits b bc) (bc + 8)); [|exact Hf]. right.
      split; [lia|]. split; [apply acc_range; lia|]. split.
      * intros j Hj. rewrite acc_testbit by lia. destruct (Z.ltb_spec j bc); [apply Hag; lia|].
        rewrite <- (sb_byte pre b r (j - bc) Hpre) by lia. f_equal. lia.
      * exists (pre ++ [b]). rewrite <- app_assoc, app_length. cbn [length]. split; [exact Hpre|lia].
    + injection Hf as <- <- <-. right. split; [lia|]. split; [exact Hbits|]. split; [exact Hag|].
      exists pre. split; assumption.
Qed.

Lemma consume p bits bc src n : Inv 24 p bits bc src -> 1 <= n <= 24 ->
  Inv 0 (p + n) (Z.shiftr bits n) ((bc - n) mod two32) src.
Proof.
  intros [(-> & H0 & Hag)|(Hbc & Hbits & Hag & pre & Hpre & Hp)] Hn.
  - left. split; [reflexivity|]. split; [apply Z.shiftr_nonneg; lia|].
    intros m. apply (agrees_shr bits p (m + n)); [lia|lia|apply Hag].
  - right. rewrite Z.mod_small by (unfold two32; lia). split; [lia|].
    split; [apply shiftr_small; [lia|lia|now replace (n + (bc - n)) with bc by lia]|].
    split; [apply (agrees_shr bits p bc); [lia|lia|exact Hag]|].
    exists pre. split; [exact Hpre|lia].
Qed.

Lemma inv_low p bits bc src lo lim : 0 <= lo -> Inv lo p bits bc src -> (src <> [] -> lim <= bc) ->
  agrees bits p lim.
Proof.
  intros Hlo [(-> & H0 & Hag)|(Hbc & Hbits & Hag & pre & Hpre & Hp)] Hlim; [apply Hag|].
  destruct src as [|b r].
  - apply (agrees_end bits p bc); try assumption; [lia|]. rewrite app_nil_r in Hpre. subst pre. lia.
  - intros j Hj. apply Hag. specialize (Hlim ltac:(discriminate)). lia.
Qed.

Lemma inv24_low p bits bc src : Inv 24 p bits bc src -> agrees bits p 24.
Proof.
  intros H. apply (inv_low p bits bc src 24 24 ltac:(lia) H).
  intros Hne. destruct H as [(-> & _)|(Hbc & _)]; [congruence|lia].
Qed.

(* the index into the decode LUT *)
Lemma agrees_mask X p : agrees X p 10 -> agrees (Z.land X 1023) p 10.
Proof.
  intros Hag j Hj. rewrite Z.land_spec. change 1023 with (Z.ones 10).
  rewrite Z.ones_spec_low, andb_true_r by lia. apply Hag, Hj.
Qed.

Lemma ref_iter p bits bc src bits1 bc1 src1 idx s bits2 bc2 :
  Inv 0 p bits bc src ->
  ref_fill bits bc src = (bits1, bc1, src1) ->
  match (if 10 <=? bc then Some (lut t (Z.land bits 1023)) else None) with
  | Some q => q
  | None => lut t (Z.land bits1 1023)
  end = Ok idx ->
  (if idx <? NUM_SYMBOLS then
     match get_symbol t idx with
     | Ok (_, n) => Ok (idx, Z.shiftr bits1 n, (bc1 - n) mod two32)
     | Err e => Err e | Panic q => Panic q | OutOfFuel => OutOfFuel
     end
   else ref_slow 600 t idx (Z.shiftr bits1 10) ((bc1 - 10) mod two32)) = Ok (s, bits2, bc2) ->
  exists n, (1 <= n <= 24)%nat /\ walk t (sbits p n) ROOT_IDX = Some s /\ 0 <= s < 257
            /\ Inv 0 (p + Z.of_nat n) bits2 bc2 src1.
Proof.
  intros Hinv Hf Hpn Hstep.
  pose proof (fill_inv src p bits bc bits1 bc1 src1 Hinv Hf) as Hinv2.
  pose proof (inv24_low p bits1 bc1 src1 Hinv2) as Hag24.
  assert (Hlut : exists X, agrees X p 10 /\ lut t (Z.land X 1023) = Ok idx).
  { destruct (Z.leb_spec 10 bc) as [Hge|Hlt]; [exists bits|exists bits1]; (split; [|exact Hpn]).
    - apply (inv_low p bits bc src 0 10 ltac:(lia) Hinv). intros _. exact Hge.
    - intros j Hj. apply Hag24. lia. }
  destruct Hlut as (X & HagX & HX).
  destruct (lut_walk_spec 10 ROOT_IDX _ p idx (agrees_mask X p HagX)
              ltac:(unfold ROOT_IDX, NUM_SYMBOLS; lia) HX) as (m & Hm & Hw & Hcase).
  pose proof (walk_good _ 0 ROOT_IDX idx good_root Hw) as Hg. rewrite sbits_length in Hg. cbn [Nat.add] in Hg.
  destruct Hcase as [[Hleaf Hm1]|[-> Hinner]].
  - destruct (Z.ltb_spec idx NUM_SYMBOLS); [|lia].
    destruct (good_leaf m idx Hg Hleaf) as (Hr & Hn & Hm24).
    destruct (wf_get_symbol t idx Hwf ltac:(unfold sym_range; lia)) as (Hget & _).
    rewrite Hget in Hstep. destruct (sym_repr t idx) as [bb nn]. cbn [snd] in Hn.
    injection Hstep as <- <- <-. exists m. split; [lia|]. split; [exact Hw|]. split; [exact Hr|].
    rewrite Hn. apply consume; [exact Hinv2|lia].
  - destruct (Z.ltb_spec idx NUM_SYMBOLS); [lia|].
    destruct (ref_slow_spec 600 10 idx (Z.shiftr bits1 10) ((bc1 - 10) mod two32) (p + 10) s bits2 bc2
                Hg Hinner) as (m' & Hm' & Hw' & Hs & Hb & Hbc); [|exact Hstep|].
    { eapply agrees_shr; [..|exact Hag24]; lia. }
    assert (Hwn : walk t (sbits p (10 + m')) ROOT_IDX = Some s).
    { rewrite sbits_app, (walk_app _ _ _ _ Hw). exact Hw'. }
    pose proof (walk_good _ 0 ROOT_IDX s good_root Hwn) as Hgs. rewrite sbits_length in Hgs. cbn [Nat.add] in Hgs.
    destruct (good_leaf _ s Hgs Hs) as (Hr & _ & Hn24).
    exists (10 + m')%nat. split; [lia|]. split; [exact Hwn|]. split; [exact Hr|].
    rewrite Hb, Hbc, Z.shiftr_shiftr, Zminus_mod_idemp_l by lia.
    replace (10 + Z.of_nat m') with (Z.of_nat (10 + m')) by lia.
    replace (bc1 - 10 - Z.of_nat m') with (bc1 - Z.of_nat (10 + m')) by lia.
    apply consume; [exact Hinv2|lia].
Qed.

Lemma ref_sim rootnd : lookup t ROOT_IDX = Some rootnd ->
  forall fuel p bits bc src out room res,
  Inv 0 p bits bc src -> ref_dec_loop fuel t bits bc src out room = Ok res ->
  (length out <= length res)%nat
  /\ exists N, forall room', (length res <= length out + room')%nat ->
       dec_bits t rootnd (sbits p N) rootnd out room' = DDone (rev res).
Proof.
  intros Hroot. induction fuel as [|f IH]; intros p bits bc src out room res Hinv H; [discriminate|].
  cbn [ref_dec_loop] in H.
  destruct (ref_fill bits bc src) as [[bits1 bc1] src1] eqn:Hf.
  match type of H with (match ?pn with _ => _ end) = _ => destruct pn as [idx| | |] eqn:Hpn; try discriminate end.
  match type of H with (match ?st with _ => _ end) = _ => destruct st as [[[s bits2] bc2]| | |] eqn:Hst; try discriminate end.
  destruct (ref_iter p bits bc src bits1 bc1 src1 idx s bits2 bc2 Hinv Hf Hpn Hst)
    as (n & Hn & Hw & Hs & Hinv').
  destruct n as [|n']; [lia|]. cbn [sbits] in Hw.
  destruct (Z.eqb_spec s EOF) as [->|Hne].
  - injection H as <-. rewrite rev_length. split; [lia|]. exists (S n'). intros room' _.
    cbn [sbits]. rewrite <- (app_nil_r (sb p :: sbits (p + 1) n')).
    rewrite (dec_walk t rootnd Hwf _ _ ROOT_IDX rootnd EOF [] out room' Hroot Hw ltac:(unfold EOF; lia)).
    rewrite rev_involutive. reflexivity.
  - destruct room as [|r]; [discriminate|].
    destruct (IH _ _ _ _ _ _ _ Hinv' H) as (Hlen & N & HN). cbn [length] in Hlen. split; [lia|].
    exists (S n' + N)%nat. intros room' Hroom'. rewrite sbits_app. cbn [sbits].
    rewrite (dec_walk t rootnd Hwf _ _ ROOT_IDX rootnd s _ out room' Hroot Hw Hs).
    destruct (Z.eqb_spec s EOF); [contradiction|].
    destruct room' as [|r']; [lia|]. apply HN. cbn [length]. lia.
Qed.

Lemma sbits_seq : forall n p, 0 <= p ->
  sbits p n = map (fun i => nth i (bits_of_bytes y) false) (seq (Z.to_nat p) n).
Proof.
  induction n as [|n IH]; intros p Hp; [reflexivity|].
  cbn [sbits seq map]. f_equal.
  - unfold sb. destruct (Z.ltb_spec p 0); [lia|reflexivity].
  - rewrite IH by lia. replace (Z.to_nat (p + 1)) with (S (Z.to_nat p)) by lia. reflexivity.
Qed.

End RefDec.

Lemma map_nth_firstn {A} (d : A) : forall (l : list A) n, (n <= length l)%nat ->
  map (fun i => nth i l d) (seq 0 n) = firstn n l.
Proof.
  induction l as [|a l IH]; intros n Hn.
  - cbn [length] in Hn. assert (n = 0%nat) as -> by lia. reflexivity.
  - destruct n as [|n]; [reflexivity|]. cbn [seq map firstn nth]. f_equal.
    rewrite <- seq_shift, map_map. cbn [length] in Hn. rewrite <- (IH n) by lia.
    apply map_ext. intros i. reflexivity.
Qed.

Lemma nth_app_zeros (l : list bool) M i : nth i (l ++ repeat false M) false = nth i l false.
Proof.
  destruct (Nat.lt_ge_cases i (length l)) as [Hlt|Hge].
  - apply app_nth1. exact Hlt.
  - rewrite app_nth2 by lia. rewrite (nth_overflow l) by lia.
    destruct (nth_in_or_default (i - length l) (repeat false M) false) as [Hin|Hd]; [|exact Hd].
    apply repeat_spec in Hin. exact Hin.
Qed.

Lemma bits_of_zero_bytes N : bits_of_bytes (repeat 0 N) = repeat false (8 * N).
Proof.
  induction N as [|N IH]; [reflexivity|]. cbn [repeat]. rewrite bits_of_bytes_cons, IH.
  replace (8 * S N)%nat with (8 + 8 * N)%nat by lia. rewrite repeat_app. reflexivity.
Qed.

Lemma sbits_prefix y N : exists rest, bits_of_bytes (y ++ repeat 0 N) = sbits y 0 N ++ rest.
Proof.
  exists (skipn N (bits_of_bytes y ++ repeat false (8 * N))).
  rewrite bits_of_bytes_app, bits_of_zero_bytes. rewrite sbits_seq by lia. cbn [Z.to_nat].
  rewrite (map_ext _ (fun i => nth i (bits_of_bytes y ++ repeat false (8 * N)) false))
    by (intros i; symmetry; apply nth_app_zeros).
  rewrite map_nth_firstn by (rewrite app_length, repeat_length; lia).
  symmetry. apply firstn_skipn.
Qed.

(* an explicit zero byte is what the decoder substitutes for the end of the input *)
Lemma dec_loop_zeros t root : forall fuel input k nd out room,
  dec_loop fuel t root (input ++ repeat 0 k) nd out room = dec_loop fuel t root input nd out room.
Proof.
  induction fuel as [|f IH]; intros input k nd out room; [reflexivity|].
  destruct input as [|b r].
  - destruct k as [|k]; [reflexivity|]. cbn [app repeat dec_loop].
    destruct (dec_bits t root (byte_bits 8 0) nd out room); try reflexivity.
    apply (IH [] k).
  - cbn [app dec_loop]. destruct (dec_bits t root (byte_bits 8 b) nd out room); try reflexivity.
    apply IH.
Qed.

(* whenever the C++ decoder succeeds, the Rust decoder returns the same bytes for every
   capacity that holds them *)
Theorem ref_decompress_agrees t y fuel cap res :
  wf_table t = true -> depths_ok t 24 ROOT_IDX 0 = true -> bytes_ok y = true ->
  ref_decompress fuel t y cap = Ok res ->
  forall cap' fuel', (length res <= cap')%nat -> (dec_fuel y cap' <= fuel')%nat ->
  decompress fuel' t y cap' = Ok res.
Proof.
  intros Hwf Htree Hy Href cap' fuel' Hcap Hfuel.
  destruct (wf_root t Hwf) as (rootnd & Hl & Hg & _).
  assert (Hinv : Inv y 0 0 0 0 y).
  { right. split; [lia|]. split; [cbn; lia|]. split; [intros j Hj; lia|]. exists []. split; reflexivity. }
  destruct (ref_sim t Hwf Htree y Hy rootnd Hl fuel 0 0 0 y [] cap res Hinv Href) as (_ & N & HN).
  specialize (HN cap' ltac:(cbn [length]; lia)).
  destruct (sbits_prefix y N) as (rest & Hpre).
  set (F := Nat.max (length (y ++ repeat 0 N)) (dec_fuel y cap')).
  assert (HF : decompress F t y cap' = Ok res).
  { unfold decompress. rewrite Hg. rewrite <- (dec_loop_zeros t rootnd F y N).
    rewrite <- (app_nil_r (y ++ repeat 0 N)). rewrite <- (rev_involutive res).
    apply dec_loop_done; [|unfold F; lia].
    rewrite Hpre, dec_bits_app, HN. reflexivity. }
  destruct (decoder_total t y cap' Hwf) as [_ Hmono].
  rewrite (Hmono fuel' Hfuel). rewrite <- (Hmono F ltac:(unfold F; lia)). exact HF.
Qed.
