(* C11 assembled: the values the readers accept, and what holds for them. *)
From LibTw2 Require Import Base.Res Model.Varint Model.Packer Model.Snap Proofs.SnapBase Proofs.SnapRep Proofs.SnapDelta
  Proofs.SnapApply Proofs.SnapOk Proofs.SnapTotal Proofs.SnapTotal2 Proofs.SnapWire Proofs.SnapWireInst Proofs.SnapC09
  Proofs.SnapSer Proofs.SnapReg Proofs.SnapObs Proofs.SnapBuilder Proofs.SnapBuilder2 Proofs.SnapBuilder3 Proofs.SnapC10.
From Coq Require Import ZArith List Lia Bool Permutation.
Import ListNotations.
Open Scope Z_scope.

(* every Delta / Snap value a program can obtain from the readers (and from Delta::create on
   accepted snapshots) *)
Inductive delta_accepted : delta -> Prop :=
| dacc_ints sz ints ws d : forallb is_i32 ints = true -> Z.of_nat (length ints) < i32_max ->
    delta_read_from_ints sz ints = (Ok d, ws) -> delta_accepted d
| dacc_bytes sz bs ws d : bytes_ok bs = true -> Z.of_nat (length bs) < i32_max ->
    delta_read_bytes sz bs = (Ok d, ws) -> delta_accepted d
| dacc_create A B d : snap_accepted A -> snap_accepted B -> create_raw (sn_raw A) (sn_raw B) = Ok d -> delta_accepted d
with snap_accepted : snap -> Prop :=
| sacc_empty : snap_accepted snap_empty
| sacc_ints ints ws S : forallb is_i32 ints = true -> snap_read_from_ints ints = (Ok S, ws) -> snap_accepted S
| sacc_bytes bs ws S : bytes_ok bs = true -> snap_read_bytes bs = (Ok S, ws) -> snap_accepted S
| sacc_delta S0 d ws S : snap_accepted S0 -> delta_accepted d -> snap_read_with_delta S0 d = (Ok S, ws) -> snap_accepted S.

Scheme delta_acc_ind := Induction for delta_accepted Sort Prop
  with snap_acc_ind := Induction for snap_accepted Sort Prop.
Combined Scheme acc_mutind from delta_acc_ind, snap_acc_ind.

Lemma consistent_empty : consistent snap_empty.
Proof. exists []. reflexivity. Qed.

Lemma create_good A B : good A -> good B -> k09 A B = false ->
  exists d, create_raw A B = Ok d /\ dgood d.
Proof.
  intros GA GB Hk. destruct (g_rep _ GA) as [chA HA]. destruct (g_rep _ GB) as [chB HB].
  exists (created A B chA chB). split.
  - apply create_raw_spec; try assumption; [apply (g_keys _ GA)|apply (g_keys _ GB)|apply (k09_false _ _ _ _ HA HB Hk)].
  - apply dgood_created; [exact HA|exact HB|apply (g_buf _ GB)].
Qed.

Lemma create_fine_or_k09 A B : good A -> good B ->
  (k09 A B = false -> exists d, create_raw A B = Ok d /\ dgood d)
  /\ (k09 A B = true -> exists s, create_raw A B = Panic s).
Proof.
  intros GA GB. split; [apply create_good; assumption|]. intros Hk.
  destruct (g_rep _ GA) as [chA HA]. destruct (g_rep _ GB) as [chB HB].
  apply (create_raw_k09 A B chA chB HA HB (g_keys _ GA) (g_keys _ GB) Hk).
Qed.

Theorem accepted_good :
  (forall d, delta_accepted d -> dgood d) /\ (forall S, snap_accepted S -> sgood S /\ consistent S).
Proof.
  apply acc_mutind.
  - intros sz ints ws d Hi Hn E. apply (wpost_ok _ _ _ _ (delta_read_from_ints_post sz ints Hi Hn) E).
  - intros sz bs ws d Hb Hn E. apply (wpost_ok _ _ _ _ (delta_read_bytes_post sz bs Hb Hn) E).
  - intros A B d _ [GA _] _ [GB _] E.
    destruct (k09 (sn_raw A) (sn_raw B)) eqn:Hk.
    + destruct (proj2 (create_fine_or_k09 _ _ (sg_raw _ GA) (sg_raw _ GB)) Hk) as [s Es]. congruence.
    + destruct (create_good _ _ (sg_raw _ GA) (sg_raw _ GB) Hk) as (d' & E' & D). congruence.
  - split; [apply sgood_empty|apply consistent_empty].
  - intros ints ws S Hi E. split; [apply (wpost_ok _ _ _ _ (snap_read_from_ints_good ints Hi) E)|].
    apply (accepted_consistent _ _ _ E).
  - intros bs ws S Hb E. split; [apply (wpost_ok _ _ _ _ (snap_read_bytes_good bs Hb) E)|].
    apply (accepted_consistent _ _ _ E).
  - intros S0 d ws S _ [G0 _] _ D E. split; [apply (wpost_ok _ _ _ _ (snap_read_with_delta_good S0 d G0 D) E)|].
    apply (accepted_consistent _ _ _ E).
Qed.

(* the delta between two accepted snapshots (outside K09), applied: the target again, with exactly
   the warnings the target's own registry check gives *)
Theorem accepted_after_delta S S2 : snap_accepted S -> snap_accepted S2 ->
  k09 (sn_raw S) (sn_raw S2) = false ->
  exists d S' ws, create_raw (sn_raw S) (sn_raw S2) = Ok d /\ snap_read_with_delta S d = (Ok S', ws)
    /\ build_from_raw (sn_raw S2) = (Ok S2, ws) /\ like S2 S'.
Proof.
  intros HS HS2 Hk. destruct (proj2 accepted_good S HS) as [G _]. destruct (proj2 accepted_good S2 HS2) as [G2 [ws Ec]].
  destruct (consistent_after_delta (sn_raw S) S2 ws (sg_raw _ G) (sg_raw _ G2) Ec Hk) as (d & S' & Ed & _ & Er & HL).
  exists d, S', ws. split; [exact Ed|]. split; [exact Er|]. split; [exact Ec|exact HL].
Qed.
