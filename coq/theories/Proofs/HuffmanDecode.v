(* The decompressor of Model/Huffman.v: it inverts the code words of a well-formed table
   (round trip), it is total with an explicit fuel bound, it never exceeds the capacity
   and the capacity error is its only failure. *)
From LibTw2 Require Import Base.Res Base.Bits Model.Huffman Proofs.HuffmanBits Proofs.HuffmanTable
  Proofs.HuffmanCompress.
From Coq Require Import ZArith List Lia Bool.
Import ListNotations.
Open Scope Z_scope.

Lemma dec_bits_app t root a b nd out room :
  dec_bits t root (a ++ b) nd out room =
  match dec_bits t root a nd out room with
  | DCont nd' out' room' => dec_bits t root b nd' out' room'
  | r => r
  end.
Proof.
  revert nd out room. induction a as [|bit a IH]; intros nd out room; [reflexivity|].
  cbn [app dec_bits]. destruct (get_node t (if bit then snd nd else fst nd)) as [[n|sr]|e|p|]; try reflexivity.
  - apply IH.
  - destruct ((if bit then snd nd else fst nd) =? EOF); [reflexivity|].
    destruct (256 <=? (if bit then snd nd else fst nd)); [reflexivity|].
    destruct room; [reflexivity|]. apply IH.
Qed.

Lemma wf_root t : wf_table t = true ->
  exists rootnd, lookup t ROOT_IDX = Some rootnd /\ get_node t ROOT_IDX = Ok (inl rootnd)
                 /\ subtree_ok t 24 ROOT_IDX = true.
Proof.
  intros Hwf. unfold wf_table in Hwf. apply andb_prop in Hwf as [Hwf _].
  apply andb_prop in Hwf as [_ Hs].
  assert (Hi : NUM_SYMBOLS <= ROOT_IDX) by (unfold ROOT_IDX, NUM_SYMBOLS; lia).
  destruct (subtree_ok_inner t 24 ROOT_IDX Hi Hs) as (_ & nd & _ & Hl & _).
  exists nd. auto using get_node_inner.
Qed.

Lemma wf_leaf_node t s : wf_table t = true -> 0 <= s < 257 ->
  exists nd, get_node t s = Ok (inr (to_symbol_repr nd)).
Proof.
  intros Hwf Hs. destruct (wf_sym t s Hwf ltac:(unfold sym_range; lia)) as (nd & Hl & _).
  exists nd. apply get_node_leaf; [exact Hl|unfold NUM_SYMBOLS; lia].
Qed.

Lemma dec_walk t root : wf_table t = true -> forall bs b idx nd s rest out room,
  lookup t idx = Some nd -> walk t (b :: bs) idx = Some s -> 0 <= s < 257 ->
  dec_bits t root ((b :: bs) ++ rest) nd out room =
  if s =? EOF then DDone out
  else match room with
       | O => DErr
       | S r => dec_bits t root rest root (s :: out) r
       end.
Proof.
  intros Hwf. induction bs as [|b' bs IH]; intros b idx nd s rest out room Hl Hw Hs;
    apply walk_cons_inv in Hw as (nd' & _ & Hl' & Hw); rewrite Hl in Hl'; injection Hl' as <-;
    cbn [app dec_bits]; set (c := if b then snd nd else fst nd) in *.
  - injection Hw as ->. destruct (wf_leaf_node t s Hwf Hs) as (nd' & ->).
    destruct (Z.eqb_spec s EOF); [reflexivity|].
    unfold EOF in *. destruct (Z.leb_spec 256 s); [lia|]. reflexivity.
  - pose proof (walk_cons_inv _ _ _ _ _ Hw) as (nd' & Hc & Hlc & _).
    rewrite (get_node_inner _ _ _ Hlc Hc). now apply (IH b' c nd').
Qed.

Lemma code_nonempty t s : wf_table t = true -> sym_range s ->
  exists b bs, code t s = b :: bs /\ walk t (b :: bs) ROOT_IDX = Some s.
Proof.
  intros Hwf Hs. destruct (wf_sym t s Hwf Hs) as (nd & Hl & Hn & _ & Hw).
  unfold code, sym_repr. rewrite Hl.
  destruct (code_of (to_symbol_repr nd)) as [|b bs] eqn:Hc.
  - apply (f_equal (@length bool)) in Hc. unfold code_of in Hc. rewrite bits_of_length in Hc.
    cbn [length] in Hc. lia.
  - exists b, bs. split; [reflexivity|exact Hw].
Qed.

(* decoding the code words of x followed by the code word of EOF, whatever comes after *)
Lemma dec_codes t rootnd : wf_table t = true -> lookup t ROOT_IDX = Some rootnd ->
  forall x rest out room, bytes_ok x = true -> (length x <= room)%nat ->
  dec_bits t rootnd (codes t x ++ code t EOF ++ rest) rootnd out room = DDone (rev x ++ out).
Proof.
  intros Hwf Hroot. induction x as [|a x IH]; intros rest out room Hx Hroom.
  - cbn [codes flat_map app rev].
    destruct (code_nonempty t EOF Hwf ltac:(unfold sym_range, EOF; lia)) as (b & bs & -> & Hw).
    rewrite (dec_walk t rootnd Hwf bs b ROOT_IDX rootnd EOF rest out room Hroot Hw ltac:(unfold EOF; lia)).
    reflexivity.
  - cbn [bytes_ok forallb] in Hx. apply andb_prop in Hx as [Ha Hx].
    apply byte_ok_range in Ha.
    rewrite codes_cons, <- app_assoc.
    destruct (code_nonempty t a Hwf ltac:(unfold sym_range; lia)) as (b & bs & -> & Hw).
    rewrite (dec_walk t rootnd Hwf bs b ROOT_IDX rootnd a _ out room Hroot Hw ltac:(lia)).
    destruct (Z.eqb_spec a EOF); [unfold EOF in *; lia|].
    cbn [length] in Hroom. destruct room as [|r]; [lia|].
    rewrite (IH rest (a :: out) r Hx ltac:(lia)). cbn [rev]. now rewrite <- app_assoc.
Qed.

Lemma dec_loop_done t root : forall input tail fuel nd out room out',
  dec_bits t root (bits_of_bytes input) nd out room = DDone out' ->
  (length input <= fuel)%nat ->
  dec_loop fuel t root (input ++ tail) nd out room = Ok (rev out').
Proof.
  induction input as [|b input IH]; intros tail fuel nd out room out' Hd Hf.
  - cbn in Hd. discriminate.
  - cbn [length] in Hf. destruct fuel as [|f]; [lia|].
    rewrite bits_of_bytes_cons, dec_bits_app in Hd. cbn [app dec_loop].
    destruct (dec_bits t root (byte_bits 8 b) nd out room) as [nd' o' r'|o'| |p]; try discriminate.
    + apply IH; [exact Hd|lia].
    + now injection Hd as ->.
Qed.

(* lossless: whatever buffer the compressor was given, whatever follows its output,
   and for every fuel that covers the compressed bytes *)
Theorem roundtrip t x bug ccap c tail cap fuel :
  wf_table t = true -> bytes_ok x = true ->
  compress t x bug ccap = Ok c ->
  (length x <= cap)%nat -> (length c <= fuel)%nat ->
  decompress fuel t (c ++ tail) cap = Ok x.
Proof.
  intros Hwf Hx Hc Hcap Hfuel.
  destruct (compress_spec t x bug Hwf Hx) as (out & pad & _ & _ & Hbits & _ & Hcomp).
  rewrite Hcomp in Hc. destruct (length out <=? ccap)%nat; [|discriminate]. injection Hc as <-.
  destruct (wf_root t Hwf) as (rootnd & Hl & Hg & _).
  unfold decompress. rewrite Hg.
  rewrite <- (rev_involutive x) at 1.
  apply dec_loop_done; [|exact Hfuel].
  rewrite Hbits. unfold encode_bits, codes. rewrite flat_map_app. cbn [flat_map]. rewrite app_nil_r.
  rewrite <- app_assoc. fold (codes t x).
  rewrite (dec_codes t rootnd Hwf Hl x _ [] cap Hx Hcap). now rewrite app_nil_r.
Qed.

(* nd is the node stored at an inner index from which every walk ends within d steps *)
Definition vnode (t : table) (d : nat) (nd : node) : Prop :=
  exists idx, lookup t idx = Some nd /\ NUM_SYMBOLS <= idx /\ subtree_ok t d idx = true.

Lemma vnode_child t d nd (bit : bool) : wf_table t = true -> vnode t d nd ->
  let c := if bit then snd nd else fst nd in
  exists d', d = S d' /\
    ((0 <= c < 257 /\ exists sr, get_node t c = Ok (inr sr))
     \/ (exists nd', get_node t c = Ok (inl nd') /\ vnode t d' nd')).
Proof.
  intros Hwf (idx & Hl & Hi & Hs) c.
  destruct (subtree_ok_inner t d idx Hi Hs) as (d' & nd' & -> & Hl' & H0 & H1).
  rewrite Hl in Hl'. injection Hl' as <-. exists d'. split; [reflexivity|].
  assert (Hc : subtree_ok t d' c = true) by (unfold c; destruct bit; assumption).
  destruct (Z.ltb_spec c NUM_SYMBOLS) as [Hlt|Hge].
  - left. rewrite subtree_ok_leaf in Hc by exact Hlt. apply Z.leb_le in Hc.
    unfold NUM_SYMBOLS in Hlt. split; [lia|].
    destruct (wf_leaf_node t c Hwf ltac:(lia)) as (n & ->). eauto.
  - right. destruct (subtree_ok_inner t d' c Hge Hc) as (_ & n & _ & Hlc & _).
    exists n. split; [now apply get_node_inner|now exists c].
Qed.

(* every bit strictly decreases 25 * room + depth; no panic; the output stays within the capacity *)
Lemma dec_bits_total t rootnd : wf_table t = true -> vnode t 24 rootnd ->
  forall bs nd d out room, vnode t d nd ->
  match dec_bits t rootnd bs nd out room with
  | DCont nd' out' room' =>
    exists d', vnode t d' nd'
      /\ (25 * room' + d' + length bs <= 25 * room + d)%nat
      /\ (length out' + room' = length out + room)%nat
  | DDone out' => (length out' <= length out + room)%nat
  | DErr => True
  | DPanic _ => False
  end.
Proof.
  intros Hwf Hroot. induction bs as [|bit bs IH]; intros nd d out room Hv.
  - cbn [dec_bits length]. exists d. split; [exact Hv|split; lia].
  - cbn [dec_bits]. destruct (vnode_child t d nd bit Hwf Hv) as (d' & -> & [[Hc [sr Hg]]|[nd' [Hg Hv']]]).
    + rewrite Hg. set (c := if bit then snd nd else fst nd) in *.
      destruct (Z.eqb_spec c EOF); [lia|].
      unfold EOF in *. destruct (Z.leb_spec 256 c); [lia|].
      destruct room as [|r]; [exact I|].
      specialize (IH rootnd 24%nat (c :: out) r Hroot).
      destruct (dec_bits t rootnd bs rootnd (c :: out) r) as [nd'' o'' r''|o''| |p]; try exact IH.
      * destruct IH as (d'' & Hv'' & Hm & Hlen). exists d''. cbn [length] in *. split; [exact Hv''|split; lia].
      * cbn [length] in IH. lia.
    + rewrite Hg. specialize (IH nd' d' out room Hv').
      destruct (dec_bits t rootnd bs nd' out room) as [nd'' o'' r''|o''| |p]; try exact IH.
      destruct IH as (d'' & Hv'' & Hm & Hlen). exists d''. cbn [length]. split; [exact Hv''|split; lia].
Qed.

Definition dec_result_ok (cap : nat) (r : res dec_err bytes) : Prop :=
  match r with
  | Ok out => (length out <= cap)%nat
  | Err e => e = Capacity
  | Panic _ | OutOfFuel => False
  end.

Lemma dec_loop_total t rootnd : wf_table t = true -> vnode t 24 rootnd ->
  forall fuel input nd d out room, vnode t d nd ->
  (8 * length input + 25 * room + d < 8 * fuel)%nat ->
  dec_result_ok (length out + room) (dec_loop fuel t rootnd input nd out room).
Proof.
  intros Hwf Hroot. induction fuel as [|f IH]; intros input nd d out room Hv Hf; [lia|].
  cbn [dec_loop].
  set (byte := match input with [] => 0 | b :: _ => b end).
  set (rest := match input with [] => [] | _ :: r => r end).
  pose proof (dec_bits_total t rootnd Hwf Hroot (byte_bits 8 byte) nd d out room Hv) as Hb.
  rewrite byte_bits_length in Hb.
  destruct (dec_bits t rootnd (byte_bits 8 byte) nd out room) as [nd' o' r'|o'| |p].
  - destruct Hb as (d' & Hv' & Hm & Hlen). rewrite <- Hlen. apply (IH rest nd' d' o' r' Hv').
    destruct input as [|b input]; cbn [length] in *; unfold rest; cbn [length]; lia.
  - cbn [dec_result_ok]. rewrite rev_length. exact Hb.
  - reflexivity.
  - destruct Hb.
Qed.

(* a run that does not end for want of fuel is the same with more *)
Lemma dec_loop_mono t root : forall fuel fuel' input nd out room, (fuel <= fuel')%nat ->
  dec_loop fuel t root input nd out room <> OutOfFuel ->
  dec_loop fuel' t root input nd out room = dec_loop fuel t root input nd out room.
Proof.
  induction fuel as [|f IH]; intros fuel' input nd out room Hle Hne; [now destruct Hne|].
  destruct fuel' as [|f']; [lia|].
  cbn [dec_loop] in *. destruct (dec_bits t root _ nd out room); try reflexivity.
  apply IH; [lia|exact Hne].
Qed.

(* the decoder terminates within dec_fuel iterations on every input, never panics,
   writes at most cap bytes and fails only with the capacity error *)
Theorem decoder_total t y cap : wf_table t = true ->
  dec_result_ok cap (decompress (dec_fuel y cap) t y cap)
  /\ forall fuel, (dec_fuel y cap <= fuel)%nat ->
       decompress fuel t y cap = decompress (dec_fuel y cap) t y cap.
Proof.
  intros Hwf. destruct (wf_root t Hwf) as (rootnd & Hl & Hg & Hs).
  assert (Hroot : vnode t 24 rootnd).
  { exists ROOT_IDX. repeat split; try assumption. unfold ROOT_IDX, NUM_SYMBOLS. lia. }
  unfold decompress. rewrite Hg.
  pose proof (dec_loop_total t rootnd Hwf Hroot (dec_fuel y cap) y rootnd 24%nat [] cap Hroot
                ltac:(unfold dec_fuel; lia)) as Hok.
  split; [exact Hok|]. intros fuel Hle. apply dec_loop_mono; [exact Hle|].
  intros E. rewrite E in Hok. exact Hok.
Qed.

(* compress_into_vec then decompress_into_vec: the fixed capacities always suffice *)
Theorem vec_roundtrip t x : wf_table t = true -> bytes_ok x = true ->
  exists c, compress_into_vec t x = Ok c /\ decompress_into_vec t c = Ok x.
Proof.
  intros Hwf Hx. destruct (compress_into_vec_spec t x Hwf Hx) as (c & Hv & Hc).
  exists c. split; [exact Hv|]. unfold decompress_into_vec.
  destruct (compress_spec t x false Hwf Hx) as (out & _ & Hlen & _ & _ & _ & Hcomp).
  specialize (Hc (length c) (le_n _)). pose proof Hc as Hc'. rewrite Hcomp in Hc'.
  destruct (length out <=? length c)%nat; [|discriminate]. injection Hc' as ->.
  pose proof (bit_len_bounds t x Hwf Hx) as Hb. rewrite bytes_needed_false in Hlen.
  assert (Hcap : (length x <= length c * 8)%nat) by (Z.div_mod_to_equations; lia).
  pose proof (roundtrip t x false (length c) c [] (length c * 8) (dec_fuel c (length c * 8))
                        Hwf Hx Hc Hcap ltac:(unfold dec_fuel; lia)) as H.
  rewrite app_nil_r in H. rewrite H. reflexivity.
Qed.
