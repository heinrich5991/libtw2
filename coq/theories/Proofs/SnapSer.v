(* The snapshot wire form: RawSnap::read_from_ints / read invert write_to_ints / write. *)
From LibTw2 Require Import Base.Res Model.Varint Model.Packer Model.Snap Proofs.SnapBase Proofs.SnapRep Proofs.SnapDelta
  Proofs.SnapApply Proofs.SnapOk Proofs.SnapTotal Proofs.SnapWire Proofs.SnapWireInst Proofs.SnapC09 Proofs.PackerProofs Proofs.VarintArith Proofs.VarintProofs.
From Coq Require Import ZArith List Lia Bool Permutation.
Import ListNotations.
Open Scope Z_scope.

Lemma insert_u32_perm k l : Permutation (insert_u32 k l) (k :: l).
Proof.
  induction l as [|y l IH]; cbn [insert_u32]; [apply Permutation_refl|].
  destruct (u32_of k <=? u32_of y); [apply Permutation_refl|].
  eapply Permutation_trans; [apply perm_skip, IH|apply perm_swap].
Qed.
Lemma isort_u32_perm l : Permutation (isort_u32 l) l.
Proof.
  induction l as [|x l IH]; cbn [isort_u32]; [apply Permutation_refl|].
  eapply Permutation_trans; [apply insert_u32_perm|apply perm_skip, IH].
Qed.

Definition enc_item (kd : Z * list Z) : list Z := fst kd :: snd kd.
Fixpoint offs_from (p : Z) (l : items) : list Z :=
  match l with [] => [] | (k, d) :: t => 4 * p :: offs_from (p + 1 + Z.of_nat (length d)) t end.
Definition ilen (l : items) : Z := Z.of_nat (length (flat_map enc_item l)).
Definition with_data (ch : items) (keys : list Z) : items := map (fun k => (k, data_of ch k)) keys.

Lemma ilen_cons k d t : ilen ((k, d) :: t) = 1 + Z.of_nat (length d) + ilen t.
Proof. unfold ilen. cbn [flat_map]. rewrite app_length. unfold enc_item. cbn [fst snd length]. lia. Qed.
Lemma ilen_app a b : ilen (a ++ b) = ilen a + ilen b.
Proof. unfold ilen. rewrite flat_map_app, app_length. lia. Qed.
Lemma ilen_nonneg l : 0 <= ilen l.
Proof. unfold ilen. lia. Qed.

Lemma ilen_flat l : ilen l = Z.of_nat (length l) + Z.of_nat (length (flat l)).
Proof.
  induction l as [|[k d] t IH]; [reflexivity|]. rewrite ilen_cons, IH. cbn [length flat flat_map snd].
  rewrite app_length. fold (flat t). lia.
Qed.

Lemma with_data_perm S ch keys : rep S ch -> Permutation keys (map fst (rs_offs S)) ->
  Permutation (with_data ch keys) ch.
Proof.
  intros R Hp. unfold with_data. rewrite (Permutation_map _ Hp), (Permutation_map _ (rep_keys _ _ R)).
  rewrite rebuild by apply (rep_nodup _ _ R). reflexivity.
Qed.

Lemma ints_offsets_spec S ch : rep S ch -> forall keys p, incl keys (map fst (rs_offs S)) ->
  4 * (p + ilen (with_data ch keys)) <= i32_max -> 0 <= p ->
  ints_offsets (rs_offs S) keys (4 * p) = Ok (offs_from p (with_data ch keys)).
Proof.
  intros R. induction keys as [|k keys IH]; intros p Hincl Hb Hp; [reflexivity|].
  cbn [ints_offsets with_data map offs_from]. fold (with_data ch keys).
  assert (Hin : In k (map fst (rs_offs S))) by (apply Hincl; left; reflexivity).
  apply aget_some_in in Hin. destruct Hin as [r Hr]. rewrite Hr.
  destruct (rep_get _ _ _ _ R Hr) as (pre & d & post & _ & Hd & -> & _). cbn [fst snd].
  replace ((length (flat pre) + length d <? length (flat pre))%nat) with false by (symmetry; apply Nat.ltb_ge; lia).
  unfold range_len. cbn [fst snd]. replace (length (flat pre) + length d - length (flat pre))%nat with (length d) by lia.
  cbn [with_data map] in Hb. fold (with_data ch keys) in Hb. rewrite ilen_cons in Hb.
  rewrite (data_of_some _ _ _ Hd) in *. pose proof (ilen_nonneg (with_data ch keys)).
  replace (i32_max <? 4 * p + (Z.of_nat (length d) + 1) * 4) with false by (symmetry; apply Z.ltb_ge; lia).
  replace (4 * p + (Z.of_nat (length d) + 1) * 4) with (4 * (p + 1 + Z.of_nat (length d))) by lia.
  rewrite IH; [reflexivity| | |lia].
  - intros x Hx. apply Hincl. right. exact Hx.
  - lia.
Qed.

Lemma ints_items_spec S ch : rep S ch -> forall keys, incl keys (map fst (rs_offs S)) ->
  ints_items S keys = Ok (flat_map enc_item (with_data ch keys)).
Proof.
  intros R. induction keys as [|k keys IH]; intros Hincl; [reflexivity|].
  cbn [ints_items with_data map flat_map]. fold (with_data ch keys).
  assert (Hin : In k (map fst (rs_offs S))) by (apply Hincl; left; reflexivity).
  apply aget_some_in in Hin. destruct Hin as [r Hr]. rewrite Hr.
  destruct (rep_get _ _ _ _ R Hr) as (pre & d & post & _ & Hd & _ & Hs). rewrite Hs. cbn [bind].
  rewrite IH by (intros x Hx; apply Hincl; right; exact Hx). cbn [bind].
  unfold enc_item at 1. cbn [fst snd]. rewrite (data_of_some _ _ _ Hd). reflexivity.
Qed.

Definition ukeys (S : rawsnap) : list Z := isort_u32 (map fst (rs_offs S)).
Definition uitems (S : rawsnap) (ch : items) : items := with_data ch (ukeys S).
Definition wire_snap (S : rawsnap) (ch : items) : list Z :=
  (Z.of_nat (length (rs_buf S)) + Z.of_nat (length (rs_offs S))) * 4 :: Z.of_nat (length (rs_offs S))
  :: offs_from 0 (uitems S ch) ++ flat_map enc_item (uitems S ch).

Lemma uitems_ilen S ch : rep S ch -> ilen (uitems S ch) = Z.of_nat (length (rs_offs S)) + Z.of_nat (length (rs_buf S)).
Proof.
  intros R. rewrite ilen_flat. destruct (rep_lengths _ _ R) as [L1 L2]. rewrite L1, L2.
  pose proof (with_data_perm S ch (ukeys S) R (isort_u32_perm _)) as Hp. unfold uitems.
  rewrite (Permutation_length Hp), (length_flat_perm _ _ Hp). reflexivity.
Qed.

Theorem snap_ints_spec S ch : good S -> rep S ch -> snap_ints S = Ok (wire_snap S ch).
Proof.
  intros G R. unfold snap_ints. pose proof (g_n _ G) as Hn. pose proof (g_sz _ G) as Hs.
  unfold MAX_SNAPSHOT_ITEMS, MAX_SNAPSHOT_SIZE, ser_size in *.
  replace (1024 <? Z.of_nat (length (rs_offs S))) with false by (symmetry; apply Z.ltb_ge; lia).
  replace (i32_max <? (Z.of_nat (length (rs_buf S)) + Z.of_nat (length (rs_offs S))) * 4) with false
    by (symmetry; apply Z.ltb_ge; unfold i32_max; lia).
  fold (ukeys S).
  assert (Hincl : incl (ukeys S) (map fst (rs_offs S))).
  { intros x Hx. apply (Permutation_in _ (isort_u32_perm _) Hx). }
  pose proof (ints_offsets_spec S ch R (ukeys S) 0 Hincl) as Ho. fold (uitems S ch) in Ho.
  rewrite (uitems_ilen S ch R) in Ho. change (4 * 0) with 0 in Ho.
  rewrite Ho by (unfold i32_max; lia). cbn [bind].
  rewrite (ints_items_spec S ch R (ukeys S) Hincl). cbn [bind]. reflexivity.
Qed.

Lemma offs_from_length l : forall p, length (offs_from p l) = length l.
Proof. induction l as [|[k d] t IH]; intros p; cbn [offs_from length]; [reflexivity|]. f_equal. apply IH. Qed.

Lemma firstn_exact {T} (a b : list T) : firstn (length a) (a ++ b) = a.
Proof. induction a as [|x a IH]; [reflexivity|]. cbn [length app firstn]. f_equal. exact IH. Qed.
Lemma skipn_exact {T} (a b : list T) : skipn (length a) (a ++ b) = b.
Proof. induction a as [|x a IH]; [reflexivity|exact IH]. Qed.

Section ReadBack.
  Variable vu : items.
  Hypothesis Hnd : NoDup (map fst vu).
  Hypothesis Hki : forallb is_i32 (map fst vu) = true.
  Hypothesis Hlim : lim_ok vu.
  Let idata := flat_map enc_item vu.
  Let il := ilen vu.

  Lemma rfi_item_add done k d todo S : vu = done ++ (k, d) :: todo -> rep S done ->
    exists S', rfi_item idata il (Some (ilen done)) (ilen (done ++ [(k, d)])) S = Ok S'
      /\ rep S' (done ++ [(k, d)]).
  Proof.
    intros Hv R. unfold rfi_item. rewrite ilen_app, ilen_cons. change (ilen []) with 0.
    pose proof (ilen_nonneg done) as Hd0. pose proof (ilen_nonneg todo) as Ht0.
    assert (Hil : il = ilen done + (1 + Z.of_nat (length d)) + ilen todo).
    { unfold il. rewrite Hv, ilen_app, ilen_cons. lia. }
    replace (ilen done + (1 + Z.of_nat (length d) + 0) <=? ilen done) with false by (symmetry; apply Z.leb_gt; lia).
    replace (il <? ilen done + (1 + Z.of_nat (length d) + 0)) with false by (symmetry; apply Z.ltb_ge; lia).
    assert (Hid : idata = flat_map enc_item done ++ (k :: d) ++ flat_map enc_item todo).
    { unfold idata. rewrite Hv, flat_map_app. reflexivity. }
    replace (nth_error idata (Z.to_nat (ilen done))) with (Some k)
      by (unfold ilen; rewrite Nat2Z.id, Hid; symmetry; apply (nth_error_mid (flat_map enc_item done) k (d ++ flat_map enc_item todo))).
    replace (Z.to_nat (ilen done + (1 + Z.of_nat (length d) + 0) - ilen done - 1)) with (length d) by lia.
    replace (Z.to_nat (ilen done + 1)) with (length (flat_map enc_item done ++ [k])) by (rewrite app_length; unfold ilen; cbn [length]; lia).
    replace idata with ((flat_map enc_item done ++ [k]) ++ d ++ flat_map enc_item todo)
      by (rewrite Hid, <- app_assoc; reflexivity).
    rewrite firstn_skipn_app_mid.
    assert (Hk : is_i32 k = true).
    { rewrite forallb_forall in Hki. apply Hki. rewrite Hv, map_app. apply in_or_app. right. left. reflexivity. }
    assert (Hfresh : aget k (rs_offs S) = None).
    { apply (rep_get_none _ _ _ R). apply aget_none. rewrite Hv, map_app in Hnd. cbn [map fst] in Hnd.
      apply NoDup_remove_2 in Hnd. intros Hin. apply Hnd, in_or_app. left. exact Hin. }
    assert (Hl1 : lim_ok (done ++ [(k, d)])).
    { apply (lim_ok_prefix _ todo). rewrite <- app_assoc. cbn [app]. rewrite <- Hv. exact Hlim. }
    rewrite add_item_push; rewrite ?(key_split k Hk); [|exact Hfresh|apply (fits_of_lim S done k d R Hl1)].
    eexists. split; [reflexivity|]. apply rep_pushed; assumption.
  Qed.

  Lemma rfi_loop_spec : forall todo done k d S, vu = done ++ (k, d) :: todo -> rep S done ->
    exists S', rfi_loop idata il (offs_from (ilen (done ++ [(k, d)])) todo) (Some (ilen done)) S = Ok S'
      /\ rep S' vu.
  Proof.
    induction todo as [|[k' d'] todo IH]; intros done k d S Hv R.
    - cbn [offs_from rfi_loop]. destruct (rfi_item_add done k d [] S Hv R) as (S' & E & R').
      assert (Hile : il = ilen (done ++ [(k, d)])) by (unfold il; rewrite Hv; reflexivity).
      exists S'. split; [|rewrite Hv; exact R'].
      transitivity (rfi_item idata il (Some (ilen done)) (ilen (done ++ [(k, d)])) S); [|exact E].
      f_equal. exact Hile.
    - cbn [offs_from rfi_loop]. pose proof (ilen_nonneg (done ++ [(k, d)])) as Hp.
      replace (4 * ilen (done ++ [(k, d)]) <? 0) with false by (symmetry; apply Z.ltb_ge; lia).
      replace ((4 * ilen (done ++ [(k, d)])) mod 4 =? 0) with true
        by (symmetry; apply Z.eqb_eq; rewrite Z.mul_comm; apply Z_mod_mult).
      cbn [negb]. replace (4 * ilen (done ++ [(k, d)]) / 4) with (ilen (done ++ [(k, d)]))
        by (rewrite Z.mul_comm, Z_div_mult by lia; reflexivity).
      destruct (rfi_item_add done k d ((k', d') :: todo) S Hv R) as (S1 & E & R1). rewrite E. cbn [bind].
      replace (ilen (done ++ [(k, d)]) + 1 + Z.of_nat (length d')) with (ilen ((done ++ [(k, d)]) ++ [(k', d')]))
        by (rewrite (ilen_app (done ++ [(k, d)])), ilen_cons; change (ilen []) with 0; lia).
      apply IH; [rewrite <- app_assoc; exact Hv|exact R1].
  Qed.

  Theorem read_back n_buf : il = Z.of_nat (length vu) + n_buf -> 0 <= n_buf ->
    exists S', raw_read_from_ints ((n_buf + Z.of_nat (length vu)) * 4 :: Z.of_nat (length vu)
                                   :: offs_from 0 vu ++ idata) = (Ok S', [])
      /\ rep S' vu.
  Proof.
    intros Hil Hnb. unfold raw_read_from_ints.
    replace ((n_buf + Z.of_nat (length vu)) * 4 <? 0) with false by (symmetry; apply Z.ltb_ge; lia).
    replace (Z.of_nat (length vu) <? 0) with false by (symmetry; apply Z.ltb_ge; lia).
    assert (Hlen : Z.of_nat (length (offs_from 0 vu ++ idata)) = Z.of_nat (length vu) + il).
    { rewrite app_length, offs_from_length. unfold il, ilen, idata. lia. }
    rewrite Hlen.
    replace (Z.of_nat (length vu) + il <? Z.of_nat (length vu)) with false by (symmetry; apply Z.ltb_ge; unfold il; pose proof (ilen_nonneg vu); lia).
    replace (((n_buf + Z.of_nat (length vu)) * 4) mod 4 =? 0) with true by (symmetry; apply Z.eqb_eq, Z_mod_mult).
    cbn [negb]. rewrite Z_div_mult by lia.
    replace (n_buf + Z.of_nat (length vu)) with il by lia.
    rewrite Z.ltb_irrefl. unfold wret at 1. rewrite wbind_ok. rewrite Nat2Z.id.
    rewrite <- (offs_from_length vu 0), firstn_exact, skipn_exact.
    rewrite firstn_all2 by (unfold il, ilen, idata; lia).
    unfold wlift.
    assert (Hc : vu = [] \/ exists k d t, vu = (k, d) :: t)
      by (destruct vu as [|[k d] t]; [left; reflexivity|right; eauto]).
    destruct Hc as [Ev|(k & d & t & Ev)].
    - unfold il, idata. rewrite Ev. cbn [offs_from rfi_loop rfi_item]. unfold ilen. cbn.
      exists raw_empty. split; [reflexivity|apply rep_empty].
    - destruct (rfi_loop_spec t [] k d raw_empty Ev rep_empty) as (S' & E & R').
      change (ilen []) with 0 in E. cbn [app] in E. rewrite ilen_cons in E. change (ilen []) with 0 in E.
      replace (offs_from 0 vu) with (0 :: offs_from (1 + Z.of_nat (length d) + 0) t)
        by (rewrite Ev; cbn [offs_from]; f_equal; f_equal; lia).
      cbn [rfi_loop Z.ltb Z.compare Z.modulo Z.div_eucl Z.eqb negb Z.div fst snd rfi_item bind].
      rewrite E. exists S'. split; [reflexivity|exact R'].
  Qed.
End ReadBack.

Lemma offs_from_i32 l : forall p, 0 <= p -> 4 * (p + ilen l) <= 2147483647 -> forallb is_i32 (offs_from p l) = true.
Proof.
  induction l as [|[k d] t IH]; intros p Hp Hb; [reflexivity|]. cbn [offs_from forallb].
  rewrite ilen_cons in Hb. pose proof (ilen_nonneg t).
  rewrite (proj2 (is_i32_iff _)) by lia. apply IH; lia.
Qed.

Lemma enc_items_i32 l : forallb is_i32 (map fst l) = true -> forallb is_i32 (flat l) = true ->
  forallb is_i32 (flat_map enc_item l) = true.
Proof.
  induction l as [|[k d] t IH]; intros Hk Hd; [reflexivity|].
  cbn [map fst] in Hk. apply forallb_cons in Hk. cbn [flat flat_map snd] in Hd. rewrite forallb_app in Hd. apply andb_true_iff in Hd.
  cbn [flat_map enc_item fst snd app forallb]. rewrite forallb_app, IH by tauto.
  destruct Hk as [-> _], Hd as [-> _]. reflexivity.
Qed.

Theorem snap_wire_roundtrip S ch : good S -> rep S ch ->
  exists l S' ch', snap_ints S = Ok l /\ forallb is_i32 l = true
    /\ 4 * Z.of_nat (length l) <= MAX_SNAPSHOT_SIZE
    /\ raw_read_from_ints l = (Ok S', []) /\ rep S' ch' /\ (forall k, aget k ch' = aget k ch).
Proof.
  intros G R. pose proof (with_data_perm S ch (ukeys S) R (isort_u32_perm _)) as Hp. fold (uitems S ch) in Hp.
  pose proof (isort_u32_perm (map fst (rs_offs S))) as Hpk. fold (ukeys S) in Hpk.
  assert (Hkeys : map fst (uitems S ch) = ukeys S) by (unfold uitems, with_data; rewrite map_map; apply map_id).
  assert (Hnd : NoDup (map fst (uitems S ch))).
  { rewrite Hkeys. apply (Permutation_NoDup (Permutation_sym Hpk)), (rep_nodup_offs _ _ R). }
  assert (Hki : forallb is_i32 (map fst (uitems S ch)) = true).
  { rewrite Hkeys. apply forallb_forall. intros x Hx.
    apply (proj1 (forallb_forall _ _) (g_keys _ G)), (Permutation_in _ Hpk Hx). }
  assert (Hdi : forallb is_i32 (flat (uitems S ch)) = true).
  { pose proof (g_buf _ G) as Hb. rewrite (rep_buf _ _ R) in Hb. rewrite forallb_flat_in in *.
    intros k d Hin. apply (Hb k d), (Permutation_in _ Hp Hin). }
  destruct (rep_lengths _ _ R) as [L1 L2].
  pose proof (Permutation_length Hp) as Hlenu. rewrite <- L1 in Hlenu.
  assert (Hlim : lim_ok (uitems S ch)).
  { apply (lim_ok_weight _ ch); [|apply (good_lim S ch G R)]. rewrite (Permutation_length Hp), (length_flat_perm _ _ Hp). lia. }
  pose proof (uitems_ilen S ch R) as Hil. pose proof (g_n _ G) as Gn. pose proof (g_sz _ G) as Gs.
  unfold MAX_SNAPSHOT_ITEMS, MAX_SNAPSHOT_SIZE, ser_size in *.
  destruct (read_back (uitems S ch) Hnd Hki Hlim (Z.of_nat (length (rs_buf S)))) as (S' & E & R'); [lia|lia|].
  exists (wire_snap S ch), S', (uitems S ch).
  split; [apply snap_ints_spec; assumption|]. split; [|split; [|split; [|split; [exact R'|]]]].
  - unfold wire_snap. cbn [forallb].
    rewrite (proj2 (is_i32_iff _)) by lia. rewrite (proj2 (is_i32_iff _)) by lia.
    rewrite forallb_app, offs_from_i32, enc_items_i32; try assumption; [reflexivity|lia|lia].
  - unfold wire_snap. cbn [length]. rewrite app_length, offs_from_length, Hlenu. unfold ilen in Hil. lia.
  - unfold wire_snap. rewrite <- Hlenu. exact E.
  - intros k. apply aget_perm; assumption.
Qed.

Lemma bytes_to_ints_enc : forall l acc ws fuel, forallb is_i32 l = true -> (length (enc l) <= fuel)%nat ->
  bytes_to_ints fuel (enc l) acc ws = Ok (rev acc ++ l, ws).
Proof.
  induction l as [|v l IH]; intros acc ws fuel Hi Hf.
  - destruct fuel; cbn; rewrite app_nil_r; reflexivity.
  - apply forallb_cons in Hi. destruct Hi as [Hv Hl].
    cbn [enc flat_map] in *. fold (enc l) in *.
    pose proof (write_int_a_length v) as Lv. rewrite <- (write_int_bytes_a v Hv) in Lv.
    destruct (write_int_bytes v ++ enc l) as [|b bs] eqn:Eb.
    { apply (f_equal (@length Z)) in Eb. rewrite app_length in Eb. cbn in Eb. lia. }
    destruct fuel as [|fuel]; [cbn in Hf; lia|]. cbn [bytes_to_ints]. rewrite <- Eb.
    rewrite (read_write_int v (enc l) Hv (enc_ok l Hl)). cbn [map]. rewrite app_nil_r.
    rewrite IH; [|exact Hl|rewrite <- Eb, app_length in Hf; cbn [length] in Hf; lia].
    cbn [rev]. rewrite <- app_assoc. reflexivity.
Qed.

Theorem read_bytes_enc l : forallb is_i32 l = true -> raw_read_bytes (enc l) = raw_read_from_ints l.
Proof.
  intros Hi. unfold raw_read_bytes. rewrite (bytes_to_ints_enc l [] [] _ Hi (le_n _)). cbn [rev app].
  destruct (raw_read_from_ints l). reflexivity.
Qed.
