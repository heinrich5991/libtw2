(* Demo model: lengths, splitting, fixed-width integers, the linear-time decompressor. *)
From LibTw2 Require Import Base.Res Model.Varint Model.Demo Proofs.VarintArith Proofs.VarintProofs.
From Coq Require Import ZArith Lia Bool List ZifyBool ZifyNat.
Open Scope Z_scope.

Lemma bind_ok_inv {E A B} (m : res E A) (f : A -> res E B) y :
  bind m f = Ok y -> exists x, m = Ok x /\ f x = Ok y.
Proof. destruct m as [x| | |]; try discriminate. exists x. split; [reflexivity|assumption]. Qed.

Lemma zlen_acc {A} (l : list A) n : fold_left (fun n _ => n + 1) l n = n + Z.of_nat (length l).
Proof.
  revert n. induction l as [|x l IH]; intros n; cbn [fold_left length]; [lia|].
  rewrite IH. lia.
Qed.
Lemma zlen_length {A} (l : list A) : zlen l = Z.of_nat (length l).
Proof. unfold zlen. rewrite zlen_acc. lia. Qed.
Lemma zlen_app {A} (a b : list A) : zlen (a ++ b) = zlen a + zlen b.
Proof. rewrite !zlen_length, app_length. lia. Qed.
Lemma zlen_nonneg {A} (l : list A) : 0 <= zlen l.
Proof. rewrite zlen_length. lia. Qed.
Lemma zlen_cons {A} (x : A) l : zlen (x :: l) = 1 + zlen l.
Proof. rewrite !zlen_length. cbn [length]. lia. Qed.
Lemma zlen_nil {A} : zlen (@nil A) = 0.
Proof. reflexivity. Qed.

Lemma split_at_app a b n : n = zlen a -> split_at n (a ++ b) = Some (a, b).
Proof.
  revert n. induction a as [|x a IH]; intros n Hn.
  - subst n. destruct b; reflexivity.
  - rewrite zlen_cons in Hn. pose proof (zlen_nonneg a).
    cbn [app split_at]. replace (n <=? 0) with false by lia.
    rewrite (IH (n - 1)) by lia. reflexivity.
Qed.

Lemma split_at_spec n l a b : split_at n l = Some (a, b) -> l = a ++ b /\ zlen a = Z.max 0 n.
Proof.
  revert n a b. induction l as [|x l IH]; intros n a b H; cbn [split_at] in H.
  - destruct (n <=? 0) eqn:E; [|discriminate]. injection H as <- <-. split; [reflexivity|]. rewrite zlen_nil. lia.
  - destruct (n <=? 0) eqn:E.
    + injection H as <- <-. split; [reflexivity|]. rewrite zlen_nil. lia.
    + destruct (split_at (n - 1) l) as [[a' b']|] eqn:E2; [|discriminate].
      injection H as <- <-. destruct (IH _ _ _ E2) as [-> Hl]. split; [reflexivity|].
      rewrite zlen_cons. lia.
Qed.

Lemma split_at_none n l : split_at n l = None -> zlen l < n.
Proof.
  revert n. induction l as [|x l IH]; intros n H; cbn [split_at] in H.
  - destruct (n <=? 0) eqn:E; [discriminate|]. rewrite zlen_nil. lia.
  - destruct (n <=? 0) eqn:E; [discriminate|].
    destruct (split_at (n - 1) l) as [[a' b']|] eqn:E2; [discriminate|].
    apply IH in E2. rewrite zlen_cons. lia.
Qed.

Lemma zlen_zeros n : zlen (zeros n) = Z.of_nat n.
Proof. unfold zeros. rewrite zlen_length, repeat_length. reflexivity. Qed.
Lemma bytes_ok_zeros n : bytes_ok (zeros n) = true.
Proof. induction n; [reflexivity|]. cbn. exact IHn. Qed.
Lemma zeros_app a b : zeros (a + b) = zeros a ++ zeros b.
Proof. unfold zeros. apply repeat_app. Qed.

Lemma bytes_ok_cons b l : bytes_ok (b :: l) = true <-> (0 <= b < 256 /\ bytes_ok l = true).
Proof. unfold bytes_ok. cbn [forallb]. unfold byte_ok. rewrite andb_true_iff. intuition lia. Qed.
Lemma bytes_ok_app_iff a b : bytes_ok (a ++ b) = true <-> (bytes_ok a = true /\ bytes_ok b = true).
Proof. unfold bytes_ok. rewrite forallb_app, andb_true_iff. reflexivity. Qed.
Lemma bytes_ok_In l b : bytes_ok l = true -> In b l -> 0 <= b < 256.
Proof. unfold bytes_ok. rewrite forallb_forall. intros H Hin. specialize (H b Hin). unfold byte_ok in H. lia. Qed.

Lemma u32_of_range v : 0 <= u32_of v < two32.
Proof. unfold u32_of, two32. apply Z.mod_pos_bound. lia. Qed.

Lemma bytes_ok_be32 v : bytes_ok (be32 v) = true.
Proof.
  unfold be32. pose proof (u32_of_range v) as H. unfold two32 in H.
  set (u := u32_of v) in *. unfold bytes_ok, byte_ok. cbn [forallb].
  repeat rewrite andb_true_iff. repeat split; lia.
Qed.
Lemma zlen_be32 v : zlen (be32 v) = 4.
Proof. reflexivity. Qed.

Lemma rd_be_u32_be32 v r : rd_be_u32 (be32 v ++ r) = Some (u32_of v, r).
Proof.
  unfold be32, rd_be_u32. cbn [app]. pose proof (u32_of_range v) as H. unfold two32 in H.
  set (u := u32_of v) in *. f_equal. f_equal. lia.
Qed.

Lemma rd_be_i32_be32 t r : is_i32 t = true -> rd_be_i32 (be32 t ++ r) = Some (t, r).
Proof. intros H. unfold rd_be_i32. rewrite rd_be_u32_be32, i32_of_u32_of by exact H. reflexivity. Qed.

Lemma i32_from_le_is_i32 b0 b1 b2 b3 :
  0 <= b0 < 256 -> 0 <= b1 < 256 -> 0 <= b2 < 256 -> 0 <= b3 < 256 ->
  is_i32 (i32_from_le b0 b1 b2 b3) = true.
Proof. intros. unfold i32_from_le. apply i32_of_is_i32. unfold two32. lia. Qed.

Lemma i32_to_from_le b0 b1 b2 b3 :
  0 <= b0 < 256 -> 0 <= b1 < 256 -> 0 <= b2 < 256 -> 0 <= b3 < 256 ->
  i32_to_le (i32_from_le b0 b1 b2 b3) = [b0; b1; b2; b3].
Proof.
  intros H0 H1 H2 H3. unfold i32_to_le, i32_from_le.
  rewrite u32_of_i32_of by (unfold two32; lia).
  repeat f_equal; lia.
Qed.

(* the linear-time decompressor is Model/Huffman.v's *)
Lemma demo_dec_loop_eq fuel t root : forall input nd out room,
  demo_dec_loop fuel t root input nd out room = dec_loop fuel t root input nd out room.
Proof.
  induction fuel as [|f IH]; intros input nd out room; cbn [demo_dec_loop dec_loop]; [reflexivity|].
  destruct (dec_bits t root _ nd out room); try reflexivity.
  - apply IH.
  - rewrite rev_alt. reflexivity.
Qed.
Lemma demo_decompress_eq fuel t input cap : demo_decompress fuel t input cap = decompress fuel t input cap.
Proof.
  unfold demo_decompress, decompress. destruct (get_node t ROOT_IDX) as [[root|sr]| | |]; try reflexivity.
  apply demo_dec_loop_eq.
Qed.

Lemma demo_cap_val : Z.of_nat demo_cap = 65536.
Proof. unfold demo_cap. rewrite Z2Nat.id; lia. Qed.
Lemma demo_dec_fuel_val : Z.of_nat demo_dec_fuel = 327683.
Proof. unfold demo_dec_fuel. rewrite Z2Nat.id; lia. Qed.
Global Opaque demo_cap demo_dec_fuel.
