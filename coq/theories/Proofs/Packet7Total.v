(* 0.7 reader on arbitrary input (twin of Packet6Total.v): total, views in bounds, accepted
   values are inside the writer's limits and are read back after being written again,
   outside the classes K06 (connless payload above MAX_PAYLOAD) and K06T (response token NONE). *)
From LibTw2 Require Import Base.Res Base.Bits Model.PacketTypes Model.PacketBase Gen.Consts7 Gen.Bits7
  Model.Packet7 Proofs.PktSweep Proofs.PktBits6 Proofs.PktBits7 Proofs.Packet7Write Proofs.Packet7Read.
From Coq Require Import ZArith Lia Bool List.
Open Scope Z_scope.

(* cap = Some c: the scratch buffer has c bytes; None: no claim about the scratch buffer *)
Definition in_buf (nbytes : nat) (cap : option nat) (src : source) (n : nat) : Prop :=
  match src with
  | Input => (n <= nbytes)%nat
  | Scratch => match cap with Some c => (n <= c)%nat | None => True end
  end.
Definition view_ok (nbytes : nat) (cap : option nat) (v : view) : Prop :=
  in_buf nbytes cap (v_src v) (v_off v + v_len v).

(* in_buf is PacketShared.in_buffer *)
Lemma view_of_ok nb cap s : slice_ok nb cap s -> view_ok nb cap (view_of s).
Proof. exact (fun H => proj1 H). Qed.

Lemma find_nul_le rest : (find_nul rest <= length rest)%nat.
Proof. induction rest as [|b r IH]; cbn [find_nul length]; [lia|]. destruct (b =? 0); lia. Qed.

Lemma header_of7_ok bs h ws payload : bytes_ok bs = true -> header_of7 bs = Some (h, ws, payload) ->
  ph7_in_range h = true /\ length bs = (7 + length payload)%nat /\ length (ph7_token h) = 4%nat
  /\ bytes_ok payload = true /\ bytes_ok (ph7_token h) = true.
Proof.
  intros Hb. unfold header_of7.
  destruct bs as [|b0 [|b1 [|b2 [|b3 [|b4 [|b5 [|b6 r]]]]]]]; cbn [PacketHeaderPacked7_of_bytes]; try discriminate.
  apply bytes_ok_cons in Hb as [H0 Hb]. apply bytes_ok_cons in Hb as [H1 Hb]. apply bytes_ok_cons in Hb as [H2 Hb].
  change (bytes_ok ([b3; b4; b5; b6] ++ r) = true) in Hb. rewrite bytes_ok_app in Hb. apply andb_true_iff in Hb as [Ht Hb].
  set (hp := {| php7_padding_flags_ack := b0; php7_ack := b1; php7_num_chunks := b2; php7_token := [b3; b4; b5; b6] |}).
  assert (Hp : php7_bytes_ok hp = true) by (unfold php7_bytes_ok, hp, byteb, byte_ok in *; cbn; rewrite H0, H1, H2; reflexivity).
  destruct (ph7_unpack_in_range hp Hp) as (Hr & _ & Etok).
  destruct (PacketHeaderPacked7_unpack_warn hp) as [h' ws']. intros H. injection H as <- <- <-.
  cbn [fst] in *. rewrite Etok. repeat split; assumption.
Qed.

Definition good_result7 (nb : nat) (cap : option nat) (r : rres7) : Prop :=
  match snd r with
  | Ok (pk, vs) => expressible7 pk = true /\ Forall (view_ok nb cap) vs
                   /\ (cap = None \/ packet_bytes_ok7 pk = true)
  | Err _ => True
  | _ => False
  end.

Section Total.
Variable decomp : HuffC7.

Lemma read_control7_spec ws h nbytes p nb cap :
  slice_ok nb cap p -> ph7_in_range h = true -> length (ph7_token h) = 4%nat ->
  bytes_ok (ph7_token h) = true ->
  good_result7 nb cap (read_control7 ws h nbytes p).
Proof.
  intros Hs Hr Htl Htb. destruct h as [f a n tok]. apply ph7_in_range_iff in Hr as (_ & Hack & _).
  unfold read_control7. cbn [ph7_flags ph7_ack ph7_num_chunks ph7_token] in *.
  destruct (s_data p) as [|control rest] eqn:Ed; [exact I|].
  assert (Hrestb : cap = None \/ bytes_ok rest = true).
  { destruct Hs as [_ [Hc|Hb]]; [left; exact Hc|right]. rewrite Ed in Hb. apply bytes_ok_cons in Hb as [_ Hb]. exact Hb. }
  (* a message without a view: KeepAlive, Accept, or a response token taken from `rest` *)
  assert (Hplain : forall ws' c,
            match c with
            | C7Close _ => False
            | C7Connect rt | C7Token rt => rt = firstn 4 rest /\ (4 <= length rest)%nat
            | _ => True
            end -> good_result7 nb cap (ws', Ok (P7Connected a tok (P7Control c), []))).
  { intros ws' c Hc. split; [|split; [constructor|]].
    - apply expressible7_connected. split; [assumption|split; [assumption|]].
      destruct c as [|rt| |m|rt]; try reflexivity; try contradiction;
        destruct Hc as [-> Hl]; apply Nat.eqb_eq; rewrite firstn_length; lia.
    - destruct Hrestb as [Hc'|Hrb]; [left; exact Hc'|right]. cbn [packet_bytes_ok7]. rewrite Htb.
      destruct c as [|rt| |m|rt]; try reflexivity; try contradiction; destruct Hc as [-> _]; apply bytes_ok_firstn, Hrb. }
  destruct (control =? CTRLMSG_KEEPALIVE); [apply Hplain; exact I|].
  destruct (control =? CTRLMSG_CONNECT).
  { destruct (Nat.ltb_spec (length rest) 4); [exact I|]. apply Hplain. split; [reflexivity|assumption]. }
  destruct (control =? CTRLMSG_ACCEPT); [apply Hplain; exact I|].
  destruct (control =? CTRLMSG_CLOSE).
  { change (Z.to_nat CTRLMSG_CLOSE_REASON_LENGTH) with 127%nat.
    destruct (close_reason_ok nb cap p control rest 127 Hs Ed) as (Hrs & Hn & Hl).
    split; [|split; [constructor; [apply view_of_ok, Hrs|constructor]|]].
    - apply expressible7_connected. split; [assumption|split; [assumption|]]. rewrite Hn. apply Z.leb_le.
      unfold CTRLMSG_CLOSE_REASON_LENGTH. lia.
    - destruct Hrs as [_ [Hc|Hrb]]; [left; exact Hc|right]. cbn [packet_bytes_ok7]. rewrite Htb. exact Hrb. }
  destruct (control =? CTRLMSG_TOKEN); [|exact I].
  destruct (bytes_eqb tok TOKEN_NONE && (Z.of_nat nbytes <? TOKEN_REQUEST_PACKET_SIZE)); [exact I|].
  destruct (Nat.ltb_spec (length rest) 4); [exact I|]. apply Hplain. split; [reflexivity|assumption].
Qed.

Lemma read_payload7_spec ws h nbytes p nb cap :
  ph7_in_range h = true -> length (ph7_token h) = 4%nat -> bytes_ok (ph7_token h) = true -> slice_ok nb cap p ->
  good_result7 nb cap (read_payload7 ws h nbytes p).
Proof.
  intros Hr Htl Htb Hs. unfold read_payload7.
  destruct (Z.of_nat (length (s_data p)) >? MAX_PACKETSIZE - HEADER_SIZE) eqn:El; [exact I|].
  rewrite Z.gtb_ltb in El. apply Z.ltb_ge in El.
  destruct (land_ne0 (ph7_flags h) PACKETFLAG_CONTROL); [apply read_control7_spec; assumption|].
  destruct h as [f a n tok]. apply ph7_in_range_iff in Hr as (_ & Hack & Hn). cbn [ph7_flags ph7_ack ph7_num_chunks ph7_token] in *.
  split; [|split; [constructor; [apply view_of_ok, Hs|constructor]|]].
  - apply expressible7_connected. split; [assumption|split; [assumption|]]. lia.
  - destruct Hs as [_ [Hc|Hpb]]; [left; exact Hc|right]. cbn [packet_bytes_ok7]. rewrite Htb. exact Hpb.
Qed.

Theorem read7_good bs cap ocap : bytes_ok bs = true -> (1400 <= cap)%nat ->
  match ocap with
  | Some c0 => c0 = cap /\ (forall y c d, decomp y c = Some d -> (length d <= c)%nat /\ bytes_ok d = true)
  | None => True
  end ->
  good_result7 (length bs) ocap (read7 decomp bs cap).
Proof.
  intros Hb Hcap Hd. apply Nat2Z.inj_le in Hcap. change (Z.of_nat 1400) with MAX_PACKETSIZE in Hcap.
  unfold read7, read_impl7. rewrite (proj2 (Z.ltb_ge _ _)) by exact Hcap.
  destruct (Z.of_nat (length bs) >? MAX_PACKETSIZE) eqn:Elen; [exact I|].
  destruct (header_of7 bs) as [[[h ws] payload]|] eqn:Eh; [|exact I].
  destruct (header_of7_ok bs h ws payload Hb Eh) as (Hr & Hl & Htl & Hpb & Htb).
  destruct (land_ne0 (ph7_flags h) PACKETFLAG_CONNLESS) eqn:Fc.
  - unfold read_connless7.
    destruct bs as [|b0 [|b1 [|b2 [|b3 [|b4 [|b5 [|b6 [|b7 [|b8 r]]]]]]]]]; cbn [PacketHeaderConnlessPacked7_of_bytes]; try exact I.
    destruct (PacketHeaderConnlessPacked7_unpack_warn _) as [hc ws2] eqn:Ec.
    destruct (negb (phc7_version hc =? CONNLESS_VERSION)); [exact I|].
    apply bytes_ok_cons in Hb as [H0 Hb].
    destruct (phc7_unpack_in_range {| phcp7_padding_flags_version := b0; phcp7_token := [b1; b2; b3; b4]; phcp7_response_token := [b5; b6; b7; b8] |} H0)
      as (_ & Ht & Hrt).
    rewrite Ec in Ht, Hrt. cbn [fst phcp7_token phcp7_response_token] in Ht, Hrt. rewrite Ht, Hrt.
    rewrite Z.gtb_ltb in Elen. apply Z.ltb_ge in Elen. unfold MAX_PACKETSIZE in Elen. cbn [length] in Elen.
    change (bytes_ok ([b1; b2; b3; b4] ++ [b5; b6; b7; b8] ++ r) = true) in Hb. rewrite !bytes_ok_app in Hb.
    apply andb_true_iff in Hb as [Hb1 Hb]. apply andb_true_iff in Hb as [Hb2 Hb3].
    split; [|split; [constructor; [|constructor]|]].
    + cbn [expressible7]. rewrite !andb_true_r. apply Z.leb_le. unfold MAX_PACKETSIZE, HEADER_SIZE_CONNLESS. lia.
    + unfold view_ok, view_of, in_buf. cbn [v_src v_off v_len s_src s_off s_data length].
      change (Z.to_nat HEADER_SIZE_CONNLESS) with 9%nat. lia.
    + right. cbn [packet_bytes_ok7]. rewrite Hb1, Hb2, Hb3. reflexivity.
  - rewrite (payload_slice7_eq decomp bs h ws payload cap Eh Hr Htl Fc Elen Hcap). unfold payload_at7.
    destruct (land_ne0 (ph7_flags h) PACKETFLAG_COMPRESSION).
    + destruct (decomp payload (cap - 7)%nat) as [d|] eqn:Ed; [|exact I].
      apply read_payload7_spec; try assumption. unfold slice_ok, in_buffer. cbn [s_src s_off s_data].
      destruct ocap as [c0|]; [|split; [exact I|left; reflexivity]].
      destruct Hd as [-> Hd]. apply Hd in Ed as [Ed1 Ed2]. unfold MAX_PACKETSIZE in Hcap. split; [lia|right; exact Ed2].
    + apply read_payload7_spec; try assumption. apply slice_input_ok; [lia|exact Hpb].
Qed.

Theorem decompress_if_needed7_total bs cap : bytes_ok bs = true -> (1400 <= cap)%nat ->
  match decompress_if_needed7 decomp bs cap with Panic _ | OutOfFuel => False | _ => True end.
Proof.
  intros Hb Hcap. apply Nat2Z.inj_le in Hcap. change (Z.of_nat 1400) with MAX_PACKETSIZE in Hcap.
  unfold decompress_if_needed7. rewrite (proj2 (Z.ltb_ge _ _)) by exact Hcap.
  destruct (needs_decompression7 bs) eqn:En; [|exact I]. cbn [negb].
  unfold needs_decompression7 in En.
  destruct (Z.of_nat (length bs) >? MAX_PACKETSIZE) eqn:Elen; [discriminate|].
  destruct (header_of7 bs) as [[[h ws] payload]|] eqn:Eh; [|discriminate].
  apply andb_true_iff in En as [Fc Fz]. apply negb_true_iff in Fc.
  destruct (header_of7_ok bs h ws payload Hb Eh) as (Hr & _ & Htl & _).
  destruct (decompress7_eq decomp bs h ws payload cap Eh Hr Htl Fc Fz Elen Hcap) as (fp & _ & ->).
  destruct (decomp payload (cap - 7)%nat); exact I.
Qed.

End Total.

(* read_panic_on_decompression is read, except for its documented panic on a compressed packet *)
Lemma read_nodecomp7_eq decomp bs cap : MAX_PACKETSIZE <= Z.of_nat cap ->
  read_nodecomp7 bs
  = if needs_decompression7 bs then (fst (read_nodecomp7 bs), Panic site7_read_no_buffer)
    else read7 decomp bs cap.
Proof.
  intros Hcap. unfold read_nodecomp7, read7, read_impl7, needs_decompression7.
  rewrite (proj2 (Z.ltb_ge _ _)) by exact Hcap.
  destruct (Z.of_nat (length bs) >? MAX_PACKETSIZE); [reflexivity|].
  destruct (header_of7 bs) as [[[h ws] payload]|]; [|reflexivity].
  destruct (land_ne0 (ph7_flags h) PACKETFLAG_CONNLESS); [reflexivity|]. unfold payload_slice7.
  destruct (land_ne0 (ph7_flags h) PACKETFLAG_COMPRESSION); reflexivity.
Qed.

Theorem read_nodecomp7_spec bs : bytes_ok bs = true ->
  match snd (read_nodecomp7 bs) with
  | Panic s => s = site7_read_no_buffer /\ needs_decompression7 bs = true
  | OutOfFuel => False
  | _ => True
  end.
Proof.
  intros Hb. set (cap := Z.to_nat MAX_PACKETSIZE).
  rewrite (read_nodecomp7_eq (fun _ _ => None) bs cap) by (unfold cap, MAX_PACKETSIZE; lia).
  destruct (needs_decompression7 bs); [split; reflexivity|].
  pose proof (read7_good (fun _ _ => None) bs cap None Hb (le_n _) I) as Hg. unfold good_result7 in Hg.
  destruct (snd (read7 _ bs cap)) as [[pk vs]|e|s|]; first [exact I|contradiction].
Qed.

Section Rewrite.
Variables comp decomp : HuffC7.
Hypothesis huff_rt : forall x c y, bytes_ok x = true -> comp x c = Some y ->
  forall c', (length x <= c')%nat -> decomp y c' = Some x.
Hypothesis decomp_ok : forall y c d, decomp y c = Some d -> (length d <= c)%nat /\ bytes_ok d = true.

Theorem accept_rewrite7 bs cap ws p vs : bytes_ok bs = true -> (1400 <= cap)%nat ->
  read7 decomp bs cap = (ws, Ok (p, vs)) -> K06_7 p = false -> K06T_7 p = false ->
  forall cap', (1400 <= cap')%nat ->
  exists out, write7 comp p cap' = Ok out /\ (length out <= 1400)%nat
    /\ exists ws' vs', read7 decomp out cap = (ws', Ok (p, vs')).
Proof.
  intros Hb Hcap Er Hk Hkt cap' Hcap'.
  pose proof (read7_good decomp bs cap (Some cap) Hb Hcap (conj eq_refl decomp_ok)) as Hg.
  rewrite Er in Hg. destruct Hg as (Hx & _ & [Hn|Hpb]); [discriminate Hn|].
  pose proof (write7_ok comp p cap' Hx Hk Hkt Hcap') as [Ew Hl].
  exists (encoding7 comp p). split; [exact Ew|]. split; [exact Hl|].
  eexists. eexists. apply (read_encoding7 comp decomp huff_rt p cap Hx Hpb Hkt Hcap).
Qed.

Theorem K06_refused7 p cap : K06_7 p = true -> write7 comp p cap = Err WE7TooLongData.
Proof.
  destruct p as [payload tok rtok|ack tok ty]; cbn [K06_7]; [|discriminate].
  intros H. unfold write7, write7_full, write_connless7. rewrite H. reflexivity.
Qed.

(* class K06T: the writer's assert fires (given room for the header and the control byte) *)
Theorem K06T_panics7 p cap : K06T_7 p = true -> expressible7 p = true -> (8 <= cap)%nat ->
  write7 comp p cap = Panic site7_response_token_none.
Proof.
  destruct p as [payload tok rtok|ack tok [r n pl|c]]; cbn [K06T_7]; try discriminate.
  intros Hk Hx Hcap. apply expressible7_connected in Hx as (Hack & Htok & _).
  destruct (hdr_bytes7_ok _ (ph7_control_in_range ack tok Hack)) as (hp & Ep & Eh & _ & Hl7).
  cbn [ph7_token] in Hl7. rewrite Htok in Hl7.
  unfold write7, write7_full, write_connected7, write_control7, write_header7. rewrite Ep, <- Eh.
  rewrite wstep7_fits by (cbn [wb_new wb_data wb_cap length]; lia).
  rewrite wstep7_fits by (cbn [wb_ext wb_new wb_data wb_cap length app]; lia).
  destruct c as [|rt| |m|rt]; try discriminate; rewrite Hk; reflexivity.
Qed.

End Rewrite.

Lemma K06_accepted7 : exists bs p ws vs,
  bytes_ok bs = true /\ read7 (fun _ _ => None) bs 1400 = (ws, Ok (p, vs)) /\ K06_7 p = true.
Proof.
  exists ([33; 1; 2; 3; 4; 5; 6; 7; 8] ++ repeat 1 1391), (P7Connless (repeat 1 1391) [1; 2; 3; 4] [5; 6; 7; 8]). eexists. eexists.
  split; [vm_compute; reflexivity|]. split; [|vm_compute; reflexivity].
  apply (read_connless_enc7 (fun _ _ => None) (fun _ _ => None) (repeat 1 1391) [1; 2; 3; 4] [5; 6; 7; 8] 1400);
    [vm_compute; reflexivity|apply le_n].
Qed.

Lemma K06T_accepted7 : exists bs p ws vs,
  bytes_ok bs = true /\ read7 (fun _ _ => None) bs 1400 = (ws, Ok (p, vs)) /\ K06T_7 p = true.
Proof.
  exists [4; 0; 0; 1; 2; 3; 4; 1; 255; 255; 255; 255]. eexists. eexists. eexists.
  split; [vm_compute; reflexivity|]. split; [vm_compute; reflexivity|vm_compute; reflexivity].
Qed.
