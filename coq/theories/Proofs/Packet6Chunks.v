(* 0.6 chunk iterator: ChunksIter::next_warn never panics, every chunk it yields is a
   slice of the payload, it yields at most length/2 chunks; and the chunks written by
   write_chunk come back unchanged and warning-free. *)
From LibTw2 Require Import Base.Res Base.Bits Model.PacketTypes Model.PacketBase Gen.Consts6 Gen.Bits6
  Model.Packet6 Proofs.PktSweep Proofs.PktBits6 Proofs.PacketShared.
From Coq Require Import ZArith Lia Bool List.
Open Scope Z_scope.

Ltac Zify.zify_post_hook ::= Z.div_mod_to_equations.

Lemma rch6_some data h seq hlen rest ws :
  read_chunk_header6 data = (Some (h, seq, hlen, rest), ws) ->
  (2 <= hlen <= 3)%nat /\ length data = (hlen + length rest)%nat /\ rest = skipn hlen data.
Proof.
  unfold read_chunk_header6.
  destruct data as [|b0 [|b1 r]]; cbn [ChunkHeaderPacked6_of_bytes]; try discriminate.
  destruct (ChunkHeaderPacked6_unpack_warn _) as [hd w0].
  destruct (land_ne0 (ch6_flags hd) CHUNKFLAG_VITAL).
  - destruct r as [|b2 r]; cbn [ChunkHeaderVitalPacked6_of_bytes]; try discriminate.
    destruct (ChunkHeaderVitalPacked6_unpack_warn _) as [hv wv]. intros H. injection H as <- <- <- <- <-.
    cbn [length skipn]. repeat split; lia.
  - intros H. injection H as <- <- <- <- <-. cbn [length skipn]. repeat split; lia.
Qed.

Definition citer6_inv (payload : bytes) (it : citer6) : Prop :=
  ci6_data it = skipn (ci6_pos it) payload /\ (ci6_pos it <= length payload)%nat.

Definition chunk_in (payload : bytes) (cv : chunk * view) : Prop :=
  (v_off (snd cv) + v_len (snd cv) <= length payload)%nat
  /\ ch_data (fst cv) = firstn (v_len (snd cv)) (skipn (v_off (snd cv)) payload).

Definition next6_ok (payload : bytes) : citer6 -> option (chunk * view) -> citer6 -> Prop :=
  next_ok ci6_data ci6_remaining (citer6_inv payload) (chunk_in payload).

Lemma chunks_next6_spec payload it : citer6_inv payload it ->
  i32_min <= ci6_remaining it - Z.of_nat (length (ci6_data it)) ->
  exists o it' ws, chunks_next6 it = Ok (o, it', ws) /\ next6_ok payload it o it'.
Proof.
  intros [Ed Hp] Hrem.
  assert (Hlen : (ci6_pos it + length (ci6_data it) = length payload)%nat) by (rewrite Ed, skipn_length; lia).
  (* every way of returning None leaves the iterator at the end of the payload *)
  assert (Hnone : forall it', ci6_data it' = [] -> ci6_pos it' = length payload ->
            ci6_remaining it' = ci6_remaining it -> next6_ok payload it None it').
  { intros it' Hd Hpos Hr. split; [|split; assumption]. split; [rewrite Hd, Hpos, skipn_all; reflexivity|lia]. }
  unfold chunks_next6. destruct (ci6_data it) as [|d0 dr] eqn:Edata.
  - cbn [length] in Hlen.
    destruct (negb (ci6_checked it)); eexists; eexists; eexists; (split; [reflexivity|]);
      apply Hnone; cbn [ci6_data ci6_pos ci6_remaining]; auto; lia.
  - rewrite <- Edata in *. clear Edata d0 dr.
    assert (Hex : next6_ok payload it None (excess6 it)) by (apply Hnone; cbn [excess6 ci6_data ci6_pos ci6_remaining]; auto).
    destruct (read_chunk_header6 (ci6_data it)) as [[[[[h seq] hlen] rest]|] ws] eqn:Eh;
      [|eexists; eexists; eexists; split; [reflexivity|exact Hex]].
    apply rch6_some in Eh as (Hh & Hl & Er).
    destruct (Z.ltb_spec (Z.of_nat (length rest)) (ch6_size h)) as [Es|Es];
      [eexists; eexists; eexists; split; [reflexivity|exact Hex]|].
    rewrite (proj2 (Z.ltb_ge _ _)) by lia.
    set (n := Z.to_nat (ch6_size h)). assert (Hn : (n <= length rest)%nat) by (unfold n; lia).
    eexists; eexists; eexists. split; [reflexivity|].
    unfold next6_ok, next_ok, citer6_inv, chunk_in. cbn [ci6_data ci6_pos ci6_remaining fst snd v_off v_len ch_data].
    rewrite Er, Ed, !skipn_skipn, !skipn_length. repeat split; try lia. f_equal. lia.
Qed.

Lemma chunks_all6_loop_eq k it : chunks_all6_loop k it = all_loop chunks_next6 k it.
Proof. reflexivity. Qed.

Lemma chunks_new6_ok payload n : 0 <= n -> Z.of_nat (length payload) <= 2147483648 ->
  let it := chunks_new6 payload n in
  citer6_inv payload it /\ (length (ci6_data it) / 2 < S (Nat.div2 (length payload)))%nat
  /\ i32_min <= ci6_remaining it - Z.of_nat (length (ci6_data it)).
Proof.
  intros Hn Hl. unfold citer6_inv, chunks_new6, i32_min. cbn [ci6_data ci6_pos ci6_remaining skipn].
  rewrite Nat.div2_div. repeat split; lia.
Qed.

(* The side condition excludes only payloads of more than 2^31 bytes (num_remaining_chunks
   is an i32 that is decremented once per chunk). *)
Theorem chunks_total6 payload n : 0 <= n -> Z.of_nat (length payload) <= 2147483648 ->
  exists cs ws it', chunks_iter_all6 payload n = Ok (cs, ws, it')
    /\ (length cs <= length payload / 2)%nat /\ Forall (chunk_in payload) cs
    /\ ci6_data it' = [].
Proof.
  intros Hn Hl. destruct (chunks_new6_ok payload n Hn Hl) as (Hi & Hk & Hr).
  unfold chunks_iter_all6. rewrite chunks_all6_loop_eq.
  exact (all_loop_spec _ ci6_data ci6_remaining _ _ (chunks_next6_spec payload) _ _ Hi Hk Hr).
Qed.

Lemma heur_chunks6_total payload : forall k n it, citer6_inv payload it ->
  (length (ci6_data it) / 2 < k)%nat ->
  i32_min <= ci6_remaining it - Z.of_nat (length (ci6_data it)) ->
  exists r, heur_chunks6 k n it = Ok r.
Proof.
  induction k as [|k IH]; intros n it Hinv Hk Hrem; [exfalso; exact (Nat.nlt_0_r _ Hk)|].
  cbn [heur_chunks6]. destruct (n <=? 0); [eexists; reflexivity|].
  destruct (chunks_next6_spec payload it Hinv Hrem) as (o & it1 & ws1 & -> & Hinv1 & Ho).
  destruct o as [cv|]; [|eexists; reflexivity].
  destruct Ho as (Hin & Hl & Hr). pose proof (half_step _ _ Hl) as Hh.
  apply IH; [exact Hinv1|lia|lia].
Qed.

Theorem has_token_heuristic6_total control n payload :
  0 <= n -> Z.of_nat (length payload) <= 2147483648 ->
  exists b, has_token_heuristic6 control n payload = Ok b.
Proof.
  intros Hn Hl. unfold has_token_heuristic6. destruct control.
  - destruct payload as [|ctrl rest]; [eexists; reflexivity|].
    destruct ((ctrl =? CTRLMSG_CONNECT) || (ctrl =? CTRLMSG_CONNECTACCEPT)).
    + destruct ((length rest <? 4)%nat || negb (bytes_eqb (firstn 4 rest) CTRLMSG_TOKEN_MAGIC)); eexists; reflexivity.
    + destruct (ctrl =? CTRLMSG_CLOSE); [|eexists; reflexivity].
      destruct ((length rest =? 4)%nat && _); eexists; reflexivity.
  - destruct (chunks_new6_ok payload n Hn Hl) as (Hi & Hk & Hr).
    destruct (heur_chunks6_total payload _ n _ Hi Hk Hr) as [r ->]. destruct r; eexists; reflexivity.
Qed.

Definition vital_wf (v : option (Z * bool)) : bool :=
  match v with Some (s, _) => (0 <=? s) && (s <? 1024) | None => true end.
Definition chunk_wf6 (c : chunk) : bool :=
  (Z.of_nat (length (ch_data c)) <? 1024) && vital_wf (ch_vital c).

Definition chunk_flags (v : option (Z * bool)) : Z :=
  Z.lor (bool_flag (match v with Some _ => true | None => false end) CHUNKFLAG_VITAL)
        (bool_flag (match v with Some (_, r) => r | None => false end) CHUNKFLAG_RESEND).

Definition chunk_hdr6 (c : chunk) : bytes :=
  let h := {| ch6_flags := chunk_flags (ch_vital c); ch6_size := Z.of_nat (length (ch_data c)) |} in
  match ch_vital c with
  | Some (s, _) =>
    match ChunkHeaderVital6_pack {| chv6_h := h; chv6_sequence := s |} with
    | Ok p => ChunkHeaderVitalPacked6_as_bytes p | _ => [] end
  | None => match ChunkHeader6_pack h with Ok p => ChunkHeaderPacked6_as_bytes p | _ => [] end
  end.

Definition chunk_enc6 (c : chunk) : bytes := chunk_hdr6 c ++ ch_data c.

Lemma chunk_flags_facts6 v :
  0 <= chunk_flags v < 4
  /\ land_ne0 (chunk_flags v) CHUNKFLAG_VITAL = (match v with Some _ => true | None => false end)
  /\ land_ne0 (chunk_flags v) CHUNKFLAG_RESEND = (match v with Some (_, r) => r | None => false end).
Proof. destruct v as [[s []]|]; vm_compute; repeat split; congruence. Qed.

(* read_chunk_header looks at the flags through the two-byte header first: they are the
   flags of the three-byte header *)
Lemma ch6_flags_vital a b c :
  ch6_flags (fst (ChunkHeaderPacked6_unpack_warn {| chp6_flags_size := a; chp6_padding_size := b |}))
  = ch6_flags (chv6_h (fst (ChunkHeaderVitalPacked6_unpack_warn
                             {| chvp6_flags_size := a; chvp6_sequence_size := b; chvp6_sequence := c |}))).
Proof. reflexivity. Qed.

Lemma chunk_hdr6_spec c : chunk_wf6 c = true ->
  let h := {| ch6_flags := chunk_flags (ch_vital c); ch6_size := Z.of_nat (length (ch_data c)) |} in
  length (chunk_hdr6 c) = (match ch_vital c with Some _ => 3 | None => 2 end)%nat
  /\ (forall cap, (length (chunk_enc6 c) <= cap)%nat ->
        write_chunk6 (ch_data c) (ch_vital c) cap = Ok (chunk_enc6 c))
  /\ (forall tail, read_chunk_header6 (chunk_hdr6 c ++ tail)
        = (Some (h, option_map fst (ch_vital c), length (chunk_hdr6 c), tail), [])).
Proof.
  destruct c as [d v]. unfold chunk_wf6, chunk_enc6, chunk_hdr6, write_chunk6, write_chunk6_full. cbn [ch_data ch_vital].
  intros Hwf. apply andb_true_iff in Hwf as [Hd Hv]. apply Z.ltb_lt in Hd.
  destruct (chunk_flags_facts6 v) as (Hf & Fv & Fr).
  set (h := {| ch6_flags := chunk_flags v; ch6_size := Z.of_nat (length d) |}).
  assert (Hh : ch6_in_range h = true) by (unfold ch6_in_range, h; cbn [ch6_flags ch6_size]; lia).
  assert (Hassert : negb (Z.shiftr (Z.of_nat (length d)) CHUNK_SIZE_BITS =? 0) = false).
  { apply negb_false_iff, Z.eqb_eq. rewrite Z.shiftr_div_pow2 by (unfold CHUNK_SIZE_BITS; lia).
    apply Z.div_small. unfold CHUNK_SIZE_BITS. change (2 ^ 10) with 1024. lia. }
  rewrite Hassert. destruct v as [[s r]|]; cbv beta iota zeta.
  - change (Z.lor (bool_flag true CHUNKFLAG_VITAL) (bool_flag r CHUNKFLAG_RESEND)) with (chunk_flags (Some (s, r))). fold h.
    destruct (chv6_pack_unpack {| chv6_h := h; chv6_sequence := s |}) as (p & -> & Eu & _);
      [unfold chv6_in_range; cbn [chv6_h chv6_sequence vital_wf] in *; rewrite Hh; lia|].
    destruct p as [a b c3]. cbn [ChunkHeaderVitalPacked6_as_bytes chvp6_flags_size chvp6_sequence_size chvp6_sequence app length].
    split; [reflexivity|]. split.
    + intros cap Hcap. rewrite (write_chunk_fits cap [a; b; c3] d Hcap). reflexivity.
    + intros tail. unfold read_chunk_header6. cbn [ChunkHeaderPacked6_of_bytes ChunkHeaderVitalPacked6_of_bytes].
      destruct (ChunkHeaderPacked6_unpack_warn _) as [hd w0] eqn:E0.
      replace (ch6_flags hd) with (chunk_flags (Some (s, r)))
        by (change hd with (fst (hd, w0)); rewrite <- E0, (ch6_flags_vital a b c3), Eu; reflexivity).
      rewrite Fv, Eu. reflexivity.
  - change (Z.lor (bool_flag false CHUNKFLAG_VITAL) (bool_flag false CHUNKFLAG_RESEND)) with (chunk_flags None). fold h.
    destruct (ch6_pack_unpack h Hh) as (p & -> & Eu & _).
    destruct p as [a b]. cbn [ChunkHeaderPacked6_as_bytes chp6_flags_size chp6_padding_size app length].
    split; [reflexivity|]. split.
    + intros cap Hcap. rewrite (write_chunk_fits cap [a; b] d Hcap). reflexivity.
    + intros tail. unfold read_chunk_header6. cbn [ChunkHeaderPacked6_of_bytes]. rewrite Eu.
      cbn [ch6_flags h]. rewrite Fv. reflexivity.
Qed.

Lemma chunk_enc6_len c : chunk_wf6 c = true -> (2 <= length (chunk_enc6 c))%nat.
Proof.
  intros Hwf. destruct (chunk_hdr6_spec c Hwf) as (Hl & _). unfold chunk_enc6. rewrite app_length, Hl.
  destruct (ch_vital c); lia.
Qed.

Lemma chunks_next6_enc c rest it : chunk_wf6 c = true ->
  ci6_data it = chunk_enc6 c ++ rest -> i32_min <= ci6_remaining it - 1 ->
  exists v, chunks_next6 it
    = Ok (Some (c, v),
          {| ci6_data := rest; ci6_pos := (ci6_pos it + length (chunk_enc6 c))%nat;
             ci6_remaining := ci6_remaining it - 1; ci6_checked := ci6_checked it |}, []).
Proof.
  intros Hwf Ed Hrem. destruct (chunk_hdr6_spec c Hwf) as (_ & _ & Hrd). pose proof (chunk_enc6_len c Hwf) as Hl.
  unfold chunks_next6. rewrite Ed.
  destruct (chunk_enc6 c ++ rest) as [|x xs] eqn:Enz;
    [apply (f_equal (@length Z)) in Enz; rewrite app_length in Enz; cbn [length] in Enz; lia|].
  rewrite <- Enz. unfold chunk_enc6 in *. rewrite <- app_assoc, Hrd. cbn [ch6_size ch6_flags].
  rewrite !(proj2 (Z.ltb_ge _ _)) by (rewrite ?app_length; lia).
  rewrite Nat2Z.id, firstn_app_exact, skipn_app_exact.
  destruct (chunk_flags_facts6 (ch_vital c)) as (_ & _ & ->).
  rewrite chunk_eta, app_length, Nat.add_assoc. eexists. reflexivity.
Qed.

Lemma chunks_next6_nil it : ci6_data it = [] -> ci6_remaining it = 0 ->
  exists it', chunks_next6 it = Ok (None, it', []).
Proof. intros Ed Hr. unfold chunks_next6. rewrite Ed, Hr. destruct (negb (ci6_checked it)); eexists; reflexivity. Qed.

Lemma flat_enc6_len cs : forallb chunk_wf6 cs = true ->
  (2 * length cs <= length (flat_map chunk_enc6 cs))%nat.
Proof.
  induction cs as [|c cs IH]; cbn [forallb flat_map length]; intros H; [lia|].
  apply andb_true_iff in H as [Hc Hcs]. rewrite app_length. pose proof (chunk_enc6_len c Hc). specialize (IH Hcs). lia.
Qed.

Theorem chunks_roundtrip6 cs : forallb chunk_wf6 cs = true ->
  (forall c cap, In c cs -> (length (chunk_enc6 c) <= cap)%nat ->
     write_chunk6 (ch_data c) (ch_vital c) cap = Ok (chunk_enc6 c))
  /\ exists cvs it', chunks_iter_all6 (flat_map chunk_enc6 cs) (Z.of_nat (length cs)) = Ok (cvs, [], it')
       /\ map fst cvs = cs.
Proof.
  intros Hwf. split.
  - intros c cap Hin Hcap. rewrite forallb_forall in Hwf.
    destruct (chunk_hdr6_spec c (Hwf c Hin)) as (_ & Hw & _). apply Hw, Hcap.
  - unfold chunks_iter_all6. rewrite chunks_all6_loop_eq.
    apply (all_loop_enc _ ci6_data ci6_remaining chunk_wf6 chunk_enc6 chunks_next6_nil); try assumption; try reflexivity.
    + intros c rest it Hc Ed Hrem. destruct (chunks_next6_enc c rest it Hc Ed Hrem) as [v ->].
      eexists _, _. repeat split.
    + rewrite Nat.div2_div. pose proof (flat_enc6_len cs Hwf) as Hl.
      apply Nat.lt_succ_r. apply Nat.div_le_lower_bound; lia.
Qed.
