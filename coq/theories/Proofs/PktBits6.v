(* The bit-field leaf functions of net/src/protocol.rs (generated: Gen/Bits6.v) are
   mutually inverse: for every in-range field tuple and for every canonical bit pattern.
   Method: each generated function gets an arithmetic characterisation (the _arith lemmas: masks
   and shifts become / and mod by the lemmas of Base/Bits.v, a lor of disjoint fields a sum);
   the round trips are then linear arithmetic with division by literals. *)
From LibTw2 Require Import Base.Res Base.Bits Model.PacketBase Gen.Consts6 Gen.Bits6.
From Coq Require Import ZArith Lia Bool List.
Open Scope Z_scope.

Definition byteb (b : Z) : bool := (0 <=? b) && (b <? 256).
Lemma byteb_iff b : byteb b = true <-> 0 <= b < 256.
Proof. unfold byteb. lia. Qed.

(* What the theorems about one header type share. [codec_facts] is proved per header from its
   arithmetic characterisation; [quiet] (no warning) is "canonical" except for the 0.6 packet header. *)
Section HeaderCodec.
  Context {P H W E : Type} (unpack : P -> H * list W) (pack : H -> res E P)
          (ok canonical : P -> bool) (in_range : H -> bool) (quiet : P -> Prop).

  Definition codec_facts : Prop := forall p, ok p = true ->
    exists h ws p', unpack p = (h, ws) /\ in_range h = true /\ pack h = Ok p'
      /\ (p' = p <-> canonical p = true) /\ (ws = [] <-> quiet p).

  Hypothesis facts : codec_facts.

  Lemma codec_in_range p : ok p = true -> in_range (fst (unpack p)) = true.
  Proof. intros Hb. destruct (facts p Hb) as (h & ws & p' & E0 & Hr & _). rewrite E0. exact Hr. Qed.

  Lemma codec_repack_iff p : ok p = true -> (canonical p = true <-> pack (fst (unpack p)) = Ok p).
  Proof.
    intros Hb. destruct (facts p Hb) as (h & ws & p' & E0 & _ & Ep & Hcn & _).
    rewrite E0. cbn [fst]. rewrite Ep, <- Hcn. split; [intros ->; reflexivity|intros H0; injection H0 as ->; reflexivity].
  Qed.

  Lemma codec_quiet_iff p : ok p = true -> (snd (unpack p) = [] <-> quiet p).
  Proof. intros Hb. destruct (facts p Hb) as (h & ws & p' & E0 & _ & _ & _ & Hw). rewrite E0. exact Hw. Qed.
End HeaderCodec.

(* the usual case: the warning is silent exactly on the canonical patterns *)
Section CanonicalQuiet.
  Context {P H W E : Type} (unpack : P -> H * list W) (pack : H -> res E P)
          (ok canonical : P -> bool) (in_range : H -> bool).
  Hypothesis facts : codec_facts unpack pack ok canonical in_range (fun p => canonical p = true).

  Lemma codec_unpack_pack p : ok p = true -> canonical p = true ->
    pack (fst (unpack p)) = Ok p /\ snd (unpack p) = [].
  Proof.
    intros Hb Hc. split; [apply (codec_repack_iff _ _ _ _ _ _ facts p Hb), Hc|apply (codec_quiet_iff _ _ _ _ _ _ facts p Hb), Hc].
  Qed.

  Lemma codec_warn_iff p : ok p = true ->
    (snd (unpack p) = [] <-> pack (fst (unpack p)) = Ok p) /\ (snd (unpack p) = [] <-> canonical p = true).
  Proof.
    intros Hb. pose proof (codec_repack_iff _ _ _ _ _ _ facts p Hb). pose proof (codec_quiet_iff _ _ _ _ _ _ facts p Hb).
    tauto.
  Qed.
End CanonicalQuiet.

(* canonical: the four padding bits of the second byte are clear (doc/packet.md) *)
Definition ch6_canonical (p : ChunkHeaderPacked6) : bool := chp6_padding_size p <? 16.
Definition ch6_in_range (h : ChunkHeader6) : bool :=
  (0 <=? ch6_flags h) && (ch6_flags h <? 4) && (0 <=? ch6_size h) && (ch6_size h <? 1024).
Definition chp6_bytes_ok (p : ChunkHeaderPacked6) : bool :=
  byteb (chp6_flags_size p) && byteb (chp6_padding_size p).

(* byte 0 = flags (2 bits) | size / 16 (6 bits); byte 1 = padding (4 bits) | size mod 16 *)
Lemma ch6_unpack_arith b0 b1 :
  ChunkHeaderPacked6_unpack_warn {| chp6_flags_size := b0; chp6_padding_size := b1 |}
  = ({| ch6_flags := b0 / 64 mod 4; ch6_size := b0 mod 64 * 16 + b1 mod 16 |},
     if b1 / 16 mod 16 * 16 =? 0 then [] else [W6ChunkHeaderPadding]).
Proof.
  unfold ChunkHeaderPacked6_unpack_warn, trunc. cbn [chp6_flags_size chp6_padding_size].
  rewrite (land_field _ 192 64 4), (land_low _ 63 64), (land_low _ 15 16), (land_field _ 240 16 16) by reflexivity.
  rewrite (shiftr_lit _ 6 64), (shiftl_lit _ 4 16) by reflexivity. change (2 ^ 16) with 65536.
  rewrite Z.div_mul, (Z.mod_small (_ * 16)), lor_high_low by (reflexivity || divmod).
  destruct (_ =? 0); reflexivity.
Qed.

Lemma ch6_pack_arith flags size : 0 <= flags < 4 -> 0 <= size < 1024 ->
  ChunkHeader6_pack {| ch6_flags := flags; ch6_size := size |}
  = Ok {| chp6_flags_size := flags * 64 + size / 16; chp6_padding_size := size mod 16 |}.
Proof.
  intros Hf Hs. unfold ChunkHeader6_pack, trunc, CHUNK_FLAGS_BITS, CHUNK_SIZE_BITS. cbn [ch6_flags ch6_size].
  rewrite (shiftr_lit _ 2 4), (shiftr_lit _ 10 1024), !Z.div_small by (reflexivity || lia). cbn [Z.eqb negb].
  rewrite (land_low _ 3 4), (land_field _ 1008 16 64), (land_low _ 15 16) by reflexivity.
  rewrite (shiftl_lit _ 6 64), (shiftr_lit _ 4 16) by reflexivity. change (2 ^ 8) with 256.
  rewrite Z.div_mul, !Z.mod_small, lor_high_low by (reflexivity || divmod).
  reflexivity.
Qed.

Lemma ch6_facts : codec_facts ChunkHeaderPacked6_unpack_warn ChunkHeader6_pack chp6_bytes_ok ch6_canonical
                             ch6_in_range (fun p => ch6_canonical p = true).
Proof.
  intros [b0 b1]. unfold chp6_bytes_ok, ch6_canonical, byteb. cbn [chp6_flags_size chp6_padding_size].
  intros H. rewrite ch6_unpack_arith. eexists _, _, _. split; [reflexivity|].
  split; [unfold ch6_in_range; cbn [ch6_flags ch6_size]; divmod|].
  split; [apply ch6_pack_arith; divmod|].
  (* repacking gives b0 back and clears the padding bits of b1 *)
  replace (b0 / 64 mod 4 * 64 + (b0 mod 64 * 16 + b1 mod 16) / 16) with b0 by divmod.
  replace ((b0 mod 64 * 16 + b1 mod 16) mod 16) with (b1 mod 16) by divmod.
  rewrite Z.ltb_lt. split.
  - split; [intros E; injection E; divmod | intros E; f_equal; divmod].
  - destruct (Z.eqb_spec (b1 / 16 mod 16 * 16) 0); split; (discriminate || reflexivity || divmod).
Qed.

Theorem ch6_unpack_pack p : chp6_bytes_ok p = true -> ch6_canonical p = true ->
  ChunkHeader6_pack (fst (ChunkHeaderPacked6_unpack_warn p)) = Ok p
  /\ snd (ChunkHeaderPacked6_unpack_warn p) = [].
Proof. exact (codec_unpack_pack _ _ _ _ _ ch6_facts p). Qed.

Theorem ch6_warn_iff p : chp6_bytes_ok p = true ->
  (snd (ChunkHeaderPacked6_unpack_warn p) = [] <-> ChunkHeader6_pack (fst (ChunkHeaderPacked6_unpack_warn p)) = Ok p)
  /\ (snd (ChunkHeaderPacked6_unpack_warn p) = [] <-> ch6_canonical p = true).
Proof. exact (codec_warn_iff _ _ _ _ _ ch6_facts p). Qed.

Theorem ch6_unpack_in_range p : chp6_bytes_ok p = true ->
  ch6_in_range (fst (ChunkHeaderPacked6_unpack_warn p)) = true.
Proof. exact (codec_in_range _ _ _ _ _ _ ch6_facts p). Qed.

Theorem ch6_pack_unpack h : ch6_in_range h = true ->
  exists p, ChunkHeader6_pack h = Ok p /\ ChunkHeaderPacked6_unpack_warn p = (h, [])
            /\ chp6_bytes_ok p = true /\ ch6_canonical p = true.
Proof.
  destruct h as [flags size]. unfold ch6_in_range. cbn [ch6_flags ch6_size]. intros H.
  eexists. split; [apply ch6_pack_arith; lia|]. rewrite ch6_unpack_arith.
  unfold chp6_bytes_ok, ch6_canonical, byteb. cbn [chp6_flags_size chp6_padding_size].
  replace (size mod 16 / 16 mod 16 * 16) with 0 by divmod. cbn [Z.eqb].
  split; [do 2 f_equal; divmod|]. split; divmod.
Qed.

(* canonical: the two padding bits (bits 2 and 3 of the first byte) are clear *)
Definition ph6_canonical (p : PacketHeaderPacked6) : bool := (php6_flags_padding_ack p / 4) mod 4 =? 0.
(* the connless flag (bit 5 of the first byte) silences the padding warning *)
Definition ph6_connless_bit (p : PacketHeaderPacked6) : bool := (php6_flags_padding_ack p / 32) mod 2 =? 1.
Definition ph6_in_range (h : PacketHeader6) : bool :=
  (0 <=? ph6_flags h) && (ph6_flags h <? 16) && (0 <=? ph6_ack h) && (ph6_ack h <? 1024)
  && byteb (ph6_num_chunks h).
Definition php6_bytes_ok (p : PacketHeaderPacked6) : bool :=
  byteb (php6_flags_padding_ack p) && byteb (php6_ack p) && byteb (php6_num_chunks p).

(* byte 0 = flags (4 bits) | padding (2 bits) | ack / 256 (2 bits); byte 1 = ack mod 256 *)
Lemma ph6_unpack_arith b0 b1 b2 : 0 <= b1 < 256 ->
  PacketHeaderPacked6_unpack_warn {| php6_flags_padding_ack := b0; php6_ack := b1; php6_num_chunks := b2 |}
  = ({| ph6_flags := b0 / 16 mod 16; ph6_ack := b0 mod 4 * 256 + b1; ph6_num_chunks := b2 |},
     if (b0 / 32 mod 2 * 32 =? 0) && negb (b0 / 4 mod 4 * 4 =? 0) then [W6PacketHeaderPadding] else []).
Proof.
  intros H1. unfold PacketHeaderPacked6_unpack_warn, trunc. cbn [php6_flags_padding_ack php6_ack php6_num_chunks].
  rewrite (land_field _ 32 32 2), (land_field _ 12 4 4), (land_field _ 240 16 16), (land_low _ 3 4) by reflexivity.
  rewrite (shiftr_lit _ 4 16), (shiftl_lit _ 8 256) by reflexivity. change (2 ^ 16) with 65536.
  rewrite Z.div_mul, (Z.mod_small (_ * 256)), lor_high_low by (reflexivity || divmod).
  reflexivity.
Qed.

Lemma ph6_pack_arith flags ack nc : 0 <= flags < 16 -> 0 <= ack < 1024 ->
  PacketHeader6_pack {| ph6_flags := flags; ph6_ack := ack; ph6_num_chunks := nc |}
  = Ok {| php6_flags_padding_ack := flags * 16 + ack / 256; php6_ack := ack mod 256; php6_num_chunks := nc |}.
Proof.
  intros Hf Ha. unfold PacketHeader6_pack, trunc, PACKET_FLAGS_BITS, SEQUENCE_BITS. cbn [ph6_flags ph6_ack ph6_num_chunks].
  rewrite (shiftr_lit _ 4 16), (shiftr_lit _ 10 1024), !Z.div_small by (reflexivity || lia). cbn [Z.eqb negb].
  rewrite (shiftl_lit _ 4 16), (shiftr_lit _ 8 256) by reflexivity. change (2 ^ 8) with 256.
  rewrite (Z.mod_small (flags * 16)), (Z.mod_small (ack / 256)), lor_high_low by (reflexivity || divmod).
  reflexivity.
Qed.

Lemma ph6_facts : codec_facts PacketHeaderPacked6_unpack_warn PacketHeader6_pack php6_bytes_ok ph6_canonical
                             ph6_in_range (fun p => ph6_canonical p = true \/ ph6_connless_bit p = true).
Proof.
  intros [b0 b1 b2]. unfold php6_bytes_ok, ph6_canonical, ph6_connless_bit, byteb.
  cbn [php6_flags_padding_ack php6_ack php6_num_chunks].
  intros H. rewrite ph6_unpack_arith by lia. eexists _, _, _. split; [reflexivity|].
  split; [unfold ph6_in_range, byteb; cbn [ph6_flags ph6_ack ph6_num_chunks]; divmod|].
  split; [apply ph6_pack_arith; divmod|].
  (* repacking clears the two padding bits of b0 *)
  replace (b0 / 16 mod 16 * 16 + (b0 mod 4 * 256 + b1) / 256) with (b0 - b0 / 4 mod 4 * 4) by divmod.
  replace ((b0 mod 4 * 256 + b1) mod 256) with b1 by divmod.
  rewrite !Z.eqb_eq. split.
  - split; [intros E; injection E; divmod | intros E; f_equal; divmod].
  - destruct (Z.eqb_spec (b0 / 32 mod 2 * 32) 0), (Z.eqb_spec (b0 / 4 mod 4 * 4) 0); cbn [andb negb];
      split; (discriminate || reflexivity || divmod).
Qed.

Theorem ph6_unpack_pack p : php6_bytes_ok p = true -> ph6_canonical p = true ->
  PacketHeader6_pack (fst (PacketHeaderPacked6_unpack_warn p)) = Ok p
  /\ snd (PacketHeaderPacked6_unpack_warn p) = [].
Proof.
  intros Hb Hc. split; [apply (codec_repack_iff _ _ _ _ _ _ ph6_facts p Hb), Hc|].
  apply (codec_quiet_iff _ _ _ _ _ _ ph6_facts p Hb). left. exact Hc.
Qed.

(* the padding warning is silent exactly on the canonical patterns, except that a set
   connless bit silences it too (the reader then checks the whole first three bytes
   against ff ff ff: Warning::ConnlessPadding) *)
Theorem ph6_warn_iff p : php6_bytes_ok p = true ->
  (ph6_canonical p = true <-> PacketHeader6_pack (fst (PacketHeaderPacked6_unpack_warn p)) = Ok p)
  /\ (snd (PacketHeaderPacked6_unpack_warn p) = [] <-> (ph6_canonical p = true \/ ph6_connless_bit p = true)).
Proof.
  intros Hb. split; [exact (codec_repack_iff _ _ _ _ _ _ ph6_facts p Hb)|exact (codec_quiet_iff _ _ _ _ _ _ ph6_facts p Hb)].
Qed.

Theorem ph6_unpack_in_range p : php6_bytes_ok p = true ->
  ph6_in_range (fst (PacketHeaderPacked6_unpack_warn p)) = true
  /\ ph6_num_chunks (fst (PacketHeaderPacked6_unpack_warn p)) = php6_num_chunks p.
Proof.
  intros Hb. split; [exact (codec_in_range _ _ _ _ _ _ ph6_facts p Hb)|].
  destruct p as [b0 b1 b2]. unfold php6_bytes_ok, byteb in Hb. cbn [php6_ack] in Hb.
  rewrite ph6_unpack_arith by lia. reflexivity.
Qed.

Theorem ph6_pack_unpack h : ph6_in_range h = true ->
  exists p, PacketHeader6_pack h = Ok p /\ PacketHeaderPacked6_unpack_warn p = (h, [])
            /\ php6_bytes_ok p = true /\ ph6_canonical p = true.
Proof.
  destruct h as [flags ack nc]. unfold ph6_in_range, byteb. cbn [ph6_flags ph6_ack ph6_num_chunks]. intros H.
  eexists. split; [apply ph6_pack_arith; lia|]. rewrite ph6_unpack_arith by divmod.
  unfold php6_bytes_ok, ph6_canonical, byteb. cbn [php6_flags_padding_ack php6_ack php6_num_chunks].
  replace ((flags * 16 + ack / 256) / 4 mod 4) with 0 by divmod. rewrite andb_false_r.
  split; [do 2 f_equal; divmod|]. split; [divmod|reflexivity].
Qed.

(* canonical: the two sequence bits stored twice (bits 4,5 of the second byte and bits
   6,7 of the third byte) agree *)
Definition chv6_canonical (p : ChunkHeaderVitalPacked6) : bool :=
  (chvp6_sequence_size p / 16) mod 4 =? chvp6_sequence p / 64.
Definition chv6_in_range (h : ChunkHeaderVital6) : bool :=
  ch6_in_range (chv6_h h) && (0 <=? chv6_sequence h) && (chv6_sequence h <? 1024).
Definition chvp6_bytes_ok (p : ChunkHeaderVitalPacked6) : bool :=
  byteb (chvp6_flags_size p) && byteb (chvp6_sequence_size p) && byteb (chvp6_sequence p).

(* byte 1 = sequence / 64 (4 bits) | size mod 16; byte 2 = sequence mod 256: bits 6 and 7 of the
   sequence number are stored twice, and the reader ors the two copies *)
Lemma chv6_unpack_arith b0 b1 b2 : 0 <= b1 < 256 -> 0 <= b2 < 256 ->
  ChunkHeaderVitalPacked6_unpack_warn {| chvp6_flags_size := b0; chvp6_sequence_size := b1; chvp6_sequence := b2 |}
  = ({| chv6_h := {| ch6_flags := b0 / 64 mod 4; ch6_size := b0 mod 64 * 16 + b1 mod 16 |};
        chv6_sequence := Z.lor (b1 / 16) (b2 / 64) * 64 + b2 mod 64 |},
     if b1 / 16 mod 4 =? b2 / 64 then [] else [W6ChunkHeaderSequence]).
Proof.
  intros H1 H2. unfold ChunkHeaderVitalPacked6_unpack_warn, trunc.
  cbn [chvp6_flags_size chvp6_sequence_size chvp6_sequence].
  rewrite (land_low _ 15 16), ch6_unpack_arith by reflexivity.
  replace (b1 mod 16 / 16 mod 16 * 16) with 0 by divmod. rewrite Z.mod_mod by lia. cbn [Z.eqb]. rewrite app_nil_r.
  rewrite (land_field _ 48 16 4), (land_field _ 192 64 4), (land_field _ 240 16 16), (land_low _ 255 256) by reflexivity.
  rewrite (shiftr_lit _ 4 16), (shiftr_lit _ 6 64), (shiftl_lit _ 2 4), !Z.div_mul by (reflexivity || lia).
  change (2 ^ 16) with 65536.
  replace ((b1 / 16 mod 16 * 16 * 4) mod 65536) with (b1 / 16 * 64) by divmod.
  replace (b2 mod 256) with (b2 / 64 * 64 + b2 mod 64) by divmod.
  rewrite lor_mul_add by (reflexivity || divmod).
  replace (b2 / 64 mod 4) with (b2 / 64) by divmod.
  destruct (_ =? _); reflexivity.
Qed.

Lemma chv6_pack_arith flags size seq : 0 <= flags < 4 -> 0 <= size < 1024 -> 0 <= seq < 1024 ->
  ChunkHeaderVital6_pack {| chv6_h := {| ch6_flags := flags; ch6_size := size |}; chv6_sequence := seq |}
  = Ok {| chvp6_flags_size := flags * 64 + size / 16;
          chvp6_sequence_size := size mod 16 + seq / 64 * 16;
          chvp6_sequence := seq mod 256 |}.
Proof.
  intros Hf Hs Hq. unfold ChunkHeaderVital6_pack, trunc, SEQUENCE_BITS. cbn [chv6_h chv6_sequence].
  rewrite (shiftr_lit _ 10 1024), Z.div_small, ch6_pack_arith by (reflexivity || lia).
  cbn [Z.eqb negb bind chp6_flags_size chp6_padding_size].
  rewrite (land_low _ 15 16), (land_field _ 960 64 16), (land_low _ 255 256) by reflexivity.
  rewrite (shiftr_lit _ 2 4) by reflexivity. change (2 ^ 8) with 256.
  replace ((seq / 64 mod 16 * 64 / 4) mod 256) with (seq / 64 * 16) by divmod.
  rewrite Z.mod_mod, Z.lor_comm, lor_high_low, (Z.mod_small (seq mod 256)) by (reflexivity || divmod).
  f_equal. f_equal. lia.
Qed.

Lemma chv6_facts : codec_facts ChunkHeaderVitalPacked6_unpack_warn ChunkHeaderVital6_pack chvp6_bytes_ok
                              chv6_canonical chv6_in_range (fun p => chv6_canonical p = true).
Proof.
  intros [b0 b1 b2]. unfold chvp6_bytes_ok, chv6_canonical, byteb.
  cbn [chvp6_flags_size chvp6_sequence_size chvp6_sequence].
  intros H. rewrite chv6_unpack_arith by lia.
  assert (Ht : 0 <= Z.lor (b1 / 16) (b2 / 64) < 16) by (apply lor_small; [reflexivity|divmod|divmod]).
  assert (Ha : b1 / 16 mod 4 = b2 / 64 -> Z.lor (b1 / 16) (b2 / 64) = b1 / 16)
    by (intros <-; apply lor_mod_absorb; reflexivity).
  set (t := Z.lor (b1 / 16) (b2 / 64)) in *.
  eexists _, _, _. split; [reflexivity|].
  split; [unfold chv6_in_range, ch6_in_range; cbn [chv6_h chv6_sequence ch6_flags ch6_size]; divmod|].
  split; [apply chv6_pack_arith; divmod|].
  rewrite Z.eqb_eq. split.
  - (* repacking gives back b0 and the low bits; it stores t in the upper half of b1 and t mod 4
       in the top bits of b2, so both bytes come back exactly when the two copies agreed *)
    split.
    + intros E. injection E. divmod.
    + intros E. specialize (Ha E). f_equal; divmod.
  - destruct (Z.eqb_spec (b1 / 16 mod 4) (b2 / 64)); split; intros; (discriminate || reflexivity || assumption || contradiction).
Qed.

Theorem chv6_unpack_pack p : chvp6_bytes_ok p = true -> chv6_canonical p = true ->
  ChunkHeaderVital6_pack (fst (ChunkHeaderVitalPacked6_unpack_warn p)) = Ok p
  /\ snd (ChunkHeaderVitalPacked6_unpack_warn p) = [].
Proof. exact (codec_unpack_pack _ _ _ _ _ chv6_facts p). Qed.

Theorem chv6_warn_iff p : chvp6_bytes_ok p = true ->
  (snd (ChunkHeaderVitalPacked6_unpack_warn p) = [] <-> ChunkHeaderVital6_pack (fst (ChunkHeaderVitalPacked6_unpack_warn p)) = Ok p)
  /\ (snd (ChunkHeaderVitalPacked6_unpack_warn p) = [] <-> chv6_canonical p = true).
Proof. exact (codec_warn_iff _ _ _ _ _ chv6_facts p). Qed.

Theorem chv6_unpack_in_range p : chvp6_bytes_ok p = true ->
  chv6_in_range (fst (ChunkHeaderVitalPacked6_unpack_warn p)) = true.
Proof. exact (codec_in_range _ _ _ _ _ _ chv6_facts p). Qed.

Theorem chv6_pack_unpack h : chv6_in_range h = true ->
  exists p, ChunkHeaderVital6_pack h = Ok p /\ ChunkHeaderVitalPacked6_unpack_warn p = (h, [])
            /\ chvp6_bytes_ok p = true /\ chv6_canonical p = true.
Proof.
  destruct h as [[flags size] seq]. unfold chv6_in_range, ch6_in_range.
  cbn [chv6_h chv6_sequence ch6_flags ch6_size]. intros H.
  eexists. split; [apply chv6_pack_arith; lia|]. rewrite chv6_unpack_arith by divmod.
  unfold chvp6_bytes_ok, chv6_canonical, byteb. cbn [chvp6_flags_size chvp6_sequence_size chvp6_sequence].
  (* the two stored copies of sequence bits 6 and 7 agree, so the or is seq / 64 *)
  replace ((size mod 16 + seq / 64 * 16) / 16) with (seq / 64) by divmod.
  replace (seq mod 256 / 64) with (seq / 64 mod 4) by divmod.
  rewrite lor_mod_absorb, Z.eqb_refl by reflexivity.
  split; [do 3 f_equal; divmod|]. split; [divmod|reflexivity].
Qed.
