(* The Gallina model of the DDNet reference (Model/SnapRef.v) against the model of libtw2's
   snapshot code (Model/Snap.v): the reference builder lays a snapshot out as write_to_ints does,
   and the delta CSnapshotDelta::CreateDelta makes is read and applied by libtw2 to the target.

   The builder's output and CreateDelta's, in closed form, are in SnapRefLayout.v and SnapRefCreate.v;
   SnapRefApply.v applies a delta whose updates come in any order.  Here: Delta::read_from_ints on a
   wire form whose keys are not sorted (read_wire_u), then the theorems behind Props/C09ref.v -
   both builders on the same items (c09_ref_builder, _items, _any_order), and the reference's delta
   for a pair, whatever order the reference holds the items in (ref_delta_applies; c09_ref_delta for
   reference snapshots in key order, c09_ref_delta_items for any order). *)
From LibTw2 Require Import Base.Res Base.Bits Model.Varint Model.Packer Model.Snap Model.SnapRef
  Proofs.SnapBase Proofs.SnapRep Proofs.SnapDelta Proofs.SnapApply Proofs.SnapOk Proofs.SnapTotal Proofs.SnapTotal2
  Proofs.SnapWire Proofs.SnapWireInst Proofs.SnapC09 Proofs.SnapSer
  Proofs.SnapRefLayout Proofs.SnapRefCreate Proofs.SnapRefApply.
From Coq Require Import ZArith List Lia Bool Permutation.
Import ListNotations.
Open Scope Z_scope.

(* the BTreeSet / BTreeMap the reader builds by inserting one key after the other *)
Definition sins_all (l acc : list Z) : list Z := fold_left (fun a v => sins v a) l acc.
Definition ins_all (l acc : list (Z * range)) : list (Z * range) :=
  fold_left (fun a kr => ains (fst kr) (snd kr) a) l acc.

Lemma sins_all_in l : forall acc x, In x (sins_all l acc) <-> In x l \/ In x acc.
Proof.
  induction l as [|v l IH]; intros acc x; cbn [sins_all fold_left]; [cbn [In]; tauto|].
  fold (sins_all l (sins v acc)). rewrite IH, sins_in. cbn [In]. intuition.
Qed.

Lemma sins_all_sorted l : forall acc, sortedb acc = true -> sortedb (sins_all l acc) = true.
Proof.
  induction l as [|v l IH]; intros acc H; [exact H|]. cbn [sins_all fold_left]. apply IH, sins_sorted, H.
Qed.

Lemma sins_length_new k l : ~ In k l -> length (sins k l) = Datatypes.S (length l).
Proof.
  induction l as [|a l IH]; intros Hni; [reflexivity|]. cbn [sins].
  destruct (Z.ltb_spec k a); [reflexivity|]. destruct (Z.eqb_spec k a); [exfalso; apply Hni; left; auto|].
  cbn [length]. rewrite IH; [reflexivity|]. intros Hin. apply Hni. right. exact Hin.
Qed.

Lemma sins_all_length l : forall acc, NoDup l -> (forall x, In x l -> ~ In x acc) ->
  length (sins_all l acc) = (length l + length acc)%nat.
Proof.
  induction l as [|v l IH]; intros acc Hnd Hdj; [reflexivity|]. inversion Hnd as [|? ? Hni Hnd']; subst.
  cbn [sins_all fold_left]. fold (sins_all l (sins v acc)). rewrite IH; [|exact Hnd'|].
  - rewrite sins_length_new by (apply Hdj; left; reflexivity). cbn [length]. lia.
  - intros x Hx Hin. apply sins_in in Hin. destruct Hin as [->|Hin]; [contradiction|]. apply (Hdj x); [right; exact Hx|exact Hin].
Qed.

Lemma ins_all_app a b acc : ins_all (a ++ b) acc = ins_all b (ins_all a acc).
Proof. unfold ins_all. apply fold_left_app. Qed.

Lemma ins_all_sorted l : forall acc, sortedb (map fst acc) = true -> sortedb (map fst (ins_all l acc)) = true.
Proof.
  induction l as [|[k r] l IH]; intros acc H; [exact H|]. cbn [ins_all fold_left fst snd]. apply IH, ains_sorted, H.
Qed.

Lemma ins_all_in l : forall acc x, In x (ins_all l acc) -> In x l \/ In x acc.
Proof.
  induction l as [|[k r] l IH]; intros acc x H; [right; exact H|]. cbn [ins_all fold_left fst snd] in H.
  apply IH in H. destruct H as [H|H]; [left; right; exact H|]. apply ains_in in H.
  destruct H as [->|H]; [left; left; reflexivity|right; exact H].
Qed.

Lemma aget_ins_all_other k l : forall acc, ~ In k (map fst l) -> aget k (ins_all l acc) = aget k acc.
Proof.
  induction l as [|[k' r] l IH]; intros acc Hni; [reflexivity|]. cbn [ins_all fold_left fst snd].
  fold (ins_all l (ains k' r acc)). rewrite IH by (intros Hin; apply Hni; right; exact Hin).
  apply aget_ains_other. intros ->. apply Hni. left. reflexivity.
Qed.

Lemma aget_ins_all_in k r l : forall acc, NoDup (map fst l) -> In (k, r) l -> aget k (ins_all l acc) = Some r.
Proof.
  induction l as [|[k' r'] l IH]; intros acc Hnd Hin; [destruct Hin|]. cbn [map fst] in Hnd.
  inversion Hnd as [|? ? Hni Hnd']; subst. cbn [ins_all fold_left fst snd]. fold (ins_all l (ains k' r' acc)).
  destruct Hin as [E|Hin].
  - injection E as -> ->. rewrite aget_ins_all_other by exact Hni. apply aget_ains_same.
  - apply IH; assumption.
Qed.

Lemma ins_all_keys_in l acc k : NoDup (map fst l) -> In k (map fst l) -> In k (map fst (ins_all l acc)).
Proof.
  intros Hnd Hin. apply in_map_iff in Hin. destruct Hin as ([k' r] & <- & Hin).
  apply aget_some_in. exists r. apply aget_ins_all_in; assumption.
Qed.

(* the precondition of the wire theorem without the order *)
Record wire_pre_u (sz : osize) (del : list Z) (dch : items) : Prop := {
  wu_del_nd : NoDup del;
  wu_keys_nd : NoDup (map fst dch);
  wu_keys_i32 : forallb is_i32 (map fst dch) = true;
  wu_sizes : Forall (size_ok sz) dch;
  wu_disjoint : forall k, In k (map fst dch) -> ~ In k del;
  wu_nd : Z.of_nat (length del) <= i32_max;
  wu_nu : Z.of_nat (length dch) <= i32_max;
  wu_nb : Z.of_nat (length (flat dch)) <= i32_max
}.

Definition delta_of_u (del : list Z) (dch : items) : delta :=
  {| d_del := sins_all del []; d_upd := ins_all (ranges_of 0 dch) []; d_buf := flat dch |}.

Notation rie := (read_int_err (list Z) int_rd_int).

Lemma rie_cons v l e : rie (v :: l) e = (Ok (v, l), []).
Proof. reflexivity. Qed.

Lemma read_deleted_any : forall del acc rest fuel, (length del <= fuel)%nat ->
  read_deleted (list Z) int_rd_int fuel (Z.of_nat (length del)) (del ++ rest) acc = (Ok (rest, sins_all del acc), []).
Proof.
  induction del as [|v del IH]; intros acc rest fuel Hf.
  - destruct fuel; reflexivity.
  - destruct fuel as [|fuel]; [cbn in Hf; lia|]. cbn [read_deleted].
    replace (Z.of_nat (length (v :: del)) <=? 0) with false by (symmetry; apply Z.leb_gt; cbn [length]; lia).
    cbn [app]. rewrite rie_cons, wbind_ok.
    replace (Z.of_nat (length (v :: del)) - 1) with (Z.of_nat (length del)) by (cbn [length]; lia).
    rewrite IH by (cbn [length] in Hf; lia). reflexivity.
Qed.

Lemma read_data_int : forall data acc rest fuel, (length data <= fuel)%nat ->
  read_data (list Z) int_rd_int fuel (Z.of_nat (length data)) (data ++ rest) acc = (Ok (rest, rev acc ++ data), []).
Proof.
  induction data as [|v data IH]; intros acc rest fuel Hf.
  - destruct fuel; cbn [read_data length Z.of_nat Z.leb Z.compare app]; rewrite app_nil_r; reflexivity.
  - destruct fuel as [|fuel]; [cbn in Hf; lia|]. cbn [read_data].
    replace (Z.of_nat (length (v :: data)) <=? 0) with false by (symmetry; apply Z.leb_gt; cbn [length]; lia).
    cbn [app]. rewrite rie_cons, wbind_ok.
    replace (Z.of_nat (length (v :: data)) - 1) with (Z.of_nat (length data)) by (cbn [length]; lia).
    rewrite IH by (cbn [length] in Hf; lia). cbn [rev]. rewrite <- app_assoc. reflexivity.
Qed.

Lemma read_size sz k d rest : size_ok sz (k, d) ->
  match sz (key_to_raw_type_id k) with
  | Some s => wret (s, size_field sz k d ++ rest)
  | None => let+ (s, p3) := rie (size_field sz k d ++ rest) ItemDiffsUnpacking in
            if s <? 0 then werr NegativeSize else wret (s, p3)
  end = (Ok (Z.of_nat (length d), rest), []).
Proof.
  unfold size_ok, size_field. cbn [fst snd]. destruct (sz (key_to_raw_type_id k)); intros H.
  - rewrite H. reflexivity.
  - cbn [app]. rewrite rie_cons, wbind_ok. destruct (Z.ltb_spec (Z.of_nat (length d)) 0); [lia|reflexivity].
Qed.

(* what Delta::read_impl holds after one more update *)
Lemma delta_of_u_snoc del done k d :
  {| d_del := sins_all del [];
     d_upd := ains k (length (flat done), length (flat done ++ d)) (ins_all (ranges_of 0 done) []);
     d_buf := flat done ++ d |} = delta_of_u del (done ++ [(k, d)]).
Proof.
  unfold delta_of_u. f_equal.
  - rewrite ranges_of_app, ins_all_app. cbn [ranges_of ins_all fold_left fst snd Nat.add]. rewrite app_length. reflexivity.
  - rewrite flat_app. cbn. rewrite app_nil_r. reflexivity.
Qed.

Section ReadUnsorted.
  Variables (sz : osize) (del : list Z) (dch : items).
  Hypothesis W : wire_pre_u sz del dch.

  Lemma read_updates_any : forall todo done fuel, dch = done ++ todo -> (length todo <= fuel)%nat ->
    read_updates (list Z) int_rd_empty int_rd_int (fun p => Datatypes.S (length p)) fuel sz
      (flat_map (upd_enc sz) todo) (delta_of_u del done) (Z.of_nat (length done))
    = (Ok (delta_of_u del dch, Z.of_nat (length dch)), []).
  Proof.
    induction todo as [|[k d] todo IH]; intros done fuel Hv Hf.
    - rewrite Hv, app_nil_r. destruct fuel; reflexivity.
    - destruct fuel as [|fuel]; [cbn in Hf; lia|].
      assert (Hin : In (k, d) dch) by (rewrite Hv; apply in_elt).
      pose proof (wu_keys_i32 _ _ _ W) as Hk. rewrite forallb_forall in Hk. specialize (Hk k (in_map fst _ _ Hin)).
      pose proof (proj1 (Forall_forall _ _) (wu_sizes _ _ _ W) _ Hin) as Hsk.
      assert (Hkd : ~ In k (map fst done)).
      { pose proof (wu_keys_nd _ _ _ W) as Hnd. rewrite Hv in Hnd. apply (nodup_mid _ _ _ _ Hnd). }
      assert (Hdm : smem k (sins_all del []) = false).
      { destruct (smem k (sins_all del [])) eqn:E; [|reflexivity]. exfalso.
        apply smem_in, sins_all_in in E. destruct E as [E|[]]. apply (wu_disjoint _ _ _ W k (in_map fst _ _ Hin) E). }
      pose proof (wu_nu _ _ _ W) as Hnu. pose proof (wu_nb _ _ _ W) as Hnb.
      rewrite Hv, app_length in Hnu. rewrite Hv, flat_app in Hnb.
      cbn [length flat flat_map snd] in Hnu, Hnb. rewrite !app_length in Hnb.
      cbn [read_updates flat_map]. rewrite upd_enc_eq. cbn [app int_rd_empty].
      rewrite rie_cons, wbind_ok, rie_cons, wbind_ok.
      pose proof (key_to_ty_range k) as Rt. pose proof (key_to_id_range k) as Ri.
      rewrite (proj2 (is_u16_iff _) Rt), (proj2 (is_u16_iff _) Ri). cbn [negb].
      rewrite <- app_assoc, (read_size sz k d _ Hsk), wbind_ok. cbn zeta. cbn [delta_of_u d_buf d_upd d_del].
      unfold u32_max, i32_max in *.
      destruct (Z.ltb_spec 4294967295 (Z.of_nat (length (flat done)))); [lia|].
      destruct (Z.ltb_spec 4294967295 (Z.of_nat (length (flat done)) + Z.of_nat (length d))); [lia|].
      rewrite read_data_int by (rewrite app_length; lia).
      rewrite wbind_ok. cbn [rev app]. rewrite (key_split k Hk).
      rewrite aget_ins_all_other by (rewrite ranges_of_keys; exact Hkd). cbn [aget].
      unfold wret at 1. rewrite wbind_ok, Hdm. unfold wret at 1. rewrite wbind_ok.
      destruct (Z.eqb_spec (Z.of_nat (length done)) 2147483647); [lia|].
      replace (Z.of_nat (length done) + 1) with (Z.of_nat (length (done ++ [(k, d)]))) by (rewrite app_length; cbn [length]; lia).
      rewrite delta_of_u_snoc. apply IH; [rewrite <- app_assoc; exact Hv|cbn [length] in Hf; lia].
  Qed.

  Theorem read_wire_u : delta_read_from_ints sz (wire_ints sz del dch) = (Ok (delta_of_u del dch), []).
  Proof.
    unfold delta_read_from_ints, wire_ints, read_delta, read_delta_header.
    pose proof (wu_nd _ _ _ W) as Hnd. pose proof (wu_nu _ _ _ W) as Hnu.
    rewrite rie_cons, wbind_ok.
    replace (Z.of_nat (length del) <? 0) with false by (symmetry; apply Z.ltb_ge; lia).
    rewrite rie_cons, wbind_ok.
    replace (Z.of_nat (length dch) <? 0) with false by (symmetry; apply Z.ltb_ge; lia).
    rewrite rie_cons, wbind_ok. cbn [Z.eqb negb].
    unfold wret at 1. rewrite wbind_ok. unfold wret at 1. rewrite wbind_ok.
    rewrite read_deleted_any by (rewrite app_length; lia). rewrite wbind_ok.
    rewrite (sins_all_length del [] (wu_del_nd _ _ _ W)) by (intros x _ []).
    cbn [length]. rewrite Nat.add_0_r, Z.eqb_refl. cbn [negb]. unfold wret at 1. rewrite wbind_ok.
    change {| d_del := sins_all del []; d_upd := []; d_buf := [] |} with (delta_of_u del []).
    pose proof (read_updates_any dch [] (Datatypes.S (length (flat_map (upd_enc sz) dch))) eq_refl) as Hu.
    cbn [length Z.of_nat] in Hu. rewrite Hu.
    - rewrite wbind_ok, Z.eqb_refl. cbn [negb]. unfold wret at 1. rewrite wbind_ok. reflexivity.
    - pose proof (upds_length sz dch). lia.
  Qed.
End ReadUnsorted.

(* RawSnap::read_with_delta on what read_wire_u reads *)
Lemma apply_unsorted A B chA chB del dl :
  good A -> good B -> rep A chA -> rep B chB -> same_len chA chB ->
  NoDup del -> (forall k, In k del <-> In k (map fst (rs_offs A)) /\ absent chB k = true) ->
  NoDup (map fst dl) -> Forall (ent chA chB) dl ->
  (forall k dB, aget k chB = Some dB -> ~ In k (map fst dl) -> aget k chA = Some dB) ->
  exists B' ch', raw_read_with_delta A (delta_of_u del dl) = (Ok B', [])
    /\ rep B' ch' /\ (forall k, aget k ch' = aget k chB).
Proof.
  intros GA GB HA HB Hsl Hnd Hdel Hndl Hent Hsame.
  apply (apply_gen A B chA chB (delta_of_u del dl) GA GB HA HB Hsl); unfold delta_of_u; cbn [d_del d_upd d_buf].
  - intros k. rewrite smem_in, sins_all_in, <- Hdel. cbn [In]. tauto.
  - rewrite (sins_all_length del [] Hnd) by (intros x _ []). cbn [length]. rewrite Nat.add_0_r.
    apply Permutation_length, NoDup_Permutation; [exact Hnd|apply NoDup_filter, rep_nodup_offs with chA, HA|].
    intros k. rewrite Hdel, filter_In. tauto.
  - apply sortedb_nodup, ins_all_sorted. reflexivity.
  - apply Forall_forall. intros [k r] Hin. apply ins_all_in in Hin. destruct Hin as [Hin|[]].
    destruct (in_ranges_split _ _ _ _ Hin) as (pre & df & post & Edl & Er).
    exists df. cbn [fst snd]. split.
    + intros E. rewrite Edl, flat_app, Er. cbn [flat flat_map snd Nat.add]. apply slice_mid.
    + rewrite Forall_forall in Hent. apply Hent. rewrite Edl. apply in_or_app. right. left. reflexivity.
  - intros k dB HkB Hni. apply (Hsame k dB HkB). intros Hin. apply Hni, ins_all_keys_in; rewrite ranges_of_keys; assumption.
Qed.

Lemma ref_types_pos S : keys_i32 S -> ref_types_ok S = true -> keys_pos (map fst (rs_offs S)).
Proof.
  unfold keys_i32, ref_types_ok. intros Hi Ht k Hin. rewrite forallb_forall in Hi, Ht.
  specialize (Hi k Hin). apply is_i32_iff in Hi. apply in_map_iff in Hin. destruct Hin as (kr & <- & Hin).
  specialize (Ht kr Hin). apply Z.leb_le in Ht. unfold i32_max. lia.
Qed.

(* libtw2 writes items in the order of their keys as u32: for keys of types <= 0x7fff, the order of the keys *)
Lemma isort_u32_sorted : forall l, sortedb l = true -> keys_pos l -> isort_u32 l = l.
Proof.
  induction l as [|a l IH]; intros Hs Hp; [reflexivity|]. cbn [isort_u32].
  rewrite IH; [|apply sortedb_tail with a, Hs|intros k Hk; apply Hp; right; exact Hk].
  destruct l as [|b l]; [reflexivity|]. cbn [insert_u32].
  apply sortedb_cons in Hs. destruct Hs as [Hab _]. specialize (Hab b (or_introl eq_refl)).
  pose proof (Hp a (or_introl eq_refl)) as Ha. pose proof (Hp b (or_intror (or_introl eq_refl))) as Hb.
  unfold i32_max in *. unfold u32_of, two32. rewrite !Z.mod_small by lia.
  destruct (Z.leb_spec a b); [reflexivity|lia].
Qed.

Lemma kd_of_ritems v : forallb is_i32 (map fst v) = true -> map kd_of (ritems_of v) = v.
Proof.
  induction v as [|[k d] v IH]; intros H; [reflexivity|]. cbn [map fst forallb] in H.
  apply andb_true_iff in H. destruct H as [Hk H]. cbn [ritems_of map fst snd].
  unfold kd_of at 1, ritem_key. cbn [fst snd]. rewrite (key_split k Hk). f_equal. apply IH, H.
Qed.

Lemma ritems_of_ok v : keys_pos (map fst v) -> forallb is_i32 (flat v) = true -> ritems_ok (ritems_of v) = true.
Proof.
  intros Hp Hd. apply forallb_forall. intros it Hin. apply in_map_iff in Hin.
  destruct Hin as ([k d] & <- & Hin). cbn [fst snd]. apply ritem_ok_iff.
  destruct (key_pos_ty k (Hp k (in_map fst _ _ Hin))) as (_ & _ & Rt).
  split; [exact Rt|]. split; [apply key_to_id_range|apply (proj1 (forallb_flat_in v) Hd k d Hin)].
Qed.

Lemma lim_ok_perm a b : Permutation a b -> lim_ok b -> lim_ok a.
Proof. intros Hp. unfold lim_ok. rewrite (Permutation_length Hp), (length_flat_perm _ _ Hp). exact (fun H => H). Qed.

Section OneSnap.
  Variables (S : rawsnap) (ch : items).
  Hypothesis G : good S.
  Hypothesis R : rep S ch.
  Hypothesis P : keys_pos (map fst (rs_offs S)).

  Lemma view_lim : lim_ok (view S ch).
  Proof. apply (lim_ok_perm _ ch (view_perm S ch R)), (good_lim S ch G R). Qed.

  Lemma ref_of_raw_spec : ref_of_raw S = Ok (ref_layout (view S ch)).
  Proof.
    unfold ref_of_raw. rewrite (raw_items_rep S ch R). cbn [bind].
    assert (Hk : forallb is_i32 (map fst (view S ch)) = true) by (rewrite view_keys; apply (g_keys _ G)).
    rewrite ref_builder_layout; rewrite ?(kd_of_ritems _ Hk); [reflexivity| |apply view_lim].
    apply ritems_of_ok; [rewrite view_keys; exact P|apply (view_flat_i32 S ch R (g_buf S G))].
  Qed.

  Lemma layout_is_wire : ref_layout (view S ch) = wire_snap S ch.
  Proof.
    assert (Hu : uitems S ch = view S ch).
    { unfold uitems, ukeys. rewrite isort_u32_sorted; [symmetry; apply view_as_map|apply (rep_sorted _ _ R)|exact P]. }
    unfold wire_snap, ref_layout. rewrite Hu. destruct (rep_lengths _ _ R) as [L1 L2].
    pose proof (view_perm S ch R) as Hp.
    rewrite (length_flat_perm _ _ Hp), (Permutation_length Hp), <- L1, <- L2. reflexivity.
  Qed.

  Lemma writes_layout : snap_ints S = Ok (ref_layout (view S ch))
    /\ (forall cap, (length (ref_layout (view S ch)) <= cap)%nat -> raw_write_to_ints S cap = Ok (ref_layout (view S ch))).
  Proof.
    rewrite layout_is_wire. pose proof (snap_ints_spec S ch G R) as Hs. split; [exact Hs|].
    intros cap Hc. unfold raw_write_to_ints. rewrite Hs.
    destruct (snap_wire_roundtrip S ch G R) as (l & _ & _ & Hl & _ & Hsz & _). rewrite Hs in Hl. injection Hl as <-.
    destruct (Nat.ltb_spec cap (length (wire_snap S ch))); [lia|].
    destruct (Z.ltb_spec MAX_SNAPSHOT_SIZE (4 * Z.of_nat (length (wire_snap S ch)))); [lia|reflexivity].
  Qed.
End OneSnap.

(* the reference builder, fed the items of a RawSnap in key order, writes what write_to_ints writes *)
Theorem c09_ref_builder S : raw_ok S = true -> ref_types_ok S = true ->
  exists l, ref_of_raw S = Ok l /\ snap_ints S = Ok l
    /\ (forall cap, (length l <= cap)%nat -> raw_write_to_ints S cap = Ok l).
Proof.
  intros OS T. pose proof (raw_ok_good S OS) as G. destruct (g_rep _ G) as [ch R].
  pose proof (ref_types_pos S (g_keys _ G) T) as P. exists (ref_layout (view S ch)).
  split; [apply ref_of_raw_spec; assumption|apply writes_layout; assumption].
Qed.

Lemma raw_build_rep : forall its S0 ch0 S, ritems_ok its = true -> good S0 -> rep S0 ch0 ->
  raw_build_from S0 its = Ok S -> good S /\ rep S (ch0 ++ map kd_of its).
Proof.
  induction its as [|[[ty id] d] its IH]; intros S0 ch0 S Hok G0 R0 Hb.
  - cbn [raw_build_from] in Hb. injection Hb as <-. cbn [map]. rewrite app_nil_r. split; assumption.
  - cbn [ritems_ok forallb] in Hok. apply andb_true_iff in Hok. destruct Hok as [Ho Hok].
    apply ritem_ok_iff in Ho. destruct Ho as (Ht & Hi & Hd).
    cbn [raw_build_from] in Hb. pose proof (add_item_good S0 ty id d G0) as Hg.
    rewrite add_item_eq in Hb, Hg.
    destruct (aget (key ty id) (rs_offs S0)) eqn:Hn; [discriminate|].
    destruct (MAX_SNAPSHOT_ITEMS <? _); [discriminate|]. destruct (MAX_SNAPSHOT_SIZE <? _); [discriminate|].
    cbn [bind] in Hb. specialize (Hg ltac:(lia) ltac:(lia) Hd).
    destruct (IH _ _ _ Hok Hg (rep_pushed S0 ch0 (key ty id) d R0 Hn) Hb) as [G' R'].
    split; [exact G'|]. cbn [map]. change (kd_of (ty, id, d)) with (key ty id, d).
    rewrite <- app_assoc in R'. exact R'.
Qed.

(* both builders take the list: libtw2's then holds the items, the reference's lays them out in the order given *)
Lemma both_builders its S : ritems_ok its = true -> raw_build its = Ok S ->
  good S /\ rep S (map kd_of its) /\ ref_builder_ints its = Ok (ref_layout (map kd_of its)).
Proof.
  intros Hok Hb. destruct (raw_build_rep its raw_empty [] S Hok good_empty rep_empty Hb) as [G R]. cbn [app] in R.
  split; [exact G|]. split; [exact R|]. apply ref_builder_layout; [exact Hok|apply (good_lim S _ G R)].
Qed.

Lemma ritems_keys_pos its : ritems_ok its = true -> keys_pos (map fst (map kd_of its)).
Proof.
  intros Hok k Hin. rewrite map_map in Hin. apply in_map_iff in Hin. destruct Hin as ([[ty id] d] & <- & Hin).
  unfold ritems_ok in Hok. rewrite forallb_forall in Hok. destruct (proj1 (ritem_ok_iff _ _ _) (Hok _ Hin)) as (Ht & Hi & _).
  cbn [kd_of fst]. unfold ritem_key. cbn [fst snd]. apply ref_key; assumption.
Qed.

Lemma view_sorted S ch : rep S ch -> sortedb (map fst ch) = true -> view S ch = ch.
Proof.
  intros R Hs. rewrite view_as_map.
  assert (E : map fst (rs_offs S) = map fst ch).
  { apply sortedb_ext; [apply (rep_sorted _ _ R)|exact Hs|]. intros x. pose proof (rep_keys _ _ R) as Hp. split; intros Hx.
    - apply (Permutation_in _ Hp Hx).
    - apply (Permutation_in _ (Permutation_sym Hp) Hx). }
  rewrite E. apply rebuild, (rep_nodup _ _ R).
Qed.

(* the same items, in ascending key order, through both builders: the same integers *)
Theorem c09_ref_builder_items its S : ritems_ok its = true -> raw_build its = Ok S ->
  sortedb (map ritem_key its) = true ->
  exists l, ref_builder_ints its = Ok l /\ snap_ints S = Ok l
    /\ (forall cap, (length l <= cap)%nat -> raw_write_to_ints S cap = Ok l).
Proof.
  intros Hok Hb Hs. destruct (both_builders its S Hok Hb) as (G & R & E).
  assert (P : keys_pos (map fst (rs_offs S))).
  { intros k Hin. apply (ritems_keys_pos its Hok), (Permutation_in _ (rep_keys _ _ R)), Hin. }
  assert (Hv : view S (map kd_of its) = map kd_of its) by (apply view_sorted; [exact R|rewrite map_map; exact Hs]).
  exists (ref_layout (map kd_of its)). split; [exact E|].
  rewrite <- Hv. apply writes_layout; assumption.
Qed.

(* what a user of a RawSnap sees - the items in key order, the lookups, the checksum - is determined by the lookups *)
Lemma same_observed S ch S' ch' : rep S ch -> rep S' ch' -> (forall k, aget k ch = aget k ch') ->
  (forall E, @raw_items E S = @raw_items E S')
  /\ (forall E ty id, @raw_item E S ty id = @raw_item E S' ty id)
  /\ crc S = crc S'.
Proof.
  intros R R' H. destruct (same_lookups S ch S' ch' R R' H) as (Hv & Hc & _).
  split; [intros E; rewrite (raw_items_rep S ch R), (raw_items_rep S' ch' R'), Hv; reflexivity|].
  split; [intros E ty id; rewrite (raw_item_rep S ch ty id R), (raw_item_rep S' ch' ty id R'), H; reflexivity|exact Hc].
Qed.

(* the same items in ANY order: libtw2 reads what the reference builder wrote as the snapshot its own
   builder makes - the same items (in key order), lookups and checksum *)
Theorem c09_ref_builder_any_order its S : ritems_ok its = true -> raw_build its = Ok S ->
  exists l S', ref_builder_ints its = Ok l /\ raw_read_from_ints l = (Ok S', [])
    /\ (forall E, @raw_items E S' = @raw_items E S)
    /\ (forall E ty id, @raw_item E S' ty id = @raw_item E S ty id)
    /\ crc S' = crc S.
Proof.
  intros Hok Hb. destruct (both_builders its S Hok Hb) as (G & R & E). set (vu := map kd_of its) in *.
  pose proof (good_lim S vu G R) as Hlim.
  assert (Hki : forallb is_i32 (map fst vu) = true).
  { apply forallb_forall. intros k Hin. apply is_i32_iff. pose proof (ritems_keys_pos its Hok k Hin). unfold i32_max in *. lia. }
  destruct (read_back vu (rep_nodup _ _ R) Hki Hlim (Z.of_nat (length (flat vu)))) as (S' & E' & R'); [apply ilen_flat|lia|].
  exists (ref_layout vu), S'. split; [exact E|]. split; [exact E'|].
  apply (same_observed S' vu S vu R' R). reflexivity.
Qed.

Lemma aget_perm {V} k (a b : list (Z * V)) : NoDup (map fst b) -> Permutation a b -> aget k a = aget k b.
Proof.
  intros Hb Hp. pose proof (Permutation_NoDup (Permutation_map fst (Permutation_sym Hp)) Hb) as Ha.
  destruct (aget k b) as [v|] eqn:E.
  - apply in_aget; [exact Ha|]. apply (Permutation_in _ (Permutation_sym Hp)), aget_in, E.
  - apply aget_none. rewrite aget_none in E. intros Hin. apply E, (Permutation_in _ (Permutation_map fst Hp)), Hin.
Qed.

Lemma rdiffs_in chA v k df : In (k, df) (rdiffs chA v) -> exists dB, In (k, dB) v /\ df = diff_of chA (k, dB).
Proof.
  intros H. apply filter_In, proj1, in_map_iff in H. destruct H as ([k0 dB] & E & Hin). cbn [fst] in E. injection E as <- <-.
  exists dB. split; [exact Hin|reflexivity].
Qed.

Lemma rdiffs_nodup chA v : NoDup (map fst v) -> NoDup (map fst (rdiffs chA v)).
Proof.
  intros H. unfold rdiffs, diffs. induction v as [|[k d] v IH]; [constructor|]. cbn [map fst] in H. inversion H as [|? ? Hni Hnd]; subst.
  cbn [map filter fst]. destruct (emitted chA _); [|apply IH, Hnd]. cbn [map fst]. constructor; [|apply IH, Hnd].
  intros Hin. apply Hni. apply in_map_iff in Hin. destruct Hin as ([k' df] & <- & Hin).
  destruct (rdiffs_in chA v k' df Hin) as (dB & HinB & _). apply (in_map fst _ _ HinB).
Qed.

Lemma flat_filter_length (p : Z * list Z -> bool) l : (length (flat (filter p l)) <= length (flat l))%nat.
Proof.
  induction l as [|[k d] l IH]; [cbn; lia|]. cbn [filter]. destruct (p (k, d)); cbn [flat flat_map snd];
    rewrite ?app_length; fold (flat l); fold (flat (filter p l)); lia.
Qed.

(* what is claimed of the ints the reference makes for a pair: there are none and A already is B, or libtw2
   reads them without a warning as a delta that, applied to A, gives B (observed through results of type res E) *)
Definition delta_gives (E : Type) (sz : osize) (A B : rawsnap) (ints : list Z) : Prop :=
  (ints = [] /\ @raw_items E A = raw_items B /\ crc A = crc B)
  \/ (exists d B',
        delta_read_from_ints sz ints = (Ok d, [])
        /\ raw_read_with_delta A d = (Ok B', [])
        /\ @raw_items E B' = raw_items B
        /\ (forall ty id, @raw_item E B' ty id = raw_item B ty id)
        /\ crc B' = crc B).

(* A and B hold the items chA and chB; the reference holds the same items in the orders vuA and vuB *)
Section Pair.
  Variables (sz : osize) (A B : rawsnap) (chA chB vuA vuB : items).
  Hypothesis GA : good A.
  Hypothesis GB : good B.
  Hypothesis HA : rep A chA.
  Hypothesis HB : rep B chB.
  Hypothesis PA : Permutation vuA chA.
  Hypothesis PB : Permutation vuB chB.
  Hypothesis Hk : k09 A B = false.

  Lemma pair_get_a k : aget k vuA = aget k chA.
  Proof. apply aget_perm; [apply (rep_nodup _ _ HA)|exact PA]. Qed.
  Lemma pair_get_b k : aget k vuB = aget k chB.
  Proof. apply aget_perm; [apply (rep_nodup _ _ HB)|exact PB]. Qed.
  Lemma pair_nodup_a : NoDup (map fst vuA).
  Proof. apply (Permutation_NoDup (Permutation_map fst (Permutation_sym PA))), (rep_nodup _ _ HA). Qed.
  Lemma pair_nodup_b : NoDup (map fst vuB).
  Proof. apply (Permutation_NoDup (Permutation_map fst (Permutation_sym PB))), (rep_nodup _ _ HB). Qed.
  Lemma pair_same_len : same_len chA chB.
  Proof. apply (k09_false _ _ _ _ HA HB Hk). Qed.

  Lemma pair_keys_a : Permutation (map fst (rs_offs A)) (map fst vuA).
  Proof. apply (Permutation_trans (rep_keys _ _ HA)), Permutation_map, Permutation_sym, PA. Qed.
  Lemma pair_keys_b : Permutation (map fst (rs_offs B)) (map fst vuB).
  Proof. apply (Permutation_trans (rep_keys _ _ HB)), Permutation_map, Permutation_sym, PB. Qed.

  Lemma pair_lim_a : lim_ok vuA.
  Proof. apply (lim_ok_perm _ _ PA), (good_lim A chA GA HA). Qed.
  Lemma pair_lim_b : lim_ok vuB.
  Proof. apply (lim_ok_perm _ _ PB), (good_lim B chB GB HB). Qed.

  Lemma rdiffs_ent k df : In (k, df) (rdiffs vuA vuB) -> ent chA chB (k, df).
  Proof.
    intros Hin. destruct (rdiffs_in _ _ _ _ Hin) as (dB & HinB & ->). exists dB. cbn [fst snd].
    split; [rewrite <- pair_get_b; apply (in_aget k dB vuB pair_nodup_b HinB)|].
    split; [unfold diff_of; cbn [fst snd]; rewrite pair_get_a; reflexivity|].
    pose proof (g_keys _ GB) as Hi. unfold keys_i32 in Hi. rewrite forallb_forall in Hi.
    apply Hi, (Permutation_in _ (Permutation_sym pair_keys_b)), (in_map fst _ _ HinB).
  Qed.

  Lemma rdiffs_len k df : In (k, df) (rdiffs vuA vuB) -> exists dB, aget k chB = Some dB /\ length df = length dB.
  Proof.
    intros Hin. destruct (rdiffs_ent k df Hin) as (dB & HkB & Hdf & _). cbn [fst snd] in HkB, Hdf.
    exists dB. split; [exact HkB|]. rewrite Hdf. apply diff_len. intros f Hf. apply (pair_same_len k f dB Hf HkB).
  Qed.

  Lemma rdiffs_omits k dB : aget k chB = Some dB -> ~ In k (map fst (rdiffs vuA vuB)) -> aget k chA = Some dB.
  Proof.
    intros HkB Hni.
    assert (Hem : emitted vuA (k, diff_of vuA (k, dB)) = false).
    { destruct (emitted vuA (k, diff_of vuA (k, dB))) eqn:He; [|reflexivity]. exfalso. apply Hni.
      change k with (fst (k, diff_of vuA (k, dB))). apply in_map, filter_In. split; [|exact He].
      apply in_map_iff. exists (k, dB). split; [reflexivity|]. apply aget_in. rewrite pair_get_b. exact HkB. }
    unfold emitted, absent, diff_of in Hem. cbn [fst snd] in Hem. rewrite pair_get_a in Hem.
    destruct (aget k chA) as [f|] eqn:Hf; [|discriminate]. f_equal. symmetry.
    apply zip_wsub_zero; [apply (pair_same_len k f dB Hf HkB)| | |exact Hem].
    - apply (good_data_i32 A chA k f GA HA Hf).
    - apply (good_data_i32 B chB k dB GB HB HkB).
  Qed.

  Lemma nothing_changed : ref_del vuA vuB = [] -> rdiffs vuA vuB = [] -> forall k, aget k chA = aget k chB.
  Proof.
    intros Hd0 Hl0 k. destruct (aget k chB) as [dB|] eqn:HkB.
    - apply (rdiffs_omits k dB HkB). rewrite Hl0. intros [].
    - destruct (aget k chA) as [f|] eqn:Hf; [|reflexivity]. exfalso.
      assert (Hin : In k (ref_del vuA vuB)); [|rewrite Hd0 in Hin; destruct Hin].
      apply ref_del_in. split; [apply aget_some_in; exists f; rewrite pair_get_a; exact Hf|].
      unfold absent. rewrite pair_get_b, HkB. reflexivity.
  Qed.

  Lemma ref_wire_pre : sizes_respected sz B = true -> wire_pre_u sz (ref_del vuA vuB) (rdiffs vuA vuB).
  Proof.
    intros Hsr. pose proof (good_lim A chA GA HA) as [LA1 _]. pose proof (good_lim B chB GB HB) as [LB1 LB2].
    rewrite <- (Permutation_length PA) in LA1. unfold MAX_SNAPSHOT_ITEMS, MAX_SNAPSHOT_SIZE, ser_size in *.
    split.
    - apply NoDup_filter, pair_nodup_a.
    - apply rdiffs_nodup, pair_nodup_b.
    - apply forallb_forall. intros k Hin. apply in_map_iff in Hin. destruct Hin as ([k0 df] & <- & Hin).
      destruct (rdiffs_ent k0 df Hin) as (_ & _ & _ & Hi). exact Hi.
    - apply Forall_forall. intros [k df] Hin. destruct (rdiffs_len k df Hin) as (dB & HkB & Hdfl).
      apply (respected_size_ok sz B chB k dB df HB (good_lim B chB GB HB) Hsr HkB Hdfl).
    - intros k Hin Hd. apply ref_del_in in Hd. destruct Hd as [_ Hd]. apply in_map_iff in Hin.
      destruct Hin as ([k0 df] & <- & Hin). destruct (rdiffs_len k0 df Hin) as (dB & HkB & _).
      unfold absent in Hd. cbn [fst] in Hd. rewrite pair_get_b, HkB in Hd. discriminate.
    - pose proof (ref_del_length vuA vuB). unfold i32_max. lia.
    - pose proof (filter_length_le' (emitted vuA) (diffs vuA vuB)) as Hle. unfold diffs in Hle at 2.
      rewrite map_length, (Permutation_length PB) in Hle. unfold rdiffs, i32_max. lia.
    - pose proof (flat_filter_length (emitted vuA) (diffs vuA vuB)) as Hle.
      rewrite (diffs_flat_length vuA vuB), (length_flat_perm _ _ PB) in Hle; [unfold rdiffs, i32_max; lia|].
      intros k d Hin. apply diff_len. intros f Hf. rewrite pair_get_a in Hf.
      apply (pair_same_len k f d Hf). rewrite <- pair_get_b. apply (in_aget k d vuB pair_nodup_b Hin).
  Qed.

  Lemma ref_delta_applied : exists B' ch',
    raw_read_with_delta A (delta_of_u (ref_del vuA vuB) (rdiffs vuA vuB)) = (Ok B', [])
    /\ rep B' ch' /\ (forall k, aget k ch' = aget k chB).
  Proof.
    apply (apply_unsorted A B chA chB _ _ GA GB HA HB pair_same_len).
    - apply NoDup_filter, pair_nodup_a.
    - intros k. rewrite ref_del_in. unfold absent. rewrite pair_get_b.
      split; intros [H1 H2]; (split; [|exact H2]).
      + apply (Permutation_in _ (Permutation_sym pair_keys_a) H1).
      + apply (Permutation_in _ pair_keys_a H1).
    - apply rdiffs_nodup, pair_nodup_b.
    - apply Forall_forall. intros [k df]. apply rdiffs_ent.
    - exact rdiffs_omits.
  Qed.

  (* CreateDelta on the reference's two snapshots; its output read by Delta::read_from_ints and applied to A
     by RawSnap::read_with_delta gives what B holds.  When nothing changed CreateDelta writes no ints. *)
  Theorem ref_delta_applies :
    keys_pos (map fst vuB) -> ref_buckets_ok A = true -> ref_buckets_ok B = true ->
    ref_table_ok sz = true -> sizes_respected sz B = true -> ref_delta_fits A B = true ->
    exists ints, ref_delta sz (ref_layout vuA) (ref_layout vuB) = Ok ints /\ (forall E, delta_gives E sz A B ints).
  Proof.
    intros PosB BA BB Hsz Hsr Hfit. set (del := ref_del vuA vuB). set (dl := rdiffs vuA vuB).
    exists (if (Z.of_nat (length del) =? 0) && (Z.of_nat (length dl) =? 0) then [] else wire_ints sz del dl).
    split.
    { unfold ref_delta. rewrite (table_sizes_ok sz Hsz). apply (ref_create_delta_spec sz Hsz vuA vuB).
      - exact pair_lim_a.
      - exact pair_lim_b.
      - exact pair_nodup_a.
      - exact pair_nodup_b.
      - exact PosB.
      - apply (buckets_fine_perm _ _ pair_keys_a), ref_buckets_ok_iff, BA.
      - apply (buckets_fine_perm _ _ pair_keys_b), ref_buckets_ok_iff, BB.
      - intros k f d Hf Hd. rewrite pair_get_a in Hf. rewrite pair_get_b in Hd. apply (pair_same_len k f d Hf Hd).
      - destruct (rep_lengths _ _ HA) as [LA _]. destruct (rep_lengths _ _ HB) as [LB1 LB2].
        rewrite <- (Permutation_length PA) in LA. rewrite <- (Permutation_length PB) in LB1. rewrite <- (length_flat_perm _ _ PB) in LB2.
        unfold ref_delta_fits, REF_BUF_INTS in Hfit. apply Z.leb_le in Hfit. unfold wsum. lia. }
    intros E. destruct ((Z.of_nat (length del) =? 0) && (Z.of_nat (length dl) =? 0)) eqn:Hempty.
    - left. split; [reflexivity|]. apply andb_true_iff in Hempty. destruct Hempty as [E1 E2].
      apply Z.eqb_eq in E1, E2.
      assert (Hd0 : del = []) by (apply length_zero_iff_nil; lia).
      assert (Hl0 : dl = []) by (apply length_zero_iff_nil; lia).
      destruct (same_observed A chA B chB HA HB (nothing_changed Hd0 Hl0)) as (Hi & _ & Hc). auto.
    - right. destruct ref_delta_applied as (B' & ch' & Eap & R' & Hlook).
      exists (delta_of_u del dl), B'. split; [apply read_wire_u, ref_wire_pre, Hsr|]. split; [exact Eap|].
      destruct (same_observed B' ch' B chB R' HB Hlook) as (Hi & Hl & Hc). auto.
  Qed.
End Pair.

(* reference snapshots made of the items in key order *)
Theorem c09_ref_delta sz A B :
  raw_ok A = true -> raw_ok B = true -> k09 A B = false ->
  ref_types_ok A = true -> ref_types_ok B = true ->
  ref_buckets_ok A = true -> ref_buckets_ok B = true ->
  ref_table_ok sz = true -> sizes_respected sz B = true -> ref_delta_fits A B = true ->
  exists fa fb ints,
    ref_of_raw A = Ok fa /\ ref_of_raw B = Ok fb /\ ref_delta sz fa fb = Ok ints
    /\ (forall E, delta_gives E sz A B ints).
Proof.
  intros OA OB Hk TA TB BA BB Hsz Hsr Hfit.
  pose proof (raw_ok_good A OA) as GA. pose proof (raw_ok_good B OB) as GB.
  destruct (g_rep _ GA) as [chA HA]. destruct (g_rep _ GB) as [chB HB].
  pose proof (ref_types_pos A (g_keys _ GA) TA) as PosA. pose proof (ref_types_pos B (g_keys _ GB) TB) as PosB.
  destruct (ref_delta_applies sz A B chA chB (view A chA) (view B chB) GA GB HA HB (view_perm A chA HA) (view_perm B chB HB) Hk)
    as (ints & Hd & Hres); try assumption; [rewrite view_keys; exact PosB|].
  exists (ref_layout (view A chA)), (ref_layout (view B chB)), ints.
  split; [apply ref_of_raw_spec; assumption|]. split; [apply ref_of_raw_spec; assumption|]. split; assumption.
Qed.

(* both builders on the same two lists of items, in any order *)
Theorem c09_ref_delta_items sz ia ib A B :
  ritems_ok ia = true -> ritems_ok ib = true -> raw_build ia = Ok A -> raw_build ib = Ok B ->
  k09 A B = false -> ref_buckets_ok A = true -> ref_buckets_ok B = true ->
  ref_table_ok sz = true -> sizes_respected sz B = true -> ref_delta_fits A B = true ->
  exists fa fb ints,
    ref_builder_ints ia = Ok fa /\ ref_builder_ints ib = Ok fb /\ ref_delta sz fa fb = Ok ints
    /\ (forall E, delta_gives E sz A B ints).
Proof.
  intros Hoa Hob Hba Hbb Hk BA BB Hsz Hsr Hfit.
  destruct (both_builders ia A Hoa Hba) as (GA & HA & Ea). destruct (both_builders ib B Hob Hbb) as (GB & HB & Eb).
  destruct (ref_delta_applies sz A B _ _ _ _ GA GB HA HB (Permutation_refl _) (Permutation_refl _) Hk)
    as (ints & Hd & Hres); try assumption; [apply ritems_keys_pos, Hob|].
  exists (ref_layout (map kd_of ia)), (ref_layout (map kd_of ib)), ints.
  split; [exact Ea|]. split; [exact Eb|]. split; assumption.
Qed.
