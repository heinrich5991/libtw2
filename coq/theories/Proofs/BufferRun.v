(* The main induction over programs: whatever a closure does with its view
   (and with views nested in it, capped or not, with early exits and panics of
   `advance`), the view's counter stays within its capacity, the initialized
   part of the memory is exactly the ghost log of accepted bytes, nothing
   outside the view's spare part changes, and none of the index / ghost checks
   fires. *)
From LibTw2 Require Import Base.Res Model.Buffer Proofs.BufferMem Proofs.BufferOps.
From Coq Require Import List Arith Lia Bool ZArith.
Import ListNotations.
Open Scope nat_scope.

(* the only panics left: the documented assertion of the unsafe fn `advance` *)
Definition safe_exit (x : exit) : Prop :=
  x = XOk \/ x = XErr \/ x = XPanic site_advance_overflow \/ x = XPanic site_advance_assert.

(* a report: (where the slice starts, the slice that was returned, the bytes accepted so far) *)
Definition report_ok (ra : nat * bytes * bytes) : Prop := snd (fst ra) = snd ra.

Definition report_held (m : bytes) (lo hi : nat) (ra : nat * bytes * bytes) : Prop :=
  lo <= fst (fst ra) /\ fst (fst ra) + length (snd (fst ra)) <= hi
  /\ forall i, i < length (snd (fst ra)) -> nth_error m (fst (fst ra) + i) = nth_error (snd (fst ra)) i.

Lemma held_mono m m' lo hi lo' hi' ra :
  report_held m lo hi ra -> (forall j, j < hi -> nth_error m' j = nth_error m j) ->
  lo' <= lo -> hi <= hi' -> report_held m' lo' hi' ra.
Proof.
  intros [H1 [H2 H3]] Hm Hlo Hhi. split; [lia|]. split; [lia|].
  intros i Hi. rewrite Hm by lia. apply H3, Hi.
Qed.

Lemma held_of_acc_ok m v acc : acc_ok m v acc ->
  report_held m (v_off v) (v_off v + v_init v) (v_off v, acc, acc).
Proof.
  intros [La Na]. unfold report_held. cbn [fst snd]. split; [lia|]. split; [lia|].
  intros i Hi. apply Na. lia.
Qed.

Definition frame (m m' : bytes) (v : view) : Prop :=
  forall j, j < v_off v + v_init v \/ v_off v + v_cap v <= j -> nth_error m' j = nth_error m j.

Record good (total : nat) (m : bytes) (v : view) (acc : bytes) (o : sout) : Prop := mk_good {
  g_len : length (s_mem o) = total;
  g_lo : v_init v <= s_init o;
  g_hi : s_init o <= v_cap v;
  g_acc : acc_ok (s_mem o) (with_init v (s_init o)) (s_acc o);
  g_ext : exists log, s_acc o = acc ++ log;
  g_frame : frame m (s_mem o) v;
  g_exit : safe_exit (s_exit o);
  g_views : Forall (view_ok total) (s_views o);
  g_reports : Forall report_ok (s_reports o);
  g_held : Forall (report_held (s_mem o) (v_off v) (v_off v + s_init o)) (s_reports o) }.

Section Run.
Variable total : nat.

Lemma good_stop m v acc m' i' acc' evs x reps :
  length m' = total -> view_ok total v -> v_init v <= i' -> i' <= v_cap v ->
  acc_ok m' (with_init v i') acc' -> (exists l, acc' = acc ++ l) -> frame m m' v -> safe_exit x ->
  Forall report_ok reps -> Forall (report_held m' (v_off v) (v_off v + i')) reps ->
  good total m v acc (stop m' (with_init v i') acc' evs x reps).
Proof.
  intros Hl Hv Hlo Hhi Ha He Hf Hx Hr Hh. constructor; cbn [stop s_mem s_init s_acc s_exit s_views s_reports with_init v_init];
    try assumption.
  constructor; [|constructor]. apply with_init_ok; assumption.
Qed.

Lemma good_before m v acc o evs vs reps :
  good total m v acc o -> Forall (view_ok total) vs -> Forall report_ok reps ->
  Forall (report_held (s_mem o) (v_off v) (v_off v + s_init o)) reps ->
  good total m v acc (before evs vs reps o).
Proof.
  intros [] Hv Hr Hh. constructor; cbn [before s_mem s_init s_acc s_exit s_views s_reports]; try assumption.
  - apply Forall_app; split; assumption.
  - apply Forall_app; split; assumption.
  - apply Forall_app; split; assumption.
Qed.

Lemma good_visit m v acc o evs :
  view_ok total v -> good total m v acc o -> good total m v acc (before evs [v] [] o).
Proof. intros Hv G. apply good_before; [exact G|constructor; [exact Hv|constructor]|constructor|constructor]. Qed.

Lemma good_step m v acc m1 i1 acc1 o :
  v_init v <= i1 -> (exists l, acc1 = acc ++ l) -> frame m m1 v ->
  good total m1 (with_init v i1) acc1 o -> good total m v acc o.
Proof.
  intros Hlo [l1 ->] Hf []. cbn [with_init v_off v_cap v_init] in *.
  constructor; try assumption.
  - lia.
  - destruct g_ext0 as [l2 ->]. exists (l1 ++ l2). rewrite app_assoc. reflexivity.
  - intros j Hj. unfold frame in g_frame0. cbn [with_init v_off v_cap v_init] in g_frame0.
    rewrite g_frame0 by lia. apply Hf. exact Hj.
Qed.

Lemma safe_ok : safe_exit XOk. Proof. left; reflexivity. Qed.
Lemma safe_err : safe_exit XErr. Proof. right; left; reflexivity. Qed.
Lemma safe_adv s : s = site_advance_overflow \/ s = site_advance_assert -> safe_exit (XPanic s).
Proof. intros [->| ->]; [right; right; left|right; right; right]; reflexivity. Qed.

Lemma frame_refl m v : frame m m v.
Proof. intros j _. reflexivity. Qed.

Lemma acc_ok_same m v acc : acc_ok m v acc -> acc_ok m (with_init v (v_init v)) acc.
Proof. rewrite with_init_same. exact (fun H => H). Qed.

Lemma ext_refl (acc : bytes) : exists l, acc = acc ++ l.
Proof. exists []. symmetry. apply app_nil_r. Qed.
Lemma ext_app (acc l : bytes) : exists l', acc ++ l = acc ++ l'.
Proof. exists l. reflexivity. Qed.
Lemma report_ok_same off (bs : bytes) : report_ok (off, bs, bs).
Proof. reflexivity. Qed.

(* the side conditions of good_stop and good_step *)
#[local] Hint Resolve ext_refl ext_app frame_refl acc_ok_same safe_ok safe_err safe_adv
  report_ok_same held_of_acc_ok : good.
#[local] Hint Extern 1 (_ <= _) => lia : good.

Lemma good_here m v acc evs x reps :
  length m = total -> view_ok total v -> acc_ok m v acc -> safe_exit x -> Forall report_ok reps ->
  Forall (report_held m (v_off v) (v_off v + v_init v)) reps ->
  good total m v acc (stop m v acc evs x reps).
Proof.
  intros Hl Hv Ha Hx Hr Hh. pose proof Hv as [? ?]. rewrite <- (with_init_same v) at 2.
  apply good_stop; auto with good.
Qed.

Lemma spare_store m v acc data :
  length m = total -> view_ok total v -> acc_ok m v acc -> length data <= room v ->
  exists m', store_bytes m (v_off v + v_init v) data = Some m' /\ length m' = total
    /\ acc_ok m' (with_init v (v_init v + length data)) (acc ++ data) /\ frame m m' v /\ acc_ok m' v acc.
Proof.
  intros Hl [Hi Ht] [La Na] Hd. unfold room in Hd.
  destruct (store_bytes_spec data m (v_off v + v_init v)) as [m' [E [L [In' Out']]]]; [lia|].
  exists m'. split; [exact E|]. split; [lia|]. split; [|split].
  - apply (acc_ok_app m); [split; assumption| |exact In']. intros j Hj. apply Out'. lia.
  - intros j Hj. apply Out'. lia.
  - split; [exact La|]. intros i Hi'. rewrite Out' by lia. apply Na, Hi'.
Qed.

(* b.write(bs) / b.extend(bs): the prefix that fits is stored and the counter advanced over it; then
   either `?` returns the CapacityError, or the closure carries on with k *)
Lemma extend_good m v acc bs evs (b : bool -> bool) (k : bytes -> view -> bytes -> sout) :
  length m = total -> view_ok total v -> acc_ok m v acc ->
  (forall m' v' acc', length m' = total -> view_ok total v' -> acc_ok m' v' acc' -> good total m' v' acc' (k m' v' acc')) ->
  good total m v acc
    match extend m v bs with
    | (m', v', Ok (ok, pulled)) =>
      if b ok then before (evs ok pulled) [v] [] (stop m' v' (acc ++ firstn (room v) bs) [] XErr [])
      else before (evs ok pulled) [v] [] (k m' v' (acc ++ firstn (room v) bs))
    | (m', v', Panic s) => before [] [v] [] (stop m' v' acc [] (XPanic s) [])
    | (m', v', _) => before [] [v] [] (stop m' v' acc [] XErr [])
    end.
Proof.
  intros Hl Hv Ha Hk. pose proof Hv as [Hi Ht].
  set (data := firstn (room v) bs).
  assert (Hd : length data <= room v) by (subst data; rewrite firstn_length; lia).
  destruct (spare_store m v acc data Hl Hv Ha Hd) as (m' & E & L & Ha' & Hf & _).
  rewrite (extend_store bs m m' v Hi E). fold data. unfold room in Hd.
  destruct (b _); apply good_visit; try assumption.
  - apply good_stop; auto with good.
  - apply (good_step m v acc m' (v_init v + length data) (acc ++ data)); auto with good.
    apply Hk; auto with good. apply with_init_ok; [assumption|lia].
Qed.

(* traits.rs read_buffer_ref *)
Lemma read_into_good m v acc fail src :
  length m = total -> view_ok total v -> acc_ok m v acc ->
  good total m v acc (read_into m v acc fail src).
Proof.
  intros Hl Hv Ha. pose proof Hv as [Hi Ht]. unfold read_into. rewrite (cap_ltb_init v Hi).
  destruct fail; [apply good_here; auto with good|].
  set (got := firstn (room v) src).
  assert (Hg : length got <= room v) by (subst got; rewrite firstn_length; lia).
  destruct (spare_store m v acc got Hl Hv Ha Hg) as (m' & E & L & Ha' & Hf & Ha0). rewrite E.
  pose proof (advance_spec v (Z.of_nat (length got)) total Hv) as Hadv.
  destruct (advance v (Z.of_nat (length got))) as [v' [[]|e|s|]]; try contradiction.
  - destruct Hadv as [-> Hle]. rewrite Nat2Z.id in *.
    assert (Hv' : view_ok (length m') (with_init v (v_init v + length got)))
      by (rewrite L; apply with_init_ok; assumption).
    rewrite (initialized_spec m' _ (acc ++ got) Hv' Ha').
    apply good_stop; auto with good.
    constructor; [|constructor]. exact (held_of_acc_ok _ _ _ Ha').
  - destruct Hadv as [-> Hs]. rewrite <- (with_init_same v) at 2.
    apply good_stop; auto with good.
Qed.

(* Drop of a nested view: the parent's counter advances by the child's, over the bytes the child accepted *)
Lemma child_released m v acc c o :
  view_ok total v -> acc_ok m v acc -> child_at v c -> good total m c [] o ->
  v_init v + s_init o <= v_cap v
  /\ acc_ok (s_mem o) (with_init v (v_init v + s_init o)) (acc ++ s_acc o)
  /\ frame m (s_mem o) v.
Proof.
  intros [Hi Ht] [La Na] (Hoff & Hci & Hcc) []. unfold room in Hcc. rewrite Hci in *.
  destruct g_acc0 as [Lc Nc]. cbn [with_init v_off v_cap v_init] in Lc, Nc.
  split; [lia|]. split.
  - rewrite <- Lc. apply (acc_ok_app m); [split; assumption| |].
    + intros j Hj. apply g_frame0. lia.
    + intros i Hi'. rewrite <- Hoff. apply Nc. lia.
  - intros j Hj. apply g_frame0. lia.
Qed.

Lemma after_child_good m v acc q pre o c cont :
  length m = total -> view_ok total v -> acc_ok m v acc -> child_at v c -> good total m c [] o ->
  (forall m' v' acc', length m' = total -> view_ok total v' -> acc_ok m' v' acc' ->
     good total m' v' acc' (cont m' v' acc')) ->
  good total m v acc (after_child v acc q pre o cont).
Proof.
  intros Hl Hv Ha Hc Hgo Hcont. pose proof Hv as [Hi Ht].
  destruct (child_released m v acc c o Hv Ha Hc Hgo) as (Hle & Ha' & Hf).
  destruct Hgo. destruct Hc as (Hoff & Hci & Hcc). unfold room in Hcc. rewrite Hci in *.
  assert (Hvs : Forall (view_ok total) (v :: s_views o)) by (constructor; assumption).
  assert (Hh : Forall (report_held (s_mem o) (v_off v) (v_off v + (v_init v + s_init o))) (s_reports o)).
  { eapply Forall_impl; [|exact g_held0]. intros ra Hra.
    apply (held_mono _ _ _ _ _ _ _ Hra); [reflexivity|lia|lia]. }
  set (ko := cont (s_mem o) (with_init v (v_init v + s_init o)) (acc ++ s_acc o)).
  assert (Gk : good total (s_mem o) (with_init v (v_init v + s_init o)) (acc ++ s_acc o) ko)
    by (apply Hcont; try assumption; apply with_init_ok; assumption).
  assert (Hk1 : good total m v acc ko)
    by (apply (good_step m v acc (s_mem o) (v_init v + s_init o) (acc ++ s_acc o)); auto with good).
  assert (Hk2 : Forall (report_held (s_mem ko) (v_off v) (v_off v + s_init ko)) (s_reports o)).
  { destruct Gk as [_ Klo _ _ _ Kf _ _ _ _]. cbn [with_init v_off v_cap v_init] in Klo.
    eapply Forall_impl; [|exact Hh]. intros ra Hra.
    apply (held_mono _ _ _ _ _ _ _ Hra); [|lia|lia].
    intros j Hj. apply Kf. cbn [with_init v_off v_cap v_init]. lia. }
  unfold after_child. fold ko.
  replace (v_cap v <? v_init (with_init v (v_init v + s_init o))) with false
    by (symmetry; apply Nat.ltb_ge; cbn; lia).
  (* Ok carries on; Err carries on or is handed up by `?`; a panic unwinds *)
  destruct (s_exit o) as [| |s] eqn:Ex; [|destruct q|]; cbn [andb];
    apply good_before; try assumption; apply good_stop; auto with good.
Qed.

Theorem run_good : forall p m v acc,
  length m = total -> view_ok total v -> acc_ok m v acc -> good total m v acc (run m v acc p).
Proof.
  induction p as [| |fail src|q bs k IHk|q bs k IHk|n k IHk|bs k IHk|k IHk|q caps sub IHsub k IHk|caps fail src k IHk];
    intros m v acc Hl Hv Ha; pose proof Hv as [Hi Ht]; cbn [run].
  - (* PEnd *) apply good_here; auto with good.
  - (* PInit *)
    rewrite (initialized_spec m v acc) by (try rewrite Hl; assumption).
    apply good_here; auto with good.
  - (* PReadInto *) apply read_into_good; assumption.
  - (* PWrite *)
    exact (extend_good m v acc bs (fun ok _ => [EWrite ok]) (fun ok => negb ok && q) _ Hl Hv Ha (IHk)).
  - (* PExtend *)
    exact (extend_good m v acc bs (fun ok pulled => [EExtend ok pulled]) (fun ok => negb ok && q) _ Hl Hv Ha (IHk)).
  - (* PAdvance *)
    pose proof (advance_spec v n total Hv) as Hadv.
    destruct (advance v n) as [v' [[]|e|s|]]; try contradiction.
    + destruct Hadv as [-> Hle].
      rewrite (slice_some m (v_off v + v_init v) (Z.to_nat n)) by lia.
      apply good_visit; [assumption|].
      set (exposed := firstn (Z.to_nat n) (skipn (v_off v + v_init v) m)).
      assert (Le : length exposed = Z.to_nat n)
        by (subst exposed; rewrite firstn_length, skipn_length; lia).
      apply (good_step m v acc m (v_init v + Z.to_nat n) (acc ++ exposed)); auto with good.
      apply IHk; try assumption. { apply with_init_ok; assumption. }
      rewrite <- Le. apply (acc_ok_app m); [assumption|reflexivity|].
      intros i Hi'. symmetry. apply nth_error_firstn_skipn. lia.
    + destruct Hadv as [-> Hs]. apply good_here; auto with good.
  - (* PPoke *)
    rewrite (cap_ltb_init v Hi).
    assert (Hg : length (firstn (room v) bs) <= room v) by (rewrite firstn_length; lia).
    destruct (spare_store m v acc _ Hl Hv Ha Hg) as (m' & E & L & _ & Hf & Ha0). rewrite E.
    apply good_visit; [assumption|].
    apply (good_step m v acc m' (v_init v) acc); auto with good.
    rewrite with_init_same. apply IHk; assumption.
  - (* PRemaining *)
    rewrite (remaining_spec v total Hv). apply good_visit; [assumption|].
    apply IHk; assumption.
  - (* PNested *)
    destruct (open_child_spec v caps total Hv) as (c & E & Hc & _). rewrite E.
    apply (after_child_good m v acc q _ _ c); try assumption.
    apply IHsub; [assumption|exact (child_ok v c total Hv Hc)|exact (child_fresh m v c Hc)].
  - (* PRead *)
    destruct (open_child_spec v caps total Hv) as (c & E & Hc & _). rewrite E.
    apply (after_child_good m v acc false _ _ c); try assumption.
    apply read_into_good; [assumption|exact (child_ok v c total Hv Hc)|exact (child_fresh m v c Hc)].
Qed.

End Run.
