(* RawSnap::read_with_delta on a delta that describes the target relative to the source -
   in particular the one Delta::create_raw makes - gives back the target snapshot: same
   items, same crc, no warning (C09). *)
From LibTw2 Require Import Base.Res Model.Varint Model.Snap Proofs.SnapBase Proofs.SnapRep Proofs.SnapDelta.
From Coq Require Import ZArith List Lia Bool Permutation.
Import ListNotations.
Open Scope Z_scope.

Lemma prepare_item_vacant S k n : aget k (rs_offs S) = None ->
  prepare_item S k n =
  if fits S n
  then Ok ({| rs_offs := ains k (length (rs_buf S), (length (rs_buf S) + n)%nat) (rs_offs S);
              rs_buf := rs_buf S ++ repeat 0 n |}, (length (rs_buf S), (length (rs_buf S) + n)%nat))
  else Err (if MAX_SNAPSHOT_ITEMS <? Z.of_nat (length (rs_offs S)) + 1 then TooManyItems else TooLongSnap).
Proof.
  intros Hn. unfold prepare_item, prepare_vacant, fits. rewrite Hn.
  destruct (_ <? _); [reflexivity|]. destruct (_ <? _); reflexivity.
Qed.

Lemma reserve_steps S k n : aget k (rs_offs S) = None -> fits S n = true ->
  exists S1 ro, prepare_item S k n = Ok (S1, ro)
    /\ (forall E, exists z, @slice E (rs_buf S1) ro = Ok z)
    /\ range_len ro = n
    /\ (forall data, length data = n ->
         (forall E, @write_range E (rs_buf S1) ro data = Ok (rs_buf (pushed S k data)))
         /\ rs_offs S1 = rs_offs (pushed S k data)).
Proof.
  intros Hn Hf. rewrite (prepare_item_vacant _ _ _ Hn), Hf. eexists _, _. split; [reflexivity|].
  cbn [rs_buf rs_offs pushed]. split; [|split].
  - intros E. pose proof (@slice_mid E (rs_buf S) (repeat 0 n) []) as H.
    rewrite repeat_length, app_nil_r in H. eauto.
  - unfold range_len. cbn. lia.
  - intros data <-. split; [intros E; apply write_range_fresh|]; reflexivity.
Qed.

Lemma push_steps S k data : aget k (rs_offs S) = None -> fits S (length data) = true ->
  exists S1 ro, prepare_item S k (length data) = Ok (S1, ro)
    /\ (forall E, exists z, @slice E (rs_buf S1) ro = Ok z)
    /\ range_len ro = length data
    /\ (forall E, @write_range E (rs_buf S1) ro data = Ok (rs_buf (pushed S k data)))
    /\ rs_offs S1 = rs_offs (pushed S k data).
Proof.
  intros Hn Hf. destruct (reserve_steps S k _ Hn Hf) as (S1 & ro & E1 & E2 & E3 & E4).
  exists S1, ro. destruct (E4 data eq_refl). auto.
Qed.

Definition kept (d : delta) (chA : items) (l : list (Z * range)) : items :=
  filter (fun kd => negb (smem (fst kd) (d_del d))) (map (fun kr => (fst kr, data_of chA (fst kr))) l).
Definition ndel (d : delta) (l : list (Z * range)) : nat :=
  length (filter (fun kr : Z * range => smem (fst kr) (d_del d)) l).

Lemma kept_cons d chA k r l :
  kept d chA ((k, r) :: l) = if smem k (d_del d) then kept d chA l else (k, data_of chA k) :: kept d chA l.
Proof. unfold kept. cbn [map filter fst]. destruct (smem k (d_del d)); reflexivity. Qed.

Lemma ndel_cons d k r l :
  ndel d ((k, r) :: l) = if smem k (d_del d) then Datatypes.S (ndel d l) else ndel d l.
Proof. unfold ndel. cbn [filter fst]. destruct (smem k (d_del d)); reflexivity. Qed.

(* one round of the copy loop: a deleted item is counted, any other is appended *)
Lemma rwd_copy_round fbuf d k r t S n data :
  (forall E, @slice E fbuf r = Ok data) -> is_i32 k = true -> aget k (rs_offs S) = None ->
  rwd_copy fbuf d ((k, r) :: t) S n =
  if smem k (d_del d) then rwd_copy fbuf d t S (Datatypes.S n)
  else if fits S (length data) then rwd_copy fbuf d t (pushed S k data) n
  else Err (if MAX_SNAPSHOT_ITEMS <? Z.of_nat (length (rs_offs S)) + 1 then TooManyItems else TooLongSnap).
Proof.
  intros Hs Hk Hn. cbn [rwd_copy]. rewrite Hs. cbn [bind]. rewrite (key_split k Hk).
  destruct (smem k (d_del d)); [reflexivity|]. destruct (fits S (length data)) eqn:Hf.
  - destruct (push_steps S k data Hn Hf) as (S1 & ro & E1 & _ & _ & E3 & E4).
    rewrite E1. cbn [bind]. rewrite E3. cbn [bind]. rewrite E4. reflexivity.
  - rewrite (prepare_item_vacant _ _ _ Hn), Hf. reflexivity.
Qed.

Lemma rwd_copy_spec A chA d : rep A chA -> keys_i32 A ->
  forall l S ch n, incl l (rs_offs A) -> rep S ch ->
  sortedb (map fst (rs_offs S) ++ map fst l) = true ->
  lim_ok (ch ++ kept d chA l) ->
  exists S', rwd_copy (rs_buf A) d l S n = Ok (S', (n + ndel d l)%nat) /\ rep S' (ch ++ kept d chA l).
Proof.
  intros HA IA. induction l as [|[k r] l IH]; intros S ch n Hincl HS Hs Hlim.
  - exists S. cbn [rwd_copy kept ndel map filter length]. rewrite Nat.add_0_r, app_nil_r. split; [reflexivity|exact HS].
  - apply incl_cons_inv in Hincl. destruct Hincl as [Hin Hincl].
    destruct (rep_in _ _ _ _ HA Hin) as (dd & Hd & _ & Hsl).
    cbn [map fst] in Hs. destruct (sortedb_mid _ _ _ Hs) as [Hlt Hs'].
    assert (Hnone : aget k (rs_offs S) = None) by (apply aget_none; intros Hi; apply Hlt in Hi; lia).
    rewrite (rwd_copy_round _ d k r l S n dd Hsl (keys_i32_in _ _ _ IA Hin) Hnone).
    rewrite kept_cons in *. rewrite ndel_cons. rewrite (data_of_some _ _ _ Hd) in *.
    destruct (smem k (d_del d)).
    + destruct (IH S ch (Datatypes.S n) Hincl HS Hs' Hlim) as (S' & E & R).
      exists S'. rewrite E, Nat.add_succ_comm. split; [reflexivity|exact R].
    + rewrite app_cons_snoc in *. rewrite (fits_of_lim _ _ _ _ HS (lim_ok_prefix _ _ Hlim)).
      apply IH; [exact Hincl|apply rep_pushed; assumption| |exact Hlim].
      cbn [pushed rs_offs]. rewrite ains_keys, sins_last, <- app_assoc by exact Hlt. exact Hs.
Qed.

(* what create_item_delta subtracts, apply_item_delta adds back *)
Lemma apply_diff chA k dB :
  (forall f, aget k chA = Some f -> length f = length dB /\ forallb is_i32 f = true) ->
  forallb is_i32 dB = true ->
  apply_item_delta (aget k chA) (diff_of chA (k, dB)) (length dB) = Ok dB.
Proof.
  intros Hf HdB. unfold apply_item_delta, diff_of. cbn [fst snd]. destruct (aget k chA) as [f|].
  - destruct (Hf f eq_refl) as [Hl Hi]. rewrite zip_with_length by (symmetry; exact Hl).
    rewrite Hl, Nat.eqb_refl. cbn [negb]. f_equal. apply zip_add_sub; assumption.
  - rewrite Nat.eqb_refl. reflexivity.
Qed.

Section Update.
  Variables (A B : rawsnap) (chA chB : items).
  Hypothesis HA : rep A chA.
  Hypothesis HB : rep B chB.
  Hypothesis Hsl : same_len chA chB.
  Hypothesis HbA : forallb is_i32 (rs_buf A) = true.
  Hypothesis HbB : forallb is_i32 (rs_buf B) = true.
  Hypothesis HlimB : lim_ok chB.

  (* every item has the length it has in the target: what keeps the snapshot under
     construction within the limits the target meets *)
  Definition within (ch : items) : Prop :=
    forall k d, aget k ch = Some d -> exists dB, aget k chB = Some dB /\ length d = length dB.

  Lemma within_lim ch : NoDup (map fst ch) -> within ch -> lim_ok ch.
  Proof.
    intros Hnd Hw. apply (lim_ok_weight _ chB); [|exact HlimB]. apply weight_le; [exact Hnd|].
    intros k d Hin. apply Hw, in_aget; assumption.
  Qed.

  Lemma within_room ch k dB d : NoDup (map fst ch) -> within ch ->
    aget k ch = None -> aget k chB = Some dB -> length d = length dB -> lim_ok (ch ++ [(k, d)]).
  Proof.
    intros Hnd Hw Hn HkB Hl. apply within_lim.
    - rewrite map_app. apply NoDup_app_one; [exact Hnd|apply aget_none, Hn].
    - intros k' d' Hg. destruct (aget_snoc_inv _ _ _ _ _ Hg) as [Hg'|[-> ->]]; [apply (Hw k' d' Hg')|eauto].
  Qed.

  Lemma within_store ch ch2 k dB : within ch -> aget k chB = Some dB ->
    (forall k', aget k' ch2 = if k' =? k then Some dB else aget k' ch) -> within ch2.
  Proof.
    intros Hw HkB L k' d Hg. rewrite L in Hg. destruct (Z.eqb_spec k' k) as [->|]; [|apply (Hw k' d Hg)].
    injection Hg as <-. eauto.
  Qed.

  Variable dbuf : list Z.

  (* an update entry whose data in `dbuf` is the difference between A's item and B's *)
  Definition sliced (kr : Z * range) : Prop :=
    exists dB, aget (fst kr) chB = Some dB /\ is_i32 (fst kr) = true
      /\ forall E, @slice E dbuf (snd kr) = Ok (diff_of chA (fst kr, dB)).

  (* one round of the loop stores B's item under its key, whatever the target held there:
     the data is computed from A's item, the target only supplies the room *)
  Lemma rwd_update_store k r todo S ch dB :
    aget k chB = Some dB -> is_i32 k = true -> (forall E, @slice E dbuf r = Ok (diff_of chA (k, dB))) ->
    rep S ch -> within ch ->
    exists S2 ch2, rwd_update A dbuf ((k, r) :: todo) S = rwd_update A dbuf todo S2
      /\ rep S2 ch2 /\ (forall k', aget k' ch2 = if k' =? k then Some dB else aget k' ch).
  Proof.
    intros HkB Hki Hslice HS Hw. set (df := diff_of chA (k, dB)) in *.
    assert (Hdl : length df = length dB) by (apply diff_len; intros f Hf; apply (Hsl k f dB Hf HkB)).
    assert (Hout : apply_item_delta (aget k chA) df (length dB) = Ok dB).
    { apply apply_diff.
      - intros f Hf. split; [apply (Hsl k f dB Hf HkB)|]. rewrite (rep_buf _ _ HA) in HbA. apply (flat_i32 chA k f HbA Hf).
      - rewrite (rep_buf _ _ HB) in HbB. apply (flat_i32 chB k dB HbB HkB). }
    cbn [rwd_update]. rewrite Hslice. cbn [bind]. rewrite (raw_item_rep A chA) by exact HA. rewrite !(key_split k Hki).
    destruct (aget k ch) as [f|] eqn:Hch.
    - destruct (Hw k f Hch) as (dB' & HkB' & Hfl). rewrite HkB in HkB'. injection HkB' as <-.
      destruct (rep_get_some _ _ _ _ HS Hch) as (r0 & Hr & Hrl & Hrs).
      unfold prepare_item. rewrite Hr. cbn [bind]. rewrite Hrs. cbn [bind].
      rewrite Hrl, Hfl, <- Hdl, Nat.eqb_refl. cbn [negb bind]. rewrite Hdl, Hout. cbn [bind].
      destruct (rep_write S ch k r0 dB HS Hr) as (buf' & Ew & Rw); [lia|].
      rewrite Ew. cbn [bind]. eexists _, _. split; [reflexivity|]. split; [exact Rw|].
      intros k'. destruct (Z.eqb_spec k' k) as [->|Hne]; [|apply aget_aset_other, Hne].
      apply aget_aset_same, aget_some_in. eauto.
    - assert (Hnone : aget k (rs_offs S) = None) by (apply (rep_get_none _ _ _ HS), Hch).
      pose proof (fits_of_lim _ _ _ _ HS (within_room ch k dB dB (rep_nodup _ _ HS) Hw Hch HkB eq_refl)) as Hfit.
      rewrite <- Hdl in Hfit.
      destruct (reserve_steps S k (length df) Hnone Hfit) as (S1 & ro & E1 & E2 & E3 & E4).
      rewrite E1. cbn [bind]. destruct (E2 serr) as [z Ez]. rewrite Ez. cbn [bind].
      rewrite E3, Nat.eqb_refl. cbn [negb bind]. rewrite Hdl, Hout. cbn [bind].
      destruct (E4 dB (eq_sym Hdl)) as [Ew Eo]. rewrite Ew. cbn [bind]. rewrite Eo.
      change {| rs_offs := rs_offs (pushed S k dB); rs_buf := rs_buf (pushed S k dB) |} with (pushed S k dB).
      eexists _, _. split; [reflexivity|]. split; [exact (rep_pushed _ _ _ _ HS Hnone)|].
      intros k'. rewrite aget_app. cbn [aget].
      destruct (Z.eqb_spec k' k) as [->|]; [rewrite Hch; reflexivity|destruct (aget k' ch); reflexivity].
  Qed.

  Lemma rwd_update_stores : forall todo S ch, Forall sliced todo -> rep S ch -> within ch ->
    exists S' ch', rwd_update A dbuf todo S = Ok S' /\ rep S' ch'
      /\ (forall k, aget k ch' = if smem k (map fst todo) then aget k chB else aget k ch).
  Proof.
    induction todo as [|[k r] todo IH]; intros S ch Hall HS Hw.
    - exists S, ch. auto.
    - inversion Hall as [|? ? (dB & HkB & Hki & Hs) Hall']; subst. cbn [fst snd] in *.
      destruct (rwd_update_store k r todo S ch dB HkB Hki Hs HS Hw) as (S2 & ch2 & -> & R2 & L2).
      destruct (IH S2 ch2 Hall' R2 (within_store ch ch2 k dB Hw HkB L2)) as (S' & ch' & E & R & L).
      exists S', ch'. split; [exact E|split; [exact R|]]. intros k'. rewrite L, L2. cbn [map fst smem].
      destruct (Z.eqb_spec k' k) as [->|]; [rewrite HkB; destruct (smem k (map fst todo))|]; reflexivity.
  Qed.
End Update.

Lemma crc_view S ch : rep S ch -> crc S = wrap (zsum (flat (view S ch))).
Proof. intros H. rewrite crc_zsum, (rep_buf _ _ H). f_equal. symmetry. apply zsum_flat_perm, view_perm, H. Qed.

Theorem same_lookups S ch S' ch' : rep S ch -> rep S' ch' -> (forall k, aget k ch = aget k ch') ->
  view S ch = view S' ch' /\ crc S = crc S' /\ map fst (rs_offs S) = map fst (rs_offs S').
Proof.
  intros H H' Heq.
  assert (Hk : map fst (rs_offs S) = map fst (rs_offs S')).
  { apply sortedb_ext; [apply (rep_sorted _ _ H)|apply (rep_sorted _ _ H')|].
    intros k. rewrite (rep_in_keys _ _ _ H), (rep_in_keys _ _ _ H'), Heq. tauto. }
  assert (Hv : view S ch = view S' ch').
  { rewrite !view_as_map, Hk. apply map_ext. intros k. unfold data_of. rewrite Heq. reflexivity. }
  split; [exact Hv|split; [|exact Hk]]. rewrite (crc_view _ _ H), (crc_view _ _ H'), Hv. reflexivity.
Qed.

(* read_with_delta on any delta that describes B relative to A: it deletes exactly the keys of A
   that B lacks, its updates are differences to B's items, and what it does not update is equal
   in A and B *)
Theorem apply_delta A B chA chB d :
  rep A chA -> rep B chB -> keys_i32 A ->
  forallb is_i32 (rs_buf A) = true -> forallb is_i32 (rs_buf B) = true ->
  lim_ok chB -> same_len chA chB ->
  (forall k, smem k (d_del d) = true <-> In k (map fst (rs_offs A)) /\ absent chB k = true) ->
  length (d_del d) = length (filter (absent chB) (map fst (rs_offs A))) ->
  Forall (sliced chA chB (d_buf d)) (d_upd d) ->
  (forall k dB, aget k chB = Some dB -> ~ In k (map fst (d_upd d)) -> aget k chA = Some dB) ->
  exists B' ch', raw_read_with_delta A d = (Ok B', [])
    /\ rep B' ch' /\ (forall k, aget k ch' = aget k chB).
Proof.
  intros HA HB IA HbA HbB Hlim Hsl Hdel Hlen Hupd Hsame.
  assert (Hdel' : forall k, In k (map fst (rs_offs A)) -> smem k (d_del d) = absent chB k).
  { intros k Hin. apply eq_true_iff_eq. rewrite Hdel. tauto. }
  assert (Hkept : kept d chA (rs_offs A) = filter (fun kd => negb (absent chB (fst kd))) (view A chA)).
  { apply filter_ext_in. intros [k dd] Hin. cbn [fst]. rewrite Hdel'; [reflexivity|].
    rewrite <- (view_keys A chA). apply (in_map fst _ _ Hin). }
  assert (Hget : forall k, aget k (kept d chA (rs_offs A)) = if absent chB k then None else aget k chA).
  { intros k. rewrite Hkept, (aget_filter (fun k => negb (absent chB k))), (aget_view A chA k HA).
    destruct (absent chB k); reflexivity. }
  assert (Hnd : NoDup (map fst (kept d chA (rs_offs A)))).
  { rewrite Hkept, (filter_map_fst (fun k => negb (absent chB k))), view_keys.
    apply NoDup_filter, (rep_nodup_offs _ _ HA). }
  assert (Hw : within chB (kept d chA (rs_offs A))).
  { intros k dd Hg. rewrite Hget in Hg. unfold absent in Hg. destruct (aget k chB) as [dB|] eqn:HkB; [|discriminate].
    exists dB. split; [reflexivity|apply (Hsl k dd dB Hg HkB)]. }
  assert (Hndel : ndel d (rs_offs A) = length (d_del d)).
  { rewrite Hlen. unfold ndel. rewrite (filter_ext_in _ (fun kr => absent chB (fst kr))).
    - rewrite <- (map_length fst), (filter_map_fst (absent chB)). reflexivity.
    - intros [k r] Hin. apply Hdel', (in_map fst _ _ Hin). }
  destruct (rwd_copy_spec A chA d HA IA (rs_offs A) raw_empty [] 0%nat (incl_refl _) rep_empty) as (S1 & E1 & R1);
    [apply (rep_sorted _ _ HA)|apply (within_lim chB Hlim _ Hnd Hw)|].
  destruct (rwd_update_stores A B chA chB HA HB Hsl HbA HbB Hlim (d_buf d) (d_upd d) S1 _ Hupd R1 Hw) as (S' & ch' & E2 & R2 & L2).
  exists S', ch'. split; [|split; [exact R2|]].
  - unfold raw_read_with_delta. rewrite E1. cbn [wlift wbind Nat.add]. rewrite Hndel, Nat.eqb_refl.
    cbn [negb wret wbind app]. rewrite E2. reflexivity.
  - intros k. rewrite L2. destruct (smem k (map fst (d_upd d))) eqn:Hm; [reflexivity|]. rewrite Hget.
    unfold absent. destruct (aget k chB) as [dB|] eqn:HkB; [|reflexivity].
    apply (Hsame k dB HkB). rewrite <- smem_in, Hm. discriminate.
Qed.

Theorem apply_created A B chA chB :
  rep A chA -> rep B chB -> keys_i32 A -> keys_i32 B ->
  forallb is_i32 (rs_buf A) = true -> forallb is_i32 (rs_buf B) = true ->
  lim_ok chB -> same_len chA chB ->
  exists B' ch', raw_read_with_delta A (created A B chA chB) = (Ok B', [])
    /\ rep B' ch' /\ (forall k, aget k ch' = aget k chB).
Proof.
  intros HA HB IA IB HbA HbB Hlim Hsl.
  assert (Hkeys : map fst (d_upd (created A B chA chB)) = map fst (rs_offs B)).
  { cbn [created d_upd]. rewrite ranges_of_keys, diffs_keys. apply view_keys. }
  apply (apply_delta A B chA chB); try assumption.
  - intros k. rewrite smem_in. cbn [created d_del]. rewrite filter_In. tauto.
  - reflexivity.
  - apply Forall_forall. intros [k r] Hin. destruct (ranges_of_slice _ _ _ Hin) as (df & Hdf & Hs).
    destruct (in_diffs _ _ _ _ Hdf) as (dB & HvB & ->).
    exists dB. split; [apply (in_view B chB k dB HB HvB)|]. split; [apply (view_i32 B chB IB _ HvB)|exact Hs].
  - intros k dB HkB Hni. exfalso. apply Hni. rewrite Hkeys. apply (rep_in_keys _ _ _ HB). congruence.
Qed.
