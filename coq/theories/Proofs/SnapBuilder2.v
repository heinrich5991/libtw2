(* The builder's snapshots are consistent: build_from_raw recomputes exactly their registry,
   without a warning (C10). *)
From LibTw2 Require Import Base.Res Model.Varint Model.Packer Model.Snap Proofs.VarintArith Proofs.SnapBase Proofs.SnapRep Proofs.SnapDelta
  Proofs.SnapApply Proofs.SnapOk Proofs.SnapTotal Proofs.SnapTotal2 Proofs.SnapC09 Proofs.SnapSer Proofs.SnapReg
  Proofs.SnapObs Proofs.SnapBuilder.
From Coq Require Import ZArith List Lia Bool Permutation.
Import ListNotations.
Open Scope Z_scope.

Lemma uuid_roundtrip u : uuid_okb u = true -> item_data_to_uuid (uuid_to_item_data u) = (Some u, []).
Proof.
  unfold uuid_okb. rewrite andb_true_iff, Z.leb_le, Z.ltb_lt. intros [H0 H1].
  unfold item_data_to_uuid, uuid_to_item_data, uuid_word. cbn [length firstn Nat.ltb Nat.leb].
  change (96 - 32 * 0) with 96. change (96 - 32 * 1) with 64. change (96 - 32 * 2) with 32. change (96 - 32 * 3) with 0.
  rewrite !u32_of_i32_of by (apply Z.mod_pos_bound; reflexivity).
  f_equal. f_equal. unfold two32. change (2 ^ 128) with 340282366920938463463374607431768211456 in H1.
  change (2 ^ 96) with 79228162514264337593543950336. change (2 ^ 64) with 18446744073709551616.
  change (2 ^ 32) with 4294967296. change (2 ^ 0) with 1. Z.div_mod_to_equations. lia.
Qed.

Lemma bstate_ext_ok ch ext next : bstate ch ext next -> next <= 32768 -> ext_ok ch ext.
Proof.
  intros B Hn. split; [apply (bs_sorted _ _ _ B)| |apply (bs_inj _ _ _ B)].
  intros u t Hu. destruct (bs_entry _ _ _ B u t Hu) as (H1 & H2 & H3). split; [apply reg_ok_iff; lia|].
  exists (uuid_to_item_data u). split; [exact H3|]. unfold uuid_of. rewrite (uuid_roundtrip u H2). split; [reflexivity|cbn; lia].
Qed.

Lemma bfr_abs_clean ch has ext next : (forall k, has k = match aget k ch with Some _ => true | None => false end) ->
  bstate ch ext next -> next <= 32768 ->
  forall v ext0,
  (forall k d, In (k, d) v -> aget k ch = Some d /\ is_i32 k = true) -> NoDup (map fst v) ->
  sortedb (map fst ext0) = true ->
  (forall u t, aget u ext0 = Some t -> aget u ext = Some t /\ ~ In (key TYPE_ID_EX t) (map fst v)) ->
  exists ext1, bfr_abs has v ext0 None = (Ok ext1, []) /\ sortedb (map fst ext1) = true
    /\ (forall u t, aget u ext1 = Some t -> aget u ext = Some t)
    /\ (forall u t, aget u ext0 = Some t -> aget u ext1 = Some t)
    /\ (forall k d, In (k, d) (filter is_reg v) ->
          exists u, aget u ext = Some (key_to_id k) /\ aget u ext1 = Some (key_to_id k)).
Proof.
  intros Hhas B Hnext. induction v as [|[k d] v IH]; intros ext0 Hv Hnd Hs0 Hsub.
  - exists ext0. split; [reflexivity|]. split; [exact Hs0|]. split; [intros u t H; apply (Hsub u t H)|]. split; [auto|intros ? ? []].
  - inversion Hnd as [|? ? Hk Hnd']; subst.
    assert (Hv' : forall k0 d0, In (k0, d0) v -> aget k0 ch = Some d0 /\ is_i32 k0 = true) by (intros; apply Hv; right; assumption).
    destruct (Hv k d (or_introl eq_refl)) as [Hkd Hki].
    assert (Hsub' : forall u t, aget u ext0 = Some t -> aget u ext = Some t /\ ~ In (key TYPE_ID_EX t) (map fst v)).
    { intros u t Hu. destruct (Hsub u t Hu) as [H1 H2]. split; [exact H1|]. intros Hin. apply H2. right. exact Hin. }
    cbn [bfr_abs filter]. unfold is_reg at 1. cbn [fst].
    destruct (Z.eqb_spec (key_to_raw_type_id k) TYPE_ID_EX) as [Ht|Ht].
    + assert (Hk0 : key TYPE_ID_EX (key_to_id k) = k) by (rewrite <- Ht; apply key_split, Hki).
      destruct (bs_reg _ _ _ B k d Hkd Ht) as [u Hu]. destruct (bs_entry _ _ _ B u _ Hu) as (Hr & Hok & Hw).
      rewrite Hk0, Hkd in Hw. injection Hw as ->. rewrite (uuid_roundtrip u Hok). unfold wbind at 1.
      replace (reg_ok (key_to_id k)) with true by (symmetry; apply reg_ok_iff; lia). cbn [negb].
      assert (Hu0 : aget u ext0 = None).
      { destruct (aget u ext0) as [t'|] eqn:E; [|reflexivity]. exfalso. destruct (Hsub u t' E) as [H1 H2].
        rewrite Hu in H1. injection H1 as <-. apply H2. left. cbn [fst]. symmetry. exact Hk0. }
      rewrite Hu0.
      destruct (IH (ains u (key_to_id k) ext0) Hv' Hnd') as (ext1 & E1 & S1 & A1 & A2 & A3).
      * apply ains_sorted, Hs0.
      * intros u' t' Hu'. destruct (Z.eq_dec u' u) as [->|Hne].
        -- rewrite aget_ains_same in Hu'. injection Hu' as <-. split; [exact Hu|]. rewrite Hk0. exact Hk.
        -- rewrite aget_ains_other in Hu' by exact Hne. apply (Hsub' u' t' Hu').
      * exists ext1. rewrite E1. split; [reflexivity|]. split; [exact S1|]. split; [exact A1|]. split.
        -- intros u' t' Hu'. apply A2. destruct (Z.eq_dec u' u) as [->|Hne]; [congruence|]. rewrite aget_ains_other by exact Hne. exact Hu'.
        -- intros k' d' [E|Hin]; [|apply (A3 k' d' Hin)]. injection E as <- <-. exists u. split; [exact Hu|]. apply A2, aget_ains_same.
    + destruct (Z.leb_spec OFFSET_EXTENDED_TYPE_ID (key_to_raw_type_id k)) as [Hge|Hlt]; [|apply IH; assumption].
      destruct (bs_high _ _ _ B k d Hkd Hge) as [u Hu]. destruct (bs_entry _ _ _ B u _ Hu) as (_ & _ & Hw).
      assert (Hh : has (key TYPE_ID_EX (key_to_raw_type_id k)) = true) by (rewrite Hhas, Hw; reflexivity).
      rewrite Hh, bfr_abs_prev by (intros p [= <-]; exact Hh). apply IH; assumption.
Qed.

Theorem builder_consistent b : bgood b ->
  build_from_raw (sn_raw (b_snap b)) = (Ok (b_snap b), []) /\ sgood (b_snap b).
Proof.
  intros G. destruct (bg_st _ G) as (ch & HR & B). pose proof (bg_raw _ G) as GR. pose proof (bg_next _ G) as Hn.
  assert (E : build_from_raw (sn_raw (b_snap b)) = (Ok (b_snap b), [])).
  { rewrite (build_from_raw_abs _ ch HR).
    destruct (bfr_abs_clean ch (has_key (sn_raw (b_snap b))) (sn_ext (b_snap b)) (b_next b)
                (fun k => has_key_lookup _ ch k HR) B (proj2 Hn) (view (sn_raw (b_snap b)) ch) []) as (ext1 & E1 & S1 & A1 & _ & A3).
    - intros k d Hin. split; [apply (in_view _ ch k d HR Hin)|apply (view_i32 _ ch (g_keys _ GR) (k, d) Hin)].
    - rewrite view_keys. apply rep_nodup_offs with ch, HR.
    - reflexivity.
    - intros ? ? H; discriminate.
    - rewrite E1. rewrite wbind_ok'. unfold wret. f_equal. f_equal.
      assert (ext1 = sn_ext (b_snap b)).
      { apply amap_ext; [exact S1|apply (bs_sorted _ _ _ B)|]. intros u.
        destruct (aget u ext1) as [t|] eqn:E.
        - symmetry. apply A1, E.
        - destruct (aget u (sn_ext (b_snap b))) as [t|] eqn:Eu; [|reflexivity]. exfalso.
          destruct (bs_entry _ _ _ B u t Eu) as (Hr & _ & Hw).
          assert (Hin : In (key TYPE_ID_EX t, uuid_to_item_data u) (view (sn_raw (b_snap b)) ch)).
          { apply aget_in. rewrite (aget_view _ ch _ HR). exact Hw. }
          destruct (A3 (key TYPE_ID_EX t) (uuid_to_item_data u)) as (u' & Hu' & Hu1').
          { apply filter_In. split; [exact Hin|]. unfold is_reg. cbn [fst]. rewrite key_to_ty_key by (unfold TYPE_ID_EX; lia). reflexivity. }
          rewrite key_to_id_key in Hu', Hu1' by (unfold TYPE_ID_EX; lia).
          assert (u' = u) by (apply (bs_inj _ _ _ B u' u t Hu' Eu)). subst u'. congruence. }
      subst ext1. destruct (b_snap b). reflexivity. }
  split; [exact E|]. pose proof (build_from_raw_good _ GR) as W. unfold wpost in W. rewrite E in W. exact W.
Qed.
