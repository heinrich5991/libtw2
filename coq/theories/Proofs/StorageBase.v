(* C13, helpers: the list operations of Model/Storage.v (split_old / last_opt / remove_last /
   push_free / remove_nth) keep membership inside what was there; Storage::add_delta case by case;
   the clauses of manager.rs about the acknowledged tick (by case analysis of manager_feed); a run
   together with its API check. *)
From LibTw2 Require Import Base.Res Model.Varint Model.Snap Model.Storage.
From LibTw2 Require Model.Receiver.
From Coq Require Import ZArith List Lia Bool.
Import ListNotations.
Open Scope Z_scope.

Lemma split_old_incl dt l : forall k d, split_old dt l = (k, d) -> incl k l /\ incl d l.
Proof.
  induction l as [|[t s] l IH]; intros k d H; cbn [split_old] in H.
  - injection H as <- <-. split; apply incl_refl.
  - destruct (t <? dt).
    + injection H as <- <-. split; [intros x []|apply incl_refl].
    + destruct (split_old dt l) as [k' d'] eqn:E. injection H as <- <-.
      destruct (IH k' d' eq_refl) as [H1 H2]. split.
      * intros x [<-|Hx]; [left; reflexivity|right; apply H1, Hx].
      * intros x Hx. right. apply H2, Hx.
Qed.

Lemma last_opt_In {A} (l : list A) a : last_opt l = Some a -> In a l.
Proof.
  induction l as [|x l IH]; [discriminate|]. cbn [last_opt]. destruct l as [|y l].
  - intros [= <-]. left. reflexivity.
  - intros H. right. apply IH, H.
Qed.

Lemma last_opt_cons {A} (x : A) l : l <> [] -> last_opt (x :: l) = last_opt l.
Proof. destruct l; [contradiction|reflexivity]. Qed.

Lemma last_opt_some {A} (l : list A) : l <> [] -> exists a, last_opt l = Some a.
Proof.
  induction l as [|x l IH]; [contradiction|]. intros _. destruct l as [|y l].
  - exists x. reflexivity.
  - destruct (IH ltac:(discriminate)) as [a Ha]. exists a. exact Ha.
Qed.

Lemma remove_last_head {A} (x y : A) l : remove_last (x :: y :: l) = x :: remove_last (y :: l).
Proof. reflexivity. Qed.

Lemma remove_last_incl {A} (l : list A) : incl (remove_last l) l.
Proof.
  induction l as [|x l IH]; [apply incl_refl|]. cbn [remove_last]. destruct l as [|y l].
  - intros z [].
  - intros z [<-|Hz]; [left; reflexivity|right; apply IH, Hz].
Qed.

Lemma push_free_In d : forall free f, In f (push_free d free) ->
  In f free \/ exists t X, In (t, X) d /\ f = FClean X.
Proof.
  unfold push_free. induction d as [|[t X] d IH]; intros free f H; cbn [fold_left] in H; [left; exact H|].
  apply IH in H. destruct H as [[<-|H]|(t' & X' & Hin & ->)].
  - right. exists t, X. split; [left; reflexivity|reflexivity].
  - left. exact H.
  - right. exists t', X'. split; [right; exact Hin|reflexivity].
Qed.

Lemma remove_nth_incl {A} k : forall l : list A, incl (remove_nth k l) l.
Proof.
  induction k as [|k IH]; intros [|x l]; cbn [remove_nth]; try apply incl_refl.
  - intros z Hz. right. exact Hz.
  - intros z [<-|Hz]; [left; reflexivity|right; apply IH, Hz].
Qed.

Definition fine_out {E A} (r : res E A) : Prop := match r with Ok _ | Err _ => True | _ => False end.

Definition weird_warn (dt : Z) : list stwarn :=
  if (dt <? 0) && negb (dt =? -1) then [SWeirdNegativeDeltaTick] else [].

Lemma add_delta_cases st crc dt tick d :
  (tick <= front_tick st /\ add_delta st crc dt tick d = (st, (Err SOldDelta, [])))
  \/ front_tick st < tick /\ exists snaps1 free1, incl snaps1 (st_snaps st) /\
     ((0 <= dt /\ add_delta st crc dt tick d
                  = ({| st_snaps := snaps1; st_free := free1; st_ack := None; st_dtick := st_dtick st |},
                     (Err SUnknownSnap, [])))
      \/ exists b, (if 0 <=? dt then In (dt, b) snaps1 else b = snap_empty) /\
         match snap_read_with_delta b d with
         | (Ok X, ws) =>
           if match crc with Some c => negb (c =? Snap.crc (sn_raw X)) | None => false end
           then exists free', add_delta st crc dt tick d
                  = ({| st_snaps := snaps1; st_free := free'; st_ack := None; st_dtick := st_dtick st |},
                     (Err SInvalidCrc, weird_warn dt ++ map SWUnpack ws))
           else exists st', add_delta st crc dt tick d = (st', (Ok X, weird_warn dt ++ map SWUnpack ws))
                  /\ st_ack st' = Some tick /\ (exists rest, st_snaps st' = (tick, X) :: rest)
                  /\ incl (st_snaps st') ((tick, X) :: snaps1)
         | (Err e, ws) => exists free', add_delta st crc dt tick d
                  = ({| st_snaps := snaps1; st_free := free'; st_ack := st_ack st; st_dtick := st_dtick st |},
                     (Err (SUnpack e), weird_warn dt ++ map SWUnpack ws))
         | (Panic p, ws) => add_delta st crc dt tick d = (st, (Panic p, weird_warn dt ++ map SWUnpack ws))
         | (OutOfFuel, ws) => add_delta st crc dt tick d = (st, (OutOfFuel, weird_warn dt ++ map SWUnpack ws))
         end).
Proof.
  unfold add_delta. fold (weird_warn dt).
  destruct (tick <=? front_tick st) eqn:Ef; [left; split; [lia|reflexivity]|right; split; [lia|]].
  set (tr := if 0 <=? dt then _ else _).
  assert (Htr : incl (fst (fst tr)) (st_snaps st)
                /\ match snd tr with
                   | Some b => if 0 <=? dt then In (dt, b) (fst (fst tr)) else b = snap_empty
                   | None => 0 <= dt
                   end).
  { unfold tr. destruct (0 <=? dt) eqn:Edt; [|split; [apply incl_refl|reflexivity]].
    destruct (split_old dt (st_snaps st)) as [kept old] eqn:Es. cbn [fst snd].
    split; [apply (split_old_incl _ _ _ _ Es)|].
    destruct (last_opt kept) as [[t b]|] eqn:El; [destruct (t =? dt) eqn:Et|]; try lia.
    apply last_opt_In in El. replace dt with t by lia. exact El. }
  clearbody tr. destruct tr as [[snaps1 free1] [b|]]; cbn [fst snd] in Htr; destruct Htr as [Hincl Hb];
    exists snaps1, free1; (split; [exact Hincl|]); [right|left; split; [exact Hb|reflexivity]].
  exists b. split; [exact Hb|].
  destruct (match free1 with [] => [FClean snap_empty] | _ :: _ => free1 end) as [|f0 fr] eqn:Ef2;
    [destruct free1; discriminate|].
  destruct (snap_read_with_delta b d) as [[X|e|p|] ws]; [|eexists; reflexivity|reflexivity|reflexivity].
  destruct (match crc with Some c => negb (c =? Snap.crc (sn_raw X)) | None => false end); [eexists; reflexivity|].
  destruct (MAX_STORED_SNAPSHOT <? zlen ((tick, X) :: snaps1)) eqn:Ecap.
  - destruct (last_opt_some ((tick, X) :: snaps1)) as [[tl sl] ->]; [discriminate|].
    eexists. split; [reflexivity|]. cbn [st_ack st_snaps]. split; [reflexivity|]. split; [|apply remove_last_incl].
    destruct snaps1; [discriminate|]. eexists. reflexivity.
  - eexists. split; [reflexivity|]. split; [reflexivity|]. split; [eexists; reflexivity|apply incl_refl].
Qed.

Definition clears_ack (e : merr) : bool :=
  match e with
  | MStorage SUnknownSnap | MStorage SInvalidCrc => true
  | _ => false
  end.

Lemma add_delta_ack st crc dt tick d st' r ws : add_delta st crc dt tick d = (st', (r, ws)) ->
  match r with
  | Ok X => st_ack st' = Some tick /\ exists rest, st_snaps st' = (tick, X) :: rest
  | Err SOldDelta => st' = st
  | Err (SUnpack _) => st_ack st' = st_ack st
  | Err _ => st_ack st' = None
  | _ => True
  end.
Proof.
  destruct (add_delta_cases st crc dt tick d) as [[_ ->]|(_ & snaps1 & free1 & _ & [[_ ->]|(b & _ & H)])];
    try (intros [= <- <- _]; reflexivity).
  destruct (snap_read_with_delta b d) as [[X|e0|p|] wsr].
  - destruct (match crc with Some c => negb (c =? Snap.crc (sn_raw X)) | None => false end).
    + destruct H as [free' ->]. intros [= <- <- _]. reflexivity.
    + destruct H as (st1 & -> & Hack & Hsn & _). intros [= <- <- _]. split; assumption.
  - destruct H as [free' ->]. intros [= <- <- _]. reflexivity.
  - rewrite H. intros [= _ <- _]. exact I.
  - rewrite H. intros [= _ <- _]. exact I.
Qed.

Lemma mgr_add_delta_inv sz st rd st' r ws : mgr_add_delta sz st rd = (st', (r, ws)) ->
  (st' = st /\ match r with Ok _ | Err (MStorage _) => False | _ => True end)
  \/ exists crc d r0 ws0,
       add_delta st crc (Receiver.rd_delta_tick rd) (Receiver.rd_tick rd) d = (st', (r0, ws0)) /\ r = lift_st r0.
Proof.
  unfold mgr_add_delta. destruct (Receiver.rd_data_and_crc rd) as [[data crc]|].
  - destruct (delta_read_bytes sz data) as [[d|e0|s0|] wsd]; try (intros [= <- <- _]; left; split; [reflexivity|exact I]).
    destruct (add_delta st (Some crc) _ _ d) as [st1 [r0 ws0]] eqn:E. intros [= <- <- _]. right. eexists _, _, _, _. split; [exact E|reflexivity].
  - destruct (add_delta st None _ _ delta_empty) as [st1 [r0 ws0]] eqn:E. intros [= <- <- _]. right. eexists _, _, _, _. split; [exact E|reflexivity].
Qed.

Lemma mgr_add_delta_ack sz st rd st' r ws : mgr_add_delta sz st rd = (st', (r, ws)) ->
  match r with
  | Ok X => exists t rest, st_ack st' = Some t /\ st_snaps st' = (t, X) :: rest
  | Err e => st_ack st' = if clears_ack e then None else st_ack st
  | _ => True
  end.
Proof.
  intros H. destruct (mgr_add_delta_inv _ _ _ _ _ _ H) as [[-> Hr]|(crc & d & r0 & ws0 & E & ->)].
  - destruct r as [X|[| |]| |]; try contradiction; reflexivity || exact I.
  - pose proof (add_delta_ack _ _ _ _ _ _ _ _ E) as Ha.
    destruct r0 as [X|[| | |]| |]; cbn [lift_st clears_ack]; try assumption; [|subst st'; reflexivity].
    destruct Ha as [H1 [rest H2]]. eauto.
Qed.

(* C13_error_no_advance, the exact clause: UnknownSnap and InvalidCrc clear the acknowledged tick;
   every other error (the receiver's, a delta that does not parse, OldDelta, a delta that does not
   apply) leaves it as it was *)
Theorem feed_error_ack sz m msg m' e ws : manager_feed sz m msg = (m', (Err e, ws)) ->
  (clears_ack e = true -> manager_ack m' = None) /\ (clears_ack e = false -> manager_ack m' = manager_ack m).
Proof.
  unfold manager_feed, manager_ack.
  destruct (Receiver.recv_step (m_recv m) msg) as [r' [res rws]].
  destruct res as [[rd|]|e0|s0|]; try discriminate.
  - destruct (mgr_add_delta sz (m_store m) rd) as [st' [r2 ws2]] eqn:E. apply mgr_add_delta_ack in E.
    destruct r2 as [X|e2|s2|]; intros H; try discriminate.
    injection H as <- <- _. cbn [m_store]. rewrite E. destruct (clears_ack e2); split; (reflexivity || discriminate).
  - intros [= <- <- _]. cbn [m_store clears_ack]. split; [discriminate|reflexivity].
Qed.

(* Ok(None): nothing but the DeltaReceiver changes.  Ok(Some(snap)): the acknowledged tick is the
   tick under which `snap` is now the newest stored snapshot. *)
Theorem feed_ok_ack sz m msg m' o ws : manager_feed sz m msg = (m', (Ok o, ws)) ->
  match o with
  | None => m_store m' = m_store m
  | Some X => exists t rest, manager_ack m' = Some t /\ st_snaps (m_store m') = (t, X) :: rest
  end.
Proof.
  unfold manager_feed, manager_ack.
  destruct (Receiver.recv_step (m_recv m) msg) as [r' [res rws]].
  destruct res as [[rd|]|e0|s0|]; try discriminate.
  - destruct (mgr_add_delta sz (m_store m) rd) as [st' [r2 ws2]] eqn:E. apply mgr_add_delta_ack in E.
    destruct r2 as [X|e2|s2|]; intros H; try discriminate. injection H as <- <- _. exact E.
  - intros [= <- <- _]. reflexivity.
Qed.

(* follows_api steps through the run anyway; this hands back the final state as well, so that a
   concrete trace is evaluated once *)
Fixpoint lrun_api (sz : osize) (s : link) (tr : list label) : bool * res unit link :=
  match tr with
  | [] => (true, Ok s)
  | l :: tr' =>
    match lstep sz s l with
    | Ok (s', _) => let (b, r) := lrun_api sz s' tr' in (api_ok sz s l && b, r)
    | Err e => (api_ok sz s l && true, Err e)
    | Panic p => (api_ok sz s l && true, Panic p)
    | OutOfFuel => (api_ok sz s l && true, OutOfFuel)
    end
  end.

Lemma lrun_api_spec sz tr : forall s,
  follows_api sz s tr = fst (lrun_api sz s tr) /\ lrun sz s tr = snd (lrun_api sz s tr).
Proof.
  induction tr as [|l tr IH]; intros s; [split; reflexivity|]. cbn [follows_api lrun lrun_api].
  destruct (lstep sz s l) as [[s' o]|e|p|]; try (split; reflexivity).
  cbn [bind]. destruct (IH s') as [-> ->]. destruct (lrun_api sz s' tr). split; reflexivity.
Qed.

