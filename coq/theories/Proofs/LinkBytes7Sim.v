(* C01 over bytes (0.7): the byte-level link (Model/LinkBytes7.v) and the abstract link
   (Model/Link7.v) run in lockstep. Every datagram in flight in an admissible run is one the
   connection layer emitted (dgram_ok, emit_wf7: it carries its tokens) and is made of bytes
   (wire_dgram7); the packet writer turns it into at most 1400 bytes which the packet reader
   turns back into the same value without a warning (Proofs/ConnBytes7.v); so feeding the bytes
   is feeding the value, and the byte-level link is the image of the abstract one under the
   writer (link_bytes_of7). Twin of Proofs/LinkBytes6Sim.v. *)
From LibTw2 Require Import Base.Res Model.PacketTypes Model.PacketBase Model.Packet7 Model.PacketInst
  Model.ConnCore Model.Conn7 Model.LinkGhost Model.Link7 Model.LinkBytes7
  Proofs.ConnCoreInv Proofs.Conn7Inv Proofs.Link7Inv
  Proofs.Packet7Write Proofs.Packet7Chunks Proofs.PacketInstProofs
  Proofs.ConnBytes7 Proofs.ConnFeedBytes7 Proofs.Conn7Emit Proofs.ConnInert
  Proofs.LinkBytes6Wire Proofs.LinkBytes7Wire.
From Coq Require Import ZArith Lia Bool List.
Open Scope Z_scope.

(* wire_dgram7 in the boolean form of Proofs/ConnBytes7.v *)
Lemma obytes_ok_of t : obytes t -> obytes_ok t = true.
Proof. destruct t; [intros H; exact H|reflexivity]. Qed.

Lemma wire_dgram7_bytes_ok d : wire_dgram7 d -> dgram_bytes_ok7 d = true.
Proof.
  destruct d as [t r pl|tok ack c|tok ack rr n cs]; cbn [wire_dgram7 dgram_bytes_ok7].
  - intros (H1 & H2 & H3). rewrite (obytes_ok_of _ H1), (obytes_ok_of _ H2), H3. reflexivity.
  - intros [H1 H2]. rewrite (obytes_ok_of _ H1). cbn [andb].
    destruct c as [|resp| | |r|r]; try reflexivity; try exact H2. apply obytes_ok_of, H2.
  - intros [H1 H2]. rewrite (obytes_ok_of _ H1). cbn [andb]. apply forallb_chunk_bytes, H2.
Qed.

Lemma abstract7_encode7 d p : encode7 d = Some p ->
  match d with
  | DChunks _ _ _ n cs =>
    exists cvs it', chunks_iter_all7 (flat_map chunk_enc7 cs) n = Ok (cvs, [], it') /\ map fst cvs = cs
  | _ => True
  end ->
  abstract7 p = d.
Proof.
  destruct d as [[t|] [r|] pl|[tok|] ack ctl|[tok|] ack rr n cs]; cbn [encode7]; intros He Hch; try discriminate.
  - injection He as <-. reflexivity.
  - destruct (ctl7_of ctl) as [c7|] eqn:Ec; [|discriminate]. injection He as <-.
    destruct ctl as [|[resp|]| | |reason|resp]; try discriminate Ec; injection Ec as <-; reflexivity.
  - injection He as <-. destruct Hch as (cvs & it' & Hit & Hmap).
    unfold abstract7. rewrite Hit, Hmap. reflexivity.
Qed.

(* the byte bag IS the abstract bag, datagram by datagram, through the writer *)
Definition wire_bytes7 (d : dgram) : bytes := match wire7 d with Ok bs => bs | _ => [] end.
Definition wire_flight_of7 (f : flight) : bflight7 :=
  {| bf7_bytes := wire_bytes7 (f_d f); bf7_n := f_n f; bf7_c := f_c f |}.

Definition emitted7 (d : dgram) : Prop := dgram_ok pp7 d /\ wire_dgram7 d /\ emit_wf7 d.

Lemma wire7_ok d : emitted7 d -> wire7 d = Ok (wire_bytes7 d) /\ (length (wire_bytes7 d) <= 1400)%nat.
Proof.
  intros (Hok & Hw & Hem). pose proof (emit_wf7_encodable d Hem) as [p He].
  pose proof (emitted_reads_back7 d p Hok (wire_dgram7_bytes_ok d Hw) (emit_wf7_tokens d Hem) He)
    as (out & Hwr & Hlen & _).
  unfold wire_bytes7, wire7. rewrite He, Hwr. split; [reflexivity|exact Hlen].
Qed.

Theorem wire_read7 d : emitted7 d ->
  exists p vs, read7_tw (wire_bytes7 d) 1400 = ([], Ok (p, vs)) /\ abstract7 p = d.
Proof.
  intros (Hok & Hw & Hem). pose proof (emit_wf7_encodable d Hem) as [p He].
  pose proof (emitted_reads_back7 d p Hok (wire_dgram7_bytes_ok d Hw) (emit_wf7_tokens d Hem) He)
    as (out & Hwr & _ & [views Hrd] & Hch).
  unfold wire_bytes7, wire7. rewrite He, Hwr.
  exists p, views. split; [exact Hrd|exact (abstract7_encode7 d p He Hch)].
Qed.

Theorem feed_bytes7_wire c e d : emitted7 d -> feed_bytes7 c e (wire_bytes7 d) = step7 c e (Op7Feed d).
Proof.
  intros Hd. pose proof (wire_read7 d Hd) as (p & vs & Hrd & Habs).
  unfold feed_bytes7. rewrite Hrd. cbn [snd]. rewrite Habs. reflexivity.
Qed.

Definition link_bytes_of7 (w : link7) : link_bytes7 :=
  {| kb7_a := k7_a w; kb7_b := k7_b w; kb7_ab := map wire_flight_of7 (k7_ab w);
     kb7_ba := map wire_flight_of7 (k7_ba w); kb7_now := k7_now w |}.

Lemma getb_of7 w s : getb7 (link_bytes_of7 w) s = get7 w s.
Proof. reflexivity. Qed.

Lemma bagb_of7 w s : bagb7 (link_bytes_of7 w) s = map wire_flight_of7 (bag7 w s).
Proof. destruct s; reflexivity. Qed.

Lemma set_sideb_of7 w s x fl :
  set_sideb7 (link_bytes_of7 w) s x (map wire_flight_of7 fl) = link_bytes_of7 (set_side7 w s x fl).
Proof. destruct s; unfold set_sideb7, set_side7, link_bytes_of7; cbn; rewrite map_app; reflexivity. Qed.

Lemma remove_nth7_map {A B} (f : A -> B) k : forall l, remove_nth7 k (map f l) = map f (remove_nth7 k l).
Proof. induction k as [|k IH]; intros [|x l]; cbn [remove_nth7 map]; try reflexivity. rewrite IH. reflexivity. Qed.

Definition wire_side7 (x : lside7) : Prop := wire_state7 (c7_state (l7_conn x)) /\ Forall bytesP (l7_rand x).
Definition wire_flight7 (f : flight) : Prop := emitted7 (f_d f).
Definition wire_inv7 (w : link7) : Prop :=
  wire_side7 (k7_a w) /\ wire_side7 (k7_b w) /\ Forall wire_flight7 (k7_ab w) /\ Forall wire_flight7 (k7_ba w).

Lemma wire_inv7_get w s : wire_inv7 w -> wire_side7 (get7 w s).
Proof. intros (Ha & Hb & _). destruct s; assumption. Qed.

Lemma wire_inv7_bag w s : wire_inv7 w -> Forall wire_flight7 (bag7 w s).
Proof. intros (_ & _ & Hab & Hba). destruct s; assumption. Qed.

Lemma set_side7_wire w s x fl : wire_inv7 w -> wire_side7 x -> Forall wire_flight7 fl ->
  wire_inv7 (set_side7 w s x fl).
Proof.
  intros (Ha & Hb & Hab & Hba) Hx Hfl. unfold wire_inv7.
  destruct s; cbn [set_side7 k7_a k7_b k7_ab k7_ba]; rewrite Forall_app; tauto.
Qed.

Lemma side_after7_app x o out : side_after7 x (sent_of7 o) out = after7 x o out.
Proof. destruct o; reflexivity. Qed.

Lemma wire_all7_of n dc ds : Forall wire_flight7 (map (fun d => {| f_d := d; f_n := n; f_c := dc |}) ds) ->
  wire_all7 n dc ds = Ok (map wire_flight_of7 (map (fun d => {| f_d := d; f_n := n; f_c := dc |}) ds)).
Proof.
  induction ds as [|d ds IH]; cbn [wire_all7 map]; [reflexivity|]. intros H.
  inversion H as [|f0 r0 Hd Hr]; subst. rewrite (proj1 (wire7_ok d Hd)), (IH Hr). reflexivity.
Qed.

Lemma side_call_sim7 now x o :
  conn_ok7 (l7_conn x) -> valid_op7 (l7_conn x) {| e_now := now; e_rand := l7_rand x |} o ->
  wire_side7 x -> wire_op7 o ->
  exists x' fl, side_step7 now x o = Ok (x', fl) /\
    bside_finish7 x (sent_of7 o) (step7 (l7_conn x) {| e_now := now; e_rand := l7_rand x |} o)
    = Ok (x', map wire_flight_of7 fl) /\
    wire_side7 x' /\ Forall wire_flight7 fl.
Proof.
  intros Hc Hv [Hst Hrnd] Ho.
  pose proof (step7_ok _ _ _ Hc Hv) as (out & Hstep & _ & Hds).
  pose proof (step7_wire _ _ _ _ Hstep Hst Hrnd Ho) as (Hw1 & Hw2 & Hw3).
  pose proof (step7_emit _ _ _ _ Hc Hv Hstep) as Hem.
  assert (Hfl : Forall wire_flight7 (flights_of7 x out)).
  { unfold flights_of7. apply Forall_map. rewrite Forall_forall in *. intros d Hin.
    split; [apply Hds, Hin|split; [apply Hw3, Hin|apply Hem, Hin]]. }
  exists (after7 x o out), (flights_of7 x out).
  split; [apply side_step7_unfold, Hstep|]. split; [|split; [split; assumption|exact Hfl]].
  unfold bside_finish7. rewrite Hstep, (wire_all7_of _ _ _ Hfl), side_after7_app. reflexivity.
Qed.

Lemma link_inv7_conn w s : link_inv7 w -> conn_ok7 (l7_conn (get7 w s)).
Proof. intros [Ha [Hb _]]. destruct s; [exact (sv7_conn _ _ _ _ _ Ha)|exact (sv7_conn _ _ _ _ _ Hb)]. Qed.

Lemma link_inv7_flight w s f : link_inv7 w -> In f (bag7 w s) -> dgram_in_ok7 (f_d f).
Proof.
  intros (_ & _ & Hab & Hba) Hin. unfold bag_inv7 in *. rewrite Forall_forall in Hab, Hba.
  destruct s; [apply (Hab f Hin)|apply (Hba f Hin)].
Qed.

Theorem link_bytes_step_sim7 w l :
  link_inv7 w -> wire_inv7 w -> admissible7 w l -> bytes_label7 l ->
  exists w', link_step7 w l = Ok w' /\ link_bytes_step7 (link_bytes_of7 w) l = Ok (link_bytes_of7 w') /\
    link_inv7 w' /\ wire_inv7 w'.
Proof.
  intros Hinv Hwire Hadm Hbl.
  pose proof (link_step_inv7 w l Hinv Hadm) as [w1 [Hstep1 Hinv1]].
  enough (wire_inv7 w1 /\ link_bytes_step7 (link_bytes_of7 w) l = Ok (link_bytes_of7 w1)) by (exists w1; tauto).
  destruct l as [s o|dt|from k|from k]; cbn [link_step7 link_bytes_step7 admissible7 bytes_label7] in *.
  - destruct Hadm as (Happ & Hv & _).
    assert (Hop : wire_op7 o) by (destruct o; try exact I; try exact Hbl; contradiction).
    rewrite getb_of7.
    pose proof (side_call_sim7 (k7_now w) (get7 w s) o (link_inv7_conn w s Hinv) Hv (wire_inv7_get w s Hwire) Hop)
      as (x' & fl & E1 & E2 & Hx' & Hfl).
    rewrite E1 in Hstep1. injection Hstep1 as <-. cbn [link_bytes_of7 kb7_now]. rewrite E2, set_sideb_of7.
    split; [apply set_side7_wire; assumption|reflexivity].
  - injection Hstep1 as <-. split; [exact Hwire|reflexivity].
  - rewrite bagb_of7, nth_error_map. destruct (nth_error (bag7 w from) k) as [f|] eqn:Ek; cbn [option_map].
    2:{ injection Hstep1 as <-. split; [exact Hwire|reflexivity]. }
    apply nth_error_In in Ek. destruct Hadm as [_ Hrand].
    pose proof (wire_inv7_bag w from Hwire) as Hwf. rewrite Forall_forall in Hwf.
    pose proof (Hwf f Ek) as Hd.
    rewrite getb_of7. cbn [link_bytes_of7 kb7_now wire_flight_of7 bf7_bytes]. rewrite (feed_bytes7_wire _ _ _ Hd).
    pose proof (side_call_sim7 (k7_now w) (get7 w (other7 from)) (Op7Feed (f_d f)) (link_inv7_conn w (other7 from) Hinv)
                (conj (link_inv7_flight w from f Hinv Ek) Hrand) (wire_inv7_get w (other7 from) Hwire) (proj1 (proj2 Hd)))
      as (x' & fl & E1 & E2 & Hx' & Hfl).
    rewrite E1 in Hstep1. injection Hstep1 as <-. cbn [sent_of7] in E2. rewrite E2, set_sideb_of7.
    split; [apply set_side7_wire; assumption|reflexivity].
  - injection Hstep1 as <-. destruct Hwire as (Wa & Wb & Wab & Wba).
    destruct from; (split; [split; [exact Wa|]; split; [exact Wb|]; split;
                              try assumption; apply remove_nth7_forall; assumption|]);
      unfold link_bytes_of7; cbn; rewrite remove_nth7_map; reflexivity.
Qed.

Theorem link_bytes_run_sim7 ls : forall w,
  link_inv7 w -> wire_inv7 w -> admissible_run7 w ls -> Forall bytes_label7 ls ->
  exists w', link_run7 w ls = Ok w' /\ link_bytes_run7 (link_bytes_of7 w) ls = Ok (link_bytes_of7 w') /\
    link_inv7 w' /\ wire_inv7 w'.
Proof.
  induction ls as [|l ls IH]; intros w Hinv Hwire Hadm Hbl; cbn [link_run7 link_bytes_run7 admissible_run7] in *.
  - exists w. split; [reflexivity|]. split; [reflexivity|]. split; assumption.
  - destruct Hadm as [Ha1 Ha2]. inversion Hbl as [|l0 r0 Hb1 Hb2]; subst.
    pose proof (link_bytes_step_sim7 w l Hinv Hwire Ha1 Hb1) as (w1 & E1 & E2 & Hinv1 & Hwire1).
    rewrite E1 in *. rewrite E2. apply IH; assumption.
Qed.

Lemma link7_new_wire ra rb : tokens_bytes7 ra -> tokens_bytes7 rb -> wire_inv7 (link7_new ra rb).
Proof. intros Ha Hb. repeat split; try assumption; constructor. Qed.

Lemma wire_inv7_wired w : wire_inv7 w ->
  Forall (fun f => exists bs, wire7 (f_d f) = Ok bs /\ (length bs <= 1400)%nat) (k7_ab w ++ k7_ba w).
Proof.
  intros (_ & _ & Hab & Hba). apply (Forall_impl _ (P := wire_flight7)); [|apply Forall_app; split; assumption].
  intros f Hd. exists (wire_bytes7 (f_d f)). apply wire7_ok, Hd.
Qed.

(* the assumptions of C01, stated on the byte-level link *)
Definition admissible_bytes7 (w : link_bytes7) (l : llabel7) : Prop :=
  match l with
  | L7App s o =>
    app_op7 o /\ valid_op7 (l7_conn (getb7 w s)) {| e_now := kb7_now w; e_rand := l7_rand (getb7 w s) |} o /\
    window_ok7 (getb7 w s) o /\ bytes_op7 o
  | L7Time _ => True
  | L7Deliver from k =>
    match nth_error (bagb7 w from) k with
    | Some bf => fresh_bytes7 bf (getb7 w (other7 from)) /\
                 rand_ok7 {| e_now := kb7_now w; e_rand := l7_rand (getb7 w (other7 from)) |}
    | None => True
    end
  | L7Drop _ _ => True
  end.

Fixpoint admissible_bytes_run7 (w : link_bytes7) (ls : list llabel7) : Prop :=
  match ls with
  | [] => True
  | l :: r => admissible_bytes7 w l /\
              match link_bytes_step7 w l with Ok w' => admissible_bytes_run7 w' r | _ => True end
  end.

Lemma admissible_bytes7_iff w l : wire_inv7 w ->
  (admissible_bytes7 (link_bytes_of7 w) l <-> admissible7 w l /\ bytes_label7 l).
Proof.
  intros Hwire.
  destruct l as [s o|dt|from k|from k]; cbn [admissible_bytes7 admissible7 bytes_label7]; try tauto.
  rewrite bagb_of7, nth_error_map. destruct (nth_error (bag7 w from) k) as [f|] eqn:Ek; cbn [option_map]; [|tauto].
  rewrite getb_of7. cbn [link_bytes_of7 kb7_now].
  pose proof (wire_inv7_bag w from Hwire) as Hwf. rewrite Forall_forall in Hwf.
  pose proof (wire_read7 (f_d f) (Hwf f (nth_error_In _ _ Ek))) as (p & vs & Hrd & Habs).
  unfold fresh_bytes7, fresh7, bflight_chunks7. cbn [wire_flight_of7 bf7_bytes bf7_n bf7_c]. rewrite Hrd. cbn [snd].
  rewrite Habs. tauto.
Qed.

Theorem admissible_bytes_run7_iff ls : forall w, link_inv7 w -> wire_inv7 w ->
  (admissible_bytes_run7 (link_bytes_of7 w) ls <-> admissible_run7 w ls /\ Forall bytes_label7 ls).
Proof.
  induction ls as [|l ls IH]; intros w Hinv Hwire; cbn [admissible_bytes_run7 admissible_run7].
  - split; [intros _; split; [exact I|constructor]|intros _; exact I].
  - rewrite Forall_cons_iff, (admissible_bytes7_iff w l Hwire).
    assert (Hrest : admissible7 w l -> bytes_label7 l ->
              (match link_bytes_step7 (link_bytes_of7 w) l with Ok w' => admissible_bytes_run7 w' ls | _ => True end
               <-> match link_step7 w l with Ok w' => admissible_run7 w' ls | _ => True end /\ Forall bytes_label7 ls)).
    { intros Ha Hb. pose proof (link_bytes_step_sim7 w l Hinv Hwire Ha Hb) as (w1 & E1 & E2 & Hinv1 & Hwire1).
      rewrite E1, E2. apply IH; assumption. }
    tauto.
Qed.

Lemma link_bytes_run_inv7 w ls : link_inv7 w -> wire_inv7 w ->
  admissible_bytes_run7 (link_bytes_of7 w) ls ->
  exists w', link_bytes_run7 (link_bytes_of7 w) ls = Ok (link_bytes_of7 w') /\ link_inv7 w' /\ wire_inv7 w'.
Proof.
  intros Hinv Hwire Hab. apply (admissible_bytes_run7_iff ls w Hinv Hwire) in Hab as [Ha Hbl].
  pose proof (link_bytes_run_sim7 ls w Hinv Hwire Ha Hbl) as (w' & _ & H). exists w'. exact H.
Qed.

(* executable check of the byte-ness of application data (for concrete traces) *)
Definition bytes_labelb7 (l : llabel7) : bool :=
  match l with
  | L7App _ (Op7Send d _) | L7App _ (Op7SendConnless d) | L7App _ (Op7Disconnect d) => bytes_ok d
  | _ => true
  end.

Lemma bytes_labelb7_ok ls : forallb bytes_labelb7 ls = true -> Forall bytes_label7 ls.
Proof.
  intros H. apply Forall_forall. intros l Hin. rewrite forallb_forall in H. specialize (H l Hin).
  destruct l as [s o| | |]; try exact I. destruct o; try exact I; exact H.
Qed.

Lemma tokens_bytesb7_ok rnd : forallb bytes_ok rnd = true -> tokens_bytes7 rnd.
Proof. intros H. apply Forall_forall. rewrite forallb_forall in H. exact H. Qed.

(* a corrupted datagram (partial): without the agreed token it changes nothing *)
Lemma bside_finish7_inert x e bs t : e_rand e = l7_rand x ->
  token_fixed7 (l7_conn x) t -> bytes_ok bs = true ->
  carried_token7 bs <> Some t -> token_request_exception7 (l7_conn x) bs = false ->
  connless_tokens_right7 (l7_conn x) bs = false ->
  bside_finish7 x None (feed_bytes7 (l7_conn x) e bs) = Ok (x, []).
Proof.
  intros He Hfix Hb Htok Hex Hcl. pose proof (inert7_bytes (l7_conn x) e bs t Hfix Hb Htok Hex Hcl) as [ws E].
  rewrite E. unfold bside_finish7. cbn [out7_sent mk7 wire_all7]. f_equal. f_equal.
  unfold side_after7. cbn. rewrite He, !app_nil_r, orb_false_r. change (ready_events []) with 0.
  rewrite Z.add_0_r. destruct x; reflexivity.
Qed.
