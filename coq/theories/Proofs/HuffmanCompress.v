(* The compressor of Model/Huffman.v against its bit-level specification:
   the bytes written, read back as bits, are the code words of the symbols followed by
   zero padding; the number of bytes is the predicted one; the capacity error occurs
   exactly when the buffer is shorter than that. *)
From LibTw2 Require Import Base.Res Base.Bits Model.Huffman Proofs.HuffmanBits.
From Coq Require Import ZArith List Lia Bool.
Import ListNotations.
Open Scope Z_scope.

Definition sym_repr (t : table) (s : Z) : Z * Z :=
  match lookup t s with Some nd => to_symbol_repr nd | None => (0, 0) end.
Definition code (t : table) (s : Z) : list bool := code_of (sym_repr t s).
Definition codes (t : table) (syms : list Z) : list bool := flat_map (code t) syms.
Definition encode_bits (t : table) (x : bytes) : list bool := codes t (x ++ [EOF]).

Definition sym_range (s : Z) : Prop := 0 <= s <= 256.

Lemma in_all_symbols s : sym_range s -> In s all_symbols.
Proof.
  intros H. unfold all_symbols. apply in_map_iff. exists (Z.to_nat s). split; [unfold sym_range in H; lia|].
  apply in_seq. unfold sym_range in H. lia.
Qed.

Lemma wf_sym t s : wf_table t = true -> sym_range s ->
  exists nd, lookup t s = Some nd
    /\ 1 <= snd (to_symbol_repr nd) <= 24
    /\ 0 <= fst (to_symbol_repr nd) < 2 ^ snd (to_symbol_repr nd)
    /\ walk t (code_of (to_symbol_repr nd)) ROOT_IDX = Some s.
Proof.
  intros Hwf Hs. unfold wf_table in Hwf. apply andb_prop in Hwf as [_ Hall].
  rewrite forallb_forall in Hall. specialize (Hall s (in_all_symbols s Hs)).
  unfold sym_ok in Hall. destruct (lookup t s) as [nd|]; [|discriminate].
  exists nd. split; [reflexivity|].
  repeat (apply andb_prop in Hall as [Hall ?]).
  destruct (walk t (code_of (to_symbol_repr nd)) ROOT_IDX) as [r|]; [|discriminate].
  repeat split; try lia. f_equal. lia.
Qed.

Lemma wf_get_symbol t s : wf_table t = true -> sym_range s ->
  get_symbol t s = Ok (sym_repr t s)
  /\ 1 <= snd (sym_repr t s) <= 24 /\ 0 <= fst (sym_repr t s) < 2 ^ snd (sym_repr t s).
Proof.
  intros Hwf Hs. destruct (wf_sym t s Hwf Hs) as (nd & Hl & Hn & Hb & _).
  unfold get_symbol, get_node, sym_repr. rewrite Hl.
  unfold sym_range, NUM_SYMBOLS in *. destruct (Z.leb_spec 257 s); [lia|]. auto.
Qed.

Lemma code_length t s : length (code t s) = Z.to_nat (snd (sym_repr t s)).
Proof. unfold code, code_of. apply bits_of_length. Qed.

Lemma byte_of_shr bits bw : 0 <= bw ->
  byte_bits 8 (Z.land (Z.shiftr bits bw) 255) = bits_of bits bw 8.
Proof.
  intros. rewrite byte_bits_bits_of. apply bits_of_ext. intros i Hi.
  rewrite testbit_shr_u8 by lia. replace (0 + i + bw) with (bw + i) by lia.
  destruct (Z.ltb_spec (0 + i) 8); [apply andb_true_r|lia].
Qed.

Fixpoint loop_bytes (bits bw : Z) (k : nat) : bytes :=
  match k with
  | O => []
  | S k' => Z.land (Z.shiftr bits bw) 255 :: loop_bytes bits (bw + 8) k'
  end.

Lemma loop_bytes_length bits bw k : length (loop_bytes bits bw k) = k.
Proof. revert bw. induction k; intros; cbn [loop_bytes length]; [reflexivity|]. now rewrite IHk. Qed.

Lemma loop_bytes_bits bits bw k : 0 <= bw ->
  bits_of_bytes (loop_bytes bits bw k) = bits_of bits bw (8 * k).
Proof.
  revert bw. induction k; intros bw Hbw; [reflexivity|].
  cbn [loop_bytes]. rewrite bits_of_bytes_cons, byte_of_shr, IHk by lia.
  replace (8 * S k)%nat with (8 + 8 * k)%nat by lia. rewrite bits_of_app. reflexivity.
Qed.

Lemma sym_loop_spec bits n : 0 <= n <= 24 -> forall fuel bw room,
  0 <= bw <= n -> (n - bw) / 8 < Z.of_nat fuel ->
  let k := Z.to_nat ((n - bw) / 8) in
  sym_loop fuel bits n bw room =
  if (k <=? room)%nat then Ok (loop_bytes bits bw k, bw + 8 * ((n - bw) / 8), (room - k)%nat) else Err tt.
Proof.
  intros Hn. induction fuel as [|f IH]; intros bw room Hbw Hf k; subst k.
  { pose proof (Z.div_pos (n - bw) 8 ltac:(lia) ltac:(lia)). lia. }
  cbn [sym_loop]. destruct (Z.ltb_spec (n - bw) 8) as [Hlt|Hge].
  - rewrite Z.div_small by lia. cbn [Z.to_nat loop_bytes Nat.leb]. do 2 f_equal; [f_equal; lia|lia].
  - destruct (Z.leb_spec 32 bw); [lia|].
    assert (Hq : (n - bw) / 8 = (n - (bw + 8)) / 8 + 1) by (Z.div_mod_to_equations; lia).
    assert (Hq0 : 0 <= (n - (bw + 8)) / 8) by (apply Z.div_pos; lia).
    replace (Z.to_nat ((n - bw) / 8)) with (S (Z.to_nat ((n - (bw + 8)) / 8))) by lia.
    destruct room as [|r]; [reflexivity|]. rewrite IH by lia. cbn [loop_bytes Nat.leb Nat.sub].
    destruct (Z.to_nat ((n - (bw + 8)) / 8) <=? r)%nat; [|reflexivity]. do 2 f_equal. f_equal. lia.
Qed.

(* the pending bits with the code word of the next symbol put above them. The C++ compressor
   holds this word in `Bits` and writes its low bytes; the Rust one writes the same bytes
   without forming it *)
Definition acc (byte bits nob : Z) : Z := Z.lor byte (Z.shiftl bits nob).

Lemma byte_ok_land v : byte_ok (Z.land v 255) = true.
Proof. apply byte_ok_range, land_255_range. Qed.

Lemma loop_bytes_ok bits bw k : bytes_ok (loop_bytes bits bw k) = true.
Proof.
  revert bw. induction k; intros bw; [reflexivity|]. cbn [loop_bytes bytes_ok forallb].
  rewrite byte_ok_land. apply IHk.
Qed.

Section Acc.
Variables byte bits nob : Z.
Hypothesis Hnob : 0 <= nob.
Hypothesis Hbyte : 0 <= byte < 2 ^ nob.

Lemma acc_testbit i : 0 <= i ->
  Z.testbit (acc byte bits nob) i = if i <? nob then Z.testbit byte i else Z.testbit bits (i - nob).
Proof.
  intros Hi. unfold acc. rewrite Z.lor_spec, Z.shiftl_spec by lia. destruct (Z.ltb_spec i nob).
  - rewrite (Z.testbit_neg_r bits) by lia. apply orb_false_r.
  - rewrite (testbit_small byte nob) by lia. reflexivity.
Qed.

Lemma acc_range n : 0 <= n -> 0 <= bits < 2 ^ n -> 0 <= acc byte bits nob < 2 ^ (nob + n).
Proof.
  intros Hn Hbits.
  assert (H0 : 0 <= acc byte bits nob).
  { apply Z.lor_nonneg. split; [lia|]. apply Z.shiftl_nonneg. lia. }
  split; [exact H0|]. apply small_of_testbit; [lia|exact H0|]. intros i Hi. rewrite acc_testbit by lia.
  destruct (Z.ltb_spec i nob); [lia|]. apply (testbit_small bits n); lia.
Qed.

Lemma acc_bits n : bits_of (acc byte bits nob) 0 (Z.to_nat nob + n)
                   = bits_of byte 0 (Z.to_nat nob) ++ bits_of bits 0 n.
Proof.
  rewrite bits_of_app.
  f_equal; apply bits_of_ext; intros i Hi; rewrite acc_testbit by lia;
    [destruct (Z.ltb_spec (0 + i) nob)|destruct (Z.ltb_spec (0 + Z.of_nat (Z.to_nat nob) + i) nob)];
    (reflexivity || lia || (f_equal; lia)).
Qed.

Lemma acc_shr m : nob <= m -> Z.shiftr (acc byte bits nob) m = Z.shiftr bits (m - nob).
Proof.
  intros Hm. unfold acc. rewrite Z.shiftr_lor, Z.shiftr_shiftl_r, (Z.shiftr_div_pow2 byte) by lia.
  assert (2 ^ nob <= 2 ^ m) by (apply Z.pow_le_mono_r; lia). now rewrite Z.div_small by lia.
Qed.

Lemma loop_bytes_acc k : forall off, nob <= off ->
  loop_bytes (acc byte bits nob) off k = loop_bytes bits (off - nob) k.
Proof.
  induction k as [|k IH]; intros off Hoff; cbn [loop_bytes]; [reflexivity|].
  rewrite acc_shr, IH by lia. do 2 f_equal. lia.
Qed.

Lemma acc_rest n : 0 <= n -> 0 <= bits < 2 ^ n ->
  0 <= Z.shiftr (acc byte bits nob) (8 * ((nob + n) / 8)) < 2 ^ ((nob + n) mod 8).
Proof.
  intros Hn Hbits.
  pose proof (Z.div_mod (nob + n) 8 ltac:(lia)). pose proof (Z.mod_pos_bound (nob + n) 8 ltac:(lia)).
  assert (0 <= (nob + n) / 8) by (apply Z.div_pos; lia).
  apply shiftr_small; try lia. replace (8 * ((nob + n) / 8) + (nob + n) mod 8) with (nob + n) by lia.
  now apply acc_range.
Qed.

Lemma acc_split n : 0 <= n ->
  bits_of_bytes (loop_bytes (acc byte bits nob) 0 (Z.to_nat ((nob + n) / 8)))
  ++ bits_of (Z.shiftr (acc byte bits nob) (8 * ((nob + n) / 8))) 0 (Z.to_nat ((nob + n) mod 8))
  = bits_of byte 0 (Z.to_nat nob) ++ bits_of bits 0 (Z.to_nat n).
Proof.
  intros Hn.
  pose proof (Z.div_mod (nob + n) 8 ltac:(lia)). pose proof (Z.mod_pos_bound (nob + n) 8 ltac:(lia)).
  assert (0 <= (nob + n) / 8) by (apply Z.div_pos; lia).
  rewrite loop_bytes_bits, bits_of_shiftr, <- acc_bits by lia.
  replace (8 * ((nob + n) / 8)) with (0 + Z.of_nat (8 * Z.to_nat ((nob + n) / 8))) by lia.
  rewrite <- bits_of_app. f_equal. lia.
Qed.

End Acc.

(* the Rust loop for one symbol writes the whole bytes of acc and keeps the rest *)
Lemma write_symbol_acc bits n byte nob room :
  0 <= n <= 24 -> 0 <= bits < 2 ^ n -> 0 <= nob < 8 -> 0 <= byte < 2 ^ nob ->
  let k := Z.to_nat ((nob + n) / 8) in
  write_symbol bits n byte nob room =
  if (k <=? room)%nat
  then Ok (loop_bytes (acc byte bits nob) 0 k, Z.shiftr (acc byte bits nob) (8 * ((nob + n) / 8)),
           (nob + n) mod 8, (room - k)%nat)
  else Err tt.
Proof.
  intros Hn Hbits Hnob Hbyte k.
  assert (H2 : 2 ^ nob <= 2 ^ 7) by (apply Z.pow_le_mono_r; lia).
  assert (Hb0 : Z.lor byte (Z.land (Z.shiftl bits nob) 255) = Z.land (acc byte bits nob) 255).
  { unfold acc. rewrite Z.land_lor_distr_l, (land_255_small byte) by lia. reflexivity. }
  unfold write_symbol. rewrite Hb0. destruct (Z.leb_spec (8 - nob) n) as [Hge|Hlt].
  - set (kz := (n - (8 - nob)) / 8).
    assert (Hq : (nob + n) / 8 = kz + 1) by (unfold kz; Z.div_mod_to_equations; lia).
    assert (Hm : (nob + n) mod 8 = n - (8 - nob + 8 * kz)) by (unfold kz; Z.div_mod_to_equations; lia).
    assert (Hq0 : 0 <= kz) by (apply Z.div_pos; lia).
    assert (Hq3 : kz <= 3) by (apply Z.div_le_upper_bound; lia).
    pose proof (Z.mod_pos_bound (nob + n) 8 ltac:(lia)) as Hmb.
    subst k. rewrite Hq. replace (Z.to_nat (kz + 1)) with (S (Z.to_nat kz)) by lia.
    destruct room as [|r]; [reflexivity|]. cbn [Nat.leb Nat.sub loop_bytes].
    rewrite (sym_loop_spec bits n Hn 40 (8 - nob) r) by (fold kz; lia). fold kz.
    destruct (Z.to_nat kz <=? r)%nat; [|reflexivity].
    destruct (Z.leb_spec 32 (8 - nob + 8 * kz)); [lia|].
    change (0 + 8) with 8. rewrite Z.shiftr_0_r, loop_bytes_acc, acc_shr, Hm by lia.
    replace (8 * (kz + 1) - nob) with (8 - nob + 8 * kz) by lia.
    rewrite (land_255_small (Z.shiftr bits _)); [reflexivity|].
    assert (2 ^ (n - (8 - nob + 8 * kz)) <= 2 ^ 8) by (apply Z.pow_le_mono_r; lia).
    pose proof (shiftr_small bits (8 - nob + 8 * kz) (n - (8 - nob + 8 * kz)) ltac:(lia) ltac:(lia)
                  ltac:(now replace (8 - nob + 8 * kz + (n - (8 - nob + 8 * kz))) with n by lia)). lia.
  - subst k. rewrite Z.div_small, Z.mod_small by lia. cbn [Z.to_nat Nat.leb loop_bytes].
    rewrite Nat.sub_0_r, Z.shiftr_0_r, land_255_small; [reflexivity|].
    pose proof (acc_range byte bits nob ltac:(lia) Hbyte n ltac:(lia) Hbits).
    assert (2 ^ (nob + n) <= 2 ^ 8) by (apply Z.pow_le_mono_r; lia). lia.
Qed.

(* bytes needed for `total` bits: a last partial byte, or the extra byte of the reference *)
Definition bytes_needed (total : Z) (bug : bool) : Z :=
  total / 8 + (if (0 <? total mod 8) || bug then 1 else 0).

Lemma codes_cons t s rest : codes t (s :: rest) = code t s ++ codes t rest.
Proof. reflexivity. Qed.

(* what is written for a symbol sequence from the state (byte, nob): its bits are the pending
   bits, the code words and `pad` zero bits *)
Lemma comp_syms_spec t (bug : bool) : wf_table t = true -> forall syms byte nob,
  Forall sym_range syms -> 0 <= nob < 8 -> 0 <= byte < 2 ^ nob ->
  exists out (pad : nat),
    bytes_ok out = true
    /\ bits_of_bytes out = bits_of byte 0 (Z.to_nat nob) ++ codes t syms ++ repeat false pad
    /\ (if bug then 1 <= pad <= 8 else pad < 8)%nat
    /\ forall room, comp_syms t syms byte nob room bug = if (length out <=? room)%nat then Ok out else Err tt.
Proof.
  intros Hwf. induction syms as [|s rest IH]; intros byte nob Hall Hnob Hbyte.
  - cbn [codes flat_map comp_syms app]. destruct ((0 <? nob) || bug) eqn:Hc.
    + exists [byte], (Z.to_nat (8 - nob)). split.
      { cbn [bytes_ok forallb]. rewrite andb_true_r. apply byte_ok_range.
        assert (2 ^ nob <= 2 ^ 8) by (apply Z.pow_le_mono_r; lia). lia. }
      split.
      { unfold bits_of_bytes. cbn [flat_map]. rewrite app_nil_r, byte_bits_bits_of.
        replace 8%nat with (Z.to_nat nob + Z.to_nat (8 - nob))%nat at 1 by lia.
        rewrite bits_of_app. f_equal.
        apply bits_of_false. intros i Hi. apply (testbit_small byte nob); lia. }
      split; [|intros room; destruct room; reflexivity].
      destruct bug; [lia|]. rewrite orb_false_r in Hc. apply Z.ltb_lt in Hc. lia.
    + apply orb_false_elim in Hc as [Hc ->]. apply Z.ltb_ge in Hc. assert (nob = 0) as -> by lia.
      exists [], 0%nat. repeat split. lia.
  - inversion Hall as [|? ? Hs Hrest]; subst.
    destruct (wf_get_symbol t s Hwf Hs) as (Hget & Hn & Hb).
    unfold codes. cbn [flat_map]. fold (codes t rest). unfold code at 1, code_of.
    destruct (sym_repr t s) as [bits n]. cbn [fst snd] in *.
    pose proof (write_symbol_acc bits n byte nob) as Hws. cbv zeta in Hws.
    pose proof (acc_rest byte bits nob ltac:(lia) Hbyte n ltac:(lia) Hb) as Hbyte'.
    pose proof (acc_split byte bits nob ltac:(lia) Hbyte n ltac:(lia)) as Hbits.
    pose proof (loop_bytes_length (acc byte bits nob) 0 (Z.to_nat ((nob + n) / 8))) as Hlen.
    set (em := loop_bytes (acc byte bits nob) 0 (Z.to_nat ((nob + n) / 8))) in *.
    pose proof (Z.mod_pos_bound (nob + n) 8 ltac:(lia)) as Hmb.
    destruct (IH _ ((nob + n) mod 8) Hrest Hmb Hbyte') as (out' & pad & Hok' & Hbits' & Hpad & Hrun').
    exists (em ++ out'), pad. split.
    { unfold bytes_ok in *. rewrite forallb_app, Hok'. fold (bytes_ok em). unfold em. now rewrite loop_bytes_ok. }
    split; [now rewrite bits_of_bytes_app, Hbits', app_assoc, Hbits, <- !app_assoc|].
    split; [exact Hpad|].
    intros room. cbn [comp_syms]. rewrite Hget, Hws by (assumption || lia). rewrite <- Hlen, app_length.
    destruct (Nat.leb_spec (length em) room); [rewrite Hrun'; destruct (Nat.leb_spec (length out') (room - length em))|];
      destruct (Nat.leb_spec (length em + length out') room); (reflexivity || lia).
Qed.

Lemma input_syms_range x : bytes_ok x = true -> Forall sym_range (x ++ [EOF]).
Proof.
  intros H. apply Forall_app. split.
  - apply Forall_forall. intros b Hb. pose proof (bytes_ok_range x b H Hb). unfold sym_range. lia.
  - constructor; [unfold sym_range, EOF; lia|constructor].
Qed.

Definition bit_len (t : table) (x : bytes) : Z := Z.of_nat (length (encode_bits t x)).

Lemma bytes_needed_false L : bytes_needed L false = (L + 7) / 8.
Proof. unfold bytes_needed. rewrite orb_false_r. destruct (Z.ltb_spec 0 (L mod 8)); Z.div_mod_to_equations; lia. Qed.
Lemma bytes_needed_true L : bytes_needed L true = L / 8 + 1.
Proof. unfold bytes_needed. now rewrite orb_true_r. Qed.

Theorem compress_spec t x bug : wf_table t = true -> bytes_ok x = true ->
  exists out (pad : nat),
    Z.of_nat (length out) = bytes_needed (bit_len t x) bug
    /\ bytes_ok out = true
    /\ bits_of_bytes out = encode_bits t x ++ repeat false pad
    /\ (pad < 8 \/ (bug = true /\ pad = 8))%nat
    /\ forall cap, compress t x bug cap = if (length out <=? cap)%nat then Ok out else Err tt.
Proof.
  intros Hwf Hx.
  destruct (comp_syms_spec t bug Hwf (x ++ [EOF]) 0 0 (input_syms_range x Hx) ltac:(lia) ltac:(cbn; lia))
    as (out & pad & Hok & Hbits & Hpad & Hrun).
  exists out, pad. cbn [Z.to_nat bits_of app] in Hbits. fold (encode_bits t x) in Hbits.
  assert (H8 : 8 * Z.of_nat (length out) = bit_len t x + Z.of_nat pad).
  { apply (f_equal (@length bool)) in Hbits.
    rewrite bits_of_bytes_length, app_length, repeat_length in Hbits. unfold bit_len. lia. }
  repeat split; try assumption; [|destruct bug; lia].
  destruct bug; [rewrite bytes_needed_true|rewrite bytes_needed_false]; Z.div_mod_to_equations; lia.
Qed.

Lemma bit_len_syms_spec t syms : wf_table t = true -> Forall sym_range syms ->
  bit_len_syms t syms = Ok (Z.of_nat (length (codes t syms))).
Proof.
  intros Hwf. induction syms as [|s rest IH]; intros Hall; [reflexivity|].
  inversion Hall as [|? ? Hs Hrest]; subst. cbn [bit_len_syms].
  destruct (wf_get_symbol t s Hwf Hs) as (Hget & Hn & _). rewrite Hget.
  destruct (sym_repr t s) as [bits n] eqn:Hsr. rewrite (IH Hrest). f_equal.
  rewrite codes_cons, app_length, code_length, Hsr. cbn [snd] in *. lia.
Qed.

Theorem compressed_len_spec t x : wf_table t = true -> bytes_ok x = true ->
  compressed_len t x = Ok (bytes_needed (bit_len t x) false)
  /\ compressed_len_bug t x = Ok (bytes_needed (bit_len t x) true).
Proof.
  intros Hwf Hx. unfold compressed_len, compressed_len_bug, compressed_bit_len.
  rewrite (bit_len_syms_spec t _ Hwf (input_syms_range x Hx)).
  rewrite bytes_needed_false, bytes_needed_true. split; reflexivity.
Qed.

(* every code word has between 1 and 24 bits *)
Lemma bit_len_bounds t x : wf_table t = true -> bytes_ok x = true ->
  Z.of_nat (length x) + 1 <= bit_len t x <= 24 * (Z.of_nat (length x) + 1).
Proof.
  intros Hwf Hx. unfold bit_len, encode_bits.
  assert (H : forall syms, Forall sym_range syms ->
            Z.of_nat (length syms) <= Z.of_nat (length (codes t syms)) <= 24 * Z.of_nat (length syms)).
  { induction syms as [|s rest IH]; intros Hall; [cbn; lia|].
    inversion Hall as [|? ? Hs Hrest]; subst. specialize (IH Hrest).
    destruct (wf_get_symbol t s Hwf Hs) as (_ & Hn & _).
    rewrite codes_cons, app_length, code_length. cbn [length]. lia. }
  specialize (H _ (input_syms_range x Hx)). rewrite app_length in H. cbn [length] in H. lia.
Qed.

(* compress_into_vec: the capacity 3 * len + 3 always suffices, the unwrap never panics *)
Theorem compress_into_vec_spec t x : wf_table t = true -> bytes_ok x = true ->
  exists out, compress_into_vec t x = Ok out /\ forall cap, (length out <= cap)%nat -> compress t x false cap = Ok out.
Proof.
  intros Hwf Hx. destruct (compress_spec t x false Hwf Hx) as (out & _ & Hlen & _ & _ & _ & Hc).
  pose proof (bit_len_bounds t x Hwf Hx) as Hb. rewrite bytes_needed_false in Hlen.
  assert (Hfit : (length out <= length x * 3 + 3)%nat).
  { assert ((bit_len t x + 7) / 8 <= 3 * Z.of_nat (length x) + 3) by (Z.div_mod_to_equations; lia). lia. }
  exists out. unfold compress_into_vec. rewrite Hc.
  destruct (Nat.leb_spec (length out) (length x * 3 + 3)); [|lia]. split; [reflexivity|].
  intros cap Hcap. rewrite Hc. destruct (Nat.leb_spec (length out) cap); [reflexivity|lia].
Qed.

(* the output as a bit stream: the code words, then fewer than 8 zero bits, or exactly 8 in
   the reference-compatible form when the code words end on a byte boundary *)
Theorem compress_bits t x bug ccap c : wf_table t = true -> bytes_ok x = true ->
  compress t x bug ccap = Ok c ->
  bytes_ok c = true
  /\ exists pad : nat, bits_of_bytes c = encode_bits t x ++ repeat false pad
       /\ (pad < 8 \/ (bug = true /\ pad = 8))%nat.
Proof.
  intros Hwf Hx Hc. destruct (compress_spec t x bug Hwf Hx) as (out & pad & _ & Hok & Hbits & Hpad & Hcomp).
  rewrite Hcomp in Hc. destruct (length out <=? ccap)%nat; [|discriminate]. injection Hc as <-. eauto.
Qed.

Theorem len_exact t x (bug : bool) : wf_table t = true -> bytes_ok x = true ->
  exists n : nat,
    (if bug then compressed_len_bug t x else compressed_len t x) = Ok (Z.of_nat n)
    /\ (forall cap, (n <= cap)%nat -> exists c, compress t x bug cap = Ok c /\ length c = n)
    /\ (forall cap, (cap < n)%nat -> compress t x bug cap = Err tt)
    /\ (n <= 3 * length x + 4)%nat.
Proof.
  intros Hwf Hx. destruct (compress_spec t x bug Hwf Hx) as (out & _ & Hlen & _ & _ & _ & Hcomp).
  destruct (compressed_len_spec t x Hwf Hx) as [Hl Hlb].
  pose proof (bit_len_bounds t x Hwf Hx) as Hb.
  exists (length out). split; [|split; [|split]].
  - rewrite Hlen. destruct bug; assumption.
  - intros cap Hcap. exists out. rewrite Hcomp. destruct (Nat.leb_spec (length out) cap); [auto|lia].
  - intros cap Hcap. rewrite Hcomp. destruct (Nat.leb_spec (length out) cap); [lia|reflexivity].
  - destruct bug; rewrite ?bytes_needed_true, ?bytes_needed_false in Hlen;
      Z.div_mod_to_equations; lia.
Qed.
