(* 0.7 reader: a connected packet in closed form, then the reader applied to what the
   writer produces (twin of Packet6Read.v). *)
From LibTw2 Require Import Base.Res Base.Bits Model.PacketTypes Model.PacketBase Gen.Consts7 Gen.Bits7
  Model.Packet7 Proofs.PktSweep Proofs.PktBits6 Proofs.PktBits7 Proofs.Packet7Write.
From Coq Require Import ZArith Lia Bool List.
Open Scope Z_scope.

Lemma of_bytes7_enc hp body : length (php7_token hp) = 4%nat ->
  PacketHeaderPacked7_of_bytes (PacketHeaderPacked7_as_bytes hp ++ body) = Some (hp, body).
Proof.
  destruct hp as [a b c t]. cbn [php7_token]. intros Ht.
  destruct (token_quad t Ht) as (t0 & t1 & t2 & t3 & ->). reflexivity.
Qed.

Lemma header_of7_enc hp body : length (php7_token hp) = 4%nat ->
  header_of7 (PacketHeaderPacked7_as_bytes hp ++ body)
  = (let (h, ws) := PacketHeaderPacked7_unpack_warn hp in Some (h, ws, body)).
Proof. intros Ht. unfold header_of7. rewrite of_bytes7_enc by exact Ht. reflexivity. Qed.

Section Slice.
Variable decomp : HuffC7.

(* Packet::decompress on a compressed, connected datagram: a seven-byte header, then
   whatever the Huffman decoder makes of the payload *)
Lemma decompress7_eq bs h ws payload cap :
  header_of7 bs = Some (h, ws, payload) -> ph7_in_range h = true -> length (ph7_token h) = 4%nat ->
  land_ne0 (ph7_flags h) PACKETFLAG_CONNLESS = false ->
  land_ne0 (ph7_flags h) PACKETFLAG_COMPRESSION = true ->
  Z.of_nat (length bs) >? MAX_PACKETSIZE = false -> MAX_PACKETSIZE <= Z.of_nat cap ->
  exists fp, length (php7_token fp) = 4%nat
    /\ decompress7 decomp bs cap
       = match decomp payload (cap - 7)%nat with
         | None => Err tt
         | Some d => Ok (PacketHeaderPacked7_as_bytes fp ++ d)
         end.
Proof.
  intros Eh Hr Ht Fc Fz Hlen Hcap. unfold decompress7, needs_decompression7.
  rewrite (proj2 (Z.ltb_ge _ _)), Hlen, Eh, Fc, Fz by exact Hcap. cbn [negb andb].
  destruct h as [f a n t]. apply ph7_in_range_iff in Hr as (R1 & R2 & R3). cbn [ph7_flags ph7_ack ph7_num_chunks ph7_token] in *.
  (* the flags of the fake header that decompress writes in front of the decompressed payload *)
  pose proof (land_small f (Z.lxor PACKETFLAG_COMPRESSION 255) 16 eq_refl R1) as Rf.
  destruct (ph7_packed {| ph7_flags := Z.land f (Z.lxor PACKETFLAG_COMPRESSION 255); ph7_ack := a; ph7_num_chunks := n; ph7_token := t |})
    as (fp & -> & _ & Et & ->); [apply ph7_in_range_iff; lia|]. cbn [ph7_token] in *. rewrite Ht.
  rewrite (proj2 (Nat.ltb_ge _ _)) by (unfold MAX_PACKETSIZE in Hcap; lia). exists fp. rewrite Et. split; [exact Ht|reflexivity].
Qed.

(* read_impl: where the payload of a connected packet lives *)
Definition payload_at7 (flags : Z) (payload : bytes) (cap : nat) : res rderr7 slice :=
  if land_ne0 flags PACKETFLAG_COMPRESSION then
    match decomp payload (cap - 7)%nat with
    | Some d => Ok {| s_src := Scratch; s_off := 7; s_data := d |}
    | None => Err E7Compression
    end
  else Ok {| s_src := Input; s_off := 7; s_data := payload |}.

Lemma payload_slice7_eq bs h ws payload cap :
  header_of7 bs = Some (h, ws, payload) -> ph7_in_range h = true -> length (ph7_token h) = 4%nat ->
  land_ne0 (ph7_flags h) PACKETFLAG_CONNLESS = false ->
  Z.of_nat (length bs) >? MAX_PACKETSIZE = false -> MAX_PACKETSIZE <= Z.of_nat cap ->
  payload_slice7 decomp bs (Some cap) (ph7_flags h) payload
  = payload_at7 (ph7_flags h) payload cap.
Proof.
  intros Eh Hr Ht Fc Hlen Hcap. unfold payload_slice7, payload_at7.
  destruct (land_ne0 (ph7_flags h) PACKETFLAG_COMPRESSION) eqn:Fz; [|reflexivity].
  destruct (decompress7_eq bs h ws payload cap Eh Hr Ht Fc Fz Hlen Hcap) as (fp & Hfp & ->).
  destruct (decomp payload (cap - 7)%nat); [|reflexivity]. rewrite of_bytes7_enc by exact Hfp. reflexivity.
Qed.

Lemma read7_enc h body cap : ph7_in_range h = true -> length (ph7_token h) = 4%nat ->
  land_ne0 (ph7_flags h) PACKETFLAG_CONNLESS = false ->
  Z.of_nat (length body) <= MAX_PACKETSIZE - HEADER_SIZE -> MAX_PACKETSIZE <= Z.of_nat cap ->
  read7 decomp (hdr_bytes7 h ++ body) cap
  = match payload_at7 (ph7_flags h) body cap with
    | Ok p => read_payload7 [] h (7 + length body) p
    | Err e => ([], Err e)
    | Panic s => ([], Panic s)
    | OutOfFuel => ([], OutOfFuel)
    end.
Proof.
  intros Hr Ht Fc Hb Hcap. destruct (ph7_packed h Hr) as (hp & Ep & Eu & Et & Hl7). rewrite Ht in Hl7.
  unfold hdr_bytes7. rewrite Ep.
  assert (Hl : length (PacketHeaderPacked7_as_bytes hp ++ body) = (7 + length body)%nat) by (rewrite app_length, Hl7; reflexivity).
  assert (Hlen : Z.of_nat (length (PacketHeaderPacked7_as_bytes hp ++ body)) >? MAX_PACKETSIZE = false).
  { rewrite Z.gtb_ltb. apply Z.ltb_ge. rewrite Hl. unfold HEADER_SIZE in Hb. lia. }
  assert (Ehd : header_of7 (PacketHeaderPacked7_as_bytes hp ++ body) = Some (h, [], body))
    by (rewrite header_of7_enc, Eu by (rewrite Et; exact Ht); reflexivity).
  unfold read7, read_impl7. rewrite (proj2 (Z.ltb_ge _ _)), Hlen, Ehd, Fc, Hl by exact Hcap.
  rewrite (payload_slice7_eq _ _ _ _ _ Ehd Hr Ht Fc Hlen Hcap). reflexivity.
Qed.

End Slice.

Section Read.
Variables comp decomp : HuffC7.
Hypothesis huff_rt : forall x c y, bytes_ok x = true -> comp x c = Some y ->
  forall c', (length x <= c')%nat -> decomp y c' = Some x.

Definition views_of7 (p : packet7) (compressed : bool) : list view :=
  match p with
  | P7Connless payload _ _ => [{| v_src := Input; v_off := 9; v_len := length payload |}]
  | P7Connected _ _ (P7Chunks _ _ payload) =>
    [{| v_src := if compressed then Scratch else Input; v_off := 7; v_len := length payload |}]
  | P7Connected _ _ (P7Control (C7Close reason)) => [{| v_src := Input; v_off := 8; v_len := length reason |}]
  | P7Connected _ _ (P7Control _) => []
  end.

Definition enc_compressed7 (p : packet7) : bool :=
  match p with
  | P7Connected _ _ (P7Chunks _ _ payload) => chunks_compressed7 comp payload
  | _ => false
  end.

Definition k05_warnings7 (p : packet7) : list warning7 := if K05_7 p then [W7ChunksNoChunks] else [].

Lemma packet_flags_facts7 resend c :
  let f := Z.lor (bool_flag resend PACKETFLAG_REQUEST_RESEND) (bool_flag c PACKETFLAG_COMPRESSION) in
  land_ne0 f PACKETFLAG_CONNLESS = false /\ land_ne0 f PACKETFLAG_COMPRESSION = c
  /\ land_ne0 f PACKETFLAG_CONTROL = false /\ land_ne0 f PACKETFLAG_REQUEST_RESEND = resend.
Proof. destruct resend, c; vm_compute; repeat split. Qed.

Lemma read_chunks_enc7 ack tok resend nc payload cap :
  expressible7 (P7Connected ack tok (P7Chunks resend nc payload)) = true ->
  packet_bytes_ok7 (P7Connected ack tok (P7Chunks resend nc payload)) = true -> (1400 <= cap)%nat ->
  let p := P7Connected ack tok (P7Chunks resend nc payload) in
  read7 decomp (encoding7 comp p) cap
  = (k05_warnings7 p, Ok (p, views_of7 p (enc_compressed7 p))).
Proof.
  intros Hx Hbok Hcap p. apply Nat2Z.inj_le in Hcap. change (Z.of_nat 1400) with MAX_PACKETSIZE in Hcap.
  apply expressible7_connected in Hx as (Hack & Htok & Hty).
  apply andb_true_iff in Hty as [Hnc Hlen]. apply Z.leb_le in Hlen.
  assert (Hplok : bytes_ok payload = true) by (cbn [packet_bytes_ok7] in Hbok; apply andb_true_iff in Hbok as [_ Hp]; exact Hp).
  unfold p, encoding7, enc_compressed7.
  pose proof (packet_flags_facts7 resend (chunks_compressed7 comp payload)) as (F1 & F2 & F3 & F4).
  pose proof (chunks_flags7_range comp resend payload) as Hf. pose proof (chunks_body7_len comp payload) as Hbody.
  fold (chunks_flags7 comp resend payload) in F1, F2, F3, F4. set (f := chunks_flags7 comp resend payload) in *. clearbody f.
  assert (Hr : ph7_in_range {| ph7_flags := f; ph7_ack := ack; ph7_num_chunks := nc; ph7_token := tok |} = true)
    by (apply ph7_in_range_iff; lia).
  (* wherever the payload ends up, the rest of the reader returns the value *)
  assert (Hread : forall src nbytes,
            read_payload7 [] {| ph7_flags := f; ph7_ack := ack; ph7_num_chunks := nc; ph7_token := tok |} nbytes
              {| s_src := src; s_off := 7; s_data := payload |}
            = (k05_warnings7 p, Ok (p, [{| v_src := src; v_off := 7; v_len := length payload |}]))).
  { intros src nbytes. unfold read_payload7. cbn [s_data ph7_flags ph7_ack ph7_num_chunks ph7_token].
    rewrite Z.gtb_ltb, (proj2 (Z.ltb_ge _ _)), F3, F4 by exact Hlen.
    unfold p, k05_warnings7, K05_7, view_of. cbn [s_data s_src s_off app]. destruct resend, (nc =? 0); reflexivity. }
  rewrite (read7_enc decomp _ _ cap Hr Htok F1) by (exact Hcap || lia). unfold payload_at7. cbn [ph7_flags views_of7]. rewrite F2.
  unfold chunks_body7. destruct (chunks_compressed7 comp payload) eqn:Ec; [|apply Hread].
  (* compressed: the decoder gives the payload back, in the scratch buffer *)
  unfold chunks_compressed7 in Ec. destruct (comp payload ARRAYVEC_CAP7) as [s|] eqn:Es; [|discriminate]. cbn [opt_bytes].
  rewrite (huff_rt payload ARRAYVEC_CAP7 s Hplok Es) by (unfold MAX_PACKETSIZE, HEADER_SIZE in *; lia). apply Hread.
Qed.

(* the control message behind the header; nbytes is the length of the datagram *)
Lemma read_control7_enc ack tok c nbytes :
  expressible7 (P7Connected ack tok (P7Control c)) = true -> nbytes = (7 + length (control_body7 c tok))%nat ->
  read_control7 [] {| ph7_flags := PACKETFLAG_CONTROL; ph7_ack := ack; ph7_num_chunks := 0; ph7_token := tok |} nbytes
    {| s_src := Input; s_off := 7; s_data := control_body7 c tok |}
  = ([], Ok (P7Connected ack tok (P7Control c), views_of7 (P7Connected ack tok (P7Control c)) false)).
Proof.
  intros Hx ->. apply expressible7_connected in Hx as (_ & _ & Hty).
  unfold read_control7, control_body7. cbn [ph7_flags ph7_ack ph7_num_chunks ph7_token s_data app ctrl_magic7].
  destruct c as [|rt| |m|rt]; try reflexivity.
  - apply Nat.eqb_eq in Hty. destruct (token_quad rt Hty) as (r0 & r1 & r2 & r3 & ->). reflexivity.
  - apply andb_true_iff in Hty as [Hn Hml]. apply negb_true_iff in Hn. apply Z.leb_le in Hml.
    destruct (close_reason_cut m Hn) as (E1 & E2 & E3); [unfold CTRLMSG_CLOSE_REASON_LENGTH in Hml; lia|].
    change (Z.to_nat CTRLMSG_CLOSE_REASON_LENGTH) with 127%nat. rewrite E1, E2.
    unfold slice_take, slice_skip, view_of. cbn [s_data s_src s_off skipn]. rewrite E3, andb_false_r. reflexivity.
  - apply Nat.eqb_eq in Hty. destruct (token_quad rt Hty) as (r0 & r1 & r2 & r3 & ->).
    (* a token request is padded to TOKEN_REQUEST_PACKET_SIZE bytes *)
    destruct (bytes_eqb tok TOKEN_NONE); reflexivity.
Qed.

Lemma read_control_enc7 ack tok c cap :
  expressible7 (P7Connected ack tok (P7Control c)) = true -> (1400 <= cap)%nat ->
  let p := P7Connected ack tok (P7Control c) in
  read7 decomp (encoding7 comp p) cap = ([], Ok (p, views_of7 p false)).
Proof.
  intros Hx Hcap p. apply Nat2Z.inj_le in Hcap. change (Z.of_nat 1400) with MAX_PACKETSIZE in Hcap.
  pose proof (control_body7_len ack tok c Hx) as Hbl.
  unfold TOKEN_REQUEST_ADDITIONAL, TOKEN_REQUEST_PACKET_SIZE, PacketHeaderPacked7_size in Hbl.
  pose proof Hx as Hx'. apply expressible7_connected in Hx' as (Hack & Htok & _).
  pose proof (ph7_control_in_range ack tok Hack) as Hr.
  assert (Hb : Z.of_nat (length (control_body7 c tok)) <= MAX_PACKETSIZE - HEADER_SIZE) by (unfold MAX_PACKETSIZE, HEADER_SIZE; lia).
  unfold p, encoding7.
  rewrite (read7_enc decomp _ _ cap Hr Htok eq_refl Hb Hcap). unfold payload_at7. cbn [ph7_flags].
  change (land_ne0 PACKETFLAG_CONTROL PACKETFLAG_COMPRESSION) with false. cbv iota.
  unfold read_payload7. cbn [s_data ph7_flags]. rewrite Z.gtb_ltb, (proj2 (Z.ltb_ge _ _)) by exact Hb.
  change (land_ne0 PACKETFLAG_CONTROL PACKETFLAG_CONTROL) with true. cbv iota.
  apply read_control7_enc; [exact Hx|reflexivity].
Qed.

Lemma read_connless_enc7 payload tok rtok cap :
  expressible7 (P7Connless payload tok rtok) = true -> (1400 <= cap)%nat ->
  read7 decomp (encoding7 comp (P7Connless payload tok rtok)) cap
  = ([], Ok (P7Connless payload tok rtok, views_of7 (P7Connless payload tok rtok) false)).
Proof.
  intros Hx Hcap. cbn [expressible7] in Hx. apply andb_true_iff in Hx as [Hx Hrt]. apply andb_true_iff in Hx as [Hl Ht].
  apply Z.leb_le in Hl. unfold MAX_PACKETSIZE, HEADER_SIZE_CONNLESS in Hl.
  unfold token_ok in Ht, Hrt. apply Nat.eqb_eq in Ht, Hrt.
  destruct (token_quad tok Ht) as (t0 & t1 & t2 & t3 & ->). destruct (token_quad rtok Hrt) as (r0 & r1 & r2 & r3 & ->).
  unfold encoding7, hdrc_bytes7.
  change (PacketHeaderConnless7_pack {| phc7_flags := PACKETFLAG_CONNLESS; phc7_version := CONNLESS_VERSION;
            phc7_token := [t0; t1; t2; t3]; phc7_response_token := [r0; r1; r2; r3] |})
    with (@Ok Empty_set _ {| phcp7_padding_flags_version := 33; phcp7_token := [t0; t1; t2; t3]; phcp7_response_token := [r0; r1; r2; r3] |}).
  unfold PacketHeaderConnlessPacked7_as_bytes. cbn [phcp7_padding_flags_version phcp7_token phcp7_response_token app].
  unfold read7, read_impl7.
  rewrite (proj2 (Z.ltb_ge _ _)) by (unfold MAX_PACKETSIZE; lia).
  cbn [length]. rewrite Z.gtb_ltb, (proj2 (Z.ltb_ge _ _)) by (unfold MAX_PACKETSIZE; lia).
  reflexivity.
Qed.

(* the reader inverts the writer's encoding, also of a value the writer refuses to write *)
Lemma read_encoding7_any p cap : expressible7 p = true -> packet_bytes_ok7 p = true -> (1400 <= cap)%nat ->
  read7 decomp (encoding7 comp p) cap
  = (k05_warnings7 p, Ok (p, views_of7 p (enc_compressed7 p))).
Proof.
  intros Hx Hbok Hcap. destruct p as [payload tok rtok|ack tok [resend nc payload|c]].
  - apply read_connless_enc7; assumption.
  - apply read_chunks_enc7; assumption.
  - apply (read_control_enc7 ack tok c cap Hx Hcap).
Qed.

Theorem read_encoding7 p cap : expressible7 p = true -> packet_bytes_ok7 p = true -> K06T_7 p = false -> (1400 <= cap)%nat ->
  read7 decomp (encoding7 comp p) cap
  = (k05_warnings7 p, Ok (p, views_of7 p (enc_compressed7 p))).
Proof. intros Hx Hbok _. apply read_encoding7_any; assumption. Qed.

Theorem read_write7 p cap out cap2 : expressible7 p = true -> packet_bytes_ok7 p = true ->
  write7 comp p cap = Ok out -> (1400 <= cap2)%nat ->
  (length out <= cap)%nat
  /\ read7 decomp out cap2 = (k05_warnings7 p, Ok (p, views_of7 p (enc_compressed7 p))).
Proof.
  intros Hx Hb Hw Hcap. destruct (write7_ok_encoding comp p cap out Hw) as [-> Hl].
  split; [exact Hl|apply read_encoding7_any; assumption].
Qed.

End Read.
