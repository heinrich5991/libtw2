(* Demo model: the header written by Writer::new is read back by Reader::new, and a whole
   recording (header + any accepted chunk sequence) is read back chunk by chunk. *)
From LibTw2 Require Import Base.Res Model.Demo Proofs.VarintArith Proofs.DemoBase Proofs.DemoChunk.
From Coq Require Import ZArith Lia Bool List ZifyBool.
Open Scope Z_scope.

Lemma cstr_padded s k : no_nul s = true ->
  cstr_raw (s ++ zeros k) = s /\ cstr_weird (s ++ zeros k) = false.
Proof.
  intros H. induction s as [|b s IH]; cbn [app cstr_raw cstr_weird].
  - destruct k; [split; reflexivity|]. cbn [zeros repeat cstr_raw cstr_weird Z.eqb]. split; [reflexivity|].
    induction k; [reflexivity|exact IHk].
  - cbn [no_nul forallb] in H. apply andb_true_iff in H as [Hb Hs]. destruct (b =? 0); [discriminate|].
    destruct (IH Hs) as [-> ->]. split; reflexivity.
Qed.

(* a string field as Writer::new lays it out and as the accessors see it *)
Lemma capped_field n s c : capped n s = Some c -> no_nul s = true ->
  zlen c = Z.of_nat n /\ cstr_raw c = s /\ cstr_weird c = false.
Proof.
  unfold capped. destruct (Z.of_nat n <=? zlen s) eqn:E; [discriminate|]. intros [= <-] Hs.
  split; [rewrite zlen_app, zlen_zeros, zlen_length in *; lia|apply cstr_padded, Hs].
Qed.

Lemma rd_be_i32s_zeros n r : rd_be_i32s n (zeros (4 * n) ++ r) = Some (repeat 0 n, r).
Proof.
  induction n as [|n IH]; [reflexivity|].
  replace (4 * S n)%nat with (4 + 4 * n)%nat by lia. rewrite zeros_app, <- app_assoc.
  cbn [rd_be_i32s]. change (zeros 4) with (be32 0). rewrite rd_be_i32_be32 by reflexivity.
  rewrite IH. reflexivity.
Qed.

Lemma kind_magic_len k : zlen (kind_magic k) = 8.
Proof. destruct k; reflexivity. Qed.
Lemma kind_of_kind_magic k : kind_of_magic (kind_magic k) = Some k.
Proof. destruct k; reflexivity. Qed.

Lemma bytes_eqb_refl a : bytes_eqb a a = true.
Proof. induction a as [|x a IH]; [reflexivity|]. cbn [bytes_eqb]. rewrite Z.eqb_refl, IH. reflexivity. Qed.

Lemma version_of_num_num v : version_of_num (version_num v) = Some v.
Proof. destruct v; reflexivity. Qed.

Lemma Ok_inj {E A} (a b : A) : @Ok E A a = Ok b -> a = b.
Proof. intros H. injection H as H. exact H. Qed.

(* HeaderStart::read on the layout of a version 5 or 6 header without timeline markers: the
   fields come back as they stand in the file *)
Lemma read_header_layout nv mn ts msz crc kind len sha map rest :
  zlen nv = 64 -> zlen mn = 64 -> zlen ts = 20 ->
  0 <= msz <= i32_max -> 0 <= crc < two32 -> 0 <= len <= i32_max ->
  match sha with Some h => zlen h = 32 | None => True end -> zlen map = msz ->
  read_header_start
    (magic ++ [version_num (match sha with Some _ => V6 | None => V5 end)] ++ nv ++ mn
     ++ be32 msz ++ be32 crc ++ kind_magic kind ++ be32 len ++ ts ++ zeros 260
     ++ match sha with Some h => SHA_256_EXTENSION ++ h | None => [] end ++ map ++ rest)
  = Ok ({| rh_version := match sha with Some _ => V6 | None => V5 end;
           rh_net_version := nv; rh_map_name := mn; rh_map_size := msz;
           rh_map_crc := crc; rh_kind := kind; rh_length := len; rh_timestamp := ts;
           rh_tm_amount := 0; rh_tm_markers := repeat 0 64; rh_sha256 := sha; rh_map := map |}, rest).
Proof.
  intros Lnv Lmn Lts Hmsz Hcrc Hlen Hsha Lmap.
  assert (Imsz : is_i32 msz = true) by (unfold is_i32, i32_min, i32_max in *; lia).
  assert (Ilen : is_i32 len = true) by (unfold is_i32, i32_min, i32_max in *; lia).
  assert (Nmsz : (msz <? 0) = false) by lia.
  assert (Nlen : (len <? 0) = false) by lia.
  unfold read_header_start.
  rewrite (split_at_app magic _ 7 eq_refl), bytes_eqb_refl. cbn [negb app].
  rewrite version_of_num_num.
  rewrite (split_at_app nv _ 64), (split_at_app mn _ 64) by (symmetry; assumption).
  rewrite (rd_be_i32_be32 msz), Nmsz by exact Imsz.
  rewrite rd_be_u32_be32, u32_of_small by exact Hcrc.
  rewrite (split_at_app (kind_magic kind) _ 8), kind_of_kind_magic by (symmetry; apply kind_magic_len).
  rewrite (rd_be_i32_be32 len), Nlen by exact Ilen.
  rewrite (split_at_app ts _ 20) by (symmetry; exact Lts).
  replace (version_ge _ V4) with true by (destruct sha; reflexivity).
  change (zeros 260) with (be32 0 ++ zeros (4 * 64)). rewrite <- app_assoc.
  rewrite rd_be_i32_be32 by reflexivity. cbn [Z.ltb Z.compare].
  rewrite rd_be_i32s_zeros.
  destruct sha as [h|].
  - rewrite <- app_assoc, (split_at_app SHA_256_EXTENSION _ 16 eq_refl), bytes_eqb_refl. cbn [negb].
    rewrite (split_at_app h _ 32), (split_at_app map rest) by (symmetry; assumption). reflexivity.
  - cbn [app]. rewrite (split_at_app map rest) by (symmetry; assumption). reflexivity.
Qed.

Lemma winput_ok_fields i : winput_ok i = true ->
  no_nul (wi_net_version i) = true /\ no_nul (wi_map_name i) = true /\ no_nul (wi_timestamp i) = true
  /\ match wi_sha256 i with Some h => zlen h = 32 | None => True end
  /\ 0 <= wi_map_crc i < two32 /\ 0 <= wi_length i <= i32_max /\ 0 <= zlen (wi_map i) <= i32_max.
Proof.
  unfold winput_ok. repeat rewrite andb_true_iff.
  intros [[[[[[[[[[[[[[[_ Hnv] _] _] Hmn] _] _] Hts] _] Hsha] Hcrc1] Hcrc2] Hl1] Hl2] _] Hmap].
  pose proof (zlen_nonneg (wi_map i)).
  repeat (split; [assumption || lia|]). destruct (wi_sha256 i); [split|]; lia.
Qed.

Theorem header_roundtrip i hb rest : winput_ok i = true -> writer_new i = Ok hb ->
  exists h, read_header_start (hb ++ rest) = Ok (h, rest)
    /\ header_view h = expected_view i /\ header_warnings h = []
    /\ version_ge (rh_version h) V5 = true
    /\ rh_version h = match wi_sha256 i with Some _ => V6 | None => V5 end.
Proof.
  intros Hok H. destruct (winput_ok_fields i Hok) as (Hnv & Hmn & Hts & Hsha & Hcrc & Hlen & Hmap).
  unfold writer_new in H.
  destruct (capped 64 (wi_net_version i)) as [nv|] eqn:Env; [|discriminate].
  destruct (capped 64 (wi_map_name i)) as [mn|] eqn:Emn; [|discriminate].
  destruct (i32_max <? zlen (wi_map i)); [discriminate|].
  destruct (capped 20 (wi_timestamp i)) as [ts|] eqn:Ets; [|discriminate].
  apply Ok_inj in H. subst hb.
  destruct (capped_field _ _ _ Env Hnv) as (Lnv & Rnv & Wnv).
  destruct (capped_field _ _ _ Emn Hmn) as (Lmn & Rmn & Wmn).
  destruct (capped_field _ _ _ Ets Hts) as (Lts & Rts & Wts).
  eexists. split.
  - rewrite <- !app_assoc. apply read_header_layout; assumption || reflexivity.
  - unfold header_view, header_warnings, tm_markers, expected_view.
    cbn [rh_version rh_net_version rh_map_name rh_map_size rh_map_crc
        rh_kind rh_length rh_timestamp rh_tm_amount rh_tm_markers rh_sha256 rh_map].
    rewrite Rnv, Rmn, Rts, Wnv, Wmn, Wts. repeat split. destruct (wi_sha256 i); reflexivity.
Qed.

Lemma write_chunks_app cs1 : forall cs2 prev,
  write_chunks prev (cs1 ++ cs2)
  = match write_chunks prev cs1 with
    | Ok b1 => match write_chunks (next_prev prev cs1) cs2 with Ok b2 => Ok (b1 ++ b2) | e => e end
    | e => e
    end.
Proof.
  induction cs1 as [|c cs1 IH]; intros cs2 prev; cbn [app write_chunks].
  - destruct (write_chunks _ cs2); reflexivity.
  - destruct (write_chunk prev c) as [[b p']| | |] eqn:Ec; try reflexivity.
    apply write_chunk_prev in Ec. subst p'. rewrite IH, (next_prev_cons prev c).
    destruct (write_chunks _ cs1); try reflexivity.
    destruct (write_chunks _ cs2); try reflexivity. rewrite app_assoc. reflexivity.
Qed.

Lemma chunks_roundtrip v : forall cs prev bs rest,
  version_ge v V5 = true -> forallb chunk_ok cs = true -> existsb k15_chunk cs = false ->
  write_chunks prev cs = Ok bs ->
  Z.of_nat (length cs) <= zlen bs
  /\ forall fuel, (length cs <= length fuel)%nat ->
     read_chunks fuel v {| ds_rest := bs ++ rest; ds_tick := prev |}
     = let (l, e) := read_chunks (skipn (length cs) fuel) v
                       {| ds_rest := rest; ds_tick := next_prev prev cs |} in
       (map (fun c => (pad4_chunk c, [])) cs ++ l, e).
Proof.
  induction cs as [|c cs IH]; intros prev bs rest Hv Hok Hk H.
  - injection H as <-. split; [rewrite (@zlen_nil Z); cbn [length]; lia|]. intros fuel _.
    cbn [length skipn map app]. destruct (read_chunks fuel v _). reflexivity.
  - cbn [forallb existsb] in *. apply andb_true_iff in Hok as [Hc Hcs]. apply orb_false_iff in Hk as [Hkc Hkcs].
    cbn [write_chunks] in H.
    destruct (write_chunk prev c) as [[b prev']| | |] eqn:Ew; try discriminate.
    destruct (write_chunks prev' cs) as [t| | |] eqn:Et; try discriminate.
    injection H as <-.
    destruct (chunk_roundtrip v prev c b prev' (t ++ rest) Hv Hc Hkc Ew) as [Hr Hl].
    destruct (IH prev' t rest Hv Hcs Hkcs Et) as [IH1 IH2].
    split; [rewrite zlen_app; cbn [length]; clear - Hl IH1; lia|].
    intros [|f fuel] Hf; cbn [length] in Hf; [clear - Hf; lia|].
    apply write_chunk_prev in Ew. subst prev'.
    cbn [read_chunks length skipn]. rewrite <- app_assoc, Hr, IH2 by (clear - Hf; lia).
    rewrite (next_prev_cons prev c). destruct (read_chunks (skipn _ _) v _). reflexivity.
Qed.

Lemma file_prefix_roundtrip i cs hb bs rest :
  winput_ok i = true -> forallb chunk_ok cs = true -> existsb k15_chunk cs = false ->
  writer_new i = Ok hb -> write_chunks None cs = Ok bs ->
  exists h f fuel, header_view h = expected_view i /\ version_ge (rh_version h) V5 = true
    /\ read_all (hb ++ bs ++ rest)
       = Ok (h, [], let (l, e) := read_chunks (f :: fuel) (rh_version h)
                                    {| ds_rest := rest; ds_tick := next_prev None cs |} in
                    (map (fun c => (pad4_chunk c, [])) cs ++ l, e)).
Proof.
  intros Hi Hcs Hk Eh Et.
  destruct (header_roundtrip i hb (bs ++ rest) Hi Eh) as (h & Hr & Hview & Hw & Hv & _).
  destruct (chunks_roundtrip (rh_version h) cs None bs rest Hv Hcs Hk Et) as [Hl Hc].
  assert (Hf : (length cs < length (0%Z :: bs ++ rest))%nat)
    by (cbn [length]; rewrite app_length; rewrite zlen_length in Hl; lia).
  destruct (skipn (length cs) (0 :: bs ++ rest)) as [|f fuel] eqn:Es.
  { apply (f_equal (@length Z)) in Es. rewrite skipn_length in Es. cbn [length] in Es, Hf. lia. }
  exists h, f, fuel. split; [exact Hview|]. split; [exact Hv|].
  unfold read_all, reader_new. rewrite Hr, Hw, Hc, Es by lia. reflexivity.
Qed.

Theorem raw_roundtrip i cs file :
  winput_ok i = true -> forallb chunk_ok cs = true -> existsb k15_chunk cs = false ->
  write_all i cs = Ok file ->
  exists h, read_all file = Ok (h, [], (map (fun c => (pad4_chunk c, [])) cs, (Ok tt, [])))
    /\ header_view h = expected_view i.
Proof.
  intros Hi Hcs Hk H. unfold write_all in H.
  destruct (writer_new i) as [hb| | |] eqn:Eh; try discriminate.
  destruct (write_chunks None cs) as [t| | |] eqn:Et; try discriminate.
  injection H as <-.
  destruct (file_prefix_roundtrip i cs hb t [] Hi Hcs Hk Eh Et) as (h & f & fuel & Hview & _ & Hr).
  exists h. split; [|exact Hview]. rewrite app_nil_r in Hr. rewrite Hr. cbn. rewrite app_nil_r. reflexivity.
Qed.

(* K15: a recording that ends with an over-long message is read back up to that message *)
Theorem long_message_file i cs d file :
  winput_ok i = true -> forallb chunk_ok cs = true -> existsb k15_chunk cs = false ->
  bytes_ok d = true -> DEMO_MAX_SIZE < zlen d ->
  write_all i (cs ++ [CMessage d]) = Ok file ->
  exists h, read_all file
            = Ok (h, [], (map (fun c => (pad4_chunk c, [])) cs, (Err EMsgTooLong, []))).
Proof.
  intros Hi Hcs Hk Hd Hlong H. unfold write_all in H.
  destruct (writer_new i) as [hb| | |] eqn:Eh; try discriminate.
  rewrite write_chunks_app in H.
  destruct (write_chunks None cs) as [b1| | |] eqn:E1; try discriminate. cbn [write_chunks] in H.
  destruct (write_chunk (next_prev None cs) (CMessage d)) as [[b2 p2]| | |] eqn:E2; try discriminate.
  injection H as <-. rewrite app_nil_r.
  destruct (file_prefix_roundtrip i cs hb b1 b2 Hi Hcs Hk Eh E1) as (h & f & fuel & _ & Hv & Hr).
  exists h. rewrite Hr. cbn [read_chunks].
  rewrite <- (app_nil_r b2), (long_message_rejected _ _ d b2 p2 [] Hv Hd Hlong E2), app_nil_r. reflexivity.
Qed.
