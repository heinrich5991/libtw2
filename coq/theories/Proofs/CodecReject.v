(* C14: a value that violates a described constraint is rejected, with the error of the
   first violated member; an input that ends in front of a required member, or inside a
   fixed-size raw member, is rejected with UnexpectedEnd *)
From LibTw2 Require Import Base.Res Model.Varint Model.Packer Model.Codec
  Proofs.VarintArith Proofs.VarintProofs Proofs.PackerProofs Proofs.CodecStr Proofs.CodecDecode.
From Coq Require Import ZArith Lia Bool List ZifyBool.
Open Scope Z_scope.

(* the bytes of a value that has the right shape but not necessarily the described content *)
Definition raw_value (m : mop) (v : value) : bytes :=
  match m, v with
  | MIntStr, VBytes s => s ++ [0]
  | _, _ => enc_value m v
  end.

(* the constraint of member m that value v breaks *)
Definition violation (m : mop) (v : value) : option gerr :=
  match m, v with
  | MI i, VInt x => if is_i32 x then match check_int i x with Err e => Some e | _ => None end else None
  | MStrStrict, VBytes s => if str_ok s && has_cc s then Some ControlCharacters else None
  | MIntStr, VBytes s =>
    if str_ok s then match parse_int s with None => Some InvalidIntString | Some _ => None end else None
  | _, _ => None
  end.

Lemma decode_op_violation m v e : violation m v = Some e ->
  bytes_ok (raw_value m v) = true
  /\ forall demo rest, bytes_ok rest = true -> decode_op demo m (raw_value m v ++ rest) = (rest, Err e, []).
Proof.
  intros Hv. destruct m; cbn [violation] in Hv; try discriminate; destruct v; try discriminate;
    unfold raw_value; cbn [enc_value decode_op]; unfold step_int, step_bytes.
  - destruct (is_i32 v) eqn:Hi; [|discriminate]. destruct (check_int i v) eqn:Hc; try discriminate.
    injection Hv as <-. split; [apply write_int_bytes_ok, Hi|]. intros demo rest Hr.
    rewrite rd_int by assumption. cbn [int_of]. rewrite Hc. reflexivity.
  - destruct (str_ok s && has_cc s) eqn:E; [|discriminate]. injection Hv as <-.
    apply andb_true_iff in E as [Hs Hc]. unfold str_ok in Hs. apply andb_true_iff in Hs as [Hn Hs].
    apply negb_true_iff in Hn. split; [apply bytes_ok_app; [exact Hs|reflexivity]|]. intros demo rest Hr.
    rewrite rd_str by assumption. cbn [payload]. rewrite Hc. reflexivity.
  - destruct (str_ok s) eqn:Hs; [|discriminate]. destruct (parse_int s) eqn:Hp; [discriminate|].
    injection Hv as <-. unfold str_ok in Hs. apply andb_true_iff in Hs as [Hn Hs]. apply negb_true_iff in Hn.
    split; [apply bytes_ok_app; [exact Hs|reflexivity]|]. intros demo rest Hr.
    rewrite rd_str by assumption. cbn [payload]. rewrite Hp. reflexivity.
Qed.

Definition no_rest (ms : list mop) : bool := forallb (fun m => negb (takes_rest m)) ms.

Lemma decode_ops_prefix demo pre : forall vs ms rest,
  forallb mop_ok pre = true -> no_rest pre = true -> well_typed pre vs = true -> bytes_ok rest = true ->
  decode_ops demo (pre ++ ms) (enc_values pre vs ++ rest) =
  match decode_ops demo ms rest with
  | (r, Ok vs', ws) => (r, Ok (vs ++ vs'), ws)
  | other => other
  end.
Proof.
  unfold no_rest. induction pre as [|m pre IH]; intros [|v vs] ms rest Hm Hn Ht Hr;
    cbn [well_typed] in Ht; try discriminate.
  - cbn [app enc_values]. destruct (decode_ops demo ms rest) as [[r [vs'| | |]] ws]; reflexivity.
  - cbn [forallb] in Hm, Hn. apply andb_true_iff in Hm as [Hm1 Hm2]. apply andb_true_iff in Hn as [Hn1 Hn2].
    apply andb_true_iff in Ht as [Ht1 Ht2]. apply negb_true_iff in Hn1.
    cbn [app enc_values decode_ops]. rewrite <- app_assoc.
    rewrite decode_op_canon; [|assumption|assumption|assumption|].
    2:{ apply bytes_ok_app; [apply enc_values_ok; assumption|exact Hr]. }
    rewrite IH by assumption.
    destruct (decode_ops demo ms rest) as [[r [vs'| | |]] ws]; reflexivity.
Qed.

Theorem rejects_ops demo pre m post vs v e tail :
  forallb mop_ok pre = true -> no_rest pre = true -> well_typed pre vs = true ->
  violation m v = Some e -> bytes_ok tail = true ->
  decode_ops demo (pre ++ m :: post) (enc_values pre vs ++ raw_value m v ++ tail) = (tail, Err e, []).
Proof.
  intros Hm Hn Ht Hv Hr. destruct (decode_op_violation m v e Hv) as [Hraw Hd].
  rewrite decode_ops_prefix by (try apply bytes_ok_app; assumption).
  cbn [decode_ops]. rewrite Hd by exact Hr. reflexivity.
Qed.

Theorem rejects c demo pre m post vs v e tail : c_dec c = pre ++ m :: post ->
  forallb mop_ok pre = true -> no_rest pre = true -> well_typed pre vs = true ->
  violation m v = Some e -> bytes_ok tail = true ->
  decode c demo (enc_values pre vs ++ raw_value m v ++ tail) = Err e.
Proof.
  intros Hc Hm Hn Ht Hv Hr. unfold decode, decode_w, decode_body. rewrite Hc.
  rewrite (rejects_ops demo pre m post vs v e tail) by assumption. reflexivity.
Qed.

(* members that must read at least one byte *)
Definition must_read (m : mop) : bool :=
  match m with
  | MOptInt | MOptStr | MRest | MClients | MAddrs | MFinish => false
  | _ => true
  end.

Definition raw_size (m : mop) : option nat :=
  match m with
  | MUuid n | MSha256 n => Some n
  | MU8 => Some 1%nat
  | MBe16 => Some 2%nat
  | _ => None
  end.

Definition short_for (m : mop) (r : bytes) : bool :=
  (must_read m && match r with [] => true | _ => false end)
  || match raw_size m with Some n => (length r <? n)%nat | None => false end.

Lemma decode_op_short demo m r : mop_ok m = true -> short_for m r = true ->
  decode_op demo m r = ([], Err UnexpectedEnd, []).
Proof.
  intros Hm Hs. unfold short_for in Hs. apply orb_true_iff in Hs as [Hs|Hs].
  - apply andb_true_iff in Hs as [Hr He]. destruct r; [|discriminate].
    destruct m; cbn [must_read] in Hr; try discriminate; cbn [mop_ok] in Hm; try reflexivity.
    + apply Nat.eqb_eq in Hm. subst n. reflexivity.
    + apply Nat.eqb_eq in Hm. subst n. reflexivity.
  - destruct m; cbn [raw_size] in Hs; try discriminate; cbn [decode_op]; unfold step_bytes; cbn [unpack_step];
      rewrite Hs; reflexivity.
Qed.

Theorem rejects_short c demo pre m post vs r : c_dec c = pre ++ m :: post ->
  forallb mop_ok pre = true -> no_rest pre = true -> well_typed pre vs = true -> mop_ok m = true ->
  short_for m r = true -> bytes_ok r = true ->
  decode c demo (enc_values pre vs ++ r) = Err UnexpectedEnd.
Proof.
  intros Hc Hm Hn Ht Hmm Hs Hr. unfold decode, decode_w, decode_body. rewrite Hc.
  rewrite decode_ops_prefix by assumption. cbn [decode_ops].
  rewrite decode_op_short by assumption. reflexivity.
Qed.
