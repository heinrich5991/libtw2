(* One transfer (the messages of one tick, cut into n parts) fed in any order,
   with any duplication, interleaved with messages of older ticks: the answer
   of the receiver at every position. *)
From LibTw2 Require Import Base.Res Model.Receiver Proofs.ReceiverBase Proofs.ReceiverChunks Proofs.ReceiverSteps.
From Coq Require Import ZArith Lia Bool List ZifyBool ZifyNat.
Open Scope Z_scope.

Inductive item := Part (i : nat) | Other (m : snapmsg).

Definition dflt_msg : snapmsg := MSnapEmpty 0 0.
Definition item_msg (ms : list snapmsg) (it : item) : snapmsg :=
  match it with Part i => nth i ms dflt_msg | Other m => m end.

(* a schedule for a transfer of tick T with n messages: part numbers below n; other
   messages are of older ticks (and of a size for which the u32 offsets cannot overflow) *)
Definition item_ok (T : Z) (n : nat) (it : item) : bool :=
  match it with
  | Part i => (i <? n)%nat
  | Other m => (msg_tick m <? T) && msg_small m
  end.

Definition is_part (i : nat) (it : item) : bool :=
  match it with Part j => (j =? i)%nat | Other _ => false end.
Definition seen (items : list item) (i : nat) : bool := existsb (is_part i) items.
Definition covers (n : nat) (items : list item) : bool := forallb (seen items) (seq 0 n).
Definition any_part (items : list item) : bool :=
  existsb (fun it => match it with Part _ => true | Other _ => false end) items.

(* the answer to part i after the items `pre`, if the transfer delivers `rd` *)
Definition expect (n : nat) (rd : received) (pre : list item) (i : nat) : outcome :=
  if covers n pre then (Err OldDelta, [])
  else if seen pre i then (Err DuplicatePart, [])
  else if covers n (pre ++ [Part i]) then (Ok (Some rd), [])
  else (Ok None, []).

Fixpoint answers_ok (T : Z) (n : nat) (rd : received) (pre items : list item) (outs : list outcome) : Prop :=
  match items, outs with
  | [], [] => True
  | it :: items', o :: outs' =>
    match it with
    | Part i => o = expect n rd pre i
    | Other m => (any_part pre = true -> o = (Err OldDelta, [])) /\ outcome_ok m o
    end /\ answers_ok T n rd (pre ++ [it]) items' outs'
  | _, _ => False
  end.

Lemma seen_app a b i : seen (a ++ b) i = seen a i || seen b i.
Proof. apply existsb_app. Qed.

Lemma seen_part pre j i : seen (pre ++ [Part j]) i = seen pre i || (j =? i)%nat.
Proof. rewrite seen_app. cbn [seen existsb is_part]. rewrite orb_false_r. reflexivity. Qed.

Lemma seen_other pre m i : seen (pre ++ [Other m]) i = seen pre i.
Proof. rewrite seen_app. cbn [seen existsb is_part]. rewrite !orb_false_r. reflexivity. Qed.

Lemma forallb_ext_in {A} (f g : A -> bool) l : (forall x, In x l -> f x = g x) -> forallb f l = forallb g l.
Proof.
  induction l as [|x l IH]; intros H; [reflexivity|]. cbn [forallb].
  rewrite H by (left; reflexivity). rewrite IH by (intros y Hy; apply H; right; exact Hy). reflexivity.
Qed.

Lemma covers_other n pre m : covers n (pre ++ [Other m]) = covers n pre.
Proof. unfold covers. apply forallb_ext_in. intros i _. apply seen_other. Qed.

Lemma covers_spec n items : covers n items = true <-> forall i, (i < n)%nat -> seen items i = true.
Proof.
  unfold covers. rewrite forallb_forall. split.
  - intros H i Hi. apply H. apply in_seq. lia.
  - intros H i Hi. apply in_seq in Hi. apply H. lia.
Qed.

Lemma covers_mono n a b : covers n a = true -> covers n (a ++ b) = true.
Proof.
  rewrite !covers_spec. intros H i Hi. rewrite seen_app, H by exact Hi. reflexivity.
Qed.

Lemma covers_prefix n a b : covers n (a ++ b) = false -> covers n a = false.
Proof. intros H. destruct (covers n a) eqn:E; [|reflexivity]. rewrite (covers_mono n a b E) in H. discriminate. Qed.

Lemma seen_dup pre i j : seen pre i = true -> seen (pre ++ [Part i]) j = seen pre j.
Proof.
  intros Hs. rewrite seen_part. destruct (i =? j)%nat eqn:E; [|apply orb_false_r].
  apply Nat.eqb_eq in E. subst j. rewrite Hs. reflexivity.
Qed.

Lemma covers_dup n pre i : seen pre i = true -> covers n (pre ++ [Part i]) = covers n pre.
Proof. intros Hs. unfold covers. apply forallb_ext_in. intros j _. apply seen_dup, Hs. Qed.

Lemma any_part_app a b : any_part (a ++ b) = any_part a || any_part b.
Proof. apply existsb_app. Qed.

Lemma no_part_seen pre i : any_part pre = false -> seen pre i = false.
Proof.
  induction pre as [|it pre IH]; [reflexivity|]. cbn [any_part seen existsb].
  destruct it as [j|m]; cbn [is_part]; [discriminate|]. exact IH.
Qed.

Lemma no_part_covers n pre : (1 <= n)%nat -> any_part pre = false -> covers n pre = false.
Proof.
  intros Hn Hp. destruct (covers n pre) eqn:E; [|reflexivity].
  rewrite covers_spec in E. specialize (E 0%nat ltac:(lia)). rewrite no_part_seen in E by exact Hp. discriminate.
Qed.

Lemma run_cons s m ms :
  snd (run s (m :: ms)) = snd (recv_step s m) :: snd (run (fst (recv_step s m)) ms).
Proof.
  cbn [run]. destruct (recv_step s m) as [s' o]. cbn [fst snd]. destruct (run s' ms) as [s'' os]. reflexivity.
Qed.

Section Generic.
  Variables (T : Z) (n : nat) (rd : received) (msgs : nat -> snapmsg).
  Variable inprog : list item -> receiver -> Prop.

  Definition done (s : receiver) : Prop := r_cur s = None /\ r_prev s = Some T.

  Definition phase (pre : list item) (s : receiver) : Prop :=
    if covers n pre then done s
    else if any_part pre then inprog pre s
    else wf s = true /\ before s T = true.

  Lemma phase_part pre i s :
    phase (pre ++ [Part i]) s = if covers n (pre ++ [Part i]) then done s else inprog (pre ++ [Part i]) s.
  Proof. unfold phase. rewrite any_part_app. cbn [any_part existsb]. rewrite orb_true_r. reflexivity. Qed.

  Hypothesis Hn : (1 <= n)%nat.
  Hypothesis Hticks : forall i, (i < n)%nat -> msg_tick (msgs i) = T.
  Hypothesis H_first : forall pre s i, any_part pre = false -> wf s = true -> before s T = true -> (i < n)%nat ->
    snd (recv_step s (msgs i)) = expect n rd pre i /\ phase (pre ++ [Part i]) (fst (recv_step s (msgs i))).
  Hypothesis H_inprog : forall pre s i, covers n pre = false -> inprog pre s -> (i < n)%nat ->
    snd (recv_step s (msgs i)) = expect n rd pre i /\ phase (pre ++ [Part i]) (fst (recv_step s (msgs i))).
  Hypothesis H_other : forall pre s m, inprog pre s -> msg_tick m < T ->
    recv_step s m = (s, (Err OldDelta, [])) /\ inprog (pre ++ [Other m]) s.

  Definition gmsg (it : item) : snapmsg := match it with Part i => msgs i | Other m => m end.

  Lemma schedule_answers items : forall pre s, phase pre s -> forallb (item_ok T n) items = true ->
    answers_ok T n rd pre items (snd (run s (map gmsg items))).
  Proof.
    induction items as [|it items IH]; intros pre s Hph Hok; [exact I|].
    cbn [forallb] in Hok. apply andb_true_iff in Hok. destruct Hok as [Hit Hok].
    cbn [map]. rewrite run_cons. cbn [answers_ok].
    unfold phase in Hph. destruct (covers n pre) eqn:Hcov.
    { (* handed out already: whatever comes is refused *)
      destruct Hph as [Hc Hp].
      assert (Hle : msg_tick (gmsg it) <= T) by (destruct it; cbn [gmsg item_ok] in *; [rewrite Hticks by lia|]; lia).
      assert (Hpass : passed s T = true) by (unfold passed; rewrite Hc, Hp; apply Z.leb_refl).
      rewrite (passed_refused s (gmsg it) T Hpass Hle).
      split; [destruct it; [unfold expect; rewrite Hcov; reflexivity|split; [reflexivity|apply refused_ok]]|].
      apply IH; [|exact Hok]. unfold phase. rewrite covers_mono by exact Hcov. split; assumption. }
    destruct it as [i|m]; cbn [gmsg item_ok] in *.
    - assert (Hi : (i < n)%nat) by lia.
      destruct (any_part pre) eqn:Hany.
      + destruct (H_inprog pre s i Hcov Hph Hi) as [Ho Hph']. split; [exact Ho|]. apply IH; assumption.
      + destruct Hph as [Hwf Hb]. destruct (H_first pre s i Hany Hwf Hb Hi) as [Ho Hph'].
        split; [exact Ho|]. apply IH; assumption.
    - apply andb_true_iff in Hit. destruct Hit as [Hlt Hsm]. apply Z.ltb_lt in Hlt.
      destruct (any_part pre) eqn:Hany.
      + destruct (H_other pre s m Hph Hlt) as [Hstep Hin]. rewrite Hstep.
        split; [split; [reflexivity|apply refused_ok]|].
        apply IH; [|exact Hok]. unfold phase. rewrite covers_other, Hcov, any_part_app, Hany. exact Hin.
      + destruct Hph as [Hwf Hb]. destruct (step_wf s m Hwf Hsm) as [Hwf' Hout].
        split; [split; [intros H; discriminate|exact Hout]|].
        apply IH; [|exact Hok]. unfold phase. rewrite covers_other, Hcov, any_part_app, Hany. cbn [any_part existsb orb].
        split; [exact Hwf'|]. apply step_before; assumption.
  Qed.
  Lemma schedule_answers_msgs ms items s : (forall i, (i < n)%nat -> nth i ms dflt_msg = msgs i) ->
    phase [] s -> forallb (item_ok T n) items = true ->
    answers_ok T n rd [] items (snd (run s (map (item_msg ms) items))).
  Proof.
    intros Hms Hph Hok. replace (map (item_msg ms) items) with (map gmsg items); [apply schedule_answers; assumption|].
    apply map_ext_in. intros it Hit. rewrite forallb_forall in Hok. specialize (Hok it Hit).
    destruct it as [i|m]; [|reflexivity]. symmetry. apply Hms, Nat.ltb_lt, Hok.
  Qed.
End Generic.

Lemma covers_one pre : covers 1 (pre ++ [Part 0%nat]) = true.
Proof. apply covers_spec. intros i Hi. rewrite seen_part. replace i with 0%nat by lia. apply orb_true_r. Qed.

(* a transfer that is one message `m`, which a receiver that has not seen its tick hands out at once *)
Lemma one_msg_answers T m rd s0 items : msg_tick m = T ->
  (forall s, before s T = true ->
     snd (recv_step s m) = (Ok (Some rd), []) /\ done T (fst (recv_step s m))) ->
  wf s0 = true -> before s0 T = true -> forallb (item_ok T 1) items = true ->
  answers_ok T 1 rd [] items (snd (run s0 (map (item_msg [m]) items))).
Proof.
  intros Ht Hstep Hwf Hb.
  apply schedule_answers_msgs with (msgs := fun _ => m) (inprog := fun _ _ => False); [lia| | | | | |split; assumption].
  - intros i _. exact Ht.
  - intros pre s i Hany _ Hb' Hi. replace i with 0%nat by lia. destruct (Hstep s Hb') as [-> Hd]. split.
    + unfold expect. rewrite no_part_covers by (try exact Hany; lia).
      rewrite no_part_seen by exact Hany. rewrite covers_one. reflexivity.
    + rewrite phase_part, covers_one. exact Hd.
  - intros pre s i _ [].
  - intros pre s m' [].
  - intros i Hi. replace i with 0%nat by lia. reflexivity.
Qed.

Theorem empty_answers T dt s0 items :
  wf s0 = true -> before s0 T = true -> forallb (item_ok T 1) items = true ->
  answers_ok T 1 {| rd_delta_tick := wrap32 (T - dt); rd_tick := T; rd_data_and_crc := None |} [] items
    (snd (run s0 (map (item_msg [MSnapEmpty T dt]) items))).
Proof.
  apply one_msg_answers; [reflexivity|]. intros s [Hc Hn]%before_spec.
  cbn [recv_step]. rewrite snap_empty_ok, Hn by exact Hc. repeat split.
Qed.

Theorem single_answers T dt crc data s0 items :
  wf s0 = true -> before s0 T = true -> forallb (item_ok T 1) items = true ->
  answers_ok T 1 {| rd_delta_tick := wrap32 (T - dt); rd_tick := T; rd_data_and_crc := Some (data, crc) |} [] items
    (snd (run s0 (map (item_msg [MSnapSingle T dt crc data]) items))).
Proof.
  apply one_msg_answers; [reflexivity|]. intros s [Hc Hn]%before_spec.
  cbn [recv_step]. rewrite snap_single_ok, Hn by exact Hc. repeat split.
Qed.

Section Multi.
  Variables (T dt crc : Z) (chunks : list bytes).
  Let n := length chunks.
  Let c0 := new_current T dt (Z.of_nat n) crc.
  Let rd := {| rd_delta_tick := wrap32 (T - dt); rd_tick := T; rd_data_and_crc := Some (concat chunks, crc) |}.
  Let pmsg (i : nat) : snapmsg := part_msg T dt crc chunks i.

  Hypothesis Hn1 : (1 <= n)%nat.
  Hypothesis Hn32 : (n <= 32)%nat.
  Hypothesis Hsmall : Forall (fun c => lenZ c <= max_data) chunks.

  Definition inprog (pre : list item) (s : receiver) : Prop :=
    r_cur s = Some c0 /\ r_result s = []
    /\ ascending (keys (r_parts s)) = true
    /\ (forall k, In k (keys (r_parts s)) <-> exists i, k = Z.of_nat i /\ (i < n)%nat /\ seen pre i = true)
    /\ (forall k st en, In (k, (st, en)) (r_parts s) ->
          0 <= st /\ st <= en /\ en <= lenZ (r_buf s) /\ sub_list (r_buf s) st en = nth (Z.to_nat k) chunks [])
    /\ lenZ (r_buf s) <= max_data * Z.of_nat (length (r_parts s)).

  Lemma chunk_small i : lenZ (nth i chunks []) <= max_data.
  Proof.
    destruct (Nat.lt_ge_cases i (length chunks)) as [Hi|Hi].
    - rewrite Forall_forall in Hsmall. apply Hsmall. apply nth_In. exact Hi.
    - rewrite nth_overflow by exact Hi. rewrite lenZ_nil. unfold max_data. lia.
  Qed.

  Lemma attr_warn_c0 : attr_warn c0 T dt (Z.of_nat n) crc = [].
  Proof.
    unfold attr_warn, c0, new_current. cbn [c_delta_tick c_num_parts c_crc].
    rewrite !Z.eqb_refl. reflexivity.
  Qed.

  (* only the set of parts seen matters *)
  Lemma inprog_seen_ext pre pre' s : (forall i, seen pre' i = seen pre i) -> inprog pre s -> inprog pre' s.
  Proof.
    intros Hext (Hcur & Hres & Hasc & Hkeys & Hrest).
    split; [exact Hcur|]. split; [exact Hres|]. split; [exact Hasc|]. split; [|exact Hrest].
    intros k. rewrite Hkeys. split; intros [i Hi]; exists i; [rewrite Hext|rewrite <- Hext]; exact Hi.
  Qed.

  Lemma inprog_keys_range pre s : inprog pre s -> forall k, In k (keys (r_parts s)) -> 0 <= k < Z.of_nat n.
  Proof. intros (_ & _ & _ & Hkeys & _) k Hk. apply Hkeys in Hk. destruct Hk as [i [-> [Hi _]]]. lia. Qed.

  Lemma inprog_not_key pre s i : inprog pre s -> seen pre i = false -> ~ In (Z.of_nat i) (keys (r_parts s)).
  Proof.
    intros (_ & _ & _ & Hkeys & _) Hseen Hx. apply Hkeys in Hx. destruct Hx as [j [Hj [_ Hs]]].
    apply Nat2Z.inj in Hj. subst j. rewrite Hs in Hseen. discriminate.
  Qed.

  Lemma inprog_parts_le pre s : inprog pre s -> (length (r_parts s) <= n)%nat.
  Proof.
    intros Hin. pose proof Hin as (_ & _ & Hasc & _).
    pose proof (ascending_length _ 0 (Z.of_nat n) Hasc (inprog_keys_range pre s Hin)) as H.
    unfold keys in H. rewrite map_length in H. lia.
  Qed.

  Lemma inprog_all_keys pre s : inprog pre s -> length (r_parts s) = n -> keys (r_parts s) = zseq 0 n.
  Proof.
    intros Hin E. pose proof (inprog_keys_range pre s Hin) as Hrng. destruct Hin as (_ & _ & Hasc & _).
    rewrite <- E, <- (map_length fst (r_parts s)) in *. apply ascending_full; assumption.
  Qed.

  Lemma inprog_full pre s : inprog pre s -> (Z.of_nat (length (r_parts s)) =? Z.of_nat n) = covers n pre.
  Proof.
    intros Hin. pose proof (inprog_parts_le pre s Hin) as Hle. pose proof (inprog_all_keys pre s Hin) as Hk.
    destruct Hin as (_ & _ & _ & Hkeys & _).
    destruct (covers n pre) eqn:Hcov.
    - rewrite covers_spec in Hcov.
      assert (n <= length (keys (r_parts s)))%nat; [|unfold keys in *; rewrite map_length in *; lia].
      apply (covering_length _ 0). intros x Hx. apply Hkeys. exists (Z.to_nat x).
      split; [lia|]. split; [lia|apply Hcov; lia].
    - destruct (Nat.eq_dec (length (r_parts s)) n) as [E|E]; [exfalso|lia].
      assert (covers n pre = true); [|congruence].
      apply covers_spec. intros j Hj.
      assert (Hx : In (Z.of_nat j) (keys (r_parts s))) by (rewrite (Hk E); apply zseq_In; lia).
      apply Hkeys in Hx. destruct Hx as [j' [Hjj [_ Hs]]]. apply Nat2Z.inj in Hjj. subst j'. exact Hs.
  Qed.

  Lemma inprog_data pre s : inprog pre s -> covers n pre = true ->
    concat (map (range_data (r_buf s)) (r_parts s)) = concat chunks.
  Proof.
    intros Hin Hcov. pose proof (inprog_full pre s Hin) as Hfull. rewrite Hcov in Hfull.
    pose proof (inprog_all_keys pre s Hin ltac:(lia)) as Hk. destruct Hin as (_ & _ & _ & _ & Hel & _).
    f_equal. transitivity (map (fun k => nth (Z.to_nat k) chunks []) (keys (r_parts s))).
    - unfold keys. rewrite map_map. apply map_ext_in. intros [k [st en]] He. apply Hel, He.
    - rewrite Hk. apply map_nth_zseq.
  Qed.

  Lemma inprog_insert pre s i parts' : inprog pre s -> (i < n)%nat -> seen pre i = false ->
    pm_insert (Z.of_nat i) (lenZ (r_buf s), lenZ (r_buf s) + lenZ (nth i chunks [])) (r_parts s) = (parts', None) ->
    inprog (pre ++ [Part i]) (set_parts (set_buf s (r_buf s ++ nth i chunks [])) parts').
  Proof.
    intros Hin Hi Hseen Hins. pose proof (inprog_not_key pre s i Hin Hseen) as Hnk.
    destruct Hin as (Hcur & Hres & Hasc & Hkeys & Hel & Hbuf).
    destruct (pm_insert_new (Z.of_nat i) (lenZ (r_buf s), lenZ (r_buf s) + lenZ (nth i chunks [])) (r_parts s) Hnk)
      as [m' [Hins' [Hl [Hin' Hasc']]]]. rewrite Hins in Hins'. injection Hins' as <-.
    pose proof (lenZ_nonneg (nth i chunks [])) as Hd0. pose proof (lenZ_nonneg (r_buf s)) as Hb0.
    unfold inprog. cbn [r_cur r_result r_parts r_buf set_parts set_buf].
    split; [exact Hcur|]. split; [exact Hres|]. split; [exact (Hasc' Hasc)|]. split; [|split].
    - intros k. rewrite (keys_insert_In _ _ _ _ _ k Hins), Hkeys. split.
      + intros [->|[j [-> [Hj Hs]]]].
        * exists i. rewrite seen_part, Nat.eqb_refl, orb_true_r. auto.
        * exists j. rewrite seen_part, Hs. auto.
      + intros [j [-> [Hj Hs]]]. rewrite seen_part in Hs. destruct (i =? j)%nat eqn:E.
        * apply Nat.eqb_eq in E. subst j. left. reflexivity.
        * rewrite orb_false_r in Hs. right. exists j. auto.
    - intros k st en He. apply Hin' in He. rewrite lenZ_app. destruct He as [He|He].
      + injection He as -> -> ->. split; [exact Hb0|]. split; [lia|]. split; [lia|].
        rewrite Nat2Z.id. apply sub_list_app_r.
      + destruct (Hel k st en He) as [H1 [H2 [H3 H4]]]. split; [exact H1|]. split; [exact H2|]. split; [lia|].
        rewrite sub_list_app_l by assumption. exact H4.
    - rewrite lenZ_app, Hl. apply offsets_grow; [exact Hbuf|apply chunk_small].
  Qed.

  Lemma store_phase pre s i : covers n pre = false -> inprog pre s -> (i < n)%nat ->
    let r := snap_store s c0 T dt (Z.of_nat n) (Z.of_nat i) crc (nth i chunks []) in
    snd r = expect n rd pre i /\ phase T n inprog (pre ++ [Part i]) (fst r).
  Proof.
    intros Hcov Hin Hi. cbv zeta. rewrite phase_part. unfold expect. rewrite Hcov.
    pose proof Hin as (Hcur & Hres & _ & Hkeys & Hel & Hbuf). destruct (seen pre i) eqn:Hseen.
    - rewrite snap_store_dup by (apply Hkeys; exists i; auto). rewrite attr_warn_c0. cbn [fst snd].
      split; [reflexivity|]. rewrite covers_dup by exact Hseen. rewrite Hcov.
      apply (inprog_seen_ext pre); [|exact Hin]. intros j. apply seen_dup, Hseen.
    - pose proof (inprog_parts_le pre s Hin) as Hle.
      destruct (snap_store_new s c0 T dt (Z.of_nat n) (Z.of_nat i) crc (nth i chunks [])) as [parts' [Hins [_ [_ [_ [_ Heq]]]]]].
      + exact (inprog_not_key pre s i Hin Hseen).
      + apply (offsets_fit max_data _ _ (Z.of_nat (length (r_parts s)))); [unfold max_data; lia|exact Hbuf|lia|apply chunk_small].
      + unfold i32_max. lia.
      + apply forallb_forall. intros [k [st en]] He. destruct (Hel k st en He) as [H1 [H2 [H3 _]]].
        unfold range_ok. cbn [fst snd]. lia.
      + pose proof (inprog_insert pre s i parts' Hin Hi Hseen Hins) as Hin'.
        pose proof (inprog_full _ _ Hin') as Hfull. pose proof (inprog_data _ _ Hin') as Hdata.
        cbn [r_parts r_buf set_parts set_buf] in Hfull, Hdata.
        rewrite Heq, attr_warn_c0. change (c_num_parts c0) with (Z.of_nat n). rewrite Hfull.
        destruct (covers n (pre ++ [Part i])); cbn [fst snd]; [|split; [reflexivity|exact Hin']].
        rewrite Hres, Hdata by reflexivity. repeat split.
  Qed.

  Lemma multi_first pre s i : any_part pre = false -> wf s = true -> before s T = true -> (i < n)%nat ->
    snd (recv_step s (pmsg i)) = expect n rd pre i
    /\ phase T n inprog (pre ++ [Part i]) (fst (recv_step s (pmsg i))).
  Proof.
    intros Hany Hwf [Hc Hnt]%before_spec Hi.
    unfold pmsg, part_msg. cbn [recv_step]. fold n.
    rewrite snap_norm by (try exact Hc; clear - Hi Hn32; lia).
    destruct (start_fresh s T dt (Z.of_nat n) crc Hnt) as [-> ->].
    apply store_phase; [apply no_part_covers; assumption| |exact Hi].
    unfold inprog. cbn [r_cur r_result r_parts r_buf set_cur init_delta keys map length].
    split; [reflexivity|]. split; [reflexivity|]. split; [reflexivity|]. split.
    - intros k. split; [intros []|]. intros [j [_ [_ Hs]]]. rewrite no_part_seen in Hs by exact Hany. discriminate.
    - split; [intros k st en []|]. rewrite lenZ_nil. lia.
  Qed.

  Lemma multi_inprog pre s i : covers n pre = false -> inprog pre s -> (i < n)%nat ->
    snd (recv_step s (pmsg i)) = expect n rd pre i
    /\ phase T n inprog (pre ++ [Part i]) (fst (recv_step s (pmsg i))).
  Proof.
    intros Hcov Hin Hi. pose proof Hin as [Hcur _].
    unfold pmsg, part_msg. cbn [recv_step]. fold n.
    rewrite snap_norm by (try (unfold can_receive; rewrite Hcur; apply Z.leb_refl); clear - Hi Hn32; lia).
    destruct (start_same s c0 T dt (Z.of_nat n) crc Hcur eq_refl) as [-> ->]. apply store_phase; assumption.
  Qed.

  Lemma multi_other pre s m : inprog pre s -> msg_tick m < T ->
    recv_step s m = (s, (Err OldDelta, [])) /\ inprog (pre ++ [Other m]) s.
  Proof.
    intros Hin Hlt. pose proof Hin as [Hcur _]. split.
    - apply old_tick_refused with (t := T); [|exact Hlt].
      unfold newest_seen. rewrite Hcur. reflexivity.
    - apply (inprog_seen_ext pre); [|exact Hin]. intros j. apply seen_other.
  Qed.

  Theorem multi_answers s0 items :
    wf s0 = true -> before s0 T = true -> forallb (item_ok T n) items = true ->
    answers_ok T n rd [] items (snd (run s0 (map (item_msg (multi_msgs T dt crc chunks)) items))).
  Proof.
    intros Hwf Hb.
    apply schedule_answers_msgs with (msgs := pmsg) (inprog := inprog); [exact Hn1| | | | | |].
    - intros i _. reflexivity.
    - apply multi_first.
    - apply multi_inprog.
    - apply multi_other.
    - intros i Hi. apply multi_msgs_nth, Hi.
    - unfold phase. rewrite no_part_covers by (try reflexivity; exact Hn1). cbn [any_part existsb]. split; assumption.
  Qed.
End Multi.
