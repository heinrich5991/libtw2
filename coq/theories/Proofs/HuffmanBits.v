(* Bit-level facts used by the Huffman proofs: bits_of / byte_bits as testbit lists,
   the byte <-> bit-list view of a byte string. *)
From LibTw2 Require Import Base.Res Base.Bits Model.Huffman.
From Coq Require Import ZArith List Lia Bool.
Import ListNotations.
Open Scope Z_scope.

(* all bits of a byte string, in decoder order *)
Definition bits_of_bytes (bs : bytes) : list bool := flat_map (byte_bits 8) bs.

Lemma bits_of_bytes_app a b : bits_of_bytes (a ++ b) = bits_of_bytes a ++ bits_of_bytes b.
Proof. unfold bits_of_bytes. apply flat_map_app. Qed.

Lemma bits_of_bytes_cons a b : bits_of_bytes (a :: b) = byte_bits 8 a ++ bits_of_bytes b.
Proof. reflexivity. Qed.

Lemma bits_of_length v off k : length (bits_of v off k) = k.
Proof. revert off. induction k; intros; cbn [bits_of length]; [reflexivity|]. now rewrite IHk. Qed.

Lemma bits_of_app v off a b :
  bits_of v off (a + b) = bits_of v off a ++ bits_of v (off + Z.of_nat a) b.
Proof.
  revert off. induction a; intros off.
  - cbn [Nat.add bits_of app]. f_equal. lia.
  - cbn [Nat.add bits_of app]. f_equal. rewrite IHa. f_equal. f_equal. lia.
Qed.

Lemma bits_of_ext v w off off' k :
  (forall i, 0 <= i < Z.of_nat k -> Z.testbit v (off + i) = Z.testbit w (off' + i)) ->
  bits_of v off k = bits_of w off' k.
Proof.
  revert off off'. induction k; intros off off' H; cbn [bits_of]; [reflexivity|].
  f_equal.
  - specialize (H 0). rewrite !Z.add_0_r in H. apply H. lia.
  - apply IHk. intros i Hi. specialize (H (i + 1)).
    replace (off + 1 + i) with (off + (i + 1)) by lia.
    replace (off' + 1 + i) with (off' + (i + 1)) by lia. apply H. lia.
Qed.

Lemma bits_of_false v off k :
  (forall i, 0 <= i < Z.of_nat k -> Z.testbit v (off + i) = false) ->
  bits_of v off k = repeat false k.
Proof.
  revert off. induction k; intros off H; cbn [bits_of repeat]; [reflexivity|].
  f_equal.
  - specialize (H 0). rewrite Z.add_0_r in H. apply H. lia.
  - apply IHk. intros i Hi. specialize (H (i + 1)).
    replace (off + 1 + i) with (off + (i + 1)) by lia. apply H. lia.
Qed.

Lemma land1_testbit v : negb (Z.land v 1 =? 0) = Z.testbit v 0.
Proof.
  change 1 with (Z.ones 1). rewrite Z.land_ones by lia. change (2 ^ 1) with 2.
  rewrite <- Z.bit0_mod. destruct (Z.testbit v 0); reflexivity.
Qed.

Lemma byte_bits_shift k v off : 0 <= off -> byte_bits k (Z.shiftr v off) = bits_of v off k.
Proof.
  revert off. induction k; intros off Hoff; cbn [byte_bits bits_of]; [reflexivity|].
  f_equal.
  - rewrite land1_testbit. rewrite Z.shiftr_spec by lia. f_equal.
  - rewrite Z.shiftr_shiftr by lia. apply IHk. lia.
Qed.

Lemma byte_bits_bits_of k v : byte_bits k v = bits_of v 0 k.
Proof. rewrite <- (byte_bits_shift k v 0) by lia. now rewrite Z.shiftr_0_r. Qed.

Lemma byte_bits_length k v : length (byte_bits k v) = k.
Proof. rewrite byte_bits_bits_of. apply bits_of_length. Qed.

Lemma bits_of_bytes_length bs : length (bits_of_bytes bs) = (8 * length bs)%nat.
Proof.
  induction bs; [reflexivity|]. rewrite bits_of_bytes_cons, app_length, byte_bits_length, IHbs.
  cbn [length]. lia.
Qed.

Lemma testbit_small v k i : 0 <= k -> 0 <= v < 2 ^ k -> k <= i -> Z.testbit v i = false.
Proof.
  intros Hk Hv Hi. destruct (Z.eq_dec v 0) as [->|Hne]; [apply Z.bits_0|].
  apply Z.bits_above_log2; [lia|]. apply Z.log2_lt_pow2; [lia|].
  assert (2 ^ k <= 2 ^ i) by (apply Z.pow_le_mono_r; lia). lia.
Qed.

Lemma testbit_255 i : 0 <= i -> Z.testbit 255 i = (i <? 8).
Proof.
  intros Hi. change 255 with (Z.ones 8).
  destruct (Z.ltb_spec i 8).
  - apply Z.ones_spec_low. lia.
  - apply Z.ones_spec_high. lia.
Qed.

(* (v >> off) as u8, seen as bits *)
Lemma testbit_shr_u8 v off i : 0 <= off -> 0 <= i ->
  Z.testbit (Z.land (Z.shiftr v off) 255) i = Z.testbit v (i + off) && (i <? 8).
Proof. intros. rewrite Z.land_spec, Z.shiftr_spec, testbit_255 by lia. reflexivity. Qed.

Lemma land_255_range v : 0 <= Z.land v 255 < 256.
Proof.
  change 255 with (Z.ones 8). rewrite Z.land_ones by lia.
  change (2 ^ 8) with 256. apply Z.mod_pos_bound. lia.
Qed.

Lemma byte_ok_range b : byte_ok b = true <-> 0 <= b < 256.
Proof. unfold byte_ok. rewrite andb_true_iff, Z.leb_le, Z.ltb_lt. reflexivity. Qed.

Lemma bytes_ok_range bs b : bytes_ok bs = true -> In b bs -> 0 <= b < 256.
Proof. unfold bytes_ok. rewrite forallb_forall. intros H Hb. apply byte_ok_range, H, Hb. Qed.

Lemma land_255_small v : 0 <= v < 256 -> Z.land v 255 = v.
Proof. intros H. change 255 with (Z.ones 8). rewrite Z.land_ones by lia. now apply Z.mod_small. Qed.

Lemma bits_of_shiftr v off k : 0 <= off -> bits_of (Z.shiftr v off) 0 k = bits_of v off k.
Proof. intros H. rewrite <- byte_bits_bits_of. now apply byte_bits_shift. Qed.

Lemma shiftr_small v a b : 0 <= a -> 0 <= b -> 0 <= v < 2 ^ (a + b) -> 0 <= Z.shiftr v a < 2 ^ b.
Proof.
  intros Ha Hb Hv. rewrite Z.shiftr_div_pow2 by lia.
  assert (H2 : 0 < 2 ^ a) by (apply Z.pow_pos_nonneg; lia).
  split; [apply Z.div_pos; lia|]. apply Z.div_lt_upper_bound; [lia|].
  rewrite <- Z.pow_add_r by lia. lia.
Qed.

Lemma shiftl_u32 bits n nob : 0 <= nob -> 0 <= n -> 0 <= bits < 2 ^ n -> nob + n <= 32 ->
  Z.shiftl bits nob mod 4294967296 = Z.shiftl bits nob.
Proof.
  intros Hnob Hn Hbits Hle. apply Z.mod_small. rewrite Z.shiftl_mul_pow2 by lia.
  split; [apply Z.mul_nonneg_nonneg; lia|].
  assert (bits * 2 ^ nob < 2 ^ n * 2 ^ nob) by (apply Z.mul_lt_mono_pos_r; [apply Z.pow_pos_nonneg|]; lia).
  assert (2 ^ (n + nob) <= 2 ^ 32) by (apply Z.pow_le_mono_r; lia).
  rewrite <- Z.pow_add_r in * by lia. lia.
Qed.

Lemma small_of_testbit v k : 0 <= k -> 0 <= v ->
  (forall i, k <= i -> Z.testbit v i = false) -> v < 2 ^ k.
Proof.
  intros Hk Hv H. destruct (Z.eq_dec v 0) as [->|Hne]; [apply Z.pow_pos_nonneg; lia|].
  destruct (Z_lt_le_dec v (2 ^ k)) as [|Hge]; [assumption|exfalso].
  assert (Hl : k <= Z.log2 v) by (apply Z.log2_le_pow2; lia).
  specialize (H (Z.log2 v) Hl). rewrite Z.bit_log2 in H by lia. discriminate.
Qed.
