(* C02 for 0.6 at the level of the link: from every state of the two-endpoint link in which both
   ends are online there is a finite "healing schedule" -- the applications only flush and tick,
   the network loses what was in flight and from then on delivers every datagram exactly once and
   in order -- that ends in the quiescent state: everything submitted is delivered, every resend
   queue and every packet under construction is empty, nothing is in flight; three ticks. *)
From LibTw2 Require Import Base.Res Model.PacketTypes Model.ConnCore Model.Conn6 Model.LinkGhost Model.Link6
  Proofs.ConnCoreInv Proofs.Conn6Inv Proofs.LinkArith Proofs.LinkCore Proofs.Link6Inv Proofs.ConnProgress.
From LibTw2 Require Export Proofs.LinkHealCore.
From Coq Require Import ZArith Lia Bool List.
Open Scope Z_scope.

(* the time by which both the send timer and the oldest resend timer have run out *)
Definition due (c : conn6) : Z :=
  match c_state c with
  | Online o => Z.max (tval (c_send c))
                      (match queue_back (o_queue o) with Some rc => tval (rc_next rc) | None => 0 end)
  | _ => 0
  end.

Definition mkf (x : lside) (d : dgram) : flight := {| f_d := d; f_n := zlen (l_sub x); f_c := zlen (l_del x) |}.

Lemma side_step_inv now x op x' fl : side_step now x op = Ok (x', fl) ->
  exists out, step (l_conn x) {| e_now := now; e_rand := l_rand x |} op = Ok out /\
              x' = after x op out /\ fl = map (mkf x) (out_sent out).
Proof.
  unfold side_step. destruct (step _ _ _) as [out| | |]; try discriminate.
  intros H. injection H as <- <-. exists out. repeat split.
Qed.

Lemma tok_eqb_refl t : tok_eqb t t = true.
Proof. destruct t as [x|]; cbn; [|reflexivity]. destruct (list_eq_dec Z.eq_dec x x); [reflexivity|contradiction]. Qed.

Lemma no_resend (c : conn6) e o rr : c_state c = Online o -> rr = false \/ o_queue o = [] ->
  (if rr then do_resend c e o else Ok (c, [])) = Ok (c, []).
Proof.
  destruct c as [st sd]. cbn [c_state]. intros -> [->|Hq]; [reflexivity|]. destruct rr; [|reflexivity].
  unfold do_resend. rewrite (resend_empty _ _ _ Hq). reflexivity.
Qed.

(* a datagram arrives at an online endpoint and provokes no answer: either it does not ask for a
   resend, or its acknowledgement empties the queue first *)
Lemma feed_side now y oy d y' fl :
  c_state (l_conn y) = Online oy -> benign d -> dgram_tok d = o_own oy ->
  (dgram_rr d = false \/ o_queue (ack_chunks oy (dgram_ack d)) = []) ->
  side_step now y (OpFeed d) = Ok (y', fl) ->
  fl = [] /\ exists oy', c_state (l_conn y') = Online oy' /\ c_send (l_conn y') = c_send (l_conn y) /\
    l_sub y' = l_sub y /\ l_rand y' = l_rand y /\
    o_own oy' = o_own oy /\ o_their oy' = o_their oy /\ o_packet oy' = o_packet oy /\
    o_queue oy' = o_queue (ack_chunks oy (dgram_ack d)) /\
    o_ack oy' = ack_after (o_ack oy) (dgram_chunks d) /\
    (dgram_chunks d = [] -> o_rr oy' = o_rr oy).
Proof.
  intros Hon Hb Htok Hnr H. apply side_step_inv in H as [out [Hs [-> ->]]].
  destruct (ack_chunks_toks oy (dgram_ack d)) as [T1 T2].
  destruct (ack_chunks_same oy (dgram_ack d)) as [_ [S2 [S3 [_ S5]]]].
  (* a keep-alive or a chunk packet with the right token: the token check passes *)
  unfold step, feed in Hs. rewrite Hon in Hs.
  destruct d as [t1 t2 pl|tok ack [| | | | |]|tok ack rr n cs]; try contradiction;
    cbn [dgram_tok dgram_ack dgram_chunks dgram_rr state_token c_state] in *;
    rewrite Htok, tok_eqb_refl in Hs; cbn [negb] in Hs;
    (destruct ((ack <? 0) || (SEQ_MOD <=? ack)); [discriminate|]).
  - injection Hs as <-. split; [reflexivity|]. exists (ack_chunks oy ack).
    cbn. repeat split; try assumption. intros _. exact S5.
  - rewrite no_resend in Hs; [|reflexivity|exact Hnr]. cbn [bind c_state c_send] in Hs.
    destruct (recv_chunks _ _ cs) as [[[ack' rr'] evs]| | |] eqn:Erc; cbn [bind] in Hs; try discriminate.
    injection Hs as <-. split; [reflexivity|]. exists (o_set_ack (ack_chunks oy ack) ack' rr').
    cbn. repeat split; try assumption.
    + rewrite <- S2. eapply recv_ack_after, Erc.
    + intros ->. cbn in Erc. injection Erc as _ <- _. exact S5.
Qed.

Lemma flush_side now x o x' fl :
  c_state (l_conn x) = Online o -> side_step now x OpFlush = Ok (x', fl) ->
  exists o' ds, online_flush params6 o = Ok (o', ds) /\
    l_conn x' = {| c_state := Online o'; c_send := Some (now + ms 500) |} /\ fl = map (mkf x) ds /\
    l_sub x' = l_sub x /\ l_del x' = l_del x /\ l_nvs x' = l_nvs x /\ l_rand x' = l_rand x.
Proof.
  intros Hon H. apply side_step_inv in H as [out [Hs [-> ->]]].
  unfold step in Hs. rewrite Hon in Hs.
  destruct (online_flush params6 o) as [[o' ds]| | |]; cbn [bind] in Hs; try discriminate.
  injection Hs as <-. exists o', ds. cbn. rewrite app_nil_r. repeat split.
Qed.

Lemma tick_side now x o x' fl :
  c_state (l_conn x) = Online o -> conn_ok6 (l_conn x) -> due (l_conn x) <= now ->
  side_step now x OpTick = Ok (x', fl) ->
  l_sub x' = l_sub x /\ l_del x' = l_del x /\ l_nvs x' = l_nvs x /\ l_rand x' = l_rand x /\
  exists o' ds, c_state (l_conn x') = Online o' /\ fl = map (mkf x) ds /\
   tick_emits params6 now o o' ds.
Proof.
  intros Hon Hc Hd H. apply side_step_inv in H as [out [Hs [-> ->]]]. unfold tick_emits.
  unfold conn_ok6 in Hc. rewrite Hon in Hc. destruct Hc as [[_ [_ [_ [_ [Hqk _]]]]] [_ [_ Hsend]]].
  unfold due in Hd. rewrite Hon in Hd.
  unfold step in Hs. rewrite Hon in Hs. cbn [e_now] in Hs.
  destruct (o_queue o) as [|c0 q0] eqn:Eq.
  - (* the send timer has run out: tick_action *)
    cbn [queue_back map last] in Hs, Hd. rewrite (tval_triggered _ _ Hsend) in Hs by lia.
    unfold tick_action in Hs. cbn [c_state c_send e_now] in Hs. destruct (can_send o) eqn:Ecs.
    + destruct (online_flush params6 o) as [[o' ds]| | |] eqn:Ef; cbn [bind] in Hs; try discriminate.
      injection Hs as <-. cbn. rewrite app_nil_r. do 4 (split; [reflexivity|]).
      exists o', ds. split; [reflexivity|]. split; [reflexivity|]. right. left. repeat split.
    + unfold send_control in Hs.
      assert (Hsz : (MAX_PACKETSIZE <? control_size params6 (o_their o) KeepAlive) = false)
        by (destruct (o_their o); reflexivity).
      rewrite Hsz in Hs. injection Hs as <-. cbn. rewrite app_nil_r. do 4 (split; [reflexivity|]).
      exists o, [DControl (o_their o) (o_ack o) KeepAlive]. split; [reflexivity|]. split; [reflexivity|].
      right. right. repeat split.
  - (* the oldest entry of the queue is due: resend *)
    rewrite <- Eq in Hs, Hd, Hqk. assert (Hq : o_queue o <> []) by (rewrite Eq; discriminate).
    rewrite (resend_due pp6 o now Hqk Hq) in Hs by lia. unfold do_resend in Hs. cbn [e_now] in Hs.
    destruct (online_resend params6 now o) as [[[o' ds] ts]| | |] eqn:Er; cbn [bind] in Hs; try discriminate.
    injection Hs as <-. cbn. rewrite app_nil_r. do 4 (split; [reflexivity|]).
    exists o', ds. split; [reflexivity|]. split; [reflexivity|]. left. split; [discriminate|]. exists ts. reflexivity.
Qed.

Lemma speak_side now x o a x1 fl1 x2 fl2 :
  c_state (l_conn x) = Online o -> conn_ok6 (l_conn x) -> snd_inv o (l_sub x) (l_nvs x) a ->
  o_ack o = seqof (zlen (l_del x)) -> due (l_conn x) <= now ->
  side_step now x OpTick = Ok (x1, fl1) -> side_step now x1 OpFlush = Ok (x2, fl2) ->
  exists o2 ds,
    l_conn x2 = {| c_state := Online o2; c_send := Some (now + ms 500) |} /\ fl1 ++ fl2 = map (mkf x) ds /\
    l_sub x2 = l_sub x /\ l_del x2 = l_del x /\ l_rand x2 = l_rand x /\
    o_own o2 = o_own o /\ o_their o2 = o_their o /\
    spoken (o_their o) (zlen (l_sub x)) a o o2 ds.
Proof.
  intros Hon Hc Hsnd Hack Hdue H1 H2.
  assert (Hok : online_ok pp6 o) by (unfold conn_ok6 in Hc; rewrite Hon in Hc; apply Hc).
  destruct (tick_side now x o x1 fl1 Hon Hc Hdue H1) as [Es1 [Ed1 [_ [Er1 [o1 [ds1 [Hon1 [-> Htick]]]]]]]].
  destruct (flush_side now x1 o1 x2 fl2 Hon1 H2) as [o2 [ds2 [Ef [Hconn2 [-> [Es2 [Ed2 [_ Er2]]]]]]]].
  exists o2, (ds1 ++ ds2). split; [exact Hconn2|].
  split; [rewrite map_app; unfold mkf; rewrite Es1, Ed1; reflexivity|].
  split; [congruence|]. split; [congruence|]. split; [congruence|].
  exact (speak_online params6 now o o1 ds1 o2 ds2 _ _ a _ (pc_ok_count _ _ (proj1 Hok))
           (pc_ok_count _ _ (proj1 (proj2 Hok))) Hsnd Hack (zlen_nonneg _) Htick Ef).
Qed.

Definition sched (w : link) (ls : list llabel) (w' : link) : Prop :=
  admissible_run w ls /\ link_run w ls = Ok w'.

Lemma sched_nil w : sched w [] w.
Proof. split; [exact I|reflexivity]. Qed.

Lemma sched_cons w l w1 ls w' : admissible w l -> link_step w l = Ok w1 -> sched w1 ls w' -> sched w (l :: ls) w'.
Proof. intros Ha Hs [H1 H2]. split; cbn [admissible_run link_run]; rewrite Hs; [split; assumption|exact H2]. Qed.

Lemma sched_app l1 : forall w w1 l2 w2, sched w l1 w1 -> sched w1 l2 w2 -> sched w (l1 ++ l2) w2.
Proof.
  induction l1 as [|l l1 IH]; intros w w1 l2 w2 [A1 R1] H2; cbn [app].
  - cbn in R1. injection R1 as <-. exact H2.
  - cbn [admissible_run link_run] in A1, R1. destruct A1 as [Al A1].
    destruct (link_step w l) as [wm| | |] eqn:E; try discriminate.
    eapply sched_cons; [exact Al|exact E|]. eapply IH; [split; eassumption|exact H2].
Qed.

Lemma other_other s : other (other s) = s.
Proof. destruct s; reflexivity. Qed.

Lemma linv_side w s : link_inv w ->
  side_inv (get w s) (l_sub (get w (other s))) (l_del (get w (other s))) (l_nvs (get w (other s)))
           (l_answered (get w (other s))).
Proof. intros [A [B _]]. destruct s; assumption. Qed.

Lemma linv_bag w s : link_inv w -> bag_inv (bag w s) (get w s).
Proof. intros [_ [_ [A B]]]. destruct s; assumption. Qed.

Definition side_good (x : lside) (tok : option token) (sub : list bytes) (rnd : list token) : Prop :=
  exists o, c_state (l_conn x) = Online o /\ o_own o = tok /\ o_their o = tok /\ l_sub x = sub /\ l_rand x = rnd.

Definition good (w : link) (tok : option token) (subs : side -> list bytes) (rnds : side -> list token) : Prop :=
  link_inv w /\ forall s, side_good (get w s) tok (subs s) (rnds s).

Lemma good_update w w' tok subs rnds s :
  good w tok subs rnds -> link_inv w' -> side_good (get w' s) tok (subs s) (rnds s) ->
  get w' (other s) = get w (other s) -> good w' tok subs rnds.
Proof.
  intros [_ G] Hi Hs Ho. split; [exact Hi|]. intros t.
  destruct s, t; cbn [other] in *; try exact Hs; rewrite Ho; apply G.
Qed.

Lemma good_sub w tok subs rnds t : good w tok subs rnds -> l_sub (get w t) = subs t.
Proof. intros [_ G]. destruct (G t) as [o [_ [_ [_ [H _]]]]]. exact H. Qed.

Lemma lapp_step w s op : link_inv w -> admissible w (LApp s op) ->
  exists x' fl, side_step (k_now w) (get w s) op = Ok (x', fl) /\
    link_step w (LApp s op) = Ok (set_side w s x' fl) /\ link_inv (set_side w s x' fl).
Proof.
  intros Hi Ha. destruct (link_step_inv w _ Hi Ha) as [w' [Hs Hi']]. cbn [link_step] in Hs.
  destruct (side_step (k_now w) (get w s) op) as [[x' fl]| | |] eqn:E; try discriminate.
  injection Hs as <-. exists x', fl. split; [reflexivity|]. split; [|exact Hi'].
  cbn [link_step]. rewrite E. reflexivity.
Qed.

Lemma ldeliver_step w s f rest : link_inv w -> bag w s = f :: rest ->
  fresh f (get w (other s)) -> rand_ok {| e_now := k_now w; e_rand := l_rand (get w (other s)) |} ->
  admissible w (LDeliver s 0) /\
  exists y' fl, side_step (k_now w) (get w (other s)) (OpFeed (f_d f)) = Ok (y', fl) /\
    link_step w (LDeliver s 0) = Ok (set_side w (other s) y' fl) /\ link_inv (set_side w (other s) y' fl).
Proof.
  intros Hi Hb Hf Hr.
  assert (Ha : admissible w (LDeliver s 0)).
  { cbn [admissible]. rewrite Hb. cbn [nth_error]. split; assumption. }
  split; [exact Ha|].
  destruct (link_step_inv w _ Hi Ha) as [w' [Hs Hi']]. cbn [link_step] in Hs. rewrite Hb in Hs. cbn [nth_error] in Hs.
  destruct (side_step (k_now w) (get w (other s)) (OpFeed (f_d f))) as [[y' fl]| | |] eqn:E; try discriminate.
  injection Hs as <-. exists y', fl. split; [reflexivity|]. split; [|exact Hi'].
  cbn [link_step]. rewrite Hb. cbn [nth_error]. rewrite E. reflexivity.
Qed.

Lemma ldrop_step w s : exists w1, link_step w (LDrop s 0) = Ok w1 /\ (forall t, get w1 t = get w t) /\
  bag w1 s = tl (bag w s) /\ bag w1 (other s) = bag w (other s) /\ k_now w1 = k_now w /\
  (link_inv w -> link_inv w1).
Proof.
  destruct s; (eexists; split; [reflexivity|]); cbn [get bag other k_now k_a k_b k_ab k_ba].
  - split; [intros []; reflexivity|]. split; [destruct (k_ab w); reflexivity|]. split; [reflexivity|]. split; [reflexivity|].
    intros [A [B [C D]]]. unfold link_inv. cbn [k_a k_b k_ab k_ba].
    split; [exact A|]. split; [exact B|]. split; [apply remove_nth_forall, C|exact D].
  - split; [intros []; reflexivity|]. split; [destruct (k_ba w); reflexivity|]. split; [reflexivity|]. split; [reflexivity|].
    intros [A [B [C D]]]. unfold link_inv. cbn [k_a k_b k_ab k_ba].
    split; [exact A|]. split; [exact B|]. split; [exact C|apply remove_nth_forall, D].
Qed.

Lemma ltime_step w dt : exists w1, link_step w (LTime dt) = Ok w1 /\ (forall t, get w1 t = get w t) /\
  (forall t, bag w1 t = bag w t) /\ k_now w1 = k_now w + dt /\ (link_inv w -> link_inv w1).
Proof.
  eexists. split; [reflexivity|]. cbn. split; [intros []; reflexivity|]. split; [intros []; reflexivity|].
  split; [reflexivity|]. intros H. exact H.
Qed.

Lemma get_set_same w s x fl : get (set_side w s x fl) s = x.
Proof. destruct s; reflexivity. Qed.
Lemma get_set_other w s x fl : get (set_side w s x fl) (other s) = get w (other s).
Proof. destruct s; reflexivity. Qed.
Lemma bag_set_same w s x fl : bag (set_side w s x fl) s = bag w s ++ fl.
Proof. destruct s; reflexivity. Qed.
Lemma bag_set_other w s x fl : bag (set_side w s x fl) (other s) = bag w (other s).
Proof. destruct s; reflexivity. Qed.
Lemma now_set w s x fl : k_now (set_side w s x fl) = k_now w.
Proof. destruct s; reflexivity. Qed.

Definition speak (s : side) (dt : Z) : list llabel := [LTime dt; LApp s OpTick; LApp s OpFlush].
Fixpoint drain (s : side) (n : nat) : list llabel :=
  match n with O => [] | S k => LDeliver s 0 :: LDrop s 0 :: drain s k end.
Definition drops (s : side) (n : nat) : list llabel := repeat (LDrop s 0) n.

Lemma drop_all s : forall n w, length (bag w s) = n -> link_inv w ->
  exists w', sched w (drops s n) w' /\ link_inv w' /\ (forall t, get w' t = get w t) /\
    bag w' s = [] /\ bag w' (other s) = bag w (other s) /\ k_now w' = k_now w.
Proof.
  induction n as [|n IH]; intros w Hl Hi.
  - exists w. split; [apply sched_nil|]. split; [exact Hi|]. split; [reflexivity|].
    split; [apply length_zero_iff_nil, Hl|]. split; reflexivity.
  - destruct (ldrop_step w s) as [w1 [S1 [G1 [B1 [O1 [N1 I1]]]]]].
    destruct (IH w1) as [w' [Hs [Hi' [G' [B' [O' N']]]]]].
    { rewrite B1. destruct (bag w s); [discriminate|]. cbn in *. lia. }
    { apply I1, Hi. }
    exists w'. split; [eapply sched_cons; [exact I|exact S1|exact Hs]|]. split; [exact Hi'|].
    split; [intros t; rewrite G', G1; reflexivity|]. split; [exact B'|]. split; congruence.
Qed.

Lemma get_set_other' w s x fl : get (set_side w (other s) x fl) s = get w s.
Proof. destruct s; reflexivity. Qed.
Lemma bag_set_other' w s x fl : bag (set_side w (other s) x fl) s = bag w s.
Proof. destruct s; reflexivity. Qed.

Lemma speak_link w s tok subs rnds o :
  good w tok subs rnds -> c_state (l_conn (get w s)) = Online o ->
  exists w' ds o2,
    sched w (speak s (Z.max 0 (due (l_conn (get w s)) - k_now w))) w' /\ good w' tok subs rnds /\
    bag w' s = bag w s ++ map (mkf (get w s)) ds /\ bag w' (other s) = bag w (other s) /\
    get w' (other s) = get w (other s) /\ l_del (get w' s) = l_del (get w s) /\
    c_state (l_conn (get w' s)) = Online o2 /\
    exists a, a <= zlen (l_del (get w (other s))) <= zlen (subs s) /\ spoken tok (zlen (subs s)) a o o2 ds.
Proof.
  intros [Hi G] Hon. remember (get w s) as x eqn:Ex.
  set (dt := Z.max 0 (due (l_conn x) - k_now w)).
  destruct (G s) as [o' [Hon' [Town [Ttheir [Hsub Hrnd]]]]]. rewrite <- Ex in Hon', Hsub, Hrnd.
  rewrite Hon in Hon'. injection Hon' as <-.
  pose proof (linv_side w s Hi) as Hsx. rewrite <- Ex in Hsx.
  pose proof (sv_conn _ _ _ _ _ Hsx) as Hc.
  destruct (sv_online _ _ _ _ _ Hsx o Hon) as [a [Hsnd [Ha Hack]]].
  pose proof (sv_dle _ _ _ _ _ (linv_side w (other s) Hi)) as Hdle. rewrite other_other, <- Ex in Hdle.
  destruct (ltime_step w dt) as [w1 [S1 [G1 [B1 [N1 I1]]]]]. specialize (I1 Hi).
  assert (A2 : admissible w1 (LApp s OpTick)) by (cbn; repeat split).
  destruct (lapp_step w1 s OpTick I1 A2) as [x1 [fl1 [T1 [L1 I2]]]]. rewrite G1, <- Ex in T1.
  assert (Hdue : due (l_conn x) <= k_now w1) by (rewrite N1; unfold dt; lia).
  destruct (tick_side _ x o x1 fl1 Hon Hc Hdue T1) as [_ [_ [_ [_ [o1 [ds1 [Hon1 _]]]]]]].
  assert (A3 : admissible (set_side w1 s x1 fl1) (LApp s OpFlush)).
  { cbn [admissible]. rewrite get_set_same. split; [exact I|]. split; [exists o1; exact Hon1|exact I]. }
  destruct (lapp_step _ s OpFlush I2 A3) as [x2 [fl2 [T2 [L2 I3]]]].
  rewrite get_set_same, now_set in T2.
  destruct (speak_side _ x o a x1 fl1 x2 fl2 Hon Hc Hsnd Hack Hdue T1 T2)
    as [o2 [ds [Hconn2 [Hfl [Es [Ed [Er [To [Tt P]]]]]]]]].
  exists (set_side (set_side w1 s x1 fl1) s x2 fl2), ds, o2.
  split.
  { eapply sched_cons; [exact I|exact S1|]. eapply sched_cons; [exact A2|exact L1|].
    eapply sched_cons; [exact A3|exact L2|apply sched_nil]. }
  split.
  { eapply (good_update w _ tok subs rnds s); [split; assumption|exact I3| |].
    - rewrite get_set_same. exists o2. rewrite Hconn2. cbn [c_state].
      split; [reflexivity|]. split; [congruence|]. split; [congruence|]. split; congruence.
    - rewrite !get_set_other. apply G1. }
  split. { rewrite !bag_set_same, B1, <- app_assoc, Hfl. reflexivity. }
  split. { rewrite !bag_set_other. apply B1. }
  split. { rewrite !get_set_other. apply G1. }
  rewrite get_set_same. split; [exact Ed|]. split; [rewrite Hconn2; reflexivity|].
  exists a. rewrite <- Ttheir, <- Hsub. split; [split; assumption|exact P].
Qed.

Lemma deliver_one w s tok subs rnds f rest oy :
  good w tok subs rnds -> (forall now, rand_ok {| e_now := now; e_rand := rnds (other s) |}) ->
  bag w s = f :: rest -> fl_ok tok (zlen (subs s)) (zlen (subs (other s))) f ->
  c_state (l_conn (get w (other s))) = Online oy ->
  exists w' oy', sched w (drain s 1) w' /\ good w' tok subs rnds /\
    bag w' s = rest /\ bag w' (other s) = bag w (other s) /\ get w' s = get w s /\ k_now w' = k_now w /\
    c_state (l_conn (get w' (other s))) = Online oy' /\
    c_send (l_conn (get w' (other s))) = c_send (l_conn (get w (other s))) /\
    heard (zlen (subs (other s))) oy [f] oy'.
Proof.
  intros [Hi G] Hrnd Hb Hf Hony.
  remember (get w (other s)) as y eqn:Ey.
  destruct (G (other s)) as [oy0 [Hon0 [Town [Ttheir [Hsuby Hrndy]]]]]. rewrite <- Ey in Hon0, Hsuby, Hrndy.
  rewrite Hony in Hon0. injection Hon0 as <-.
  destruct (G s) as [ox [_ [_ [_ [Hsubx _]]]]].
  pose proof (linv_side w (other s) Hi) as Hsy. rewrite other_other, <- Ey in Hsy.
  destruct (sv_online _ _ _ _ _ Hsy oy Hony) as [a [Hsnd _]].
  pose proof (sv_dle _ _ _ _ _ Hsy) as Hdle. rewrite Hsubx in Hdle.
  pose proof (linv_bag w s Hi) as Hbag. rewrite Hb in Hbag. apply Forall_inv in Hbag as [Hfl _].
  assert (Hall : f_c f = zlen (subs (other s)) -> o_queue (ack_chunks oy (dgram_ack (f_d f))) = []).
  { rewrite <- Hsuby in *. intros E. eapply fl_ok_acks_all; eassumption. }
  destruct (ldeliver_step w s f rest Hi Hb) as [A1 [y' [fl [T1 [L1 I1]]]]].
  { rewrite <- Ey. unfold fresh. rewrite Hsuby. exact (fl_ok_fresh _ _ _ _ _ Hf Hdle). }
  { rewrite <- Ey, Hrndy. apply Hrnd. }
  rewrite <- Ey in T1. destruct Hf as [_ [_ [_ [F4 [F5 F6]]]]].
  assert (Hnr : dgram_rr (f_d f) = false \/ o_queue (ack_chunks oy (dgram_ack (f_d f))) = [])
    by (destruct F6 as [E|E]; [left; exact E|right; exact (Hall E)]).
  destruct (feed_side _ y oy (f_d f) y' fl Hony F4 (eq_trans F5 (eq_sym Town)) Hnr T1)
    as [-> [oy' [Hon' [Hcs [Hs' [Hr' [To' [Tt' [Hp' [Hq' [Hak' Hrr']]]]]]]]]]].
  destruct (ldrop_step (set_side w (other s) y' []) s) as [w2 [S2 [G2 [B2 [O2 [N2 I2]]]]]].
  specialize (I2 I1).
  exists w2, oy'.
  split. { eapply sched_cons; [exact A1|exact L1|]. eapply sched_cons; [exact I|exact S2|apply sched_nil]. }
  split.
  { eapply (good_update w _ tok subs rnds (other s)); [split; assumption|exact I2| |].
    - rewrite G2, get_set_same. exists oy'. split; [exact Hon'|]. split; [congruence|]. split; [congruence|].
      split; congruence.
    - rewrite other_other, G2, get_set_other'. reflexivity. }
  split. { rewrite B2, bag_set_other', Hb. reflexivity. }
  split. { rewrite O2, bag_set_same, app_nil_r. reflexivity. }
  split. { rewrite G2, get_set_other'. reflexivity. }
  split. { rewrite N2, now_set. reflexivity. }
  rewrite G2, get_set_same. split; [exact Hon'|]. split; [exact Hcs|]. apply heard_one; assumption.
Qed.

Lemma drain_all s tok subs rnds :
  (forall now, rand_ok {| e_now := now; e_rand := rnds (other s) |}) ->
  forall F w oy, good w tok subs rnds -> bag w s = F ->
  Forall (fl_ok tok (zlen (subs s)) (zlen (subs (other s)))) F ->
  c_state (l_conn (get w (other s))) = Online oy ->
  exists w' oy', sched w (drain s (length F)) w' /\ good w' tok subs rnds /\
    bag w' s = [] /\ bag w' (other s) = bag w (other s) /\ get w' s = get w s /\ k_now w' = k_now w /\
    c_state (l_conn (get w' (other s))) = Online oy' /\
    c_send (l_conn (get w' (other s))) = c_send (l_conn (get w (other s))) /\
    heard (zlen (subs (other s))) oy F oy'.
Proof.
  intros Hrnd. induction F as [|f rest IH]; intros w oy Hg Hb Hall Hony.
  - exists w, oy. split; [apply sched_nil|]. split; [exact Hg|]. split; [exact Hb|].
    do 3 (split; [reflexivity|]). split; [exact Hony|]. split; [reflexivity|apply heard_nil].
  - inversion Hall as [|f' r' Hf Hrest]; subst f' r'.
    destruct (deliver_one w s tok subs rnds f rest oy Hg Hrnd Hb Hf Hony)
      as [w1 [oy1 [S1 [G1 [B1 [O1 [X1 [N1 [On1 [Cs1 H1]]]]]]]]]].
    destruct (IH w1 oy1 G1 B1 Hrest On1) as [w2 [oy2 [S2 [G2 [B2 [O2 [X2 [N2 [On2 [Cs2 H2]]]]]]]]]].
    exists w2, oy2.
    split; [exact (sched_app (drain s 1) w w1 (drain s (length rest)) w2 S1 S2)|].
    split; [exact G2|]. split; [exact B2|]. split; [congruence|]. split; [congruence|]. split; [congruence|].
    split; [exact On2|]. split; [congruence|exact (heard_cons _ _ _ _ _ _ H1 H2)].
Qed.

(* everything s has submitted is delivered once the other side has been given as much as there is:
   when s's queue is empty, or when the other side's acknowledgement number says so *)
Lemma all_delivered w s : link_inv w -> zlen (l_sub (get w s)) <= zlen (l_del (get w (other s))) ->
  l_del (get w (other s)) = l_sub (get w s).
Proof.
  intros Hi H. pose proof (linv_side w (other s) Hi) as Hy. rewrite other_other in Hy.
  apply prefix_all; [exact (sv_prefix _ _ _ _ _ Hy)|]. pose proof (sv_dle _ _ _ _ _ Hy). lia.
Qed.

Lemma queue_empty_del w s o : link_inv w -> c_state (l_conn (get w s)) = Online o -> o_queue o = [] ->
  l_del (get w (other s)) = l_sub (get w s).
Proof.
  intros Hi Hon Hq. destruct (sv_online _ _ _ _ _ (linv_side w s Hi) o Hon) as [a [Hs [Ha _]]].
  pose proof (si_queue _ _ _ _ Hs) as Hqi. rewrite Hq in Hqi. cbn in Hqi.
  apply all_delivered; [exact Hi|lia].
Qed.

Lemma ack_del w s oy : link_inv w -> c_state (l_conn (get w (other s))) = Online oy ->
  o_ack oy = seqof (zlen (l_sub (get w s))) -> l_del (get w (other s)) = l_sub (get w s).
Proof.
  intros Hi Hon Hak. pose proof (linv_side w (other s) Hi) as Hy. rewrite other_other in Hy.
  destruct (sv_online _ _ _ _ _ Hy oy Hon) as [a [_ [_ Hack]]].
  pose proof (sv_dle _ _ _ _ _ Hy) as Hdle. pose proof (sv_gap _ _ _ _ _ (linv_side w s Hi)) as Hgap.
  apply all_delivered; [exact Hi|]. apply Z.eq_le_incl, seqof_inj; [congruence|lia].
Qed.

Lemma fl_ok_map tok x nX nY rr0 ds :
  zlen (l_sub x) = nX -> nY - zlen (l_del x) <= 511 ->
  Forall (dg_ok tok rr0) ds -> Forall (fun d => tight nX (dgram_chunks d)) ds ->
  (rr0 = false \/ zlen (l_del x) = nY) ->
  Forall (fl_ok tok nX nY) (map (mkf x) ds).
Proof. intros <-. apply fl_ok_flights. Qed.

Lemma map_fd_mkf x ds : map f_d (map (mkf x) ds) = ds.
Proof. rewrite map_map. cbn. apply map_id. Qed.

(* one round of the healing: nothing from s is in flight; s speaks (speak_link) and what it says
   arrives (drain_all). The other side then has been given everything s has submitted. The receiver
   must not answer, so a datagram may ask for a resend only if it acknowledges everything: the resend
   then finds an empty queue. That is the last hypothesis: s has no request pending, or has been
   given everything *)
Lemma round_link w s tok subs rnds o oy :
  good w tok subs rnds -> (forall now, rand_ok {| e_now := now; e_rand := rnds (other s) |}) ->
  bag w s = [] ->
  c_state (l_conn (get w s)) = Online o -> c_state (l_conn (get w (other s))) = Online oy ->
  (o_rr o = false \/ l_del (get w s) = subs (other s)) ->
  exists dt n w' o' oy', 0 <= dt /\ sched w (speak s dt ++ drain s n) w' /\ good w' tok subs rnds /\
    bag w' s = [] /\ bag w' (other s) = bag w (other s) /\
    c_state (l_conn (get w' s)) = Online o' /\ c_state (l_conn (get w' (other s))) = Online oy' /\
    l_del (get w' (other s)) = subs s /\ l_del (get w' s) = l_del (get w s) /\
    round_end (l_del (get w s) = subs (other s)) o o' oy oy'.
Proof.
  intros G Hrnd Hb Hon Hony Hrr. pose proof (proj1 G) as Hi.
  pose proof (good_sub _ _ _ _ s G) as Hsub. pose proof (good_sub _ _ _ _ (other s) G) as Hsuby.
  destruct (speak_link w s tok subs rnds o G Hon) as [w1 [ds [o1 [S1 [G1 [B1 [O1 [X1 [D1 [Hon1 [a [Ha Sp]]]]]]]]]]]].
  pose proof Sp as [_ [_ [Q1 [_ [Dg [Ti _]]]]]].
  rewrite Hb in B1. cbn [app] in B1.
  assert (F : Forall (fl_ok tok (zlen (subs s)) (zlen (subs (other s)))) (map (mkf (get w s)) ds)).
  { eapply fl_ok_map; [rewrite Hsub; reflexivity| |exact Dg|exact Ti|].
    - pose proof (sv_gap _ _ _ _ _ (linv_side w (other s) Hi)) as Hg. rewrite other_other, Hsuby in Hg. exact Hg.
    - destruct Hrr as [E|E]; [left; exact E|right; rewrite E; reflexivity]. }
  destruct (drain_all s tok subs rnds Hrnd _ w1 oy G1 B1 F) as [w2 [oy2 [S2 [G2 [B2 [O2 [X2 [N2 [Hony2 [_ Hd]]]]]]]]]].
  { rewrite X1. exact Hony. }
  destruct (spoken_heard (l_del (get w s) = subs (other s)) _ _ _ _ (zlen (l_del (get w s))) _ _ _ _ _ _ Sp Hd) as [Re Ak].
  { intros E. rewrite E. reflexivity. }
  pose proof (proj1 G2) as Hi2. pose proof (good_sub _ _ _ _ s G2) as Hsub2.
  assert (Hon2 : c_state (l_conn (get w2 s)) = Online o1) by (rewrite X2; exact Hon1).
  exists (Z.max 0 (due (l_conn (get w s)) - k_now w)), (length (map (mkf (get w s)) ds)), w2, o1, oy2.
  split; [lia|]. split; [exact (sched_app _ _ _ _ _ S1 S2)|]. split; [exact G2|]. split; [exact B2|].
  split; [congruence|]. split; [exact Hon2|]. split; [exact Hony2|].
  split; [|split; [rewrite X2; exact D1|exact Re]].
  rewrite <- Hsub2. destruct (o_queue o) as [|c0 q0] eqn:Eq.
  - apply (queue_empty_del w2 s o1 Hi2 Hon2), Q1. reflexivity.
  - (* catch_up: the datagrams take the acknowledgement number from |del| to |sub| *)
    apply (ack_del w2 s oy2 Hi2 Hony2). rewrite Hsub2.
    destruct (sv_online _ _ _ _ _ (linv_side w (other s) Hi) oy Hony) as [a' [_ [_ Hak]]].
    eapply Ak; [discriminate|exact Ha|exact Hak].
Qed.

(* why three rounds heal a link with nothing in flight and no request pending at s *)
Lemma rounds_link w s tok subs rnds o oy :
  good w tok subs rnds -> (forall t now, rand_ok {| e_now := now; e_rand := rnds t |}) ->
  bag w s = [] -> bag w (other s) = [] ->
  c_state (l_conn (get w s)) = Online o -> c_state (l_conn (get w (other s))) = Online oy -> o_rr o = false ->
  exists dt1 n1 dt2 n2 dt3 n3 w' o' oy', 0 <= dt1 /\ 0 <= dt2 /\ 0 <= dt3 /\
    sched w (speak s dt1 ++ drain s n1 ++ speak (other s) dt2 ++ drain (other s) n2 ++ speak s dt3 ++ drain s n3) w' /\
    link_inv w' /\ l_sub (get w' s) = subs s /\ l_sub (get w' (other s)) = subs (other s) /\
    l_del (get w' (other s)) = l_sub (get w' s) /\ l_del (get w' s) = l_sub (get w' (other s)) /\
    c_state (l_conn (get w' s)) = Online o' /\ c_state (l_conn (get w' (other s))) = Online oy' /\
    o_queue o' = [] /\ o_queue oy' = [] /\ pc_chunks (o_packet o') = [] /\ pc_chunks (o_packet oy') = [] /\
    o_rr o' = false /\ o_rr oy' = false /\ bag w' s = [] /\ bag w' (other s) = [].
Proof.
  intros G Hrnd Hb Hby Hon Hony Hrr.
  (* s speaks: the other side has everything s has submitted *)
  destruct (round_link w s tok subs rnds o oy G (Hrnd (other s)) Hb Hon Hony (or_introl Hrr)) as
    [dt1 [n1 [w1 [o1 [oy1 [D1 [S1 [G1 [B1 [O1 [Hon1 [Hony1 [Del1 [_ Rd1]]]]]]]]]]]]]].
  rewrite Hby in O1.
  (* the other side speaks, acknowledging all of it: s has everything the other side has submitted,
     and the queue of s is empty *)
  destruct (round_link w1 (other s) tok subs rnds oy1 o1 G1) as
    [dt2 [n2 [w2 [oy2 [o2 [D2 [S2 [G2 [B2 [O2 [Hony2 [Hon2 [Del2 [_ Rd2]]]]]]]]]]]]]];
    rewrite ?other_other; [apply Hrnd|exact O1|exact Hony1|exact Hon1|right; exact Del1|].
  rewrite other_other in *. rewrite B1 in O2.
  (* s speaks once more: only its acknowledgement, which empties the other side's queue *)
  destruct (round_link w2 s tok subs rnds o2 oy2 G2 (Hrnd (other s)) O2 Hon2 Hony2 (or_intror Del2)) as
    [dt3 [n3 [w3 [o3 [oy3 [D3 [S3 [G3 [B3 [O3 [Hon3 [Hony3 [Del3 [Dels3 Rd3]]]]]]]]]]]]]].
  rewrite B2 in O3.
  exists dt1, n1, dt2, n2, dt3, n3, w3, o3, oy3. do 3 (split; [assumption|]).
  split; [rewrite app_assoc; eapply sched_app; [exact S1|]; rewrite app_assoc; eapply sched_app; [exact S2|exact S3]|].
  pose proof (good_sub _ _ _ _ s G3) as Hs. pose proof (good_sub _ _ _ _ (other s) G3) as Hsy.
  split; [exact (proj1 G3)|]. do 2 (split; [assumption|]). do 2 (split; [congruence|]). do 2 (split; [assumption|]).
  destruct (rounds_quiet _ _ _ _ _ _ _ _ _ _ _ Rd1 Rd2 Rd3 Del1 Del2) as [Qa [Qb [Pa [Pb [Ra Rb]]]]].
  do 6 (split; [assumption|]). split; assumption.
Qed.

(* both ends are online with the same token: A flushes, and then has no resend request pending *)
Lemma flush_link w oa ob :
  link_inv w -> c_state (l_conn (k_a w)) = Online oa -> c_state (l_conn (k_b w)) = Online ob ->
  o_own oa = o_own ob ->
  exists xa oa1 ds, online_flush params6 oa = Ok (oa1, ds) /\ c_state (l_conn xa) = Online oa1 /\ o_rr oa1 = false /\
    sched w [LApp SA OpFlush] (set_side w SA xa (map (mkf (k_a w)) ds)) /\
    good (set_side w SA xa (map (mkf (k_a w)) ds)) (o_own oa) (fun s => l_sub (get w s)) (fun s => l_rand (get w s)).
Proof.
  intros Hi Hoa Hob Htok.
  pose proof (sv_conn _ _ _ _ _ (linv_side w SA Hi)) as HcA. pose proof (sv_conn _ _ _ _ _ (linv_side w SB Hi)) as HcB.
  cbn [get] in HcA, HcB. unfold conn_ok6 in HcA, HcB. rewrite Hoa in HcA. rewrite Hob in HcB.
  destruct HcA as [_ [HtA _]]. destruct HcB as [_ [HtB _]].
  assert (G0 : good w (o_own oa) (fun s => l_sub (get w s)) (fun s => l_rand (get w s))).
  { split; [exact Hi|]. intros [|]; cbn [get].
    - exists oa. split; [exact Hoa|]. split; [reflexivity|]. split; [symmetry; exact HtA|]. split; reflexivity.
    - exists ob. split; [exact Hob|]. split; [symmetry; exact Htok|]. split; [congruence|]. split; reflexivity. }
  assert (A0 : admissible w (LApp SA OpFlush)).
  { cbn [admissible get]. split; [exact I|]. split; [exists oa; exact Hoa|exact I]. }
  destruct (lapp_step w SA OpFlush Hi A0) as [xa1 [fl0 [T0 [L0 I1]]]]. cbn [get] in T0.
  destruct (flush_side _ _ oa xa1 fl0 Hoa T0) as [oa1 [ds0 [Ef0 [Hconn1 [-> [Es1 [_ [_ Er1]]]]]]]].
  destruct (flush_emits params6 oa oa1 ds0 Ef0) as [To1 [Tt1 [_ R1]]].
  assert (Hoa1 : c_state (l_conn xa1) = Online oa1) by (rewrite Hconn1; reflexivity).
  exists xa1, oa1, ds0. split; [exact Ef0|]. split; [exact Hoa1|]. split; [exact R1|].
  split; [eapply sched_cons; [exact A0|exact L0|apply sched_nil]|].
  eapply (good_update w _ _ _ _ SA); [exact G0|exact I1| |reflexivity].
  exists oa1. cbn [get set_side k_a]. split; [exact Hoa1|]. split; [congruence|]. split; [congruence|]. split; congruence.
Qed.

(* the healing schedule: A flushes; everything in flight is lost; A speaks, its datagrams arrive;
   B speaks, its datagrams arrive; A speaks once more, its datagrams arrive *)
Definition heal_schedule (na nb : nat) (dt1 : Z) (n1 : nat) (dt2 : Z) (n2 : nat) (dt3 : Z) (n3 : nat) : list llabel :=
  [LApp SA OpFlush] ++ drops SA na ++ drops SB nb ++
  speak SA dt1 ++ drain SA n1 ++ speak SB dt2 ++ drain SB n2 ++ speak SA dt3 ++ drain SA n3.

Theorem heal_link w oa ob :
  link_inv w -> c_state (l_conn (k_a w)) = Online oa -> c_state (l_conn (k_b w)) = Online ob ->
  o_own oa = o_own ob ->
  rand_ok {| e_now := k_now w; e_rand := l_rand (k_a w) |} ->
  rand_ok {| e_now := k_now w; e_rand := l_rand (k_b w) |} ->
  exists na nb dt1 n1 dt2 n2 dt3 n3 w' oa' ob',
    0 <= dt1 /\ 0 <= dt2 /\ 0 <= dt3 /\
    admissible_run w (heal_schedule na nb dt1 n1 dt2 n2 dt3 n3) /\
    link_run w (heal_schedule na nb dt1 n1 dt2 n2 dt3 n3) = Ok w' /\ link_inv w' /\
    l_sub (k_a w') = l_sub (k_a w) /\ l_sub (k_b w') = l_sub (k_b w) /\
    l_del (k_b w') = l_sub (k_a w') /\ l_del (k_a w') = l_sub (k_b w') /\
    c_state (l_conn (k_a w')) = Online oa' /\ c_state (l_conn (k_b w')) = Online ob' /\
    o_queue oa' = [] /\ o_queue ob' = [] /\
    pc_chunks (o_packet oa') = [] /\ pc_chunks (o_packet ob') = [] /\
    o_rr oa' = false /\ o_rr ob' = false /\ k_ab w' = [] /\ k_ba w' = [].
Proof.
  intros Hi Hoa Hob Htok HrA HrB.
  destruct (flush_link w oa ob Hi Hoa Hob Htok) as [xa1 [oa1 [ds0 [_ [Hoa1 [R1 [S1 G1]]]]]]].
  set (w1 := set_side w SA xa1 _) in *.
  destruct (drop_all SA _ w1 eq_refl (proj1 G1)) as [w2 [S2 [I2 [E2 [B2 [O2 _]]]]]].
  destruct (drop_all SB _ w2 eq_refl I2) as [w3 [S3 [I3 [E3 [B3 [O3 _]]]]]]. cbn [other] in O2, O3.
  assert (E31 : forall t, get w3 t = get w1 t) by (intros t; rewrite E3, E2; reflexivity).
  pose proof (good_update w1 w3 _ _ _ SA G1 I3) as G3. rewrite !E31 in G3. specialize (G3 (proj2 G1 SA) eq_refl).
  rewrite B2 in O3.
  destruct (rounds_link w3 SA _ _ _ oa1 ob G3) as
    [dt1 [n1 [dt2 [n2 [dt3 [n3 [w' [oa' [ob' [D1 [D2 [D3 [S4 Q]]]]]]]]]]]]];
    [intros [] now; [exact HrA|exact HrB]|exact O3|exact B3|rewrite E31; exact Hoa1|rewrite E31; exact Hob|exact R1|].
  exists (length (bag w1 SA)), (length (bag w2 SB)), dt1, n1, dt2, n2, dt3, n3, w', oa', ob'.
  do 3 (split; [assumption|]).
  destruct (sched_app _ _ _ _ _ S1 (sched_app _ _ _ _ _ S2 (sched_app _ _ _ _ _ S3 S4))) as [Sa Sr].
  split; [exact Sa|]. split; [exact Sr|exact Q].
Qed.

Definition is_tick (l : llabel) : bool := match l with LApp _ OpTick => true | _ => false end.
Definition ticks (ls : list llabel) : nat := length (filter is_tick ls).

Lemma ticks_app a b : ticks (a ++ b) = (ticks a + ticks b)%nat.
Proof. unfold ticks. rewrite filter_app, app_length. reflexivity. Qed.
Lemma ticks_drops s n : ticks (drops s n) = 0%nat.
Proof. induction n as [|n IH]; [reflexivity|exact IH]. Qed.
Lemma ticks_drain s n : ticks (drain s n) = 0%nat.
Proof. induction n as [|n IH]; [reflexivity|exact IH]. Qed.

Lemma ticks_heal na nb dt1 n1 dt2 n2 dt3 n3 : ticks (heal_schedule na nb dt1 n1 dt2 n2 dt3 n3) = 3%nat.
Proof.
  unfold heal_schedule. rewrite !ticks_app, !ticks_drops, !ticks_drain. reflexivity.
Qed.

Definition heal_label (l : llabel) : Prop :=
  match l with
  | LApp _ OpTick | LApp _ OpFlush => True
  | LApp _ _ => False
  | LTime dt => 0 <= dt
  | LDeliver _ _ | LDrop _ _ => True
  end.

Lemma heal_labels na nb dt1 n1 dt2 n2 dt3 n3 : 0 <= dt1 -> 0 <= dt2 -> 0 <= dt3 ->
  Forall heal_label (heal_schedule na nb dt1 n1 dt2 n2 dt3 n3).
Proof.
  intros H1 H2 H3.
  assert (Hd : forall s n, Forall heal_label (drops s n)).
  { intros s n. induction n as [|n IH]; [constructor|]. constructor; [exact I|exact IH]. }
  assert (Hr : forall s n, Forall heal_label (drain s n)).
  { intros s n. induction n as [|n IH]; [constructor|]. constructor; [exact I|]. constructor; [exact I|exact IH]. }
  assert (Hs : forall s dt, 0 <= dt -> Forall heal_label (speak s dt)).
  { intros s dt H. repeat constructor. exact H. }
  unfold heal_schedule. repeat (apply Forall_app; split); auto. repeat constructor.
Qed.

(* network losses happen only in the prefix; afterwards a datagram leaves the network only by being
   delivered: every LDrop of the second part directly follows the LDeliver of the same datagram *)
Fixpoint orderly (ls : list llabel) : Prop :=
  match ls with
  | [] => True
  | LDeliver s O :: LDrop s' O :: r => s = s' /\ orderly r
  | LDeliver _ _ :: _ => False
  | LDrop _ _ :: _ => False
  | _ :: r => orderly r
  end.

Lemma orderly_app_aux n : forall a b, (length a <= n)%nat -> orderly a -> orderly b -> orderly (a ++ b).
Proof.
  induction n as [|n IH]; intros a b Hl Ha Hb; (destruct a as [|l a]; [exact Hb|]); cbn [length] in Hl; [lia|].
  destruct l as [s o|dt|s k|s k]; cbn [app orderly] in *.
  - apply IH; [lia|exact Ha|exact Hb].
  - apply IH; [lia|exact Ha|exact Hb].
  - destruct k; [|contradiction]. destruct a as [|l2 a]; [contradiction|].
    destruct l2 as [s2 o2|dt2|s2 k2|s2 k2]; try contradiction. destruct k2; [|contradiction].
    destruct Ha as [E Ha]. cbn [app length] in *. split; [exact E|]. apply IH; [lia|exact Ha|exact Hb].
  - contradiction.
Qed.

Lemma orderly_app a b : orderly a -> orderly b -> orderly (a ++ b).
Proof. apply (orderly_app_aux (length a)). lia. Qed.

Lemma orderly_drain s n : orderly (drain s n).
Proof. induction n as [|n IH]; [exact I|]. cbn. split; [reflexivity|exact IH]. Qed.

Lemma heal_schedule_shape na nb dt1 n1 dt2 n2 dt3 n3 :
  exists post, heal_schedule na nb dt1 n1 dt2 n2 dt3 n3 = [LApp SA OpFlush] ++ drops SA na ++ drops SB nb ++ post /\
               orderly post.
Proof.
  eexists. split; [reflexivity|].
  repeat (apply orderly_app; [first [apply orderly_drain | exact I]|]). apply orderly_drain.
Qed.
