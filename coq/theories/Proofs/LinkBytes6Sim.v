(* C01 over bytes (0.6): the byte-level link (Model/LinkBytes6.v) and the abstract link
   (Model/Link6.v) run in lockstep. Every datagram in flight in an admissible run is one the
   connection layer emitted (dgram_ok) and is made of bytes and tokened (wire_dgram); the packet
   writer turns it into at most 1400 bytes which the packet reader -- given the token hint of
   whatever state the receiver is in, as long as a Pending or Online receiver holds a token
   (wire_state) -- turns back into the same value without a warning (Proofs/ConnBytes6.v,
   Proofs/LinkBytes6Hint.v); so feeding the bytes is feeding the value, and the byte-level link
   is the image of the abstract one under the writer (link_bytes_of). *)
From LibTw2 Require Import Base.Res Model.PacketTypes Model.PacketBase Model.Packet6 Model.PacketInst
  Model.ConnCore Model.Conn6 Model.LinkGhost Model.Link6 Model.LinkBytes6
  Proofs.ConnCoreInv Proofs.Conn6Inv Proofs.Link6Inv
  Proofs.Packet6Write Proofs.Packet6Chunks Proofs.PacketInstProofs
  Proofs.ConnBytes6 Proofs.ConnFeedBytes6 Proofs.ConnInert Proofs.LinkBytes6Hint Proofs.LinkBytes6Wire.
From Coq Require Import ZArith Lia Bool List.
Open Scope Z_scope.

Lemma wire_dgram_bytes_ok d : wire_dgram d -> dgram_bytes_ok d = true.
Proof.
  destruct d as [t r pl|tok ack c|tok ack rr n cs]; cbn [wire_dgram dgram_bytes_ok].
  - intros H. exact H.
  - intros [[t [-> Ht]] Hc]. rewrite Ht. destruct c; try reflexivity. exact Hc.
  - intros [[t [-> Ht]] Hc]. rewrite Ht. apply forallb_chunk_bytes, Hc.
Qed.

Lemma wire_dgram_encode d : wire_dgram d -> exists p, encode6 d = Some p.
Proof.
  destruct d as [t r pl|tok ack c|tok ack rr n cs]; cbn [wire_dgram encode6]; try (eexists; reflexivity).
  intros [_ Hc]. destruct c; cbn [ctl6_of]; try (eexists; reflexivity). contradiction.
Qed.

Lemma hintless_of d p : dgram_ok pp6 d -> wire_dgram d -> encode6 d = Some p -> hintless_ok6 p.
Proof.
  intros Hok Hw He.
  destruct d as [t r pl|tok ack c|tok ack rr n cs]; cbn [encode6] in He.
  - injection He as <-. exact I.
  - destruct (ctl6_of c) as [c6|]; [|discriminate]. injection He as <-.
    destruct Hw as [[t [-> _]] _]. split; [discriminate|exact I].
  - injection He as <-. destruct Hw as [[t [-> _]] _]. split; [discriminate|].
    destruct Hok as (_ & _ & Hn & _ & Hcs & _). exists cs. split; [apply chunks_ok_wf6, Hcs|]. split; [reflexivity|exact Hn].
Qed.

(* once its state is tokened, a receiver never tells the reader `no token` *)
Lemma hint6_wire c : wire_state (c_state c) -> hint6 c <> Some false.
Proof.
  unfold hint6. destruct (c_state c) as [| |t|o|]; cbn [state_token wire_state]; try discriminate.
  - intros [x [-> _]]. discriminate.
  - intros [[x [-> _]] _]. discriminate.
Qed.

(* What abstract6 cannot know of the datagram that was written (the tokens of a connectionless
   datagram, the response token of a Connect) Connection::feed does not look at. *)
Lemma abstract6_encode6 d p : encode6 d = Some p ->
  match d with
  | DChunks _ _ _ n cs =>
    exists cvs it', chunks_iter_all6 (flat_map chunk_enc6 cs) n = Ok (cvs, [], it') /\ map fst cvs = cs
  | _ => True
  end ->
  dgram_chunks (abstract6 p) = dgram_chunks d /\ forall c e, feed c e (abstract6 p) = feed c e d.
Proof.
  destruct d as [t r pl|tok ack ctl|tok ack rr n cs]; cbn [encode6]; intros He Hch.
  - injection He as <-. split; reflexivity.
  - destruct (ctl6_of ctl) as [c6|] eqn:Ec; [|discriminate]. injection He as <-.
    destruct ctl; try discriminate Ec; injection Ec as <-; split; reflexivity.
  - injection He as <-. destruct Hch as (cvs & it' & Hit & Hmap).
    unfold abstract6. rewrite Hit, Hmap. split; reflexivity.
Qed.

(* the byte bag IS the abstract bag, datagram by datagram, through the writer *)
Definition wire_bytes (d : dgram) : bytes := match wire6 d with Ok bs => bs | _ => [] end.
Definition wire_flight_of (f : flight) : bflight :=
  {| bf_bytes := wire_bytes (f_d f); bf_n := f_n f; bf_c := f_c f |}.

Definition emitted6 (d : dgram) : Prop := dgram_ok pp6 d /\ wire_dgram d.

Lemma wire6_ok d : emitted6 d -> wire6 d = Ok (wire_bytes d) /\ (length (wire_bytes d) <= 1400)%nat.
Proof.
  intros [Hok Hw]. pose proof (wire_dgram_encode d Hw) as [p He].
  pose proof (emitted_reads_back6 d p Hok (wire_dgram_bytes_ok d Hw) He) as (out & Hwr & Hlen & _).
  unfold wire_bytes, wire6. rewrite He, Hwr. split; [reflexivity|exact Hlen].
Qed.

Theorem wire_read6 d c : emitted6 d -> wire_state (c_state c) ->
  exists p vs, read6_tw (wire_bytes d) (hint6 c) 1400 = ([], Ok (p, vs)) /\
    dgram_chunks (abstract6 p) = dgram_chunks d /\
    (forall c' e, feed c' e (abstract6 p) = feed c' e d).
Proof.
  intros [Hok Hw] Hst. pose proof (wire_dgram_encode d Hw) as [p He].
  pose proof (wire_dgram_bytes_ok d Hw) as Hb.
  pose proof (emitted_reads_back6 d p Hok Hb He) as (out & Hwr & _ & [views Hrd] & Hch).
  unfold wire_bytes, wire6. rewrite He, Hwr.
  exists p, views. split; [|exact (abstract6_encode6 d p He Hch)].
  pose proof (emitted_expressible6 d p Hok He) as (Hx & _).
  apply write6_ok_encoding in Hwr as [-> _]. rewrite <- Hrd. unfold read6_tw.
  exact (read_encoding6_hint tw_comp tw_decomp tw_rt p 1400 (hint6 c) Hx (emitted_bytes_ok6 d p Hok Hb He)
           (le_n _) (hintless_of d p Hok Hw He) (hint6_wire c Hst)).
Qed.

Theorem feed_bytes6_wire c e d : emitted6 d -> wire_state (c_state c) ->
  feed_bytes6 c e (wire_bytes d) = step c e (OpFeed d).
Proof.
  intros Hd Hst. pose proof (wire_read6 d c Hd Hst) as (p & vs & Hrd & _ & Hfeed).
  unfold feed_bytes6. rewrite Hrd. apply Hfeed.
Qed.

Definition link_bytes_of (w : link) : link_bytes :=
  {| kb_a := k_a w; kb_b := k_b w; kb_ab := map wire_flight_of (k_ab w); kb_ba := map wire_flight_of (k_ba w);
     kb_now := k_now w |}.

Lemma getb_of w s : getb (link_bytes_of w) s = get w s.
Proof. reflexivity. Qed.

Lemma bagb_of w s : bagb (link_bytes_of w) s = map wire_flight_of (bag w s).
Proof. destruct s; reflexivity. Qed.

Lemma set_sideb_of w s x fl :
  set_sideb (link_bytes_of w) s x (map wire_flight_of fl) = link_bytes_of (set_side w s x fl).
Proof. destruct s; unfold set_sideb, set_side, link_bytes_of; cbn; rewrite map_app; reflexivity. Qed.

Lemma remove_nth_map {A B} (f : A -> B) k : forall l, remove_nth k (map f l) = map f (remove_nth k l).
Proof. induction k as [|k IH]; intros [|x l]; cbn [remove_nth map]; try reflexivity. rewrite IH. reflexivity. Qed.

(* what holds of the abstract link besides link_inv: everything is made of bytes and tokened,
   and every datagram in flight is one the connection layer emitted *)
Definition wire_side (x : lside) : Prop := wire_state (c_state (l_conn x)) /\ Forall bytesP (l_rand x).
Definition wire_flight (f : flight) : Prop := emitted6 (f_d f).
Definition wire_inv (w : link) : Prop :=
  wire_side (k_a w) /\ wire_side (k_b w) /\ Forall wire_flight (k_ab w) /\ Forall wire_flight (k_ba w).

Lemma wire_inv_get w s : wire_inv w -> wire_side (get w s).
Proof. intros (Ha & Hb & _). destruct s; assumption. Qed.

Lemma wire_inv_bag w s : wire_inv w -> Forall wire_flight (bag w s).
Proof. intros (_ & _ & Hab & Hba). destruct s; assumption. Qed.

Lemma set_side_wire w s x fl : wire_inv w -> wire_side x -> Forall wire_flight fl ->
  wire_inv (set_side w s x fl).
Proof.
  intros (Ha & Hb & Hab & Hba) Hx Hfl. unfold wire_inv.
  destruct s; cbn [set_side k_a k_b k_ab k_ba]; rewrite Forall_app; tauto.
Qed.

Lemma side_after_app x o out : side_after x (sent_of o) out = after x o out.
Proof. destruct o; reflexivity. Qed.

Lemma side_after_feed x d out : side_after x None out = after x (OpFeed d) out.
Proof. reflexivity. Qed.

Lemma wire_all_of n dc ds : Forall wire_flight (map (fun d => {| f_d := d; f_n := n; f_c := dc |}) ds) ->
  wire_all n dc ds = Ok (map wire_flight_of (map (fun d => {| f_d := d; f_n := n; f_c := dc |}) ds)).
Proof.
  induction ds as [|d ds IH]; cbn [wire_all map]; [reflexivity|]. intros H.
  inversion H as [|f0 r0 Hd Hr]; subst. rewrite (proj1 (wire6_ok d Hd)), (IH Hr). reflexivity.
Qed.

Lemma side_call_sim now x o :
  conn_ok6 (l_conn x) -> valid_op6 (l_conn x) {| e_now := now; e_rand := l_rand x |} o ->
  wire_side x -> wire_op o ->
  exists x' fl, side_step now x o = Ok (x', fl) /\
    bside_finish x (sent_of o) (step (l_conn x) {| e_now := now; e_rand := l_rand x |} o)
    = Ok (x', map wire_flight_of fl) /\
    wire_side x' /\ Forall wire_flight fl.
Proof.
  intros Hc Hv [Hst Hrnd] Ho.
  pose proof (step_ok6 _ _ _ Hc Hv) as (out & Hstep & _ & Hds).
  pose proof (step_wire _ _ _ _ Hstep Hst Hrnd Ho) as (Hw1 & Hw2 & Hw3).
  assert (Hfl : Forall wire_flight (flights_of x out)).
  { unfold flights_of. apply Forall_map. rewrite Forall_forall in *. intros d Hin.
    split; [apply Hds, Hin|apply Hw3, Hin]. }
  exists (after x o out), (flights_of x out).
  split; [apply side_step_unfold, Hstep|]. split; [|split; [split; assumption|exact Hfl]].
  unfold bside_finish. rewrite Hstep, (wire_all_of _ _ _ Hfl), side_after_app. reflexivity.
Qed.

Lemma link_inv_conn w s : link_inv w -> conn_ok6 (l_conn (get w s)).
Proof. intros [Ha [Hb _]]. destruct s; [exact (sv_conn _ _ _ _ _ Ha)|exact (sv_conn _ _ _ _ _ Hb)]. Qed.

Lemma link_inv_flight w s f : link_inv w -> In f (bag w s) -> dgram_in_ok (f_d f).
Proof.
  intros (_ & _ & Hab & Hba) Hin. unfold bag_inv in *. rewrite Forall_forall in Hab, Hba.
  destruct s; [apply (Hab f Hin)|apply (Hba f Hin)].
Qed.

Theorem link_bytes_step_sim w l :
  link_inv w -> wire_inv w -> admissible w l -> bytes_label l ->
  exists w', link_step w l = Ok w' /\ link_bytes_step (link_bytes_of w) l = Ok (link_bytes_of w') /\
    link_inv w' /\ wire_inv w'.
Proof.
  intros Hinv Hwire Hadm Hbl.
  pose proof (link_step_inv w l Hinv Hadm) as [w1 [Hstep1 Hinv1]].
  enough (wire_inv w1 /\ link_bytes_step (link_bytes_of w) l = Ok (link_bytes_of w1)) by (exists w1; tauto).
  destruct l as [s o|dt|from k|from k]; cbn [link_step link_bytes_step admissible bytes_label] in *.
  - destruct Hadm as (Happ & Hv & _).
    assert (Hop : wire_op o) by (destruct o; try exact I; try exact Hbl; contradiction).
    rewrite getb_of.
    pose proof (side_call_sim (k_now w) (get w s) o (link_inv_conn w s Hinv) Hv (wire_inv_get w s Hwire) Hop)
      as (x' & fl & E1 & E2 & Hx' & Hfl).
    rewrite E1 in Hstep1. injection Hstep1 as <-. cbn [link_bytes_of kb_now]. rewrite E2, set_sideb_of.
    split; [apply set_side_wire; assumption|reflexivity].
  - injection Hstep1 as <-. split; [exact Hwire|reflexivity].
  - rewrite bagb_of, nth_error_map. destruct (nth_error (bag w from) k) as [f|] eqn:Ek; cbn [option_map].
    2:{ injection Hstep1 as <-. split; [exact Hwire|reflexivity]. }
    apply nth_error_In in Ek. destruct Hadm as [_ Hrand].
    pose proof (wire_inv_bag w from Hwire) as Hwf. rewrite Forall_forall in Hwf. pose proof (Hwf f Ek) as Hd.
    pose proof (wire_inv_get w (other from) Hwire) as Hrcv.
    rewrite getb_of. cbn [link_bytes_of kb_now wire_flight_of bf_bytes].
    rewrite (feed_bytes6_wire _ _ _ Hd (proj1 Hrcv)).
    pose proof (side_call_sim (k_now w) (get w (other from)) (OpFeed (f_d f)) (link_inv_conn w (other from) Hinv)
                (conj (link_inv_flight w from f Hinv Ek) Hrand) Hrcv (proj2 Hd)) as (x' & fl & E1 & E2 & Hx' & Hfl).
    rewrite E1 in Hstep1. injection Hstep1 as <-. cbn [sent_of] in E2. rewrite E2, set_sideb_of.
    split; [apply set_side_wire; assumption|reflexivity].
  - injection Hstep1 as <-. destruct Hwire as (Wa & Wb & Wab & Wba).
    destruct from; (split; [split; [exact Wa|]; split; [exact Wb|]; split;
                              try assumption; apply remove_nth_forall; assumption|]);
      unfold link_bytes_of; cbn; rewrite remove_nth_map; reflexivity.
Qed.

Theorem link_bytes_run_sim ls : forall w,
  link_inv w -> wire_inv w -> admissible_run w ls -> Forall bytes_label ls ->
  exists w', link_run w ls = Ok w' /\ link_bytes_run (link_bytes_of w) ls = Ok (link_bytes_of w') /\
    link_inv w' /\ wire_inv w'.
Proof.
  induction ls as [|l ls IH]; intros w Hinv Hwire Hadm Hbl; cbn [link_run link_bytes_run admissible_run] in *.
  - exists w. split; [reflexivity|]. split; [reflexivity|]. split; assumption.
  - destruct Hadm as [Ha1 Ha2]. inversion Hbl as [|l0 r0 Hb1 Hb2]; subst.
    pose proof (link_bytes_step_sim w l Hinv Hwire Ha1 Hb1) as (w1 & E1 & E2 & Hinv1 & Hwire1).
    rewrite E1 in *. rewrite E2. apply IH; assumption.
Qed.

Lemma link_new_wire ra rb : tokens_bytes ra -> tokens_bytes rb -> wire_inv (link_new ra rb).
Proof. intros Ha Hb. repeat split; try assumption; constructor. Qed.

Lemma wire_inv_wired w : wire_inv w ->
  Forall (fun f => exists bs, wire6 (f_d f) = Ok bs /\ (length bs <= 1400)%nat) (k_ab w ++ k_ba w).
Proof.
  intros (_ & _ & Hab & Hba). apply (Forall_impl _ (P := wire_flight)); [|apply Forall_app; split; assumption].
  intros f Hd. exists (wire_bytes (f_d f)). apply wire6_ok, Hd.
Qed.

(* the assumptions of C01, stated on the byte-level link *)
Definition admissible_bytes (w : link_bytes) (l : llabel) : Prop :=
  match l with
  | LApp s o =>
    app_op o /\ valid_op6 (l_conn (getb w s)) {| e_now := kb_now w; e_rand := l_rand (getb w s) |} o /\
    window_ok (getb w s) o /\ bytes_op o
  | LTime _ => True
  | LDeliver from k =>
    match nth_error (bagb w from) k with
    | Some bf => fresh_bytes bf (getb w (other from)) /\
                 rand_ok {| e_now := kb_now w; e_rand := l_rand (getb w (other from)) |}
    | None => True
    end
  | LDrop _ _ => True
  end.

Fixpoint admissible_bytes_run (w : link_bytes) (ls : list llabel) : Prop :=
  match ls with
  | [] => True
  | l :: r => admissible_bytes w l /\
              match link_bytes_step w l with Ok w' => admissible_bytes_run w' r | _ => True end
  end.

Lemma admissible_bytes_iff w l : wire_inv w ->
  (admissible_bytes (link_bytes_of w) l <-> admissible w l /\ bytes_label l).
Proof.
  intros Hwire.
  destruct l as [s o|dt|from k|from k]; cbn [admissible_bytes admissible bytes_label]; try tauto.
  (* a delivery: the receiver reads the chunks of the datagram out of its bytes *)
  rewrite bagb_of, nth_error_map. destruct (nth_error (bag w from) k) as [f|] eqn:Ek; cbn [option_map]; [|tauto].
  rewrite getb_of. cbn [link_bytes_of kb_now].
  pose proof (wire_inv_bag w from Hwire) as Hwf. rewrite Forall_forall in Hwf.
  pose proof (wire_read6 (f_d f) (l_conn (get w (other from))) (Hwf f (nth_error_In _ _ Ek))
                (proj1 (wire_inv_get w (other from) Hwire)))
    as (p & vs & Hrd & Hch & _).
  unfold fresh_bytes, fresh, bflight_chunks. cbn [wire_flight_of bf_bytes bf_n bf_c]. rewrite Hrd. cbn [snd].
  rewrite Hch. tauto.
Qed.

Theorem admissible_bytes_run_iff ls : forall w, link_inv w -> wire_inv w ->
  (admissible_bytes_run (link_bytes_of w) ls <-> admissible_run w ls /\ Forall bytes_label ls).
Proof.
  induction ls as [|l ls IH]; intros w Hinv Hwire; cbn [admissible_bytes_run admissible_run].
  - split; [intros _; split; [exact I|constructor]|intros _; exact I].
  - rewrite Forall_cons_iff, (admissible_bytes_iff w l Hwire).
    assert (Hrest : admissible w l -> bytes_label l ->
              (match link_bytes_step (link_bytes_of w) l with Ok w' => admissible_bytes_run w' ls | _ => True end
               <-> match link_step w l with Ok w' => admissible_run w' ls | _ => True end /\ Forall bytes_label ls)).
    { intros Ha Hb. pose proof (link_bytes_step_sim w l Hinv Hwire Ha Hb) as (w1 & E1 & E2 & Hinv1 & Hwire1).
      rewrite E1, E2. apply IH; assumption. }
    tauto.
Qed.

Lemma link_bytes_run_inv w ls : link_inv w -> wire_inv w ->
  admissible_bytes_run (link_bytes_of w) ls ->
  exists w', link_bytes_run (link_bytes_of w) ls = Ok (link_bytes_of w') /\ link_inv w' /\ wire_inv w'.
Proof.
  intros Hinv Hwire Hab. apply (admissible_bytes_run_iff ls w Hinv Hwire) in Hab as [Ha Hbl].
  pose proof (link_bytes_run_sim ls w Hinv Hwire Ha Hbl) as (w' & _ & H). exists w'. exact H.
Qed.

(* executable check of the byte-ness of application data (for concrete traces) *)
Definition bytes_labelb (l : llabel) : bool :=
  match l with
  | LApp _ (OpSend d _) | LApp _ (OpSendConnless d) | LApp _ (OpDisconnect d) => bytes_ok d
  | _ => true
  end.

Lemma bytes_labelb_ok ls : forallb bytes_labelb ls = true -> Forall bytes_label ls.
Proof.
  intros H. apply Forall_forall. intros l Hin. rewrite forallb_forall in H. specialize (H l Hin).
  destruct l as [s o| | |]; try exact I. destruct o; try exact I; exact H.
Qed.

Lemma tokens_bytesb_ok rnd : forallb bytes_ok rnd = true -> tokens_bytes rnd.
Proof. intros H. apply Forall_forall. rewrite forallb_forall in H. exact H. Qed.

(* a corrupted datagram (partial): without the agreed token it changes nothing *)
Lemma bside_finish_inert x e bs t : e_rand e = l_rand x ->
  token_fixed6 (l_conn x) t -> bytes_ok bs = true ->
  reads_connless6 (l_conn x) bs = false -> carried_token6 (l_conn x) bs <> Some t ->
  bside_finish x None (feed_bytes6 (l_conn x) e bs) = Ok (x, []).
Proof.
  intros He Hfix Hb Hnc Htok. pose proof (inert6_bytes (l_conn x) e bs t Hfix Hb Hnc Htok) as [ws E].
  rewrite E. unfold bside_finish. cbn [out_sent mk wire_all]. f_equal. f_equal.
  unfold side_after. cbn. rewrite He, !app_nil_r, orb_false_r. change (ready_events []) with 0.
  rewrite Z.add_0_r. destruct x; reflexivity.
Qed.
