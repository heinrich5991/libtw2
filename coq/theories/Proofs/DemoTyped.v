(* Demo model, typed layer, one snapshot chunk: the payload of an accepted write_snap - the
   Snap::write form of a builder-made snapshot, or the Delta::write form of its delta against the
   last written one - decodes, against a reader snapshot that is observationally the writer's
   last one (same items, same registry), to the items of the new snapshot and a reader snapshot
   that is observationally the new one.
   Uses the snapshot block's proof architecture (rep / good / bgood / like of Proofs/Snap*.v). *)
From LibTw2 Require Import Base.Res Model.Varint Model.Demo Model.DemoHL
  Proofs.DemoBase Proofs.DemoFile Proofs.DemoHLProofs.
From LibTw2 Require Import Model.Snap Proofs.SnapBase Proofs.SnapRep Proofs.SnapDelta Proofs.SnapApply
  Proofs.SnapWire Proofs.SnapWireInst Proofs.SnapTotal Proofs.SnapC09 Proofs.SnapReg Proofs.SnapObs
  Proofs.SnapBuilder Proofs.SnapBuilder2 Proofs.SnapC10.
From Coq Require Import ZArith List Lia Bool Permutation.
Import ListNotations.
Open Scope Z_scope.

Theorem bgood_roundtrip b : bgood b ->
  exists l bs S', snap_ints (sn_raw (b_snap b)) = Ok l /\ ints_to_bytes l = Ok bs
    /\ 4 * Z.of_nat (length l) <= MAX_SNAPSHOT_SIZE
    /\ snap_read_bytes bs = (Ok S', []) /\ like (b_snap b) S'.
Proof.
  intros G. destruct (builder_consistent _ G) as [Ec _].
  destruct (consistent_roundtrip (b_snap b) [] (bg_raw _ G) Ec) as (l & S' & El & Hli & Hlen & Ers & L).
  exists l, (enc l), S'. rewrite (snap_read_bytes_enc l Hli), (ints_to_bytes_enc l Hli).
  repeat (split; [assumption || reflexivity|]). exact L.
Qed.

Lemma delta_upd_ints_sizes sz : forall todo done u,
  delta_upd_ints sz (flat (done ++ todo)) (ranges_of (length (flat done)) todo) = Ok u ->
  Forall (size_ok sz) todo.
Proof.
  induction todo as [|[k d] todo IH]; intros done u H; [constructor|].
  cbn [ranges_of delta_upd_ints] in H.
  specialize (IH (done ++ [(k, d)])). rewrite <- app_cons_snoc, flat_snoc, app_length in IH.
  rewrite flat_app in *. cbn [flat flat_map snd] in *. fold (flat todo) in *. rewrite slice_mid in H. cbn [bind] in H.
  apply bind_ok_inv in H as (szf & Hsz & H). apply bind_ok_inv in H as (rest & Hrest & _).
  constructor; [|exact (IH rest Hrest)].
  unfold size_ok. cbn [fst snd]. destruct (sz (key_to_raw_type_id k)) as [s|].
  - destruct (Z.eqb_spec s (Z.of_nat (length d))); [assumption|discriminate].
  - destruct (Z.ltb_spec i32_max (Z.of_nat (length d))); [discriminate|assumption].
Qed.

Lemma delta_ints_sizes sz del dch l : delta_ints sz (delta_of del dch) = Ok l -> Forall (size_ok sz) dch.
Proof.
  unfold delta_ints, delta_of. cbn [d_del d_upd d_buf]. intros H.
  destruct (i32_max <? Z.of_nat (length del)); [discriminate|].
  destruct (i32_max <? Z.of_nat (length (ranges_of 0 dch))); [discriminate|].
  apply bind_ok_inv in H as (u & E & _). exact (delta_upd_ints_sizes sz dch [] u E).
Qed.

(* Delta::write went through, so every size agrees with the table: the bytes read back as the delta *)
Lemma delta_encoding_roundtrip sz A B d e : good A -> good B ->
  create_raw A B = Ok d -> delta_encoding sz d = Ok (e, true) -> delta_read_bytes sz e = (Ok d, []).
Proof.
  intros GA GB Hcr Henc. destruct (created_wire sz A B d GA GB Hcr) as (del & dch & -> & _ & W).
  unfold delta_encoding in Henc.
  destruct (delta_ints sz _) as [l| | |] eqn:El; try discriminate.
  destruct (ints_to_bytes l) as [bs| | |] eqn:Ebs; try discriminate. injection Henc as <-.
  specialize (W (delta_ints_sizes _ _ _ _ El)).
  rewrite (delta_ints_spec sz _ _ W) in El. apply Ok_inj in El. subst l.
  rewrite (ints_to_bytes_enc _ (wire_ints_i32 _ _ _ W)) in Ebs. apply Ok_inj in Ebs. subst bs.
  exact (wire_bytes_roundtrip sz _ _ W).
Qed.

Theorem delta_step sz A R bB d e :
  good (sn_raw A) -> like A R -> bgood bB ->
  create_raw (sn_raw A) (sn_raw (b_snap bB)) = Ok d -> delta_encoding sz d = Ok (e, true) ->
  exists S', delta_read_bytes sz e = (Ok d, []) /\ snap_read_with_delta R d = (Ok S', []) /\ like (b_snap bB) S'.
Proof.
  intros GA L GB Hcr Henc. pose proof (bg_raw _ GB) as GRB. destruct (builder_consistent _ GB) as [EcB _].
  destruct (delta_to_copy A R (b_snap bB) d GA L GRB EcB Hcr) as (S' & Er & HL). exists S'.
  split; [exact (delta_encoding_roundtrip sz _ _ d e GA GRB Hcr Henc)|]. split; [exact Er|exact HL].
Qed.

(* what write_snap may be given: type ids and ids in range, data of i32 *)
Definition item_okb (it : hitem) : bool :=
  match it with
  | (t, id, data) =>
    match t with Ordinal o => (0 <? o) && (o <? 16384) | Uuid u => uuid_okb u end
    && (0 <=? id) && (id <=? 65535) && forallb is_i32 data
  end.
Definition hop_typed_ok (o : hop) : bool :=
  match o with
  | HSnap tick its => is_i32 tick && forallb item_okb its
  | HMsg e => bytes_ok e
  end.

Lemma item_okb_op_ok t id data : item_okb (t, id, data) = true -> op_ok t id data.
Proof.
  unfold item_okb, op_ok. intros H. repeat rewrite andb_true_iff in H. destruct H as [[[Ht H1] H2] H3].
  split; [|split; [lia|exact H3]]. destruct t as [o|u]; [unfold OFFSET_EXTENDED_TYPE_ID; lia|exact Ht].
Qed.

Lemma hop_typed_ok_hop_ok o : hop_typed_ok o = true -> hop_ok o = true.
Proof. destruct o as [tick its|e]; cbn; intros H; [apply andb_true_iff in H; tauto|exact H]. Qed.

Lemma like_refl_bgood b : bgood b -> like (b_snap b) (b_snap b).
Proof.
  intros G. pose proof (bg_raw _ G) as GR. destruct (g_rep _ GR) as [ch R].
  split; [reflexivity|]. split; [exact GR|]. exists ch, ch. split; [exact R|]. split; [exact R|reflexivity].
Qed.

Definition snap_items_list (sn : snap) : list hitem :=
  match @snap_items hrerr sn with Ok (_, l) => l | _ => [] end.

Lemma snap_chunk_like b S' : bgood b -> like (b_snap b) S' -> snap_chunk S' = Ok (snap_items_list (b_snap b)).
Proof.
  intros G L. destruct (like_observables _ _ L) as (O1 & _).
  destruct (builder_consistent _ G) as [_ SG]. destruct (@snap_items_fine hrerr _ SG) as [[n l] E].
  unfold snap_chunk, snap_items_list. rewrite (O1 hrerr), E. reflexivity.
Qed.

Fixpoint expected (sz : osize) (w : hwriter) (ops : list hop) : list hchunk :=
  match ops with
  | [] => []
  | o :: r =>
    let w' := fst (fst (hstep sz w o)) in
    match o, snd (hstep sz w o) with
    | HSnap tick _, Ok _ => [HCTick tick; HCSnapshot (snap_items_list (hw_snap w'))]
    | HMsg e, Ok _ => [HCMessage (pad4 e)]
    | _, _ => []
    end ++ expected sz w' r
  end.

Definition accepted_res (r : res hwerr unit) : bool :=
  match r with Ok _ => true | Err HTooLowTickNumber => true | _ => false end.

Lemma hdecode_app_ok sz : forall c1 last sn (out : list hchunk) c2,
  hdecode sz last c1 = (map (fun c => (c, [])) out, (Ok tt, [])) ->
  (* the snapshot kept after c1 *)
  (forall rest, hdecode sz last (c1 ++ rest) =
                let (l, e) := hdecode sz sn rest in (map (fun c => (c, [])) out ++ l, e)) ->
  hdecode sz last (c1 ++ c2) = let (l, e) := hdecode sz sn c2 in (map (fun c => (c, [])) out ++ l, e).
Proof. intros c1 last sn out c2 _ H. apply H. Qed.

Lemma snap_payload_decoded sz A R b' e (kf : bool) :
  (exists bA, bgood bA /\ A = b_snap bA) -> like A R -> bgood b' ->
  (if kf then snap_encoding (b_snap b') = Ok (e, true)
   else exists d, create_raw (sn_raw A) (sn_raw (b_snap b')) = Ok d /\ delta_encoding sz d = Ok (e, true)) ->
  exists S', like (b_snap b') S'
    /\ decode_chunk sz R (if kf then CSnapshot e else CDelta e)
       = (Ok (HCSnapshot (snap_items_list (b_snap b')), S'), []).
Proof.
  intros (bA & GA & ->) L Gb' Henc. destruct kf.
  - destruct (bgood_roundtrip b' Gb') as (l & bs & S' & El & Ebs & _ & Erd & L').
    unfold snap_encoding in Henc. rewrite El, Ebs in Henc. injection Henc as <-.
    exists S'. split; [exact L'|]. cbn [decode_chunk]. rewrite Erd. cbn [map].
    rewrite (snap_chunk_like b' S' Gb' L'). reflexivity.
  - destruct Henc as (d & Ecr & Henc).
    destruct (delta_step sz (b_snap bA) R b' d e (bg_raw _ GA) L Gb' Ecr Henc) as (S' & Erd & Eap & L').
    exists S'. split; [exact L'|]. cbn [decode_chunk]. rewrite Erd, Eap. cbn [map app].
    rewrite (snap_chunk_like b' S' Gb' L'). reflexivity.
Qed.

Lemma write_msg_refusal w e w1 b1 er : write_msg w e = (w1, b1, Err er) -> er = HTooLongNetMsg.
Proof.
  unfold write_msg. destruct (buf_append (hw_buf w) e) as [buf' [|]]; [destruct (write_message buf')|];
    intros [= _ _ <-]. reflexivity.
Qed.

Lemma accepted_no_failure rs : forallb accepted_res rs = true -> no_failure rs = true.
Proof.
  unfold no_failure. induction rs as [|r rs IH]; [reflexivity|]. cbn [forallb]. intros H.
  apply andb_true_iff in H as [Hr Hrs]. rewrite (IH Hrs). destruct r as [[]|e|s|]; try reflexivity; discriminate.
Qed.
