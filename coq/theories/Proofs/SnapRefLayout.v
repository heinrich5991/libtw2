(* The int array CSnapshotBuilder::Finish writes (Model/SnapRef.v), in closed form: for items vu given
   in any order it is ref_layout vu = [data size; count; byte offsets; key :: data ...], the shape
   RawSnap::write_to_ints produces (Proofs/SnapSer.v).  On such an array the CSnapshot accessors
   (offset, position, key, size, data, all keys) return what the builder put there. *)
From LibTw2 Require Import Base.Res Base.Bits Model.Varint Model.Snap Model.SnapRef
  Proofs.SnapBase Proofs.SnapRep Proofs.SnapDelta Proofs.SnapSer.
From Coq Require Import ZArith List Lia Bool.
Import ListNotations.
Open Scope Z_scope.

Definition kd_of (it : ritem) : Z * list Z := (ritem_key it, snd it).

Definition ref_layout (vu : items) : list Z :=
  (Z.of_nat (length (flat vu)) + Z.of_nat (length vu)) * 4 :: Z.of_nat (length vu)
  :: offs_from 0 vu ++ flat_map enc_item vu.

Lemma c_int_small x : 0 <= x <= i32_max -> c_int x = x.
Proof.
  intros H. unfold c_int, i32_of, u32_of, two31, two32, i32_max in *.
  rewrite Z.mod_small by lia. destruct (Z.ltb_spec x 2147483648); lia.
Qed.

Lemma in_range_b lo hi x : lo <= x <= hi -> (lo <=? x) && (x <=? hi) = true.
Proof. intros H. apply andb_true_iff. rewrite !Z.leb_le. exact H. Qed.

Lemma ritem_ok_iff ty id d : ritem_ok (ty, id, d) = true <->
  0 <= ty <= 32767 /\ 0 <= id <= 65535 /\ forallb is_i32 d = true.
Proof. unfold ritem_ok, REF_MAX_TYPE, REF_MAX_ID. rewrite !andb_true_iff, !Z.leb_le. tauto. Qed.

Lemma ref_key ty id : 0 <= ty <= 32767 -> 0 <= id <= 65535 ->
  Z.lor (Z.shiftl ty 16) id = key ty id /\ 0 <= key ty id <= i32_max.
Proof.
  intros Ht Hi. rewrite key_arith by lia. rewrite shiftl_mul by lia. change (2 ^ 16) with 65536.
  rewrite Z.lor_comm. change 65536 with (2 ^ 16). rewrite (lor_low_high id ty 16) by (change (2 ^ 16) with 65536; lia).
  change (2 ^ 16) with 65536. unfold i32_of, two31, two32, i32_max.
  destruct (Z.ltb_spec (ty * 65536 + id) 2147483648); lia.
Qed.

Lemma offs_from_app a : forall b p, offs_from p (a ++ b) = offs_from p a ++ offs_from (p + ilen a) b.
Proof.
  induction a as [|[k d] a IH]; intros b p; cbn [app offs_from].
  - change (ilen []) with 0. rewrite Z.add_0_r. reflexivity.
  - f_equal. rewrite IH. f_equal. f_equal. rewrite ilen_cons. lia.
Qed.

Record binv (b : rbuilder) (vu : items) : Prop := {
  bi_data : rb_data b = flat_map enc_item vu;
  bi_size : rb_data_size b = 4 * ilen vu;
  bi_offs : rb_offs b = offs_from 0 vu;
  bi_num : rb_num b = Z.of_nat (length vu);
  bi_drop : rb_dropped b = false
}.

Lemma binv_init : binv rb_init [].
Proof. split; reflexivity. Qed.

Lemma ref_new_item_ok b vu ty id d : binv b vu -> ritem_ok (ty, id, d) = true ->
  lim_ok (vu ++ [(key ty id, d)]) ->
  exists b', ref_new_item b ty id d = Ok b' /\ binv b' (vu ++ [(key ty id, d)]).
Proof.
  intros I Hok [L1 L2]. apply ritem_ok_iff in Hok. destruct Hok as (Ht & Hi & _).
  rewrite flat_app, !app_length in *. cbn [length flat flat_map snd] in *. rewrite app_nil_r in L2.
  unfold MAX_SNAPSHOT_ITEMS, MAX_SNAPSHOT_SIZE, ser_size in *.
  unfold ref_new_item. rewrite (bi_drop _ _ I), (bi_num _ _ I), (bi_size _ _ I), ilen_flat.
  rewrite c_int_small by (unfold i32_max; lia).
  unfold REF_OFFSET_UUID, REF_MAX_TYPE, REF_MAX_ID, REF_MAX_SIZE, REF_MAX_ITEMS.
  rewrite !in_range_b by lia. cbn [orb negb].
  destruct (Z.leb_spec 1024 (Z.of_nat (length vu))); [lia|].
  match goal with |- context [65536 <? ?e] => destruct (Z.ltb_spec 65536 e); [lia|] end.
  destruct (Z.leb_spec 65536 ty); [lia|]. eexists. split; [reflexivity|].
  destruct (ref_key ty id Ht Hi) as [Hk _].
  split; cbn [rb_data rb_data_size rb_offs rb_num rb_dropped].
  - rewrite (bi_data _ _ I), flat_map_app. cbn [flat_map enc_item fst snd]. rewrite app_nil_r, Hk.
    replace (4 * Z.of_nat (length d) / 4) with (Z.of_nat (length d)) by (rewrite Z.mul_comm, Z_div_mult by lia; reflexivity).
    rewrite Nat2Z.id, firstn_all. reflexivity.
  - rewrite ilen_app, ilen_cons. change (ilen []) with 0. rewrite ilen_flat. lia.
  - rewrite (bi_offs _ _ I), offs_from_app. cbn [offs_from]. rewrite ilen_flat. do 2 (try f_equal); try lia.
  - rewrite app_length. cbn [length]. lia.
  - reflexivity.
Qed.

Lemma ref_add_items_ok : forall its b vu, binv b vu -> ritems_ok its = true ->
  lim_ok (vu ++ map kd_of its) ->
  exists b', ref_add_items b its = Ok b' /\ binv b' (vu ++ map kd_of its).
Proof.
  induction its as [|[[ty id] d] its IH]; intros b vu I Hok Hl.
  - exists b. cbn [map]. rewrite app_nil_r. split; [reflexivity|exact I].
  - cbn [ritems_ok forallb] in Hok. apply andb_true_iff in Hok. destruct Hok as [Ho Hok].
    cbn [map ref_add_items] in *. change (kd_of (ty, id, d)) with (key ty id, d) in *.
    replace (vu ++ (key ty id, d) :: map kd_of its) with ((vu ++ [(key ty id, d)]) ++ map kd_of its) in *
      by (rewrite <- app_assoc; reflexivity).
    destruct (ref_new_item_ok b vu ty id d I Ho (lim_ok_prefix _ _ Hl)) as (b1 & -> & I1). apply (IH b1 _ I1 Hok Hl).
Qed.

Theorem ref_builder_layout its : ritems_ok its = true -> lim_ok (map kd_of its) ->
  ref_builder_ints its = Ok (ref_layout (map kd_of its)).
Proof.
  intros Hok Hl. destruct (ref_add_items_ok its rb_init [] binv_init Hok Hl) as (b & E & I).
  cbn [app] in I. unfold ref_builder_ints. rewrite E. cbn [bind]. unfold ref_finish.
  destruct Hl as [L1 L2]. unfold MAX_SNAPSHOT_ITEMS, MAX_SNAPSHOT_SIZE, ser_size, REF_MAX_ITEMS, REF_MAX_SIZE in *.
  rewrite (bi_num _ _ I), (bi_size _ _ I), (bi_data _ _ I), (bi_offs _ _ I), ilen_flat.
  replace (Z.of_nat (length (map kd_of its)) <=? 1024) with true by (symmetry; apply Z.leb_le; lia).
  match goal with |- context [?e <=? 65536] => replace (e <=? 65536) with true by (symmetry; apply Z.leb_le; lia) end.
  cbn [negb]. unfold ref_layout. f_equal. f_equal. lia.
Qed.

Lemma ref_layout_length vu : Z.of_nat (length (ref_layout vu)) = 2 + Z.of_nat (length vu) + ilen vu.
Proof. unfold ref_layout. cbn [length]. rewrite app_length, offs_from_length. unfold ilen. lia. Qed.

Lemma lim_ok_words vu : lim_ok vu -> 2 + Z.of_nat (length vu) + ilen vu <= 16384.
Proof. intros [L1 L2]. unfold MAX_SNAPSHOT_SIZE, ser_size in L2. rewrite ilen_flat. lia. Qed.

Lemma cs_int_nth s i v : nth_error s i = Some v -> Z.of_nat (length s) <= 16384 -> cs_int s (Z.of_nat i) = Ok v.
Proof.
  intros Hn Hl. unfold cs_int, REF_BUF_INTS.
  assert (i < length s)%nat by (apply nth_error_Some; congruence).
  replace (0 <=? Z.of_nat i) with true by (symmetry; apply Z.leb_le; lia).
  replace (Z.of_nat i <? 16384) with true by (symmetry; apply Z.ltb_lt; lia).
  cbn [andb]. rewrite Nat2Z.id, Hn. reflexivity.
Qed.

Lemma nth_error_offs pre k d post : forall p,
  nth_error (offs_from p (pre ++ (k, d) :: post)) (length pre) = Some (4 * (p + ilen pre)).
Proof.
  induction pre as [|[k' d'] pre IH]; intros p; cbn [app offs_from length nth_error].
  - change (ilen []) with 0. f_equal. lia.
  - rewrite IH, ilen_cons. f_equal. lia.
Qed.

Section Layout.
  Variable vu : items.
  Hypothesis Hlim : lim_ok vu.
  Let s := ref_layout vu.
  Let n := Z.of_nat (length vu).

  Lemma lay_len : Z.of_nat (length s) <= 16384.
  Proof. unfold s. rewrite ref_layout_length. apply lim_ok_words, Hlim. Qed.

  Lemma lay_data_size : cs_data_size s = Ok (4 * ilen vu).
  Proof.
    unfold cs_data_size. change 0 with (Z.of_nat 0). rewrite (cs_int_nth s 0 ((Z.of_nat (length (flat vu)) + n) * 4)); [|reflexivity|apply lay_len].
    f_equal. rewrite ilen_flat. unfold n. lia.
  Qed.

  Lemma lay_num : cs_num_items s = Ok n.
  Proof. unfold cs_num_items. change 1 with (Z.of_nat 1). apply cs_int_nth; [reflexivity|apply lay_len]. Qed.

  Lemma lay_offset pre k d post : vu = pre ++ (k, d) :: post ->
    cs_offset s (Z.of_nat (length pre)) = Ok (4 * ilen pre).
  Proof.
    intros Hv. unfold cs_offset. replace (2 + Z.of_nat (length pre)) with (Z.of_nat (2 + length pre)) by lia.
    apply cs_int_nth; [|apply lay_len]. unfold s, ref_layout. cbn [Nat.add nth_error].
    rewrite nth_error_app1 by (rewrite offs_from_length, Hv, app_length; cbn [length]; lia).
    rewrite Hv, nth_error_offs. f_equal.
  Qed.

  Lemma lay_split pre k d post : vu = pre ++ (k, d) :: post ->
    exists front, s = front ++ k :: d ++ flat_map enc_item post
      /\ Z.of_nat (length front) = 2 + n + ilen pre.
  Proof.
    intros Hv. exists ((Z.of_nat (length (flat vu)) + n) * 4 :: n :: offs_from 0 vu ++ flat_map enc_item pre). split.
    - unfold s, ref_layout. fold n. cbn [app]. f_equal. f_equal. rewrite <- app_assoc. f_equal.
      rewrite Hv at 1. rewrite flat_map_app. reflexivity.
    - cbn [length]. rewrite app_length, offs_from_length. unfold ilen, n. lia.
  Qed.

  Lemma lay_pos pre k d post : vu = pre ++ (k, d) :: post ->
    cs_item_pos s (Z.of_nat (length pre)) = Ok (2 + n + ilen pre).
  Proof.
    intros Hv. unfold cs_item_pos. rewrite lay_num. cbn [bind]. rewrite (lay_offset pre k d post Hv). cbn [bind].
    rewrite Z.mul_comm, Z_mod_mult. cbn [Z.eqb]. rewrite Z_div_mult by lia. reflexivity.
  Qed.

  Lemma lay_key pre k d post : vu = pre ++ (k, d) :: post ->
    cs_item_key s (Z.of_nat (length pre)) = Ok k.
  Proof.
    intros Hv. unfold cs_item_key. rewrite (lay_pos pre k d post Hv). cbn [bind].
    destruct (lay_split pre k d post Hv) as (front & Hs & Hf). rewrite <- Hf.
    apply cs_int_nth; [|apply lay_len]. rewrite Hs. apply nth_error_mid.
  Qed.

  Lemma lay_size pre k d post : vu = pre ++ (k, d) :: post ->
    cs_item_size s (Z.of_nat (length pre)) = Ok (4 * Z.of_nat (length d)).
  Proof.
    intros Hv. unfold cs_item_size. rewrite lay_num. cbn [bind]. rewrite (lay_offset pre k d post Hv). cbn [bind].
    assert (Hn : n = Z.of_nat (length pre) + 1 + Z.of_nat (length post)).
    { unfold n. rewrite Hv, app_length. cbn [length]. lia. }
    pose proof (lim_ok_words vu Hlim) as Hw. rewrite Hv, ilen_app, ilen_cons in Hw.
    pose proof (ilen_nonneg pre). pose proof (ilen_nonneg post).
    destruct post as [|[k' d'] post].
    - replace (Z.of_nat (length pre) =? n - 1) with true by (symmetry; apply Z.eqb_eq; cbn [length] in Hn; lia).
      rewrite lay_data_size. cbn [bind]. f_equal. rewrite Hv, ilen_app, ilen_cons. change (ilen []) with 0.
      rewrite c_int_small by (unfold i32_max; lia). lia.
    - replace (Z.of_nat (length pre) =? n - 1) with false by (symmetry; apply Z.eqb_neq; cbn [length] in Hn; lia).
      replace (Z.of_nat (length pre) + 1) with (Z.of_nat (length (pre ++ [(k, d)]))) by (rewrite app_length; cbn [length]; lia).
      rewrite (lay_offset (pre ++ [(k, d)]) k' d' post) by (rewrite <- app_assoc; exact Hv). cbn [bind].
      f_equal. rewrite ilen_app, ilen_cons. change (ilen []) with 0.
      rewrite c_int_small by (unfold i32_max; lia). lia.
  Qed.

  Lemma lay_read pre k d post : vu = pre ++ (k, d) :: post ->
    cs_read s (2 + n + ilen pre + 1) (Z.of_nat (length d)) = Ok d.
  Proof.
    intros Hv. destruct (lay_split pre k d post Hv) as (front & Hs & Hf).
    pose proof lay_len as Hl. rewrite Hs, !app_length in Hl. cbn [length] in Hl. rewrite app_length in Hl.
    unfold cs_read, REF_BUF_INTS. rewrite <- Hf.
    replace (0 <=? Z.of_nat (length front) + 1) with true by (symmetry; apply Z.leb_le; lia).
    replace (0 <=? Z.of_nat (length d)) with true by (symmetry; apply Z.leb_le; lia).
    replace (Z.of_nat (length front) + 1 + Z.of_nat (length d) <=? 16384) with true by (symmetry; apply Z.leb_le; lia).
    cbn [andb]. rewrite Nat2Z.id.
    replace (Z.to_nat (Z.of_nat (length front) + 1)) with (length (front ++ [k])) by (rewrite app_length; cbn [length]; lia).
    replace s with ((front ++ [k]) ++ d ++ flat_map enc_item post) by (rewrite Hs, <- app_assoc; reflexivity).
    rewrite firstn_skipn_app_mid, Z.eqb_refl. reflexivity.
  Qed.

  Lemma lay_keys_from : forall post pre, vu = pre ++ post ->
    cs_keys_from s (Z.of_nat (length pre)) (length post) = Ok (map fst post).
  Proof.
    induction post as [|[k d] post IH]; intros pre Hv; [reflexivity|].
    cbn [length cs_keys_from map fst]. rewrite (lay_key pre k d post Hv). cbn [bind].
    replace (Z.of_nat (length pre) + 1) with (Z.of_nat (length (pre ++ [(k, d)]))) by (rewrite app_length; cbn [length]; lia).
    rewrite IH by (rewrite <- app_assoc; exact Hv). reflexivity.
  Qed.

  Lemma lay_keys : cs_keys s = Ok (map fst vu).
  Proof.
    unfold cs_keys. rewrite lay_num. cbn [bind]. destruct Hlim as [L1 _]. unfold MAX_SNAPSHOT_ITEMS in L1.
    destruct (Z.leb_spec n 0) as [H0|H0].
    - unfold n in H0. destruct vu; [reflexivity|cbn [length] in H0; lia].
    - unfold REF_BUF_INTS. replace (16384 <? n) with false by (symmetry; apply Z.ltb_ge; unfold n; lia).
      unfold n. rewrite Nat2Z.id. apply (lay_keys_from vu []). reflexivity.
  Qed.
End Layout.
