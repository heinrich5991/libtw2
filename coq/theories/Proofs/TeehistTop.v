(* From any fragmentation of a stream to the message-level statements. *)
From LibTw2 Require Import Base.Res Model.Varint Model.Packer Model.Teehistorian
  Proofs.TeehistFrag Proofs.TeehistParsers Proofs.TeehistReader Proofs.TeehistMsgs Proofs.TeehistTicks.
From Coq Require Import List Lia Arith ZArith Bool.
Import ListNotations.
Open Scope Z_scope.

Section Top.
  Variable hdr : bytes -> hverdict.
  Notation parseT := (parse_at hdr).

  (* a session that ends with Ok(None): the stream is header ++ records, and the items
     are what the message-level reader makes of the decoded records *)
  Theorem read_all_msgs s items rf : read_all hdr (fuel_for s) s = (items, Ok rf) ->
    exists vn n v ms,
      parse_header hdr (frags s) = POk vn n /\ version_of vn = Some v
      /\ decodes v (skipn n (frags s)) ms
      /\ mrun (reader_empty v) ms = (items, Some rf).
  Proof.
    intros H. rewrite read_all_eq in H.
    destruct (retry pfailure eofT (parseT PHeader) empty_buffer s) as [[[vn|e|z|] b] s'] eqn:Ey; try discriminate.
    destruct (retry_inv hdr _ _ _ _ _ _ buf_ok_empty Ey) as [n [Hp [Hok L]]]. rewrite logical_empty in Hp, L.
    destruct (version_of vn) as [v|] eqn:Hv; [|discriminate].
    (* what is left after the header, delivered in one piece *)
    set (b1 := {| b_off := 0; b_data := skipn n (frags s) |}).
    assert (Hb1 : buf_ok b1) by apply Nat.le_0_l.
    rewrite (loop_t_frag hdr _ _ b s' b1 [] Hok Hb1) in H by (rewrite L; symmetry; apply logical_nil).
    destruct (loop_mrun hdr v _ (reader_empty v) b1 items rf eq_refl Hb1 H) as [ms [Hc Hm]].
    exists vn, n, v, ms. split; [exact Hp|]. split; [exact Hv|]. split; [exact Hc|exact Hm].
  Qed.

  Theorem read_all_ticks s items rf : read_all hdr (fuel_for s) s = (items, Ok rf) ->
    exists vn n v ms,
      parse_header hdr (frags s) = POk vn n /\ version_of vn = Some v
      /\ decodes v (skipn n (frags s)) ms
      /\ nested None 0 items
      /\ item_ticks None items = map Some (doc_reported (map snd ms)).
  Proof.
    intros H. destruct (read_all_msgs _ _ _ H) as [vn [n [v [ms [Hh [Hv [Hd Hm]]]]]]].
    exists vn, n, v, ms. repeat split; try assumption;
      apply (mrun_ticks v _ ms Hd (reader_empty v) items rf None 0 Hm); split; (reflexivity || lia).
  Qed.

  Theorem read_all_sums s items rf : read_all hdr (fuel_for s) s = (items, Ok rf) ->
    exists vn n v ms,
      parse_header hdr (frags s) = POk vn n /\ version_of vn = Some v
      /\ decodes v (skipn n (frags s)) ms
      /\ length (filter reported (map snd ms)) = length (payload items)
      /\ sums_ok (fun _ => None) (fun _ => None) (combine (filter reported (map snd ms)) (payload items)).
  Proof.
    intros H. destruct (read_all_msgs _ _ _ H) as [vn [n [v [ms [Hh [Hv [Hd Hm]]]]]]].
    exists vn, n, v, ms. repeat split; try assumption;
      apply (mrun_sums v _ ms Hd (reader_empty v) items rf (fun _ => None) (fun _ => None) Hm); intros c; reflexivity.
  Qed.
End Top.
