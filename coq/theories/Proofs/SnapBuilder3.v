(* Recycling a builder-made snapshot (after its wire form, or after a delta) gives a builder that
   knows exactly its UUID types and continues the numbering (C10). *)
From LibTw2 Require Import Base.Res Model.Varint Model.Packer Model.Snap Proofs.SnapBase Proofs.SnapRep Proofs.SnapDelta
  Proofs.SnapApply Proofs.SnapOk Proofs.SnapTotal Proofs.SnapTotal2 Proofs.SnapC09 Proofs.SnapSer Proofs.SnapReg
  Proofs.SnapObs Proofs.SnapBuilder Proofs.SnapBuilder2.
From Coq Require Import ZArith List Lia Bool Permutation.
Import ListNotations.
Open Scope Z_scope.

Lemma bstate_lookups ch ch' ext next : (forall k, aget k ch = aget k ch') -> bstate ch ext next -> bstate ch' ext next.
Proof.
  intros Heq B. split.
  - apply (bs_sorted _ _ _ B).
  - intros u t Hu. rewrite <- Heq. apply (bs_entry _ _ _ B u t Hu).
  - apply (bs_inj _ _ _ B).
  - intros k d Hk. rewrite <- Heq in Hk. apply (bs_reg _ _ _ B k d Hk).
  - intros k d Hk. rewrite <- Heq in Hk. apply (bs_high _ _ _ B k d Hk).
  - apply (bs_contig _ _ _ B).
Qed.

(* the keys of a snapshot that holds a builder state: the numbers 0x4000 .. next-1, then everything else *)
Fixpoint zseq (lo : Z) (n : nat) : list Z := match n with O => [] | Datatypes.S n' => lo :: zseq (lo + 1) n' end.

Lemma zseq_in lo n x : In x (zseq lo n) <-> lo <= x < lo + Z.of_nat n.
Proof.
  revert lo. induction n as [|n IH]; intros lo; cbn [zseq In]; [lia|]. rewrite IH. lia.
Qed.

Lemma zseq_sorted lo n : sortedb (zseq lo n) = true.
Proof.
  revert lo. induction n as [|n IH]; intros lo; [reflexivity|]. cbn [zseq]. apply sortedb_cons. split; [|apply IH].
  intros x Hx. apply zseq_in in Hx. lia.
Qed.

Lemma small_key_type0 k : 0 <= k < 65536 -> key_to_raw_type_id k = 0 /\ key_to_id k = k.
Proof.
  intros H. rewrite key_to_ty_arith, key_to_id_arith. unfold u32_of, two32. split; Z.div_mod_to_equations; lia.
Qed.

Lemma recycle_scan_seq : forall n lo rest, 16384 <= lo -> lo + Z.of_nat n <= 32768 ->
  (forall k, In k rest -> key_to_raw_type_id k <> TYPE_ID_EX) ->
  recycle_scan (zseq lo n ++ rest) lo = Ok (lo + Z.of_nat n).
Proof.
  induction n as [|n IH]; intros lo rest Hlo Hhi Hrest.
  - cbn [zseq app]. rewrite Z.add_0_r. destruct rest as [|k rest]; [reflexivity|]. cbn [recycle_scan].
    destruct (Z.eqb_spec (key_to_raw_type_id k) TYPE_ID_EX) as [E|N]; [exfalso; apply (Hrest k); [left; reflexivity|exact E]|reflexivity].
  - cbn [zseq app recycle_scan]. destruct (small_key_type0 lo) as [T I]; [lia|]. rewrite T, I. cbn [Z.eqb negb TYPE_ID_EX].
    change (0 =? TYPE_ID_EX) with true. cbn [negb].
    replace (65535 <? lo + 256) with false by (symmetry; apply Z.ltb_ge; lia).
    replace (lo <? lo + 256) with true by (symmetry; apply Z.ltb_lt; lia).
    replace (65535 <? lo + 1) with false by (symmetry; apply Z.ltb_ge; lia).
    rewrite IH; [f_equal; lia|lia|lia|exact Hrest].
Qed.

Lemma key_nonzero_type k : is_i32 k = true -> key_to_raw_type_id k <> 0 -> key_to_raw_type_id k < 32768 -> 65536 <= k.
Proof.
  intros Hi Ht Hs. apply is_i32_iff in Hi. rewrite key_to_ty_arith in *. unfold u32_of, two32 in *.
  Z.div_mod_to_equations. lia.
Qed.

Theorem scan_builder_state R ch ext next : rep R ch -> keys_i32 R -> bstate ch ext next -> 16384 <= next <= 32768 ->
  recycle_scan (map fst (rs_offs R)) OFFSET_EXTENDED_TYPE_ID = Ok next.
Proof.
  intros HR HK B Hn.
  set (n := Z.to_nat (next - 16384)).
  set (rest := filter (fun k => 65536 <=? k) (map fst (rs_offs R))).
  assert (Hkeys : map fst (rs_offs R) = zseq 16384 n ++ rest).
  { apply sortedb_ext; [apply (rep_sorted _ _ HR)| |].
    - apply sortedb_app. split; [apply zseq_sorted|]. split; [apply sortedb_filter, (rep_sorted _ _ HR)|].
      intros x y Hx Hy. apply zseq_in in Hx. apply filter_In in Hy. destruct Hy as [_ Hy]. apply Z.leb_le in Hy. unfold n in Hx. lia.
    - intros k. rewrite in_app_iff, zseq_in. unfold rest. rewrite filter_In, Z.leb_le. unfold n. split.
      + intros Hin. pose proof Hin as Hin'. apply (rep_in_keys _ _ _ HR) in Hin'.
        destruct (aget k ch) as [d|] eqn:Hd; [|contradiction].
        assert (Hki : is_i32 k = true) by (unfold keys_i32 in HK; rewrite forallb_forall in HK; apply HK, Hin).
        destruct (Z.eq_dec (key_to_raw_type_id k) 0) as [T0|T0].
        * left. destruct (bs_reg _ _ _ B k d Hd T0) as [u Hu]. destruct (bs_entry _ _ _ B u _ Hu) as (Hr & _ & _).
          assert (Hk0 : key TYPE_ID_EX (key_to_id k) = k) by (unfold TYPE_ID_EX; rewrite <- T0; apply key_split, Hki).
          rewrite key_type0 in Hk0 by lia. lia.
        * right. split; [exact Hin|]. apply key_nonzero_type; [exact Hki|exact T0|].
          destruct (Z_lt_le_dec (key_to_raw_type_id k) 16384); [lia|].
          destruct (bs_high _ _ _ B k d Hd) as [u Hu]; [lia|]. destruct (bs_entry _ _ _ B u _ Hu) as (Hr & _ & _). lia.
      + intros [Hk|[Hin _]]; [|exact Hin]. destruct (bs_contig _ _ _ B k) as [u Hu]; [lia|].
        destruct (bs_entry _ _ _ B u k Hu) as (_ & _ & Hw). rewrite key_type0 in Hw by lia.
        apply (rep_in_keys _ _ _ HR). congruence. }
  rewrite Hkeys. unfold OFFSET_EXTENDED_TYPE_ID. rewrite recycle_scan_seq; [f_equal; unfold n; lia|lia|unfold n; lia|].
  intros k Hk. unfold rest in Hk. apply filter_In in Hk. destruct Hk as [Hin Hk]. apply Z.leb_le in Hk.
  assert (Hki : is_i32 k = true) by (unfold keys_i32 in HK; rewrite forallb_forall in HK; apply HK, Hin).
  apply is_i32_iff in Hki. rewrite key_to_ty_arith. unfold TYPE_ID_EX, u32_of, two32. Z.div_mod_to_equations. lia.
Qed.

Lemma bstate_reg_items ch ext next : bstate ch ext next -> next <= 32768 -> bstate (reg_items ext) ext next.
Proof.
  intros B Hn. pose proof (sortedb_nodup _ (bs_sorted _ _ _ B)) as Hnde.
  assert (He : forall u t, aget u ext = Some t -> 16384 <= t < next) by (intros u t Hu; apply (bs_entry _ _ _ B u t Hu)).
  assert (Hndk : NoDup (map fst (reg_items ext))).
  { apply reg_items_nodup; [exact Hnde|apply (bs_inj _ _ _ B)|].
    intros u t Hin. apply reg_ok_iff. pose proof (He u t (in_aget _ _ _ Hnde Hin)). lia. }
  assert (Hin_reg : forall k d, aget k (reg_items ext) = Some d -> exists u t, aget u ext = Some t /\ k = key TYPE_ID_EX t).
  { intros k d Hk. apply aget_in in Hk. unfold reg_items in Hk. apply in_map_iff in Hk. destruct Hk as [[u t] [E Hin]].
    cbn [fst snd] in E. injection E as <- _. exists u, t. split; [apply in_aget; assumption|reflexivity]. }
  split.
  - apply (bs_sorted _ _ _ B).
  - intros u t Hu. destruct (bs_entry _ _ _ B u t Hu) as (H1 & H2 & _). split; [exact H1|]. split; [exact H2|].
    apply in_aget; [exact Hndk|]. unfold reg_items. apply in_map_iff. exists (u, t). split; [reflexivity|apply aget_in, Hu].
  - apply (bs_inj _ _ _ B).
  - intros k d Hk _. destruct (Hin_reg k d Hk) as (u & t & Hu & ->). pose proof (He u t Hu).
    exists u. rewrite key_to_id_key by (unfold TYPE_ID_EX; lia). exact Hu.
  - intros k d Hk Hty. destruct (Hin_reg k d Hk) as (u & t & Hu & ->). pose proof (He u t Hu).
    rewrite key_to_ty_key in Hty by (unfold TYPE_ID_EX; lia). unfold TYPE_ID_EX in Hty. lia.
  - apply (bs_contig _ _ _ B).
Qed.

Theorem recycle_builder_state S ch next : good (sn_raw S) -> rep (sn_raw S) ch -> bstate ch (sn_ext S) next ->
  16384 <= next <= 32768 ->
  exists b, snap_recycle S = Ok b /\ bgood b /\ b_next b = next /\ sn_ext (b_snap b) = sn_ext S
    /\ rep (sn_raw (b_snap b)) (reg_items (sn_ext S)).
Proof.
  intros G HR B Hn. unfold snap_recycle. rewrite (scan_builder_state _ ch _ next HR (g_keys _ G) B Hn). cbn [bind].
  destruct (recycle_fill_registry ch (sn_ext S) (rep_nodup _ _ HR) (bstate_ext_ok _ _ _ B (proj2 Hn)) (good_lim _ _ G HR))
    as (R' & -> & G' & HR').
  cbn [bind]. eexists. split; [reflexivity|]. cbn [b_next b_snap sn_raw sn_ext].
  split; [|split; [reflexivity|split; [reflexivity|exact HR']]].
  split; cbn [b_next b_snap sn_raw sn_ext]; [exact G'|exact Hn|].
  exists (reg_items (sn_ext S)). split; [exact HR'|apply (bstate_reg_items ch), (proj2 Hn); exact B].
Qed.
