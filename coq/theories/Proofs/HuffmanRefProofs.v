(* The C++ reference compressor (Model/HuffmanRef.v) writes byte for byte what
   compress_bug writes, and fails for the same capacities: its `Bits` is the word
   `acc` of Proofs/HuffmanCompress.v, of which both write the whole bytes. *)
From LibTw2 Require Import Base.Res Base.Bits Model.Huffman Model.HuffmanRef
  Proofs.HuffmanBits Proofs.HuffmanCompress.
From Coq Require Import ZArith List Lia Bool.
Import ListNotations.
Open Scope Z_scope.

(* HUFFMAN_MACRO_WRITE *)

Lemma ref_write_spec bits0 : forall fuel off bc room,
  0 <= off -> 0 <= bc -> bc / 8 < Z.of_nat fuel -> (1 <= room)%nat ->
  let k := Z.to_nat (bc / 8) in
  ref_write fuel (Z.shiftr bits0 off) bc room
  = if (k <? room)%nat
    then Ok (loop_bytes bits0 off k, Z.shiftr bits0 (off + 8 * (bc / 8)), bc mod 8, (room - k)%nat)
    else Err tt.
Proof.
  induction fuel as [|f IH]; intros off bc room Hoff Hbc Hf Hroom k; subst k.
  - assert (bc / 8 < 0) by lia. pose proof (Z.div_pos bc 8 ltac:(lia) ltac:(lia)). lia.
  - cbn [ref_write]. destruct (Z.ltb_spec bc 8) as [Hlt|Hge].
    + rewrite Z.div_small, Z.mod_small by lia. cbn [Z.to_nat loop_bytes].
      destruct (Nat.ltb_spec 0 room); [|lia]. now rewrite Z.add_0_r, Nat.sub_0_r.
    + assert (Hq : bc / 8 = (bc - 8) / 8 + 1) by (Z.div_mod_to_equations; lia).
      assert (Hm : bc mod 8 = (bc - 8) mod 8) by (Z.div_mod_to_equations; lia).
      assert (Hq0 : 0 <= (bc - 8) / 8) by (apply Z.div_pos; lia).
      replace (Z.to_nat (bc / 8)) with (S (Z.to_nat ((bc - 8) / 8))) by lia.
      cbn [loop_bytes]. destruct room as [|r]; [lia|].
      destruct (Nat.eqb_spec r 0) as [->|Hr]; [reflexivity|].
      rewrite Z.shiftr_shiftr, IH, Hm by lia.
      replace (off + 8 + 8 * ((bc - 8) / 8)) with (off + 8 * (bc / 8)) by lia.
      change (S (Z.to_nat ((bc - 8) / 8)) <? S r)%nat with (Z.to_nat ((bc - 8) / 8) <? r)%nat.
      now destruct (Z.to_nat ((bc - 8) / 8) <? r)%nat.
Qed.

(* one HUFFMAN_MACRO_LOADSYMBOL + HUFFMAN_MACRO_WRITE *)

Lemma ref_symbol_acc mbits n bits bc room :
  0 <= n <= 24 -> 0 <= mbits < 2 ^ n -> 0 <= bc < 8 -> 0 <= bits < 2 ^ bc -> (1 <= room)%nat ->
  let k := Z.to_nat ((bc + n) / 8) in
  ref_write 8 (Z.lor bits (Z.shiftl mbits bc mod two32)) ((bc + n) mod two32) room
  = if (k <? room)%nat
    then Ok (loop_bytes (acc bits mbits bc) 0 k, Z.shiftr (acc bits mbits bc) (8 * ((bc + n) / 8)),
             (bc + n) mod 8, (room - k)%nat)
    else Err tt.
Proof.
  intros Hn Hm Hbc Hbits Hroom k.
  pose proof (shiftl_u32 mbits n bc ltac:(lia) ltac:(lia) Hm ltac:(lia)) as Hsh.
  fold two32 in Hsh.
  rewrite Hsh, (Z.mod_small (bc + n)) by (unfold two32; lia). fold (acc bits mbits bc).
  assert (Hk3 : (bc + n) / 8 <= 3) by (Z.div_mod_to_equations; lia).
  rewrite <- (Z.shiftr_0_r (acc bits mbits bc)) at 1. now apply ref_write_spec; lia.
Qed.

(* compress_bug always writes a last byte *)
Lemma comp_syms_full t syms byte nob : wf_table t = true ->
  Forall sym_range syms -> 0 <= nob < 8 -> 0 <= byte < 2 ^ nob ->
  comp_syms t syms byte nob 0 true = Err tt.
Proof.
  intros Hwf Hall Hnob Hbyte.
  destruct (comp_syms_spec t true Hwf syms byte nob Hall Hnob Hbyte) as (out & pad & _ & Hbits & Hpad & ->).
  destruct out; [|reflexivity]. apply (f_equal (@length bool)) in Hbits.
  rewrite !app_length, repeat_length in Hbits. cbn [bits_of_bytes flat_map length] in Hbits. lia.
Qed.

(* the C++ loop gives up when the buffer is full after a symbol, the Rust loop when the next
   byte does not fit: the same capacities, since a last byte always follows *)
Lemma ref_syms_eq t : wf_table t = true -> forall syms bits bc room,
  Forall sym_range syms -> 0 <= bc < 8 -> 0 <= bits < 2 ^ bc -> (1 <= room)%nat ->
  ref_syms t syms bits bc room = comp_syms t syms bits bc room true.
Proof.
  intros Hwf. induction syms as [|s rest IH]; intros bits bc room Hall Hbc Hbits Hroom.
  - cbn [ref_syms comp_syms]. rewrite orb_true_r. destruct room; [lia|].
    assert (2 ^ bc <= 2 ^ 7) by (apply Z.pow_le_mono_r; lia). now rewrite land_255_small by lia.
  - inversion Hall as [|? ? Hs Hrest]; subst.
    destruct (wf_get_symbol t s Hwf Hs) as (Hget & Hn & Hb).
    destruct (sym_repr t s) as [mbits n]. cbn [fst snd] in *.
    cbn [ref_syms comp_syms]. rewrite Hget. cbv zeta.
    rewrite ref_symbol_acc, write_symbol_acc by (assumption || lia).
    pose proof (acc_rest bits mbits bc ltac:(lia) Hbits n ltac:(lia) Hb) as Hrest'.
    pose proof (Z.mod_pos_bound (bc + n) 8 ltac:(lia)) as Hmb.
    destruct (Nat.ltb_spec (Z.to_nat ((bc + n) / 8)) room), (Nat.leb_spec (Z.to_nat ((bc + n) / 8)) room);
      try lia; [now rewrite IH by (assumption || lia)| |reflexivity].
    replace (room - Z.to_nat ((bc + n) / 8))%nat with 0%nat by lia.
    now rewrite comp_syms_full.
Qed.

(* byte-identical to compress_bug, the same capacities fail (for a buffer of at least one byte;
   with OutputSize = 0 the C++ writes past the end of its buffer) *)
Theorem ref_compress_eq t x cap : wf_table t = true -> bytes_ok x = true -> (1 <= cap)%nat ->
  ref_compress t x cap = compress t x true cap.
Proof.
  intros Hwf Hx Hcap. apply ref_syms_eq; [exact Hwf|exact (input_syms_range x Hx)|lia|cbn; lia|exact Hcap].
Qed.
