(* The bit-field leaf functions of net/src/protocol7.rs (generated: Gen/Bits7.v) are
   mutually inverse: for every in-range field tuple and for every canonical bit pattern.
   Method as in PktBits6.v: an arithmetic characterisation of each generated function,
   then linear arithmetic with division by literals. *)
From LibTw2 Require Import Base.Res Base.Bits Model.PacketBase Gen.Consts7 Gen.Bits7.
From LibTw2 Require Import Proofs.PktBits6.   (* byteb *)
From Coq Require Import ZArith Lia Bool List.
Open Scope Z_scope.

(* canonical: the two padding bits of the second byte are clear (doc/packet7.md) *)
Definition ch7_canonical (p : ChunkHeaderPacked7) : bool := chp7_padding_size p <? 64.
Definition ch7_in_range (h : ChunkHeader7) : bool :=
  (0 <=? ch7_flags h) && (ch7_flags h <? 4) && (0 <=? ch7_size h) && (ch7_size h <? 4096).
Definition chp7_bytes_ok (p : ChunkHeaderPacked7) : bool :=
  byteb (chp7_flags_size p) && byteb (chp7_padding_size p).

(* byte 0 = flags (2 bits) | size / 64 (6 bits); byte 1 = padding (2 bits) | size mod 64 *)
Lemma ch7_unpack_arith b0 b1 :
  ChunkHeaderPacked7_unpack_warn {| chp7_flags_size := b0; chp7_padding_size := b1 |}
  = ({| ch7_flags := b0 / 64 mod 4; ch7_size := b0 mod 64 * 64 + b1 mod 64 |},
     if b1 / 64 mod 4 * 64 =? 0 then [] else [W7ChunkHeaderPadding]).
Proof.
  unfold ChunkHeaderPacked7_unpack_warn, trunc. cbn [chp7_flags_size chp7_padding_size].
  rewrite !(land_field _ 192 64 4), !(land_low _ 63 64) by reflexivity.
  rewrite !(shiftr_lit _ 6 64), !(shiftl_lit _ 6 64) by reflexivity. change (2 ^ 16) with 65536.
  rewrite Z.div_mul, (Z.mod_small (_ * 64)), lor_high_low by (reflexivity || divmod).
  destruct (_ =? 0); reflexivity.
Qed.

Lemma ch7_pack_arith flags size : 0 <= flags < 4 -> 0 <= size < 4096 ->
  ChunkHeader7_pack {| ch7_flags := flags; ch7_size := size |}
  = Ok {| chp7_flags_size := flags * 64 + size / 64; chp7_padding_size := size mod 64 |}.
Proof.
  intros Hf Hs. unfold ChunkHeader7_pack, trunc, CHUNK_FLAGS_BITS, CHUNK_SIZE_BITS. cbn [ch7_flags ch7_size].
  rewrite (shiftr_lit _ 2 4), (shiftr_lit _ 12 4096), !Z.div_small by (reflexivity || lia). cbn [Z.eqb negb].
  rewrite (land_low _ 3 4), (land_field _ 4032 64 64), (land_low _ 63 64) by reflexivity.
  rewrite (shiftl_lit _ 6 64), (shiftr_lit _ 6 64) by reflexivity. change (2 ^ 8) with 256.
  rewrite Z.div_mul, !Z.mod_small, lor_high_low by (reflexivity || divmod).
  reflexivity.
Qed.

Lemma ch7_facts : codec_facts ChunkHeaderPacked7_unpack_warn ChunkHeader7_pack chp7_bytes_ok ch7_canonical
                             ch7_in_range (fun p => ch7_canonical p = true).
Proof.
  intros [b0 b1]. unfold chp7_bytes_ok, ch7_canonical, byteb. cbn [chp7_flags_size chp7_padding_size].
  intros H. rewrite ch7_unpack_arith. eexists _, _, _. split; [reflexivity|].
  split; [unfold ch7_in_range; cbn [ch7_flags ch7_size]; divmod|].
  split; [apply ch7_pack_arith; divmod|].
  (* repacking gives b0 back and clears the padding bits of b1 *)
  replace (b0 / 64 mod 4 * 64 + (b0 mod 64 * 64 + b1 mod 64) / 64) with b0 by divmod.
  replace ((b0 mod 64 * 64 + b1 mod 64) mod 64) with (b1 mod 64) by divmod.
  rewrite Z.ltb_lt. split.
  - split; [intros E; injection E; divmod | intros E; f_equal; divmod].
  - destruct (Z.eqb_spec (b1 / 64 mod 4 * 64) 0); split; (discriminate || reflexivity || divmod).
Qed.

Theorem ch7_unpack_pack p : chp7_bytes_ok p = true -> ch7_canonical p = true ->
  ChunkHeader7_pack (fst (ChunkHeaderPacked7_unpack_warn p)) = Ok p
  /\ snd (ChunkHeaderPacked7_unpack_warn p) = [].
Proof. exact (codec_unpack_pack _ _ _ _ _ ch7_facts p). Qed.

Theorem ch7_warn_iff p : chp7_bytes_ok p = true ->
  (snd (ChunkHeaderPacked7_unpack_warn p) = [] <-> ChunkHeader7_pack (fst (ChunkHeaderPacked7_unpack_warn p)) = Ok p)
  /\ (snd (ChunkHeaderPacked7_unpack_warn p) = [] <-> ch7_canonical p = true).
Proof. exact (codec_warn_iff _ _ _ _ _ ch7_facts p). Qed.

Theorem ch7_unpack_in_range p : chp7_bytes_ok p = true ->
  ch7_in_range (fst (ChunkHeaderPacked7_unpack_warn p)) = true.
Proof. exact (codec_in_range _ _ _ _ _ _ ch7_facts p). Qed.

Theorem ch7_pack_unpack h : ch7_in_range h = true ->
  exists p, ChunkHeader7_pack h = Ok p /\ ChunkHeaderPacked7_unpack_warn p = (h, [])
            /\ chp7_bytes_ok p = true /\ ch7_canonical p = true.
Proof.
  destruct h as [flags size]. unfold ch7_in_range. cbn [ch7_flags ch7_size]. intros H.
  eexists. split; [apply ch7_pack_arith; lia|]. rewrite ch7_unpack_arith.
  unfold chp7_bytes_ok, ch7_canonical, byteb. cbn [chp7_flags_size chp7_padding_size].
  replace (size mod 64 / 64 mod 4 * 64) with 0 by divmod. cbn [Z.eqb].
  split; [do 2 f_equal; divmod|]. split; divmod.
Qed.

(* PacketHeader (7 bytes; num_chunks and the token are passed through) *)

(* canonical: the two padding bits (bits 6 and 7 of the first byte) are clear *)
Definition ph7_canonical (p : PacketHeaderPacked7) : bool := php7_padding_flags_ack p / 64 =? 0.
Definition ph7_in_range (h : PacketHeader7) : bool :=
  (0 <=? ph7_flags h) && (ph7_flags h <? 16) && (0 <=? ph7_ack h) && (ph7_ack h <? 1024)
  && byteb (ph7_num_chunks h).
Definition php7_bytes_ok (p : PacketHeaderPacked7) : bool :=
  byteb (php7_padding_flags_ack p) && byteb (php7_ack p) && byteb (php7_num_chunks p).

(* byte 0 = padding (2 bits) | flags (4 bits) | ack / 256 (2 bits); byte 1 = ack mod 256 *)
Lemma ph7_unpack_arith b0 b1 b2 tok : 0 <= b1 < 256 ->
  PacketHeaderPacked7_unpack_warn
    {| php7_padding_flags_ack := b0; php7_ack := b1; php7_num_chunks := b2; php7_token := tok |}
  = ({| ph7_flags := b0 / 4 mod 16; ph7_ack := b0 mod 4 * 256 + b1; ph7_num_chunks := b2; ph7_token := tok |},
     if b0 / 64 mod 4 * 64 =? 0 then [] else [W7PacketHeaderPadding]).
Proof.
  intros H1. unfold PacketHeaderPacked7_unpack_warn, trunc.
  cbn [php7_padding_flags_ack php7_ack php7_num_chunks php7_token].
  rewrite (land_field _ 192 64 4), (land_field _ 60 4 16), (land_low _ 3 4) by reflexivity.
  rewrite (shiftr_lit _ 2 4), (shiftl_lit _ 8 256) by reflexivity. change (2 ^ 16) with 65536.
  rewrite Z.div_mul, (Z.mod_small (_ * 256)), lor_high_low by (reflexivity || divmod).
  destruct (_ =? 0); reflexivity.
Qed.

Lemma ph7_pack_arith flags ack nc tok : 0 <= flags < 16 -> 0 <= ack < 1024 ->
  PacketHeader7_pack {| ph7_flags := flags; ph7_ack := ack; ph7_num_chunks := nc; ph7_token := tok |}
  = Ok {| php7_padding_flags_ack := flags * 4 + ack / 256; php7_ack := ack mod 256;
          php7_num_chunks := nc; php7_token := tok |}.
Proof.
  intros Hf Ha. unfold PacketHeader7_pack, trunc, PACKET_FLAGS_BITS, SEQUENCE_BITS.
  cbn [ph7_flags ph7_ack ph7_num_chunks ph7_token].
  rewrite (shiftr_lit _ 4 16), (shiftr_lit _ 10 1024), !Z.div_small by (reflexivity || lia). cbn [Z.eqb negb].
  rewrite (shiftl_lit _ 2 4), (shiftr_lit _ 8 256) by reflexivity. change (2 ^ 8) with 256.
  rewrite (Z.mod_small (flags * 4)), (Z.mod_small (ack / 256)), lor_high_low by (reflexivity || divmod).
  reflexivity.
Qed.

Lemma ph7_facts : codec_facts PacketHeaderPacked7_unpack_warn PacketHeader7_pack php7_bytes_ok ph7_canonical
                             ph7_in_range (fun p => ph7_canonical p = true).
Proof.
  intros [b0 b1 b2 tok]. unfold php7_bytes_ok, ph7_canonical, byteb.
  cbn [php7_padding_flags_ack php7_ack php7_num_chunks php7_token].
  intros H. rewrite ph7_unpack_arith by lia. eexists _, _, _. split; [reflexivity|].
  split; [unfold ph7_in_range, byteb; cbn [ph7_flags ph7_ack ph7_num_chunks]; divmod|].
  split; [apply ph7_pack_arith; divmod|].
  (* repacking clears the two padding bits of b0 *)
  replace (b0 / 4 mod 16 * 4 + (b0 mod 4 * 256 + b1) / 256) with (b0 mod 64) by divmod.
  replace ((b0 mod 4 * 256 + b1) mod 256) with b1 by divmod.
  rewrite Z.eqb_eq. split.
  - split; [intros E; injection E; divmod | intros E; f_equal; divmod].
  - destruct (Z.eqb_spec (b0 / 64 mod 4 * 64) 0); split; (discriminate || reflexivity || divmod).
Qed.

Theorem ph7_unpack_pack p : php7_bytes_ok p = true -> ph7_canonical p = true ->
  PacketHeader7_pack (fst (PacketHeaderPacked7_unpack_warn p)) = Ok p
  /\ snd (PacketHeaderPacked7_unpack_warn p) = [].
Proof. exact (codec_unpack_pack _ _ _ _ _ ph7_facts p). Qed.

Theorem ph7_warn_iff p : php7_bytes_ok p = true ->
  (snd (PacketHeaderPacked7_unpack_warn p) = [] <-> PacketHeader7_pack (fst (PacketHeaderPacked7_unpack_warn p)) = Ok p)
  /\ (snd (PacketHeaderPacked7_unpack_warn p) = [] <-> ph7_canonical p = true).
Proof. exact (codec_warn_iff _ _ _ _ _ ph7_facts p). Qed.

Theorem ph7_unpack_in_range p : php7_bytes_ok p = true ->
  ph7_in_range (fst (PacketHeaderPacked7_unpack_warn p)) = true
  /\ ph7_num_chunks (fst (PacketHeaderPacked7_unpack_warn p)) = php7_num_chunks p
  /\ ph7_token (fst (PacketHeaderPacked7_unpack_warn p)) = php7_token p.
Proof.
  intros Hb. split; [exact (codec_in_range _ _ _ _ _ _ ph7_facts p Hb)|].
  destruct p as [b0 b1 b2 tok]. unfold php7_bytes_ok, byteb in Hb. cbn [php7_ack] in Hb.
  rewrite ph7_unpack_arith by lia. split; reflexivity.
Qed.

Theorem ph7_pack_unpack h : ph7_in_range h = true ->
  exists p, PacketHeader7_pack h = Ok p /\ PacketHeaderPacked7_unpack_warn p = (h, [])
            /\ php7_bytes_ok p = true /\ ph7_canonical p = true /\ php7_token p = ph7_token h.
Proof.
  destruct h as [flags ack nc tok]. unfold ph7_in_range, byteb. cbn [ph7_flags ph7_ack ph7_num_chunks ph7_token].
  intros H. eexists. split; [apply ph7_pack_arith; lia|]. rewrite ph7_unpack_arith by divmod.
  unfold php7_bytes_ok, ph7_canonical, byteb. cbn [php7_padding_flags_ack php7_ack php7_num_chunks php7_token].
  replace ((flags * 4 + ack / 256) / 64 mod 4 * 64) with 0 by divmod. cbn [Z.eqb].
  split; [do 2 f_equal; divmod|]. split; [divmod|]. split; [divmod|reflexivity].
Qed.

(* PacketHeaderConnless (9 bytes; both tokens are passed through) *)

Definition phc7_canonical (p : PacketHeaderConnlessPacked7) : bool := phcp7_padding_flags_version p / 64 =? 0.
Definition phc7_in_range (h : PacketHeaderConnless7) : bool :=
  (0 <=? phc7_flags h) && (phc7_flags h <? 16) && (0 <=? phc7_version h) && (phc7_version h <? 4).
Definition phcp7_bytes_ok (p : PacketHeaderConnlessPacked7) : bool := byteb (phcp7_padding_flags_version p).

(* byte 0 = padding (2 bits) | flags (4 bits) | version (2 bits) *)
Lemma phc7_unpack_arith b0 t r :
  PacketHeaderConnlessPacked7_unpack_warn
    {| phcp7_padding_flags_version := b0; phcp7_token := t; phcp7_response_token := r |}
  = ({| phc7_flags := b0 / 4 mod 16; phc7_version := b0 mod 4; phc7_token := t; phc7_response_token := r |},
     if b0 / 64 mod 4 * 64 =? 0 then [] else [W7PacketHeaderPadding]).
Proof.
  unfold PacketHeaderConnlessPacked7_unpack_warn. cbn [phcp7_padding_flags_version phcp7_token phcp7_response_token].
  rewrite (land_field _ 192 64 4), (land_field _ 60 4 16), (land_low _ 3 4) by reflexivity.
  rewrite (shiftr_lit _ 2 4), Z.div_mul by (reflexivity || lia).
  destruct (_ =? 0); reflexivity.
Qed.

Lemma phc7_pack_arith flags version t r : 0 <= flags < 16 -> 0 <= version < 4 ->
  PacketHeaderConnless7_pack
    {| phc7_flags := flags; phc7_version := version; phc7_token := t; phc7_response_token := r |}
  = Ok {| phcp7_padding_flags_version := flags * 4 + version; phcp7_token := t; phcp7_response_token := r |}.
Proof.
  intros Hf Hv. unfold PacketHeaderConnless7_pack, trunc, PACKET_FLAGS_BITS, VERSION_BITS.
  cbn [phc7_flags phc7_version phc7_token phc7_response_token].
  rewrite (shiftr_lit _ 4 16), (shiftr_lit _ 2 4), !Z.div_small by (reflexivity || lia). cbn [Z.eqb negb].
  rewrite (shiftl_lit _ 2 4) by reflexivity. change (2 ^ 8) with 256.
  rewrite (Z.mod_small (flags * 4)), lor_high_low by (reflexivity || lia).
  reflexivity.
Qed.

Lemma phc7_facts : codec_facts PacketHeaderConnlessPacked7_unpack_warn PacketHeaderConnless7_pack phcp7_bytes_ok
                              phc7_canonical phc7_in_range (fun p => phc7_canonical p = true).
Proof.
  intros [b0 t r]. unfold phcp7_bytes_ok, phc7_canonical, byteb.
  cbn [phcp7_padding_flags_version phcp7_token phcp7_response_token].
  intros H. rewrite phc7_unpack_arith. eexists _, _, _. split; [reflexivity|].
  split; [unfold phc7_in_range; cbn [phc7_flags phc7_version]; divmod|].
  split; [apply phc7_pack_arith; divmod|].
  replace (b0 / 4 mod 16 * 4 + b0 mod 4) with (b0 mod 64) by divmod.
  rewrite Z.eqb_eq. split.
  - split; [intros E; injection E; divmod | intros E; f_equal; divmod].
  - destruct (Z.eqb_spec (b0 / 64 mod 4 * 64) 0); split; (discriminate || reflexivity || divmod).
Qed.

Theorem phc7_unpack_pack p : phcp7_bytes_ok p = true -> phc7_canonical p = true ->
  PacketHeaderConnless7_pack (fst (PacketHeaderConnlessPacked7_unpack_warn p)) = Ok p
  /\ snd (PacketHeaderConnlessPacked7_unpack_warn p) = [].
Proof. exact (codec_unpack_pack _ _ _ _ _ phc7_facts p). Qed.

Theorem phc7_warn_iff p : phcp7_bytes_ok p = true ->
  (snd (PacketHeaderConnlessPacked7_unpack_warn p) = [] <-> PacketHeaderConnless7_pack (fst (PacketHeaderConnlessPacked7_unpack_warn p)) = Ok p)
  /\ (snd (PacketHeaderConnlessPacked7_unpack_warn p) = [] <-> phc7_canonical p = true).
Proof. exact (codec_warn_iff _ _ _ _ _ phc7_facts p). Qed.

Theorem phc7_unpack_in_range p : phcp7_bytes_ok p = true ->
  phc7_in_range (fst (PacketHeaderConnlessPacked7_unpack_warn p)) = true
  /\ phc7_token (fst (PacketHeaderConnlessPacked7_unpack_warn p)) = phcp7_token p
  /\ phc7_response_token (fst (PacketHeaderConnlessPacked7_unpack_warn p)) = phcp7_response_token p.
Proof.
  intros Hb. split; [exact (codec_in_range _ _ _ _ _ _ phc7_facts p Hb)|].
  destruct p as [b0 t r]. rewrite phc7_unpack_arith. split; reflexivity.
Qed.

Theorem phc7_pack_unpack h : phc7_in_range h = true ->
  exists p, PacketHeaderConnless7_pack h = Ok p /\ PacketHeaderConnlessPacked7_unpack_warn p = (h, [])
            /\ phcp7_bytes_ok p = true /\ phc7_canonical p = true
            /\ phcp7_token p = phc7_token h /\ phcp7_response_token p = phc7_response_token h.
Proof.
  destruct h as [flags version t r]. unfold phc7_in_range. cbn [phc7_flags phc7_version phc7_token phc7_response_token].
  intros H. eexists. split; [apply phc7_pack_arith; lia|]. rewrite phc7_unpack_arith.
  unfold phcp7_bytes_ok, phc7_canonical, byteb. cbn [phcp7_padding_flags_version phcp7_token phcp7_response_token].
  replace ((flags * 4 + version) / 64 mod 4 * 64) with 0 by divmod. cbn [Z.eqb].
  split; [do 2 f_equal; divmod|]. split; [divmod|]. split; [divmod|]. split; reflexivity.
Qed.

(* every bit of the three bytes carries information: every pattern is canonical, and
   unpack_warn never warns (with the repaired padding mask, /repo 6d5326e) *)
Definition chv7_canonical (p : ChunkHeaderVitalPacked7) : bool := true.
Definition chv7_in_range (h : ChunkHeaderVital7) : bool :=
  ch7_in_range (chv7_h h) && (0 <=? chv7_sequence h) && (chv7_sequence h <? 1024).
Definition chvp7_bytes_ok (p : ChunkHeaderVitalPacked7) : bool :=
  byteb (chvp7_flags_size p) && byteb (chvp7_sequence_size p) && byteb (chvp7_sequence p).

(* byte 1 = sequence / 256 (2 bits) | size mod 64; byte 2 = sequence mod 256 *)
Lemma chv7_unpack_arith b0 b1 b2 : 0 <= b1 < 256 -> 0 <= b2 < 256 ->
  ChunkHeaderVitalPacked7_unpack_warn {| chvp7_flags_size := b0; chvp7_sequence_size := b1; chvp7_sequence := b2 |}
  = ({| chv7_h := {| ch7_flags := b0 / 64 mod 4; ch7_size := b0 mod 64 * 64 + b1 mod 64 |};
        chv7_sequence := b1 / 64 * 256 + b2 |}, []).
Proof.
  intros H1 H2. unfold ChunkHeaderVitalPacked7_unpack_warn, trunc.
  cbn [chvp7_flags_size chvp7_sequence_size chvp7_sequence].
  rewrite (land_low _ 63 64), ch7_unpack_arith by reflexivity.
  replace (b1 mod 64 / 64 mod 4 * 64) with 0 by divmod. rewrite Z.mod_mod by lia. cbn [Z.eqb].
  rewrite (land_field _ 192 64 4), (land_low _ 255 256), (shiftl_lit _ 2 4) by reflexivity.
  change (2 ^ 16) with 65536.
  replace ((b1 / 64 mod 4 * 64 * 4) mod 65536) with (b1 / 64 * 256) by divmod.
  rewrite lor_high_low, (Z.mod_small b2) by (reflexivity || divmod). reflexivity.
Qed.

Lemma chv7_pack_arith flags size seq : 0 <= flags < 4 -> 0 <= size < 4096 -> 0 <= seq < 1024 ->
  ChunkHeaderVital7_pack {| chv7_h := {| ch7_flags := flags; ch7_size := size |}; chv7_sequence := seq |}
  = Ok {| chvp7_flags_size := flags * 64 + size / 64;
          chvp7_sequence_size := size mod 64 + seq / 256 * 64;
          chvp7_sequence := seq mod 256 |}.
Proof.
  intros Hf Hs Hq. unfold ChunkHeaderVital7_pack, trunc, SEQUENCE_BITS. cbn [chv7_h chv7_sequence].
  rewrite (shiftr_lit _ 10 1024), Z.div_small, ch7_pack_arith by (reflexivity || lia).
  cbn [Z.eqb negb bind chp7_flags_size chp7_padding_size].
  rewrite (land_low _ 63 64), (land_field _ 768 256 4), (land_low _ 255 256) by reflexivity.
  rewrite (shiftr_lit _ 2 4) by reflexivity. change (2 ^ 8) with 256.
  replace ((seq / 256 mod 4 * 256 / 4) mod 256) with (seq / 256 * 64) by divmod.
  rewrite Z.mod_mod, Z.lor_comm, lor_high_low, (Z.mod_small (seq mod 256)) by (reflexivity || divmod).
  f_equal. f_equal. lia.
Qed.

Lemma chv7_facts : codec_facts ChunkHeaderVitalPacked7_unpack_warn ChunkHeaderVital7_pack chvp7_bytes_ok
                              chv7_canonical chv7_in_range (fun p => chv7_canonical p = true).
Proof.
  intros [b0 b1 b2]. unfold chvp7_bytes_ok, chv7_canonical, byteb.
  cbn [chvp7_flags_size chvp7_sequence_size chvp7_sequence].
  intros H. rewrite chv7_unpack_arith by lia. eexists _, _, _. split; [reflexivity|].
  split; [unfold chv7_in_range, ch7_in_range; cbn [chv7_h chv7_sequence ch7_flags ch7_size]; divmod|].
  split; [apply chv7_pack_arith; divmod|].
  split; [|split; reflexivity]. split; [reflexivity|]. intros _. f_equal; divmod.
Qed.

Theorem chv7_unpack_pack p : chvp7_bytes_ok p = true -> chv7_canonical p = true ->
  ChunkHeaderVital7_pack (fst (ChunkHeaderVitalPacked7_unpack_warn p)) = Ok p
  /\ snd (ChunkHeaderVitalPacked7_unpack_warn p) = [].
Proof. exact (codec_unpack_pack _ _ _ _ _ chv7_facts p). Qed.

Theorem chv7_warn_iff p : chvp7_bytes_ok p = true ->
  (snd (ChunkHeaderVitalPacked7_unpack_warn p) = [] <-> ChunkHeaderVital7_pack (fst (ChunkHeaderVitalPacked7_unpack_warn p)) = Ok p)
  /\ (snd (ChunkHeaderVitalPacked7_unpack_warn p) = [] <-> chv7_canonical p = true).
Proof. exact (codec_warn_iff _ _ _ _ _ chv7_facts p). Qed.

Theorem chv7_unpack_in_range p : chvp7_bytes_ok p = true ->
  chv7_in_range (fst (ChunkHeaderVitalPacked7_unpack_warn p)) = true.
Proof. exact (codec_in_range _ _ _ _ _ _ chv7_facts p). Qed.

Theorem chv7_pack_unpack h : chv7_in_range h = true ->
  exists p, ChunkHeaderVital7_pack h = Ok p /\ ChunkHeaderVitalPacked7_unpack_warn p = (h, [])
            /\ chvp7_bytes_ok p = true /\ chv7_canonical p = true.
Proof.
  destruct h as [[flags size] seq]. unfold chv7_in_range, ch7_in_range.
  cbn [chv7_h chv7_sequence ch7_flags ch7_size]. intros H.
  eexists. split; [apply chv7_pack_arith; lia|]. rewrite chv7_unpack_arith by divmod.
  unfold chvp7_bytes_ok, chv7_canonical, byteb. cbn [chvp7_flags_size chvp7_sequence_size chvp7_sequence].
  split; [do 3 f_equal; divmod|]. split; [divmod|reflexivity].
Qed.
