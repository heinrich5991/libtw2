(* The boolean state predicate raw_ok implies the representation invariant. *)
From LibTw2 Require Import Base.Res Model.Varint Model.Snap Proofs.SnapBase Proofs.SnapRep Proofs.SnapDelta.
From Coq Require Import ZArith List Lia Bool Permutation.
Import ListNotations.
Open Scope Z_scope.

Lemma insert_off_perm x l : Permutation (insert_off x l) (x :: l).
Proof.
  induction l as [|y l IH]; cbn [insert_off]; [apply Permutation_refl|].
  destruct (range_leb (snd x) (snd y)); [apply Permutation_refl|].
  eapply Permutation_trans; [apply perm_skip, IH|apply perm_swap].
Qed.

Lemma isort_off_perm l : Permutation (isort_off l) l.
Proof.
  induction l as [|x l IH]; cbn [isort_off]; [apply Permutation_refl|].
  eapply Permutation_trans; [apply insert_off_perm|apply perm_skip, IH].
Qed.

Lemma skipn_skipn' {T} a : forall b (l : list T), skipn a (skipn b l) = skipn (b + a) l.
Proof.
  intros b. induction b as [|b IH]; intros l; [reflexivity|].
  destruct l as [|x l]; [cbn; rewrite skipn_nil; reflexivity|]. cbn [skipn Nat.add]. apply IH.
Qed.

Definition cut (buf : list Z) (srt : list (Z * range)) : items :=
  map (fun kr => (fst kr, firstn (snd (snd kr) - fst (snd kr)) (skipn (fst (snd kr)) buf))) srt.

Lemma cut_keys buf srt : map fst (cut buf srt) = map fst srt.
Proof. unfold cut. rewrite map_map. reflexivity. Qed.

Lemma chain_cut buf : forall srt pos, chainb pos (map snd srt) (length buf) = true ->
  (pos <= length buf)%nat /\ flat (cut buf srt) = skipn pos buf /\ ranges_of pos (cut buf srt) = srt
  /\ (forall k r, In (k, r) srt -> (fst r <= snd r <= length buf)%nat).
Proof.
  induction srt as [|[k [s e]] t IH]; intros pos H; cbn [map snd chainb] in H.
  - apply Nat.eqb_eq in H. subst. split; [lia|]. split; [cbn; rewrite skipn_all; reflexivity|]. split; [reflexivity|intros ? ? []].
  - cbn [fst snd] in H. apply andb_true_iff in H. destruct H as [H He]. apply andb_true_iff in H. destruct H as [Hs Hle].
    apply Nat.eqb_eq in Hs. apply Nat.leb_le in Hle. subst s. destruct (IH _ He) as (Hb & Hf & Hr & Hin).
    split; [lia|]. cbn [cut map fst snd flat flat_map]. fold (cut buf t). fold (flat (cut buf t)).
    assert (Hlen : length (firstn (e - pos) (skipn pos buf)) = (e - pos)%nat)
      by (rewrite firstn_length, skipn_length; lia).
    split; [|split].
    + rewrite Hf. transitivity (firstn (e - pos) (skipn pos buf) ++ skipn (e - pos) (skipn pos buf));
        [|apply firstn_skipn]. f_equal. rewrite skipn_skipn'. f_equal. lia.
    + cbn [ranges_of]. rewrite Hlen. replace (pos + (e - pos))%nat with e by lia. rewrite Hr. reflexivity.
    + intros k' r [E|H']; [injection E as _ <-; cbn; lia|apply (Hin k' r H')].
Qed.

Theorem raw_ok_rep S : raw_ok S = true ->
  exists ch, rep S ch /\ keys_i32 S /\ forallb is_i32 (rs_buf S) = true /\ lim_ok ch.
Proof.
  unfold raw_ok. intros H. repeat (apply andb_true_iff in H; destruct H as [H ?]).
  match goal with Hc : chainb _ _ _ = true |- _ => destruct (chain_cut _ _ _ Hc) as (_ & Hf & Hr & _) end.
  exists (cut (rs_buf S) (isort_off (rs_offs S))).
  assert (R : rep S (cut (rs_buf S) (isort_off (rs_offs S)))).
  { split; [rewrite Hf; reflexivity|rewrite Hr; apply Permutation_sym, isort_off_perm|assumption]. }
  split; [exact R|]. split; [assumption|]. split; [assumption|].
  destruct (rep_lengths _ _ R) as [L1 L2]. unfold lim_ok. rewrite <- L1, <- L2.
  split; apply Z.leb_le; assumption.
Qed.
