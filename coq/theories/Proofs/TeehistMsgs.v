(* Reading a stream that arrives in one piece = decoding its records one after the
   other (format::Item::decode) and feeding them to the message-level reader `mrun`. *)
From LibTw2 Require Import Base.Res Model.Varint Model.Packer Model.Teehistorian
  Proofs.TeehistFrag Proofs.TeehistParsers Proofs.TeehistReader.
From Coq Require Import List Lia Arith ZArith Bool.
Import ListNotations.
Open Scope Z_scope.

(* takes [H : p bs = ROk _ _], p built from the combinators, apart into its successful reads *)
Ltac pinv H :=
  repeat match type of H with
         | pbind _ _ _ = ROk _ _ =>
           let a := fresh "a" in let r1 := fresh "r" in let H1 := fresh "Hp" in
           apply pbind_inv in H; destruct H as [a [r1 [H1 H]]]
         | (if ?c then _ else _) _ = ROk _ _ => destruct c eqn:?
         | pfail _ _ = ROk _ _ => discriminate H
         | pret _ _ = ROk _ _ => apply pret_inv in H; destruct H as [H ?]
         end.

Definition is_other (f : fitem) : bool :=
  match f with FConsoleCommand _ _ _ _ | FPass _ _ | FUnknownEx _ _ => true | _ => false end.

Definition kind_matches (k : ikind) (f : fitem) : Prop :=
  match k with
  | IKPlayerDiff c => exists dx dy, f = FPlayerDiff c dx dy
  | IKFinish => f = FFinish
  | IKTickSkip => exists dt, f = FTickSkip dt /\ 0 <= dt
  | IKPlayerNew c => exists x y, f = FPlayerNew c x y
  | IKPlayerOld c => f = FPlayerOld c
  | IKInputDiff => exists c d, f = FInputDiff c d
  | IKInputNew => exists c d, f = FInputNew c d
  | IKMessage | IKJoin | IKDrop | IKConsoleCommand | IKEx => is_other f = true
  end.

Lemma decode_rest_kind k bs f r : decode_rest k bs = ROk f r -> kind_matches k f.
Proof.
  destruct k; cbn [decode_rest kind_matches]; unfold decode_console, decode_ex;
    intros H; pinv H; subst; eauto 3.
  - eexists. split; [reflexivity|]. apply Z.ltb_ge. assumption.
  - destruct (find_ex a ex_uuids) as [t|]; [|pinv H; subst; reflexivity].
    destruct (p_fields (tag_kinds t) a0); try discriminate. injection H as <- _. reflexivity.
Qed.

Lemma kind_matches_finish k : kind_matches k FFinish -> k = IKFinish.
Proof. destruct k; cbn; intros H; try reflexivity; decompose record H; discriminate. Qed.

Definition msg_ok (m : msg) : Prop := kind_matches (fst m) (snd m).

Lemma decodes_ok v bs ms : decodes v bs ms -> Forall msg_ok ms.
Proof.
  induction 1 as [bs r H|bs k r f r' ms Hk Hr Hn Hd IH].
  - constructor; [reflexivity|constructor].
  - constructor; [exact (decode_rest_kind _ _ _ _ Hr)|exact IH].
Qed.

Lemma emit_pre_S n r k : emit_pre (S n) r k =
  match before_item r k with
  | PreEmit it r' => let (its, x) := emit_pre n (set_next None r') k in (it :: its, x)
  | PreErr _ => ([], None)
  | PreRead r' => ([], Some r')
  end.
Proof. reflexivity. Qed.

Lemma emit_pre_fuel : forall n m r k, (ph_of r k <= n)%nat -> (ph_of r k <= m)%nat ->
  emit_pre n r k = emit_pre m r k.
Proof.
  induction n as [|n IH]; intros m r k Hn Hm.
  - pose proof (ph_of_pos r k). lia.
  - destruct m as [|m]; [pose proof (ph_of_pos r k); lia|].
    rewrite !emit_pre_S. destruct (before_item r k) as [it r'|e|r'] eqn:Eb; try reflexivity.
    apply before_item_emit in Eb. rewrite (IH m (set_next None r') k) by lia. reflexivity.
Qed.

(* what mrun does with a record once the markers before it are out *)
Definition mrest (f : fitem) (ms : list msg) (px : list item * option reader) : list item * option reader :=
  let (pre, x) := px in
  match x with
  | None => (pre, None)
  | Some r1 =>
    match after_item r1 f with
    | Ok (Some it, r2) => let (its, fin) := mrun r2 ms in (pre ++ it :: its, fin)
    | Ok (None, r2) => (pre, Some r2)
    | _ => (pre, None)
    end
  end.

Lemma mrun_cons r k f ms : mrun r ((k, f) :: ms) = mrest f ms (emit_pre 4 (set_next None r) k).
Proof. reflexivity. Qed.

Lemma mrest_cons f ms it pre x :
  mrest f ms (it :: pre, x) = let (its, fin) := mrest f ms (pre, x) in (it :: its, fin).
Proof.
  unfold mrest. destruct x as [r1|]; [|reflexivity].
  destruct (after_item r1 f) as [[[it'|] r2]|e|z|]; try reflexivity.
  destruct (mrun r2 ms) as [its fin]. reflexivity.
Qed.

(* a marker reported before the record is read goes in front of what the reader does from there *)
Lemma mrun_emit r k f ms it r' : before_item (set_next None r) k = PreEmit it r' ->
  mrun r ((k, f) :: ms) = let (its, fin) := mrun r' ((k, f) :: ms) in (it :: its, fin).
Proof.
  intros Eb. rewrite !mrun_cons, (emit_pre_S 3), Eb.
  pose proof (before_item_emit _ _ _ _ Eb). pose proof (ph_of_pos (set_next None r) k).
  rewrite (emit_pre_fuel 3 4 (set_next None r') k) by lia.
  destruct (emit_pre 4 (set_next None r') k) as [pre x]. apply mrest_cons.
Qed.

Lemma mrun_read r k f ms r' : before_item (set_next None r) k = PreRead r' ->
  mrun r ((k, f) :: ms) = mrest f ms ([], Some r').
Proof. intros Eb. rewrite mrun_cons, (emit_pre_S 3), Eb. reflexivity. Qed.

Lemma set_next_idem x y r : set_next x (set_next y r) = set_next x r.
Proof. reflexivity. Qed.

Lemma after_item_none r f r' : after_item r f = Ok (None, r') -> f = FFinish.
Proof.
  unfold after_item. destruct f; try reflexivity; by_tests; discriminate.
Qed.

(* a record other than FINISH: the markers before it, its item, then the rest *)
Lemma mrun_cons_inv r k f ms items rf : kind_matches k f -> k <> IKFinish ->
  mrun r ((k, f) :: ms) = (items, Some rf) ->
  exists pre r1 it r2 its, emit_pre 4 (set_next None r) k = (pre, Some r1)
    /\ after_item r1 f = Ok (Some it, r2) /\ mrun r2 ms = (its, Some rf) /\ items = pre ++ it :: its.
Proof.
  intros Hkm Hnf Hm. rewrite mrun_cons in Hm. unfold mrest in Hm.
  destruct (emit_pre 4 (set_next None r) k) as [pre [r1|]]; [|discriminate].
  destruct (after_item r1 f) as [[[it|] r2]|e|z|] eqn:Haf; try discriminate.
  - destruct (mrun r2 ms) as [its fin] eqn:Emr. injection Hm as <- ->. exists pre, r1, it, r2, its. auto.
  - apply after_item_none in Haf. subst f. destruct (Hnf (kind_matches_finish _ Hkm)).
Qed.

Section OnePiece.
  Variable hdr : bytes -> hverdict.
  Notation parseT := (parse_at hdr).
  Notation eofT := (FErr EUnexpectedEnd).
  Notation runT := (run pfailure eofT pidx pty parseT).
  Notation loopT := (loop_t hdr).

  Lemma to_outcome_adv {A} (p : parser A) b a n : pgood p -> buf_ok b ->
    to_outcome p (pending b) = POk a n ->
    exists rest, p (pending b) = ROk a rest /\ pending (adv b n) = rest /\ buf_ok (adv b n).
  Proof.
    intros Hp Hok H. unfold to_outcome in H. specialize (Hp (pending b)).
    destruct (p (pending b)) as [a' rest| | |]; try discriminate.
    injection H as <- <-. destruct Hp as [[c Hc] _]. exists rest. split; [reflexivity|].
    assert (Hn : (length (pending b) - length rest)%nat = length c) by (rewrite Hc, app_length; lia).
    rewrite Hn. split.
    - rewrite pending_adv, Hc, skipn_app_le, skipn_all by lia. reflexivity.
    - apply buf_ok_adv; [exact Hok|]. rewrite Hc, app_length. lia.
  Qed.

  (* where the reader stands in the record sequence *)
  Definition cur (v : version) (r : reader) (bs : bytes) (ms : list msg) : Prop :=
    match r_next r with
    | None => decodes v bs ms
    | Some k => exists f r', decode_rest k bs = ROk f r'
                  /\ ((k = IKFinish /\ ms = [(k, f)])
                      \/ (k <> IKFinish /\ exists ms', ms = (k, f) :: ms' /\ decodes v r' ms'))
    end.

  Lemma step_known v fuel :
    (forall r b items rf, r_version r = v -> buf_ok b -> loopT fuel r b [] = (items, Ok rf) ->
       exists ms, cur v r (pending b) ms /\ mrun r ms = (items, Some rf)) ->
    forall r k b items rf, r_version r = v -> r_next r = Some k -> buf_ok b ->
      loopT (S fuel) r b [] = (items, Ok rf) ->
      exists ms, cur v r (pending b) ms /\ mrun r ms = (items, Some rf).
  Proof.
    intros IH r k b items rf Hv Hn Hok H.
    unfold loop_t in H. cbn [loop] in H. rewrite reader_read_go, Hn in H. unfold go in H.
    destruct (before_item (set_next None r) k) as [it r'|e|r'] eqn:Eb.
    - cbn [run] in H.
      destruct (loop pfailure eofT pidx pty parseT reader item reader_read fuel r' b []) as [its fin] eqn:El.
      injection H as <- ->.
      destruct (before_item_frame _ _ _ _ Eb) as [_ [Hn' [Hv' _]]]. cbn [set_next r_version] in Hv'.
      destruct (IH r' b its rf (eq_trans Hv' Hv) Hok El) as [ms [Hc Hm]].
      unfold cur in *. rewrite Hn. rewrite Hn' in Hc. exists ms. split; [exact Hc|].
      destruct Hc as [f [rr [_ [[_ ->]|[_ [ms' [-> _]]]]]]]; rewrite (mrun_emit _ _ _ _ _ _ Eb), Hm; reflexivity.
    - cbn [run] in H. discriminate.
    - apply before_item_read in Eb as ?. subst r'. cbn [run] in H.
      rewrite retry_eq in H by exact Hok. cbn [parse_at] in H.
      destruct (to_outcome (decode_rest k) (pending b)) as [f n| |e] eqn:Eo; try discriminate.
      destruct (to_outcome_adv _ _ _ _ (decode_rest_good k) Hok Eo) as [rest [Ed [Hp Hok']]].
      unfold cur. rewrite Hn.
      destruct (after_item (set_next None r) f) as [[[it|] r2]|e|z|] eqn:Ea; cbn [run] in H; try discriminate.
      + destruct (loop pfailure eofT pidx pty parseT reader item reader_read fuel r2 (adv b n) []) as [its fin] eqn:El.
        injection H as <- ->.
        destruct (after_item_frame _ _ _ _ Ea) as [Hv2 Hn2]. cbn [set_next r_next r_version] in Hv2, Hn2.
        destruct (IH r2 (adv b n) its rf (eq_trans Hv2 Hv) Hok' El) as [ms' [Hc Hm]].
        unfold cur in Hc. rewrite Hn2, Hp in Hc.
        assert (Hk : k <> IKFinish).
        { intros ->. apply pret_inv in Ed as [<- _]. discriminate Ea. }
        exists ((k, f) :: ms'). split; [eauto 8|].
        rewrite (mrun_read _ _ _ _ _ Eb). cbn [mrest]. rewrite Ea, Hm. reflexivity.
      + injection H as <- <-.
        pose proof (after_item_none _ _ _ Ea) as ->.
        pose proof (kind_matches_finish _ (decode_rest_kind _ _ _ _ Ed)) as Hk.
        exists [(k, FFinish)]. split; [eauto 8|].
        rewrite (mrun_read _ _ _ _ _ Eb). cbn [mrest]. rewrite Ea. reflexivity.
  Qed.

  Theorem loop_mrun v : forall fuel r b items rf, r_version r = v -> buf_ok b ->
    loopT fuel r b [] = (items, Ok rf) ->
    exists ms, cur v r (pending b) ms /\ mrun r ms = (items, Some rf).
  Proof.
    induction fuel as [|fuel IH]; intros r b items rf Hv Hok H; [discriminate|].
    destruct (r_next r) as [k|] eqn:Hn.
    - eapply step_known; eassumption.
    - (* the kind is read first; from then on as if it had been the look-ahead *)
      unfold loop_t in H. cbn [loop] in H. rewrite reader_read_go, Hn in H. cbn [run] in H.
      rewrite retry_eq in H by exact Hok. cbn [parse_at] in H.
      destruct (to_outcome (decode_kind (r_version r)) (pending b)) as [k n| |e] eqn:Eo; try discriminate.
      destruct (to_outcome_adv _ _ _ _ (decode_kind_good _) Hok Eo) as [rest [Ed [Hp Hok']]].
      set (r1 := set_next (Some k) r).
      assert (H1 : loopT (S fuel) r1 (adv b n) [] = (items, Ok rf)).
      { unfold loop_t. cbn [loop]. rewrite reader_read_go. exact H. }
      destruct (step_known v fuel IH r1 k (adv b n) items rf Hv eq_refl Hok' H1) as [ms [Hc Hm]].
      exists ms. split.
      + unfold cur in *. rewrite Hn. cbn [r1 set_next r_next] in Hc. rewrite Hp in Hc.
        rewrite Hv in Ed. destruct Hc as [f [r' [Hd [[-> ->]|[Hk [ms' [-> Hds]]]]]]].
        * apply pret_inv in Hd as [<- _]. eapply dec_finish. exact Ed.
        * eapply dec_cons; eassumption.
      + destruct ms as [|[k' f'] ms']; exact Hm.
  Qed.
End OnePiece.
