(* Delta::create_raw in terms of the stored items (C09), and the K09 panic. *)
From LibTw2 Require Import Base.Res Model.Varint Model.Snap Proofs.SnapBase Proofs.SnapRep.
From Coq Require Import ZArith List Lia Bool Permutation.
Import ListNotations.
Open Scope Z_scope.

Definition lim_ok (ch : items) : Prop :=
  Z.of_nat (length ch) <= MAX_SNAPSHOT_ITEMS
  /\ ser_size (Z.of_nat (length ch)) (Z.of_nat (length (flat ch))) <= MAX_SNAPSHOT_SIZE.

Lemma lim_ok_prefix a b : lim_ok (a ++ b) -> lim_ok a.
Proof.
  unfold lim_ok, ser_size. rewrite flat_app, !app_length. intros [H1 H2]. split; lia.
Qed.

Lemma fits_of_lim S ch k data : rep S ch -> lim_ok (ch ++ [(k, data)]) -> fits S (length data) = true.
Proof.
  intros H [H1 H2]. destruct (rep_lengths _ _ H) as [L1 L2].
  apply fits_iff. rewrite L1, L2. rewrite flat_snoc, !app_length in *. cbn [length] in *. unfold ser_size in *. lia.
Qed.

(* removing a key, for the weight argument *)
Fixpoint arem (k : Z) (ch : items) : items :=
  match ch with
  | [] => []
  | (k', d) :: t => if k =? k' then t else (k', d) :: arem k t
  end.

Lemma arem_other k k0 ch : k <> k0 -> aget k (arem k0 ch) = aget k ch.
Proof.
  intros Hne. induction ch as [|[k' d] t IH]; [reflexivity|]. cbn [arem aget].
  destruct (Z.eqb_spec k0 k').
  - subst. destruct (Z.eqb_spec k k'); [contradiction|reflexivity].
  - cbn [aget]. destruct (Z.eqb_spec k k'); [reflexivity|exact IH].
Qed.

Lemma arem_sizes k d ch : aget k ch = Some d ->
  length ch = Datatypes.S (length (arem k ch))
  /\ length (flat ch) = (length d + length (flat (arem k ch)))%nat.
Proof.
  induction ch as [|[k' d'] t IH]; [discriminate|]. cbn [aget arem].
  destruct (Z.eqb_spec k k').
  - intros [= ->]. cbn [length flat flat_map snd]. rewrite app_length. fold (flat t). split; reflexivity.
  - intros H. destruct (IH H) as [I1 I2]. cbn [length flat flat_map snd].
    rewrite !app_length. fold (flat t) (flat (arem k t)). split; lia.
Qed.

(* a duplicate-free collection of items that all occur in chB, no shorter there, weighs no more *)
Lemma weight_le' ch : forall chB, NoDup (map fst ch) ->
  (forall k d, In (k, d) ch -> exists dB, aget k chB = Some dB /\ (length d <= length dB)%nat) ->
  (length ch <= length chB)%nat /\ (length (flat ch) <= length (flat chB))%nat.
Proof.
  induction ch as [|[k d] t IH]; intros chB Hnd Hall; [cbn; split; lia|].
  inversion Hnd as [|? ? Hni Hnd']; subst.
  destruct (Hall k d (or_introl eq_refl)) as (dB & HB & Hl).
  destruct (arem_sizes _ _ _ HB) as [S1 S2].
  destruct (IH (arem k chB) Hnd') as [I1 I2].
  { intros k' d' Hin. destruct (Hall k' d' (or_intror Hin)) as (dB' & HB' & Hl').
    exists dB'. split; [|exact Hl']. rewrite arem_other; [exact HB'|].
    intros ->. apply Hni. apply (in_map fst) in Hin. exact Hin. }
  cbn [length flat flat_map snd]. rewrite app_length. fold (flat t). split; lia.
Qed.

Lemma weight_le ch : forall chB, NoDup (map fst ch) ->
  (forall k d, In (k, d) ch -> exists dB, aget k chB = Some dB /\ length d = length dB) ->
  (length ch <= length chB)%nat /\ (length (flat ch) <= length (flat chB))%nat.
Proof.
  intros chB Hnd Hall. apply weight_le'; [exact Hnd|]. intros k d Hin.
  destruct (Hall k d Hin) as (dB & HB & Hl). exists dB. split; [exact HB|lia].
Qed.

Lemma lim_ok_weight ch chB : (length ch <= length chB)%nat /\ (length (flat ch) <= length (flat chB))%nat ->
  lim_ok chB -> lim_ok ch.
Proof. unfold lim_ok, ser_size. intros [W1 W2] [L1 L2]. split; lia. Qed.

Lemma forallb_flat_in ch : forallb is_i32 (flat ch) = true <-> forall k d, In (k, d) ch -> forallb is_i32 d = true.
Proof.
  induction ch as [|[k d] t IH]; [split; [intros _ ? ? []|reflexivity]|].
  cbn [flat flat_map snd]. fold (flat t). rewrite forallb_app, andb_true_iff, IH. split.
  - intros [Hd Ht] k' d' [E|Hin]; [injection E as <- <-; exact Hd|apply (Ht k' d' Hin)].
  - intros H. split; [apply (H k d); left; reflexivity|intros k' d' Hin; apply (H k' d'); right; exact Hin].
Qed.

Lemma flat_i32 ch k d : forallb is_i32 (flat ch) = true -> aget k ch = Some d -> forallb is_i32 d = true.
Proof. intros H Hg. apply (proj1 (forallb_flat_in ch) H k), aget_in, Hg. Qed.

Definition same_len (chA chB : items) : Prop :=
  forall k f d, aget k chA = Some f -> aget k chB = Some d -> length f = length d.

Lemma k09_false A B chA chB : rep A chA -> rep B chB -> k09 A B = false -> same_len chA chB.
Proof.
  intros HA HB Hk k f d Hf Hd.
  destruct (rep_get_some _ _ _ _ HA Hf) as (r & Hr & Hlr & _).
  destruct (rep_get_some _ _ _ _ HB Hd) as (r' & Hr' & Hlr' & _).
  pose proof (existsb_false _ _ _ Hk (aget_in _ _ _ Hr)) as Hf'.
  cbn [fst snd] in Hf'. rewrite Hr' in Hf'. apply negb_false_iff, Nat.eqb_eq in Hf'. lia.
Qed.

Lemma k09_true A B chA chB : rep A chA -> rep B chB -> k09 A B = true ->
  exists k f d, aget k chA = Some f /\ aget k chB = Some d /\ length f <> length d.
Proof.
  intros HA HB Hk. unfold k09 in Hk. apply existsb_exists in Hk. destruct Hk as ([k r] & Hin & Hc).
  cbn [fst snd] in Hc. destruct (aget k (rs_offs B)) as [r'|] eqn:Hr'; [|discriminate].
  apply negb_true_iff, Nat.eqb_neq in Hc.
  destruct (rep_in _ _ _ _ HA Hin) as (f & Hf & Hlf & _).
  destruct (rep_in _ _ _ _ HB (aget_in _ _ _ Hr')) as (d & Hd & Hld & _).
  exists k, f, d. split; [exact Hf|split; [exact Hd|lia]].
Qed.

(* the delta whose updates are the items dch, stored back to back in key order *)
Definition delta_of (del : list Z) (dch : items) : delta :=
  {| d_del := del; d_upd := ranges_of 0 dch; d_buf := flat dch |}.

Lemma delta_of_snoc del dch k d n : n = length d -> (forall x, In x (map fst dch) -> x < k) ->
  {| d_del := del; d_upd := ains k (length (flat dch), (length (flat dch) + n)%nat) (ranges_of 0 dch);
     d_buf := flat dch ++ d |} = delta_of del (dch ++ [(k, d)]).
Proof.
  intros -> H. unfold delta_of. rewrite ranges_of_snoc, flat_snoc, ains_last by (rewrite ranges_of_keys; exact H).
  reflexivity.
Qed.

Definition absent (ch : items) (k : Z) : bool := match aget k ch with None => true | Some _ => false end.
Definition diff_of (chA : items) (kd : Z * list Z) : list Z :=
  match aget (fst kd) chA with Some f => zip_with wsub (snd kd) f | None => snd kd end.
Definition diffs (chA : items) (vB : items) : items := map (fun kd => (fst kd, diff_of chA kd)) vB.

Lemma diffs_keys chA v : map fst (diffs chA v) = map fst v.
Proof. unfold diffs. rewrite map_map. reflexivity. Qed.

Lemma in_diffs chA v k df : In (k, df) (diffs chA v) -> exists d, In (k, d) v /\ df = diff_of chA (k, d).
Proof.
  unfold diffs. intros Hin. apply in_map_iff in Hin. destruct Hin as ([k0 d] & E & Hin).
  injection E as <- <-. eauto.
Qed.

Lemma create_deleted_spec B chB : rep B chB -> forall fi del,
  (forall kd, In kd fi -> is_i32 (fst kd) = true) ->
  sortedb (del ++ map fst fi) = true ->
  create_deleted B fi del = Ok (del ++ filter (absent chB) (map fst fi)).
Proof.
  intros HB. induction fi as [|[k dd] fi IH]; intros del Hi Hs; [cbn; rewrite app_nil_r; reflexivity|].
  cbn [create_deleted map fst filter]. rewrite (raw_item_rep B chB) by exact HB. cbn [bind].
  rewrite key_split by (apply (Hi (k, dd)); left; reflexivity).
  assert (Hi' : forall kd, In kd fi -> is_i32 (fst kd) = true) by (intros kd Hin; apply Hi; right; exact Hin).
  cbn [map fst] in Hs. destruct (sortedb_mid _ _ _ Hs) as [Hlt Hs'].
  unfold absent at 1. destruct (aget k chB); [apply IH; assumption|].
  destruct (smem k del) eqn:Hm; [apply smem_in, Hlt in Hm; lia|].
  rewrite sins_last, IH, <- app_assoc by (rewrite <- ?app_assoc; assumption). reflexivity.
Qed.

Lemma diff_len chA k d : (forall f, aget k chA = Some f -> length f = length d) ->
  length (diff_of chA (k, d)) = length d.
Proof.
  intros H. unfold diff_of. cbn [fst snd]. destruct (aget k chA) as [f|] eqn:E; [|reflexivity].
  rewrite zip_with_length; [reflexivity|]. symmetry. apply H. reflexivity.
Qed.

Lemma create_updated_spec A chA : rep A chA -> forall ti dch0 del,
  (forall kd, In kd ti -> is_i32 (fst kd) = true) ->
  sortedb (map fst dch0 ++ map fst ti) = true ->
  (forall k d f, In (k, d) ti -> aget k chA = Some f -> length f = length d) ->
  create_updated A ti (delta_of del dch0) = Ok (delta_of del (dch0 ++ diffs chA ti)).
Proof.
  intros HA. induction ti as [|[k d] ti IH]; intros dch0 del Hi Hs Hl.
  - cbn [create_updated diffs map]. rewrite app_nil_r. reflexivity.
  - assert (Hlen : forall f, aget k chA = Some f -> length f = length d)
      by (intros f Hf; apply (Hl k d f); [left; reflexivity|exact Hf]).
    cbn [map fst] in Hs. destruct (sortedb_mid _ _ _ Hs) as [Hlt _].
    cbn [create_updated delta_of d_buf d_upd d_del]. rewrite (raw_item_rep A chA) by exact HA. cbn [bind].
    rewrite key_split by (apply (Hi (k, d)); left; reflexivity).
    rewrite (proj2 (aget_none k (ranges_of 0 dch0))) by (rewrite ranges_of_keys; intros Hin; apply Hlt in Hin; lia).
    replace (create_item_delta (aget k chA) d) with (@Ok unit _ (diff_of chA (k, d))).
    2:{ unfold create_item_delta, diff_of. cbn [fst snd]. destruct (aget k chA) as [f|]; [|reflexivity].
        rewrite (Hlen f eq_refl), Nat.eqb_refl. reflexivity. }
    rewrite (delta_of_snoc del dch0 k (diff_of chA (k, d))) by (rewrite ?diff_len; auto).
    rewrite IH.
    + cbn [diffs map fst]. rewrite <- app_assoc. reflexivity.
    + intros kd Hin. apply Hi. right. exact Hin.
    + rewrite map_app, <- app_assoc. exact Hs.
    + intros k' d' f Hin. apply Hl. right. exact Hin.
Qed.

Lemma diffs_i32 chA v : forallb is_i32 (flat v) = true -> forallb is_i32 (flat (diffs chA v)) = true.
Proof.
  rewrite !forallb_flat_in. intros H k df Hin. destruct (in_diffs _ _ _ _ Hin) as (d & Hd & ->).
  unfold diff_of. cbn [fst snd]. destruct (aget k chA); [apply zip_with_i32, wsub_i32|apply (H k d Hd)].
Qed.

Definition keys_i32 (S : rawsnap) : Prop := forallb is_i32 (map fst (rs_offs S)) = true.

Lemma keys_i32_in S k r : keys_i32 S -> In (k, r) (rs_offs S) -> is_i32 k = true.
Proof. intros H Hin. apply (proj1 (forallb_forall _ _) H), (in_map fst _ _ Hin). Qed.

Lemma view_i32 S ch : keys_i32 S -> forall kd, In kd (view S ch) -> is_i32 (fst kd) = true.
Proof.
  intros H kd Hin. apply (proj1 (forallb_forall _ _) H). rewrite <- (view_keys S ch). apply in_map, Hin.
Qed.

Lemma view_flat_i32 S ch : rep S ch -> forallb is_i32 (rs_buf S) = true -> forallb is_i32 (flat (view S ch)) = true.
Proof.
  intros H Hb. rewrite (rep_buf _ _ H) in Hb. apply forallb_flat_in. intros k d Hin.
  apply (flat_i32 ch k d Hb (in_view S ch k d H Hin)).
Qed.

Definition created (A B : rawsnap) (chA chB : items) : delta :=
  {| d_del := filter (absent chB) (map fst (rs_offs A));
     d_upd := ranges_of 0 (diffs chA (view B chB));
     d_buf := flat (diffs chA (view B chB)) |}.

(* the deletions are computed first; what remains is the loop over the items of B *)
Lemma create_raw_eq A B chA chB : rep A chA -> rep B chB -> keys_i32 A ->
  create_raw A B = create_updated A (view B chB) (delta_of (filter (absent chB) (map fst (rs_offs A))) []).
Proof.
  intros HA HB IA. unfold create_raw. rewrite (raw_items_rep A chA HA). cbn [bind].
  rewrite (create_deleted_spec B chB HB), view_keys;
    [|apply view_i32, IA|rewrite view_keys; apply (rep_sorted _ _ HA)].
  cbn [bind app]. rewrite (raw_items_rep B chB HB). reflexivity.
Qed.

Theorem create_raw_spec A B chA chB : rep A chA -> rep B chB -> keys_i32 A -> keys_i32 B ->
  same_len chA chB -> create_raw A B = Ok (created A B chA chB).
Proof.
  intros HA HB IA IB Hsl. rewrite (create_raw_eq A B chA chB) by assumption.
  apply (create_updated_spec A chA HA (view B chB) []).
  - apply view_i32, IB.
  - cbn [map app]. rewrite view_keys. apply (rep_sorted _ _ HB).
  - intros k d f Hin Hf. apply (Hsl k f d Hf). apply (in_view B chB k d HB Hin).
Qed.

Lemma create_updated_panics A chA : rep A chA -> forall ti d0,
  (forall kd, In kd ti -> is_i32 (fst kd) = true) ->
  (exists k d f, In (k, d) ti /\ aget k chA = Some f /\ length f <> length d) ->
  exists s, create_updated A ti d0 = Panic s.
Proof.
  intros HA. induction ti as [|[k d] ti IH]; intros d0 Hi (k0 & dd & f & Hin & Hf & Hne); [destruct Hin|].
  cbn [create_updated]. rewrite (raw_item_rep A chA) by exact HA. cbn [bind].
  rewrite key_split by (apply (Hi (k, d)); left; reflexivity).
  destruct (aget k (d_upd d0)); [eexists; reflexivity|].
  destruct Hin as [E|Hin].
  - injection E as -> ->. rewrite Hf. unfold create_item_delta.
    rewrite (proj2 (Nat.eqb_neq _ _) Hne). eexists; reflexivity.
  - destruct (create_item_delta (aget k chA) d); try (eexists; reflexivity).
    apply IH; [intros kd H; apply Hi; right; exact H|]. exists k0, dd, f. repeat split; assumption.
Qed.

Theorem create_raw_k09 A B chA chB : rep A chA -> rep B chB -> keys_i32 A -> keys_i32 B ->
  k09 A B = true -> exists s, create_raw A B = Panic s.
Proof.
  intros HA HB IA IB Hk. rewrite (create_raw_eq A B chA chB) by assumption.
  apply (create_updated_panics A chA HA); [apply view_i32, IB|].
  destruct (k09_true _ _ _ _ HA HB Hk) as (k & f & d & Hf & Hd & Hne).
  exists k, d, f. split; [|split; assumption]. apply aget_in. rewrite (aget_view B chB k HB). exact Hd.
Qed.

(* Delta::create returns only when no key changes its size, and then it returns `created` *)
Lemma create_raw_ok A B chA chB d : rep A chA -> rep B chB -> keys_i32 A -> keys_i32 B ->
  create_raw A B = Ok d -> k09 A B = false /\ d = created A B chA chB.
Proof.
  intros HA HB IA IB Hcr.
  assert (Hk : k09 A B = false).
  { destruct (k09 A B) eqn:E; [|reflexivity].
    destruct (create_raw_k09 _ _ chA chB HA HB IA IB E) as [s Hp]. rewrite Hp in Hcr. discriminate. }
  split; [exact Hk|].
  rewrite (create_raw_spec _ _ chA chB HA HB IA IB (k09_false _ _ _ _ HA HB Hk)) in Hcr. congruence.
Qed.
