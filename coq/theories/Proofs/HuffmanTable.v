(* The table representation of Model/Huffman.v: of_list puts the nodes of a list at
   their positions, push_node / set_node behave like ArrayVec::push / indexed assignment;
   the two tree checks (subtree_ok, depths_ok) read one level at a time. *)
From LibTw2 Require Import Base.Res Model.Huffman Model.HuffmanRef.
From Coq Require Import ZArith List Lia Bool FMapPositive.
Import ListNotations.
Open Scope Z_scope.

Lemma lookup_push t nd i : 0 <= t_len t ->
  lookup (push_node t nd) i = if i =? t_len t then Some nd else lookup t i.
Proof.
  intros Hlen. unfold lookup, push_node. cbn [t_len t_map].
  destruct (Z.eqb_spec i (t_len t)) as [->|Hne].
  - destruct (Z.leb_spec 0 (t_len t)); [|lia]. destruct (Z.ltb_spec (t_len t) (t_len t + 1)); [|lia].
    cbn [andb]. apply PositiveMap.gss.
  - destruct (Z.leb_spec 0 i); cbn [andb]; [|reflexivity].
    destruct (Z.ltb_spec i (t_len t + 1)), (Z.ltb_spec i (t_len t)); try lia; try reflexivity.
    apply PositiveMap.gso. lia.
Qed.

Lemma len_push t nd : t_len (push_node t nd) = t_len t + 1.
Proof. reflexivity. Qed.

Lemma fold_push l : forall t0, 0 <= t_len t0 ->
  t_len (fold_left push_node l t0) = t_len t0 + Z.of_nat (length l)
  /\ forall i, lookup (fold_left push_node l t0) i =
               if i <? t_len t0 then lookup t0 i else nth_error l (Z.to_nat (i - t_len t0)).
Proof.
  induction l as [|nd l IH]; intros t0 Hlen; cbn [fold_left length].
  - split; [lia|]. intros i. destruct (Z.ltb_spec i (t_len t0)); [reflexivity|].
    unfold lookup. destruct (Z.ltb_spec i (t_len t0)); [lia|]. rewrite andb_false_r.
    now destruct (Z.to_nat (i - t_len t0)).
  - destruct (IH (push_node t0 nd) ltac:(rewrite len_push; lia)) as [Hl Hi]. rewrite len_push in *.
    split; [lia|]. intros i. rewrite Hi, lookup_push by lia.
    destruct (Z.ltb_spec i (t_len t0 + 1)), (Z.ltb_spec i (t_len t0)), (Z.eqb_spec i (t_len t0)); try lia; try reflexivity.
    + subst i. now rewrite Z.sub_diag.
    + replace (Z.to_nat (i - t_len t0)) with (S (Z.to_nat (i - (t_len t0 + 1)))) by lia. reflexivity.
Qed.

Lemma lookup_of_list l i :
  lookup (of_list l) i = if i <? 0 then None else nth_error l (Z.to_nat i).
Proof.
  unfold of_list. destruct (fold_push l empty_table ltac:(cbn; lia)) as [_ H]. rewrite H.
  cbn [t_len empty_table]. rewrite Z.sub_0_r. destruct (Z.ltb_spec i 0); [|reflexivity].
  unfold lookup. destruct (Z.leb_spec 0 i); [lia|reflexivity].
Qed.

Lemma len_of_list l : t_len (of_list l) = Z.of_nat (length l).
Proof. unfold of_list. destruct (fold_push l empty_table ltac:(cbn; lia)) as [H _]. rewrite H. reflexivity. Qed.

Lemma lookup_set t idx v t' i : set_node t idx v = Some t' ->
  t_len t' = t_len t /\ lookup t' i = if i =? idx then Some v else lookup t i.
Proof.
  unfold set_node. destruct ((0 <=? idx) && (idx <? t_len t)) eqn:Hr; [|discriminate].
  intros H. injection H as <-. split; [reflexivity|]. unfold lookup. cbn [t_len t_map].
  apply andb_prop in Hr as [H0 H1]. apply Z.leb_le in H0. apply Z.ltb_lt in H1.
  destruct (Z.eqb_spec i idx) as [->|Hne].
  - destruct (Z.leb_spec 0 idx); [|lia]. destruct (Z.ltb_spec idx (t_len t)); [|lia]. apply PositiveMap.gss.
  - destruct ((0 <=? i) && (i <? t_len t)) eqn:Hi; [|reflexivity].
    apply andb_prop in Hi as [Hi0 Hi1]. apply Z.leb_le in Hi0. apply PositiveMap.gso. lia.
Qed.

Lemma set_node_some t idx v : 0 <= idx < t_len t -> exists t', set_node t idx v = Some t'.
Proof.
  intros H. unfold set_node. destruct (Z.leb_spec 0 idx), (Z.ltb_spec idx (t_len t)); try lia. cbn [andb]. eauto.
Qed.

Lemma lookup_range t i nd : lookup t i = Some nd -> 0 <= i < t_len t.
Proof.
  unfold lookup. destruct (Z.leb_spec 0 i), (Z.ltb_spec i (t_len t)); cbn [andb]; try discriminate. lia.
Qed.

Lemma get_node_inner t idx nd : lookup t idx = Some nd -> NUM_SYMBOLS <= idx ->
  get_node t idx = Ok (inl nd).
Proof. intros Hl Hi. unfold get_node. rewrite Hl. destruct (Z.leb_spec NUM_SYMBOLS idx); [reflexivity|lia]. Qed.

Lemma get_node_leaf t idx nd : lookup t idx = Some nd -> idx < NUM_SYMBOLS ->
  get_node t idx = Ok (inr (to_symbol_repr nd)).
Proof. intros Hl Hi. unfold get_node. rewrite Hl. destruct (Z.leb_spec NUM_SYMBOLS idx); [lia|reflexivity]. Qed.

Lemma subtree_ok_S t d idx :
  subtree_ok t (S d) idx =
  if idx <? NUM_SYMBOLS then 0 <=? idx else
  match lookup t idx with
  | Some nd => subtree_ok t d (fst nd) && subtree_ok t d (snd nd)
  | None => false
  end.
Proof. reflexivity. Qed.

Lemma subtree_ok_leaf t d idx : idx < NUM_SYMBOLS -> subtree_ok t d idx = (0 <=? idx).
Proof. intros H. destruct d; cbn [subtree_ok]; destruct (Z.ltb_spec idx NUM_SYMBOLS); (reflexivity || lia). Qed.

Lemma subtree_ok_inner t d idx : NUM_SYMBOLS <= idx -> subtree_ok t d idx = true ->
  exists d' nd, d = S d' /\ lookup t idx = Some nd
    /\ subtree_ok t d' (fst nd) = true /\ subtree_ok t d' (snd nd) = true.
Proof.
  intros Hi Hs. destruct d as [|d']; [cbn [subtree_ok] in Hs|rewrite subtree_ok_S in Hs];
    (destruct (Z.ltb_spec idx NUM_SYMBOLS); [lia|]); [discriminate|].
  destruct (lookup t idx) as [nd|]; [|discriminate]. apply andb_prop in Hs. now exists d', nd.
Qed.

Lemma depths_ok_S t d idx depth :
  depths_ok t (S d) idx depth =
  if idx <? NUM_SYMBOLS then
    match lookup t idx with Some nd => snd (to_symbol_repr nd) =? depth | None => false end
  else match lookup t idx with
       | Some nd => depths_ok t d (fst nd) (depth + 1) && depths_ok t d (snd nd) (depth + 1)
       | None => false
       end.
Proof. reflexivity. Qed.

Lemma depths_ok_leaf t d idx depth : idx < NUM_SYMBOLS ->
  depths_ok t d idx depth =
  match lookup t idx with Some nd => snd (to_symbol_repr nd) =? depth | None => false end.
Proof. intros H. destruct d; cbn [depths_ok]; destruct (Z.ltb_spec idx NUM_SYMBOLS); (reflexivity || lia). Qed.

Lemma depths_ok_inner t d idx depth : NUM_SYMBOLS <= idx -> depths_ok t d idx depth = true ->
  exists d' nd, d = S d' /\ lookup t idx = Some nd
    /\ depths_ok t d' (fst nd) (depth + 1) = true /\ depths_ok t d' (snd nd) (depth + 1) = true.
Proof.
  intros Hi Hs. destruct d as [|d']; [cbn [depths_ok] in Hs|rewrite depths_ok_S in Hs];
    (destruct (Z.ltb_spec idx NUM_SYMBOLS); [lia|]); [discriminate|].
  destruct (lookup t idx) as [nd|]; [|discriminate]. apply andb_prop in Hs. now exists d', nd.
Qed.

Lemma walk_inner t b bs idx nd : NUM_SYMBOLS <= idx -> lookup t idx = Some nd ->
  walk t (b :: bs) idx = walk t bs (if b then snd nd else fst nd).
Proof. intros Hi Hl. cbn [walk]. destruct (Z.ltb_spec idx NUM_SYMBOLS); [lia|]. now rewrite Hl. Qed.

Lemma walk_cons_inv t b bs idx s : walk t (b :: bs) idx = Some s ->
  exists nd, NUM_SYMBOLS <= idx /\ lookup t idx = Some nd
    /\ walk t bs (if b then snd nd else fst nd) = Some s.
Proof.
  cbn [walk]. destruct (Z.ltb_spec idx NUM_SYMBOLS); [discriminate|].
  destruct (lookup t idx) as [nd|]; [eauto|discriminate].
Qed.
