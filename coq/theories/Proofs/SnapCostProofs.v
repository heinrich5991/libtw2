(* Proofs about the cost-instrumented readers of Model/SnapCost.v.  One statement per twin,
   `runs`: from any meter the twin returns what the reader of Model/Snap.v returns (erasure)
   and a meter that has grown by no more than a bound that is linear in the input - on every
   path, failing reads included.  The meter only grows, so its high-water mark is its final
   value. *)
From LibTw2 Require Import Base.Res Model.Varint Model.Snap Model.SnapCost
  Proofs.SnapBase Proofs.SnapRep Proofs.SnapTotal Proofs.SnapReg Proofs.SnapC11 Proofs.SnapAlloc.
From Coq Require Import ZArith List Lia Permutation.
Import ListNotations.
Open Scope Z_scope.

(* m' is m after some growth of at most b words: the current count went up by 0..b, the
   high-water mark is the old one or the new current count, and it is never below the count *)
Definition within (b : Z) (m m' : meter) : Prop :=
  m_cur m <= m_cur m' <= m_cur m + b /\ m_peak m' <= Z.max (m_peak m) (m_cur m')
  /\ (m_cur m <= m_peak m -> m_cur m' <= m_peak m').

Lemma within_refl b m : 0 <= b -> within b m m.
Proof. unfold within. lia. Qed.
Lemma within_grow n m : 0 <= n -> within n m (grow n m).
Proof. unfold within, grow. cbn [m_cur m_peak]. lia. Qed.
Lemma within_trans b1 b2 m m1 m2 : within b1 m m1 -> within b2 m1 m2 -> within (b1 + b2) m m2.
Proof. unfold within. lia. Qed.
Lemma within_le b b' m m' : b <= b' -> within b m m' -> within b' m m'.
Proof. unfold within. lia. Qed.

Lemma within_step b1 b2 b m m1 m2 : within b1 m m1 -> within b2 m1 m2 -> b1 + b2 <= b -> within b m m2.
Proof. intros H1 H2 Hb. exact (within_le _ _ _ _ Hb (within_trans _ _ _ _ _ H1 H2)). Qed.

(* from the empty meter: the high-water mark is the count at the moment of return (nothing is
   ever released on the way) and is bounded by the bound on the growth *)
Lemma within_peak b m' : within b meter0 m' -> m_peak m' = m_cur m' /\ m_peak m' <= b.
Proof. unfold within, meter0. cbn [m_cur m_peak]. lia. Qed.

Definition runs {R} (x0 : R) (b : Z) (c : meter -> R * meter) : Prop :=
  forall m, fst (c m) = x0 /\ within b m (snd (c m)).

(* what a twin started on the empty meter (the `*_cost` functions) reports *)
Lemma runs_erase {R} {x0 : R} {b c} : runs x0 b c -> fst (c meter0) = x0.
Proof. intros H. apply H. Qed.
Lemma runs_peak {R} {x0 : R} {b c} : runs x0 b c -> peak (c meter0) <= b.
Proof. intros H. apply (within_peak _ _ (proj2 (H meter0))). Qed.
Lemma runs_peak_final {R} {x0 : R} {b c} : runs x0 b c -> peak (c meter0) = m_cur (snd (c meter0)).
Proof. intros H. apply (within_peak _ _ (proj2 (H meter0))). Qed.

Lemma runs_ret {R} (x0 : R) b : 0 <= b -> runs x0 b (fun m => (x0, m)).
Proof. intros Hb m. split; [reflexivity|apply within_refl, Hb]. Qed.

Lemma runs_grow_ret {R} (x0 : R) n : 0 <= n -> runs x0 n (fun m => (x0, grow n m)).
Proof. intros Hn m. split; [reflexivity|apply within_grow, Hn]. Qed.

Lemma runs_le {R} (x0 : R) b b' c : runs x0 b c -> b <= b' -> runs x0 b' c.
Proof. intros H Hb m. destruct (H m) as [E W]. split; [exact E|exact (within_le _ _ _ _ Hb W)]. Qed.

Lemma runs_grow {R} (x0 : R) n b c : 0 <= n -> runs x0 (b - n) c -> runs x0 b (fun m => c (grow n m)).
Proof.
  intros Hn H m. destruct (H (grow n m)) as [E W]. split; [exact E|].
  apply (within_step _ _ _ _ _ _ (within_grow n m Hn) W). lia.
Qed.

(* the twins lift a result the way the readers do, and leave the meter alone *)
Lemma runs_map {R R'} (g : R -> R') x0 b c : runs x0 b c -> runs (g x0) b (fun m => let (r, m1) := c m in (g r, m1)).
Proof. intros H m. destruct (H m) as [E W]. destruct (c m) as [r m1]. cbn [fst snd] in *. subst r. split; [reflexivity|exact W]. Qed.

(* a bind: the first computation spends b1 of the budget b, the continuation has the rest; if
   the first one fails, its meter is the final one *)
Lemma runs_mbind {E A B} {x0 : res E A} {f0 : A -> res E B} b1 {b c f} :
  runs x0 b1 c -> b1 <= b -> (forall a, x0 = Ok a -> runs (f0 a) (b - b1) (f a)) ->
  runs (bind x0 f0) b (fun m => mbind (c m) f).
Proof.
  intros Hx Hb Hf m. destruct (Hx m) as [E1 W]. destruct (c m) as [r m1]. cbn [fst snd] in *. subst r.
  destruct x0 as [a|e|s|]; cbn [mbind bind fst snd]; try (split; [reflexivity|exact (within_le _ _ _ _ Hb W)]).
  destruct (Hf a eq_refl m1) as [E2 W2]. split; [exact E2|]. apply (within_step _ _ _ _ _ _ W W2). lia.
Qed.

Lemma runs_mwbind {A B} {x0 : wres A} {f0 : A -> wres B} b1 {b c f} :
  runs x0 b1 c -> b1 <= b -> (forall a, fst x0 = Ok a -> runs (f0 a) (b - b1) (f a)) ->
  runs (wbind x0 f0) b (fun m => mwbind (c m) f).
Proof.
  intros Hx Hb Hf m. destruct (Hx m) as [E1 W]. destruct (c m) as [r m1]. cbn [fst snd] in *. subst r.
  destruct x0 as [[a|e|s|] ws]; cbn [mwbind wbind fst snd]; try (split; [reflexivity|exact (within_le _ _ _ _ Hb W)]).
  destruct (Hf a eq_refl m1) as [E2 W2]. destruct (f a m1) as [[r ws'] m2]. cbn [fst snd] in *. rewrite <- E2.
  split; [reflexivity|]. apply (within_step _ _ _ _ _ _ W W2). lia.
Qed.

(* a first computation that does not touch the meter leaves the whole budget to the continuation;
   if it fails, nothing has been spent *)
Lemma runs_mbind_pure {E A B} (x0 : res E A) (f0 : A -> res E B) b f :
  (forall a, x0 = Ok a -> runs (f0 a) b (f a)) -> ((forall a, x0 <> Ok a) -> 0 <= b) ->
  runs (bind x0 f0) b (fun m => mbind (x0, m) f).
Proof.
  intros Hf Hb. destruct x0 as [a|e|s|]; cbn [mbind bind]; try (apply runs_ret, Hb; discriminate).
  exact (Hf a eq_refl).
Qed.

Lemma runs_mwbind_pure {A B} (x0 : wres A) (f0 : A -> wres B) b f :
  (forall a, fst x0 = Ok a -> runs (f0 a) b (f a)) -> ((forall a, fst x0 <> Ok a) -> 0 <= b) ->
  runs (wbind x0 f0) b (fun m => mwbind (x0, m) f).
Proof.
  intros Hf Hb. destruct x0 as [[a|e|s|] ws]; cbn [mwbind wbind fst] in *; try (apply runs_ret, Hb; discriminate).
  intros m. destruct (Hf a eq_refl m) as [E W]. destruct (f a m) as [[r ws'] m']. cbn [fst snd] in *. rewrite <- E.
  split; [reflexivity|exact W].
Qed.

Lemma prepare_vacant_m_runs S k size :
  runs (prepare_vacant S k size) (3 + Z.of_nat size) (prepare_vacant_m S k size).
Proof.
  intros m. unfold prepare_vacant_m. destruct (prepare_vacant S k size); (split; [reflexivity|]);
    [apply (within_grow (3 + Z.of_nat size))|apply within_refl..]; lia.
Qed.

Lemma add_item_m_runs S ty id data :
  runs (add_item S ty id data) (3 + Z.of_nat (length data)) (add_item_m S ty id data).
Proof.
  unfold add_item, add_item_m. cbv zeta. destruct (aget _ _); [apply runs_ret; lia|].
  apply (runs_mbind _ (prepare_vacant_m_runs _ _ _)); [lia|]. intros [S' r] _.
  apply runs_mbind_pure; [|lia]. intros buf' _. apply runs_ret. lia.
Qed.

Lemma prepare_item_m_runs S k size :
  runs (prepare_item S k size) (3 + Z.of_nat size) (prepare_item_m S k size).
Proof.
  unfold prepare_item, prepare_item_m. destruct (aget _ _); [apply runs_ret; lia|].
  apply runs_map, prepare_vacant_m_runs.
Qed.

(* an item that is accepted costs its words and a map entry, one that is refused costs nothing:
   any budget that covers the first case will do *)
Lemma rfi_item_m_runs idata il prev off S b : length idata = Z.to_nat il -> 0 <= b ->
  (forall p, prev = Some p -> 0 <= p /\ (p < off <= il -> off - p + 2 <= b)) ->
  runs (rfi_item idata il prev off S) b (rfi_item_m idata il prev off S).
Proof.
  intros Hl Hb Hp. unfold rfi_item, rfi_item_m. destruct prev as [p|].
  - destruct (Hp p eq_refl) as [Hp0 Hpb].
    destruct (Z.leb_spec off p); [apply runs_ret, Hb|]. destruct (Z.ltb_spec il off); [apply runs_ret, Hb|].
    destruct (nth_error _ _); [|apply runs_ret, Hb].
    apply runs_map. eapply runs_le; [apply add_item_m_runs|]. rewrite firstn_length, skipn_length. lia.
  - destruct (negb _); apply runs_ret, Hb.
Qed.

(* three words of budget per word of item data behind pv, the previous offset (0 at the start):
   an item has a key word *)
Lemma rfi_loop_m_runs idata il : length idata = Z.to_nat il -> forall offs prev pv S,
  match prev with Some p => p = pv | None => pv = 0 end -> 0 <= pv <= il ->
  runs (rfi_loop idata il offs prev S) (3 * (il - pv)) (rfi_loop_m idata il offs prev S).
Proof.
  intros Hl. induction offs as [|o offs IH]; intros prev pv S Hpv Hr; cbn [rfi_loop rfi_loop_m].
  - apply rfi_item_m_runs; [exact Hl|lia|]. intros p ->. simpl in Hpv. lia.
  - destruct (Z.ltb_spec o 0); [apply runs_ret; lia|]. destruct (negb _); [apply runs_ret; lia|].
    assert (Ho : 0 <= o / 4) by (apply Z.div_pos; lia).
    (* the item spends nothing unless pv < o / 4 <= il *)
    apply (runs_mbind (3 * Z.max 0 (Z.min (o / 4) il - pv))); [|lia|].
    + apply rfi_item_m_runs; [exact Hl|lia|]. intros p ->. simpl in Hpv. lia.
    + intros S1 E. apply rfi_item_ok in E.
      eapply runs_le; [apply (IH _ (o / 4)); [reflexivity|]|]; destruct prev; lia.
Qed.

Theorem raw_read_from_ints_m_runs ints :
  runs (raw_read_from_ints ints) (3 * Z.of_nat (length ints)) (raw_read_from_ints_m ints).
Proof.
  unfold raw_read_from_ints, raw_read_from_ints_m. destruct ints as [|ds [|ni rest]]; cbn [length]; try (apply runs_ret; lia).
  - destruct (ds <? 0); apply runs_ret; lia.
  - destruct (Z.ltb_spec ds 0); [apply runs_ret; lia|]. destruct (Z.ltb_spec ni 0); [apply runs_ret; lia|]. cbv zeta.
    destruct (Z.ltb_spec (Z.of_nat (length rest)) ni); [apply runs_ret; lia|].
    destruct (negb _); [apply runs_ret; lia|].
    destruct (Z.ltb_spec (Z.of_nat (length rest)) (ni + ds / 4)); [apply runs_ret; lia|].
    assert (Hd : 0 <= ds / 4) by (apply Z.div_pos; lia).
    apply runs_mwbind_pure; [|lia]. intros _ _. apply (runs_map wlift).
    eapply runs_le; [apply (rfi_loop_m_runs _ (ds / 4)) with (pv := 0); [rewrite firstn_length, skipn_length| |]; lia|]. lia.
Qed.

(* one push per unit of fuel (the fuel is the number of input bytes) *)
Lemma bytes_to_ints_m_runs : forall fuel bs acc ws,
  runs (bytes_to_ints fuel bs acc ws) (Z.of_nat fuel) (bytes_to_ints_m fuel bs acc ws).
Proof.
  induction fuel as [|fuel IH]; intros bs acc ws; destruct bs as [|b bs]; try (apply runs_ret; lia).
  cbn [bytes_to_ints bytes_to_ints_m]. destruct (read_int (b :: bs)) as [[[v pw] rest]| | |]; try (apply runs_ret; lia).
  apply runs_grow; [lia|]. eapply runs_le; [apply IH|]. lia.
Qed.

(* the ints handed to read_from_ints are no more than the bytes (SnapAlloc.bytes_to_ints_size) *)
Theorem raw_read_bytes_m_runs bs :
  runs (raw_read_bytes bs) (4 * Z.of_nat (length bs)) (raw_read_bytes_m bs).
Proof.
  intros m. unfold raw_read_bytes, raw_read_bytes_m.
  destruct (bytes_to_ints_m_runs (length bs) bs [] [] m) as [E W].
  destruct (bytes_to_ints_m (length bs) bs [] [] m) as [r m1]. cbn [fst snd] in *. subst r.
  destruct (bytes_to_ints (length bs) bs [] []) as [[ints ws]| | |] eqn:Eb;
    try (split; [reflexivity|refine (within_le _ _ _ _ _ W); lia]).
  apply bytes_to_ints_size in Eb. cbn [length] in Eb.
  destruct (raw_read_from_ints_m_runs ints m1) as [E2 W2]. destruct (raw_read_from_ints_m ints m1) as [[r ws'] m2].
  cbn [fst snd] in *. rewrite <- E2. split; [reflexivity|]. apply (within_step _ _ _ _ _ _ W W2). lia.
Qed.

Lemma bfr_loop_m_runs S : forall offs ext prev,
  runs (bfr_loop S offs ext prev) (5 * Z.of_nat (length offs)) (bfr_loop_m S offs ext prev).
Proof.
  induction offs as [|[k r] t IH]; intros ext prev; cbn [bfr_loop bfr_loop_m length]; [apply runs_ret; lia|].
  cbv zeta. destruct (_ =? TYPE_ID_EX).
  - apply runs_mwbind_pure; [|lia]. intros data _. destruct (item_data_to_uuid data) as [[u|] ws]; cbn [fst snd];
      (apply runs_mwbind_pure; [|lia]); intros _ _; [|apply runs_ret; lia].
    destruct (negb _); [apply runs_ret; lia|]. destruct (aget u ext); [apply runs_ret; lia|].
    apply (runs_grow _ 5); [lia|]. eapply runs_le; [apply IH|]. lia.
  - destruct (OFFSET_EXTENDED_TYPE_ID <=? _); [|eapply runs_le; [apply IH|]; lia].
    destruct (match prev with Some p => _ | None => false end); [eapply runs_le; [apply IH|]; lia|].
    destruct (aget _ _); [eapply runs_le; [apply IH|]; lia|apply runs_ret; lia].
Qed.

Lemma build_from_raw_m_runs S :
  runs (build_from_raw S) (5 * Z.of_nat (length (rs_offs S))) (build_from_raw_m S).
Proof.
  unfold build_from_raw, build_from_raw_m. apply (runs_mwbind _ (bfr_loop_m_runs _ _ _ _)); [lia|].
  intros ext _. apply runs_ret. lia.
Qed.

(* a successful read holds at most one item per input word (SnapAlloc.read_from_ints_size) *)
Theorem snap_read_from_ints_m_runs ints :
  runs (snap_read_from_ints ints) (8 * Z.of_nat (length ints)) (snap_read_from_ints_m ints).
Proof.
  unfold snap_read_from_ints, snap_read_from_ints_m. apply (runs_mwbind _ (raw_read_from_ints_m_runs ints)); [lia|].
  intros R E. destruct (raw_read_from_ints ints) as [r ws] eqn:Er. cbn [fst] in E. subst r.
  apply read_from_ints_size in Er. unfold held in Er. eapply runs_le; [apply build_from_raw_m_runs|]. lia.
Qed.

Theorem snap_read_bytes_m_runs bs :
  runs (snap_read_bytes bs) (9 * Z.of_nat (length bs)) (snap_read_bytes_m bs).
Proof.
  unfold snap_read_bytes, snap_read_bytes_m. apply (runs_mwbind _ (raw_read_bytes_m_runs bs)); [lia|].
  intros R E. apply read_bytes_held in E. unfold held in E. eapply runs_le; [apply build_from_raw_m_runs|]. lia.
Qed.

Section ReaderBound.
  Variable St : Type.
  Variable rd_empty : St -> bool.
  Variable rd_int : St -> res unit (Z * list pwarn * St).
  Variable rd_size : St -> nat.
  Hypothesis R2 : forall p v ws p', rd_int p = Ok (v, ws, p') -> (rd_size p' < rd_size p)%nat.

  Notation rd p := (Z.of_nat (rd_size p)).
  Notation rie := (read_int_err St rd_int).

  Lemma rie_ok p e vp : fst (rie p e) = Ok vp -> (rd_size (snd vp) < rd_size p)%nat.
  Proof. apply (wsz_ok _ _ _ (rie_size St rd_int rd_size R2 p e)). Qed.

  (* the input that a read has left over; a read that failed may have used up all of it *)
  Definition rest {A} (x : wres (St * A)) : Z := match fst x with Ok pa => rd (fst pa) | _ => 0 end.

  Lemma rest_wbind {A B} (x : wres A) (f : A -> wres (St * B)) :
    rest (wbind x f) = match fst x with Ok a => rest (f a) | _ => 0 end.
  Proof. unfold rest. destruct x as [[a|e|s|] ws]; cbn [wbind fst]; try reflexivity. destruct (f a). reflexivity. Qed.

  Lemma rest_nonneg {A} (x : wres (St * A)) : 0 <= rest x.
  Proof. unfold rest. destruct (fst x); lia. Qed.

  (* one word per deleted key, each paid for by the int that was read *)
  Lemma read_deleted_m_runs : forall fuel n p del,
    runs (read_deleted St rd_int fuel n p del) (rd p - rest (read_deleted St rd_int fuel n p del))
         (read_deleted_m St rd_int fuel n p del).
  Proof.
    induction fuel as [|fuel IH]; intros n p del; cbn [read_deleted read_deleted_m]; destruct (n <=? 0);
      try (apply runs_ret; unfold rest; cbn [fst wret]; lia).
    rewrite rest_wbind. apply runs_mwbind_pure.
    - intros [v p'] E. rewrite E. apply rie_ok in E. cbn [fst snd] in *.
      destruct (smem v del); [|apply (runs_grow _ 1); [lia|]]; (eapply runs_le; [apply IH|]); lia.
    - intros Hf. destruct (fst (rie p DeletedItemsUnpacking)) as [a| | |]; [destruct (Hf a eq_refl)|lia..].
  Qed.

  (* one word per int of item data, each paid for by the int that was read - also when the
     claimed size is never reached *)
  Lemma read_data_m_runs : forall fuel n p acc,
    runs (read_data St rd_int fuel n p acc) (rd p - rest (read_data St rd_int fuel n p acc))
         (read_data_m St rd_int fuel n p acc).
  Proof.
    induction fuel as [|fuel IH]; intros n p acc; cbn [read_data read_data_m]; destruct (n <=? 0);
      try (apply runs_ret; unfold rest; cbn [fst wret]; lia).
    rewrite rest_wbind. apply runs_mwbind_pure.
    - intros [v p'] E. rewrite E. apply rie_ok in E. cbn [fst snd] in *.
      apply (runs_grow _ 1); [lia|]. eapply runs_le; [apply IH|]. lia.
    - intros Hf. destruct (fst (rie p ItemDiffsUnpacking)) as [a| | |]; [destruct (Hf a eq_refl)|lia..].
  Qed.

  (* an update costs its data plus a 3-word map entry; it used up its data plus at least two
     ints (type, id): two words of budget per input unit cover it *)
  Lemma read_updates_m_runs sz : forall fuel p d num,
    runs (read_updates St rd_empty rd_int rd_size fuel sz p d num) (2 * rd p)
         (read_updates_m St rd_empty rd_int rd_size fuel sz p d num).
  Proof.
    induction fuel as [|fuel IH]; intros p d num; cbn [read_updates read_updates_m]; destruct (rd_empty p);
      try (apply runs_ret; lia).
    apply runs_mwbind_pure; [|lia]. intros [ty p1] A1. apply rie_ok in A1.
    apply runs_mwbind_pure; [|lia]. intros [id p2] B1. apply rie_ok in B1. cbn [fst snd] in *.
    destruct (negb (is_u16 ty)); [apply runs_ret; lia|]. destruct (negb (is_u16 id)); [apply runs_ret; lia|].
    apply runs_mwbind_pure; [|lia]. intros [size p3] D1.
    apply (wsz_ok _ _ _ (read_size_size St rd_int rd_size R2 sz ty p2)) in D1. cbn [fst snd] in *.
    destruct (u32_max <? _); [apply runs_ret; lia|]. destruct (u32_max <? _); [apply runs_ret; lia|].
    pose proof (rest_nonneg (read_data St rd_int (rd_size p3) size p3 [])) as Hr.
    apply (runs_mwbind _ (read_data_m_runs _ _ _ _)); [lia|]. intros [p4 data] E1.
    pose proof (wsz_ok _ _ _ (read_data_size St rd_int rd_size R2 _ _ _ _) E1) as Hd.
    unfold rest in *. rewrite E1 in *. cbn [fst snd length] in *. cbv zeta.
    apply (runs_mwbind 3); [destruct (aget _ _); [apply runs_ret|apply (runs_grow_ret _ 3)]; lia|lia|]. intros _ _.
    apply runs_mwbind_pure; [|lia]. intros _ _.
    destruct (num =? i32_max); [apply runs_ret; lia|]. eapply runs_le; [apply IH|]. lia.
  Qed.

  Theorem read_delta_m_runs sz p : (1 <= rd_size p)%nat ->
    runs (read_delta St rd_empty rd_int rd_size sz p) (2 * (rd p - 1)) (read_delta_m St rd_empty rd_int rd_size sz p).
  Proof.
    intros H1. unfold read_delta, read_delta_m.
    apply runs_mwbind_pure; [|lia]. intros [[nd nu] p1] A1.
    apply (wsz_ok _ _ _ (read_delta_header_size St rd_int rd_size R2 p)) in A1. cbn [fst snd] in *.
    pose proof (rest_nonneg (read_deleted St rd_int (rd_size p1) nd p1 [])) as Hr.
    apply (runs_mwbind _ (read_deleted_m_runs _ _ _ _)); [lia|]. intros [p2 del] B1.
    pose proof (wsz_ok _ _ _ (read_deleted_size St rd_int rd_size R2 _ _ _ _) B1) as Hd.
    unfold rest in *. rewrite B1 in *. cbn [fst snd length] in *.
    apply runs_mwbind_pure; [|lia]. intros _ _.
    apply (runs_mwbind _ (read_updates_m_runs sz _ _ _ _)); [lia|]. intros [d num] _.
    apply runs_mwbind_pure; [|lia]. intros _ _. apply runs_ret. lia.
  Qed.
End ReaderBound.

Theorem delta_read_from_ints_m_runs sz ints :
  runs (delta_read_from_ints sz ints) (2 * Z.of_nat (length ints)) (delta_read_from_ints_m sz ints).
Proof.
  eapply runs_le; [apply (read_delta_m_runs _ _ _ _ int_rd_shrinks); lia|]. lia.
Qed.

Theorem delta_read_bytes_m_runs sz bs :
  runs (delta_read_bytes sz bs) (2 * Z.of_nat (length bs)) (delta_read_bytes_m sz bs).
Proof.
  eapply runs_le; [apply (read_delta_m_runs _ _ _ _ byte_rd_shrinks); lia|]. lia.
Qed.

(* the words an offsets / updated_items map accounts for: 3 per entry + the lengths of its ranges *)
Definition rlen_sum (l : list (Z * range)) : Z := fold_right (fun kr a => Z.of_nat (range_len (snd kr)) + a) 0 l.
Definition wsum (l : list (Z * range)) : Z := 3 * Z.of_nat (length l) + rlen_sum l.

Lemma rlen_sum_cons kr l : rlen_sum (kr :: l) = Z.of_nat (range_len (snd kr)) + rlen_sum l.
Proof. reflexivity. Qed.
Lemma rlen_sum_nonneg l : 0 <= rlen_sum l.
Proof. induction l as [|kr l IH]; [reflexivity|rewrite rlen_sum_cons; lia]. Qed.
Lemma wsum_cons k r l : wsum ((k, r) :: l) = 3 + Z.of_nat (range_len r) + wsum l.
Proof. unfold wsum. rewrite rlen_sum_cons. cbn [length snd]. lia. Qed.
Lemma wsum_nonneg l : 0 <= wsum l.
Proof. unfold wsum. pose proof (rlen_sum_nonneg l). lia. Qed.

Lemma rwd_copy_m_runs fbuf d : forall from_offs S ndel,
  runs (rwd_copy fbuf d from_offs S ndel) (wsum from_offs) (rwd_copy_m fbuf d from_offs S ndel).
Proof.
  induction from_offs as [|[k r] t IH]; intros S ndel; cbn [rwd_copy rwd_copy_m]; [apply runs_ret; reflexivity|].
  rewrite wsum_cons. pose proof (wsum_nonneg t).
  apply runs_mbind_pure; [|lia]. intros data Es. apply slice_ok_length in Es. cbv zeta.
  destruct (smem _ _); [eapply runs_le; [apply IH|]; lia|].
  apply (runs_mbind _ (prepare_item_m_runs _ _ _)); [lia|]. intros [S1 ro] _.
  apply runs_mbind_pure; [|lia]. intros buf' _. eapply runs_le; [apply IH|]. lia.
Qed.

Lemma rwd_update_m_runs from dbuf : forall upd S,
  runs (rwd_update from dbuf upd S) (wsum upd) (rwd_update_m from dbuf upd S).
Proof.
  induction upd as [|[k r] t IH]; intros S; cbn [rwd_update rwd_update_m]; [apply runs_ret; reflexivity|].
  rewrite wsum_cons. pose proof (wsum_nonneg t). cbv zeta.
  apply runs_mbind_pure; [|lia]. intros diff Es. apply slice_ok_length in Es.
  apply (runs_mbind _ (prepare_item_m_runs _ _ _)); [lia|]. intros [S1 ro] _.
  apply runs_mbind_pure; [|lia]. intros _ _. destruct (negb _); [apply runs_ret; lia|].
  apply runs_mbind_pure; [|lia]. intros in_ _. apply runs_mbind_pure; [|lia]. intros out _.
  apply runs_mbind_pure; [|lia]. intros buf' _. eapply runs_le; [apply IH|]. lia.
Qed.

(* for ANY snapshot and delta values *)
Theorem raw_read_with_delta_m_runs from d :
  runs (raw_read_with_delta from d) (wsum (rs_offs from) + wsum (d_upd d)) (raw_read_with_delta_m from d).
Proof.
  unfold raw_read_with_delta, raw_read_with_delta_m.
  pose proof (wsum_nonneg (rs_offs from)). pose proof (wsum_nonneg (d_upd d)).
  apply (runs_mwbind _ (runs_map wlift _ _ _ (rwd_copy_m_runs _ _ _ _ _))); [lia|]. intros [S1 ndel] _.
  apply runs_mwbind_pure; [|lia]. intros _ _. apply (runs_map wlift). eapply runs_le; [apply rwd_update_m_runs|]. lia.
Qed.

Theorem snap_read_with_delta_m_runs from d :
  runs (snap_read_with_delta from d)
       (wsum (rs_offs (sn_raw from)) + wsum (d_upd d) + 5 * Z.of_nat (length (rs_offs (sn_raw from)) + length (d_upd d)))
       (snap_read_with_delta_m from d).
Proof.
  unfold snap_read_with_delta, snap_read_with_delta_m.
  apply (runs_mwbind _ (raw_read_with_delta_m_runs _ _)); [lia|]. intros R E.
  apply read_with_delta_offs in E. eapply runs_le; [apply build_from_raw_m_runs|]. lia.
Qed.

(* accepted values: the map sizes are the `held` / `dheld` of SnapAlloc *)
Lemma rlen_sum_perm a b : Permutation a b -> rlen_sum a = rlen_sum b.
Proof. induction 1; rewrite ?rlen_sum_cons; lia. Qed.

Lemma rlen_sum_ranges_of ch : forall p, rlen_sum (ranges_of p ch) = Z.of_nat (length (flat ch)).
Proof.
  induction ch as [|[k dd] ch IH]; intros p; [reflexivity|].
  cbn [ranges_of flat flat_map]. fold (flat ch). rewrite rlen_sum_cons, IH, app_length. unfold range_len. cbn [fst snd]. lia.
Qed.

Lemma good_wsum R : good R -> wsum (rs_offs R) = 3 * Z.of_nat (length (rs_offs R)) + Z.of_nat (length (rs_buf R)).
Proof.
  intros G. destruct (g_rep _ G) as [ch Hr]. unfold wsum.
  rewrite (rlen_sum_perm _ _ (rep_offs _ _ Hr)), rlen_sum_ranges_of, (rep_buf _ _ Hr). reflexivity.
Qed.

Lemma rlen_sum_ains_le k r l : rlen_sum (ains k r l) <= rlen_sum l + Z.of_nat (range_len r).
Proof.
  induction l as [|[k' r'] l IH]; cbn [ains]; [rewrite rlen_sum_cons; cbn; lia|].
  destruct (k <? k'); [|destruct (k =? k')]; rewrite !rlen_sum_cons; cbn [snd]; lia.
Qed.

(* the ranges of an accepted delta's updates do not overlap: together they are no longer than its buffer *)
Definition dtiled (d : delta) : Prop := rlen_sum (d_upd d) <= Z.of_nat (length (d_buf d)).

Lemma dtiled_empty del : dtiled {| d_del := del; d_upd := []; d_buf := [] |}.
Proof. unfold dtiled. cbn. lia. Qed.

Lemma dtiled_ains d k n data : dtiled d -> n = (length (d_buf d) + length data)%nat ->
  dtiled {| d_del := d_del d; d_upd := ains k (length (d_buf d), n) (d_upd d); d_buf := d_buf d ++ data |}.
Proof.
  unfold dtiled. cbn [d_upd d_buf]. intros H ->. rewrite app_length.
  pose proof (rlen_sum_ains_le k (length (d_buf d), (length (d_buf d) + length data)%nat) (d_upd d)) as Ha.
  unfold range_len in Ha. cbn [fst snd] in Ha. unfold range in *. lia.
Qed.

Lemma dtiled_push d k data : dtiled d -> dtiled (dpush d k data).
Proof. intros H. apply dtiled_ains; [exact H|apply app_length]. Qed.

Lemma create_updated_tiled from : forall ti d0 d, dtiled d0 -> create_updated from ti d0 = Ok d -> dtiled d.
Proof.
  induction ti as [|[k data] t IH]; intros d0 d H0 E; cbn [create_updated] in E; [injection E as <-; exact H0|].
  destruct (raw_item from _ _) as [from_data| | |]; cbn [bind] in E; try discriminate.
  destruct (aget _ (d_upd d0)); [discriminate|].
  destruct (create_item_delta from_data data) as [out| | |] eqn:Ec; try discriminate.
  apply IH in E; [exact E|]. apply dtiled_ains; [exact H0|]. f_equal.
  unfold create_item_delta in Ec. destruct from_data as [f|]; [|injection Ec as <-; reflexivity].
  destruct (Nat.eqb_spec (length f) (length data)); cbn [negb] in Ec; [|discriminate]. injection Ec as <-.
  symmetry. apply zip_with_length. lia.
Qed.

Lemma delta_accepted_tiled d : delta_accepted d -> dtiled d.
Proof.
  intros [sz ints ws d' _ _ E|sz bs ws d' _ _ E|A B d' _ _ E].
  - apply fst_pair in E.
    apply (wsz_ok _ _ _ (read_delta_size _ _ _ int_rd_shrinks _ dtiled dtiled_push sz ints dtiled_empty) E).
  - apply fst_pair in E.
    apply (wsz_ok _ _ _ (read_delta_size _ _ _ byte_rd_shrinks _ dtiled dtiled_push sz bs dtiled_empty) E).
  - unfold create_raw in E. destruct (raw_items (sn_raw A)) as [fi| | |]; cbn [bind] in E; try discriminate.
    destruct (create_deleted _ _ _) as [del| | |]; cbn [bind] in E; try discriminate.
    destruct (raw_items (sn_raw B)) as [ti| | |]; cbn [bind] in E; try discriminate.
    exact (create_updated_tiled _ _ _ _ (dtiled_empty del) E).
Qed.

(* applying an accepted delta to an accepted snapshot: linear in what the two hold *)
Theorem snap_read_with_delta_cost_accepted S d : snap_accepted S -> delta_accepted d ->
  peak (snap_read_with_delta_cost S d) <= 8 * (held (sn_raw S) + dheld d)
  /\ peak (raw_read_with_delta_cost (sn_raw S) d) <= 3 * (held (sn_raw S) + dheld d).
Proof.
  intros HS Hd. destruct (proj2 accepted_good S HS) as [G _]. pose proof (good_wsum _ (sg_raw _ G)) as Hw.
  pose proof (delta_accepted_tiled d Hd) as Ht. unfold dtiled in Ht.
  pose proof (runs_peak (snap_read_with_delta_m_runs S d)) as H1.
  pose proof (runs_peak (raw_read_with_delta_m_runs (sn_raw S) d)) as H2.
  unfold snap_read_with_delta_cost, raw_read_with_delta_cost, held, dheld.
  rewrite Hw in H1, H2. unfold wsum in H1, H2. lia.
Qed.
