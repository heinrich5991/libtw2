(* Arithmetic of the 10-bit sequence space and the shape lemmas for queues and packets. *)
From LibTw2 Require Import Base.Res Model.PacketTypes Model.ConnCore Model.LinkGhost.
From Coq Require Import ZArith Lia Bool List.
Open Scope Z_scope.
Ltac Zify.zify_post_hook ::= Z.div_mod_to_equations.

Lemma seqof_range i : 0 <= seqof i < SEQ_MOD.
Proof. unfold seqof, SEQ_MOD. apply Z.mod_pos_bound. lia. Qed.

Lemma seq_next_seqof n : seq_next (seqof n) = seqof (n + 1).
Proof. unfold seq_next, seqof, SEQ_MOD. lia. Qed.

(* no aliasing inside a window shorter than the sequence space *)
Lemma seqof_inj i j : seqof i = seqof j -> -1024 < i - j < 1024 -> i = j.
Proof. unfold seqof, SEQ_MOD. lia. Qed.

Lemma seq_compare_current x y : seq_compare x y = Current <-> x = y.
Proof.
  unfold seq_compare. destruct (x <? y) eqn:E1.
  - destruct (y - x <? SEQ_MOD / 2); split; intros H; try discriminate; lia.
  - destruct (y <? x) eqn:E2.
    + destruct (SEQ_MOD / 2 <? x - y); split; intros H; try discriminate; lia.
    + split; intros; [lia|reflexivity].
Qed.

Lemma seq_update_hit d i : seqof i = seqof (d + 1) -> seq_update (seqof d) (seqof i) = (seqof (d + 1), Current).
Proof.
  intros H. unfold seq_update. rewrite seq_next_seqof, H.
  assert (Hc : seq_compare (seqof (d + 1)) (seqof (d + 1)) = Current) by (apply seq_compare_current; reflexivity).
  rewrite Hc. reflexivity.
Qed.

Lemma seq_update_miss d s : s <> seqof (d + 1) ->
  exists o, seq_update (seqof d) s = (seqof d, o) /\ o <> Current.
Proof.
  intros H. unfold seq_update. rewrite seq_next_seqof.
  destruct (seq_compare (seqof (d + 1)) s) eqn:E.
  - eexists. split; [reflexivity|discriminate].
  - apply seq_compare_current in E. symmetry in E. contradiction.
  - eexists. split; [reflexivity|discriminate].
Qed.

(* the index a sequence number denotes inside the window (fn - 1024, fn] *)
Lemma idx_of_spec fn s i : fn - 1024 < i <= fn -> s = seqof i -> idx_of fn s = i.
Proof. unfold idx_of, seqof, SEQ_MOD. intros H ->. lia. Qed.

Lemma zlen_app {A} (a b : list A) : zlen (a ++ b) = zlen a + zlen b.
Proof. unfold zlen. rewrite app_length. lia. Qed.
Lemma zlen_nonneg {A} (l : list A) : 0 <= zlen l.
Proof. unfold zlen. lia. Qed.
Lemma zlen_cons {A} (x : A) l : zlen (x :: l) = zlen l + 1.
Proof. unfold zlen. cbn [length]. lia. Qed.

Lemma to_nat_zlen {A} (l : list A) : Z.to_nat (zlen l) = length l.
Proof. unfold zlen. apply Nat2Z.id. Qed.

Lemma subn_app_old sub x i : 1 <= i <= zlen sub -> subn (sub ++ x) i = subn sub i.
Proof.
  unfold subn, zlen. intros H. apply app_nth1. lia.
Qed.
Lemma subn_app_new sub x : subn (sub ++ [x]) (zlen sub + 1) = x.
Proof.
  unfold subn, zlen. replace (Z.to_nat (Z.of_nat (length sub) + 1 - 1)) with (length sub) by lia.
  rewrite app_nth2 by lia. rewrite Nat.sub_diag. reflexivity.
Qed.

Lemma firstn_app_old {A} (l m : list A) k : (k <= length l)%nat -> firstn k (l ++ m) = firstn k l.
Proof.
  intros H. rewrite firstn_app. replace (k - length l)%nat with 0%nat by lia. apply app_nil_r.
Qed.

Lemma firstn_snoc sub d : 0 <= d < zlen sub ->
  firstn (Z.to_nat d) sub ++ [subn sub (d + 1)] = firstn (Z.to_nat (d + 1)) sub.
Proof.
  unfold subn, zlen. intros H. replace (d + 1 - 1) with d by lia.
  replace (Z.to_nat (d + 1)) with (S (Z.to_nat d)) by lia.
  remember (Z.to_nat d) as k eqn:Ek. assert (Hk : (k < length sub)%nat) by lia. clear -Hk.
  revert k Hk. induction sub as [|x sub IH]; intros k Hk; [cbn in Hk; lia|].
  destruct k; cbn [firstn nth app]; [destruct sub; reflexivity|].
  f_equal. apply IH. cbn in Hk. lia.
Qed.

Lemma queue_is_len q : forall a n sub, queue_is q a n sub -> zlen q = n - a.
Proof.
  induction q as [|c q IH]; intros a n sub H; cbn [queue_is] in H.
  - subst. unfold zlen. cbn. lia.
  - destruct H as [_ [_ [_ H]]]. apply IH in H. rewrite zlen_cons. lia.
Qed.

Lemma queue_is_ext q : forall a n sub x, 0 <= a -> n <= zlen sub -> queue_is q a n sub -> queue_is q a n (sub ++ x).
Proof.
  induction q as [|c q IH]; intros a n sub x Ha Hn H; cbn [queue_is] in *; [exact H|].
  destruct H as [H1 [H2 [H3 H4]]]. repeat split; try assumption.
  - rewrite subn_app_old by lia. exact H3.
  - apply IH; try assumption; lia.
Qed.

Lemma queue_is_push q a sub x now : 0 <= a -> queue_is q a (zlen sub) sub ->
  queue_is ({| rc_next := now; rc_seq := seqof (zlen sub + 1); rc_data := x |} :: q) a (zlen sub + 1) (sub ++ [x]).
Proof.
  intros Ha H. cbn [queue_is rc_seq rc_data]. pose proof (queue_is_len _ _ _ _ H). pose proof (zlen_nonneg q).
  repeat split; try lia.
  - symmetry. apply subn_app_new.
  - replace (zlen sub + 1 - 1) with (zlen sub) by lia. apply queue_is_ext; try assumption; lia.
Qed.

Lemma queue_is_restart now q : forall a n sub, queue_is q a n sub -> queue_is (restart_timers now q) a n sub.
Proof.
  induction q as [|c q IH]; intros a n sub H; cbn [restart_timers map queue_is] in *; [exact H|].
  destruct H as [H1 [H2 [H3 H4]]]. cbn [rc_seq rc_data]. repeat split; try assumption. apply IH, H4.
Qed.

(* acknowledging chunk number c: everything up to c leaves the queue; an ack that is not in the
   window (already acknowledged) changes nothing *)
Lemma take_until_ack q : forall a n sub c,
  queue_is q a n sub -> n - a < 512 -> 0 <= c <= n -> n - c < 1024 ->
  (a < c -> exists q', take_until_seq q (seqof c) = Some q' /\ queue_is q' c n sub) /\
  (c <= a -> take_until_seq q (seqof c) = None).
Proof.
  induction q as [|e q IH]; intros a n sub c H Hw Hc Hd; cbn [queue_is take_until_seq] in *.
  - subst. split; [lia|reflexivity].
  - destruct H as [H1 [H2 [H3 H4]]]. rewrite H2.
    destruct (seqof n =? seqof c) eqn:E.
    + assert (n = c) by (apply seqof_inj; lia). subst c. split; [|lia].
      intros _. exists []. split; [reflexivity|]. cbn. reflexivity.
    + assert (Hne : n <> c) by (intros ->; lia).
      destruct (IH a (n - 1) sub c H4) as [IH1 IH2]; try lia.
      split.
      * intros Hac. destruct (IH1 Hac) as [q' [Hq Hq']]. rewrite Hq. eexists. split; [reflexivity|].
        cbn [queue_is]. repeat split; try assumption; lia.
      * intros Hca. rewrite (IH2 Hca). reflexivity.
Qed.

(* the queue read from the back: chunks a+1, a+2, ..., n *)
Lemma queue_is_rev q : forall a n sub, queue_is q a n sub ->
  forall k c, nth_error (rev q) k = Some c ->
  rc_seq c = seqof (a + 1 + Z.of_nat k) /\ rc_data c = subn sub (a + 1 + Z.of_nat k) /\ a + 1 + Z.of_nat k <= n.
Proof.
  induction q as [|e q IH]; intros a n sub H k c Hk; cbn [rev] in Hk.
  - destruct k; discriminate.
  - cbn [queue_is] in H. destruct H as [H1 [H2 [H3 H4]]].
    pose proof (queue_is_len _ _ _ _ H4) as Hl. unfold zlen in Hl.
    destruct (Nat.lt_ge_cases k (length (rev q))) as [Hlt|Hge].
    + rewrite nth_error_app1 in Hk by exact Hlt. destruct (IH _ _ _ H4 k c Hk) as [A [B C]].
      repeat split; try assumption; lia.
    + rewrite nth_error_app2 in Hk by exact Hge. rewrite rev_length in *.
      destruct (k - length q)%nat eqn:Ek; [|destruct n0; discriminate].
      cbn in Hk. injection Hk as <-. assert (Z.of_nat k = n - 1 - a) by lia.
      replace (a + 1 + Z.of_nat k) with n by lia. repeat split; try assumption; lia.
Qed.
