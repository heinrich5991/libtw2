(* Both ends of the 0.6 link use the same token: an invariant of every admissible history (the
   acceptor draws the token once, the connector learns it from the ConnectAccept). Needed for
   progress (C02): datagrams with the wrong token are ignored. *)
From LibTw2 Require Import Base.Res Model.PacketTypes Model.ConnCore Model.Conn6 Model.LinkGhost Model.Link6
  Proofs.ConnCoreInv Proofs.Conn6Inv Proofs.LinkArith Proofs.LinkCore Proofs.Link6Inv Proofs.ConnProgress
  Proofs.Link6Heal.
From Coq Require Import ZArith Lia Bool List.
Open Scope Z_scope.

Definition move (fed : option dgram) (st st' : state6) : Prop :=
  match st, st' with
  | Unconnected, Unconnected | Connecting, Connecting => True
  | Pending t, Pending t' => t' = t
  | Online o, Online o' => o_own o' = o_own o
  | Pending t, Online o' => o_own o' = t
  | Unconnected, Connecting => True
  | Unconnected, Pending _ => exists tk a r, fed = Some (DControl tk a (Connect r))
  | Connecting, Online o' => exists a, fed = Some (DControl (o_own o') a ConnectAccept)
  | _, Disconnected => True
  | _, _ => False
  end.

Definition keep (st st' : state6) : Prop :=
  match st, st' with
  | Online o, Online o' => o_own o' = o_own o
  | _, _ => st' = st
  end.

Lemma keep_refl st : keep st st.
Proof. destruct st; reflexivity. Qed.

Lemma keep_move fed st st' : keep st st' -> move fed st st'.
Proof.
  destruct st, st'; cbn; intros H; try discriminate H; try exact I; try exact H.
  injection H as ->. reflexivity.
Qed.

(* a ConnectAccept carries the sender's pending token; a Connect comes from a connecting endpoint *)
Definition ctl_ok (st' : state6) (d : dgram) : Prop :=
  match d with
  | DControl tk _ ConnectAccept => st' = Pending tk
  | DControl _ _ (Connect _) => st' = Connecting
  | _ => True
  end.

Lemma benign_ctl st ds : Forall benign ds -> Forall (ctl_ok st) ds.
Proof.
  apply Forall_impl. intros d.
  destruct d as [t1 t2 p|tk a c|tk a rr n cs]; cbn; try (intros; exact I). destruct c; cbn; intros H; try exact I; contradiction.
Qed.

Lemma move_keep fed a b c : move fed a b -> keep b c -> move fed a c.
Proof.
  intros M K. destruct b as [| |t|o|]; try (cbn in K; rewrite K; exact M).
  destruct c as [| |t'|o'|]; try discriminate K. cbn in K.
  destruct a; cbn in M |- *; try contradiction; rewrite K; exact M.
Qed.

(* The lemmas before feed_moves have one shape: the state has moved legally so far, and the call ends
   in the given way; then the whole call is a legal move and what it sends is in order. *)

Lemma quiet_moves fed st c e evs ws r out : move fed st (c_state c) ->
  Ok (mk c e [] evs ws r) = (Ok out : res unit outcome) ->
  move fed st (c_state (out_conn out)) /\ Forall (ctl_ok (c_state (out_conn out))) (out_sent out).
Proof. intros M H. injection H as <-. split; [exact M|constructor]. Qed.

(* one control datagram; a pending endpoint puts its pending token on it *)
Lemma control_moves fed st st0 ctl c e evs r out :
  (forall tk a, (forall t, st0 = Pending t -> tk = t) -> ctl_ok (c_state c) (DControl tk a ctl)) ->
  move fed st (c_state c) ->
  (let* d := send_control st0 ctl in Ok (mk c e d evs [] r)) = Ok out ->
  move fed st (c_state (out_conn out)) /\ Forall (ctl_ok (c_state (out_conn out))) (out_sent out).
Proof.
  intros Hc M H. unfold send_control in H.
  destruct st0 as [| |t|o|]; try discriminate H;
    (destruct (MAX_PACKETSIZE <? _); [discriminate H|]); injection H as <-;
    (split; [exact M|]); (constructor; [|constructor]); apply Hc; intros t' E; try discriminate E.
  injection E as <-. reflexivity.
Qed.

(* the endpoint stays online with its token, and sends only chunks *)
Lemma online_moves fed st o o' sd e ds evs r out :
  o_own o' = o_own o /\ o_their o' = o_their o /\ Forall benign ds -> move fed st (Online o) ->
  Ok (mk {| c_state := Online o'; c_send := sd |} e ds evs [] r) = (Ok out : res unit outcome) ->
  move fed st (c_state (out_conn out)) /\ Forall (ctl_ok (c_state (out_conn out))) (out_sent out).
Proof.
  intros [E [_ B]] M H. injection H as <-. split; [exact (move_keep _ _ _ (Online o') M E)|apply benign_ctl, B].
Qed.

Lemma tick_action_moves fed st c e out : move fed st (c_state c) -> tick_action c e = Ok out ->
  move fed st (c_state (out_conn out)) /\ Forall (ctl_ok (c_state (out_conn out))) (out_sent out).
Proof.
  destruct c as [st1 sd]. unfold tick_action. cbn [c_state]. intros M.
  destruct st1 as [| |t|o|]; try apply quiet_moves, M.
  - apply control_moves; [|exact M]. intros tk a _. reflexivity.
  - apply control_moves; [|exact M]. intros tk a E. rewrite (E t eq_refl). reflexivity.
  - destruct (can_send o); [|apply control_moves; [|exact M]; intros tk a _; exact I].
    destruct (online_flush params6 o) as [[o' d]| | |] eqn:Ef; cbn [bind]; try discriminate.
    apply flush_toks in Ef. eapply online_moves; [exact Ef|exact M].
Qed.

Lemma ack_keep st ack : keep st (match st with Unconnected => Unconnected | Connecting => Connecting | Pending t0 => Pending t0 | Online o => Online (ack_chunks o ack) | Disconnected => Disconnected end).
Proof. destruct st; cbn; try reflexivity. apply ack_chunks_toks. Qed.

Lemma resend_or_not (rr : bool) o sd e c3 sent :
  (if rr then do_resend {| c_state := Online o; c_send := sd |} e o
   else Ok ({| c_state := Online o; c_send := sd |}, [])) = Ok (c3, sent) ->
  exists o3, c_state c3 = Online o3 /\ o_own o3 = o_own o /\ o_their o3 = o_their o /\ Forall benign sent.
Proof.
  destruct rr; intros H.
  - unfold do_resend in H.
    destruct (online_resend params6 (e_now e) o) as [[[o3 ds] ts]| | |] eqn:Er; cbn [bind] in H; try discriminate H.
    injection H as <- <-. exists o3. split; [reflexivity|exact (resend_toks _ _ _ _ _ _ Er)].
  - injection H as <- <-. exists o. split; [reflexivity|]. split; [reflexivity|]. split; [reflexivity|constructor].
Qed.

(* what feed does with the chunks of a datagram once the endpoint is online *)
Lemma chunks_moves fed st o sd (rr : bool) e cs out : move fed st (Online o) ->
  (let* (c3, sent) := (if rr then do_resend {| c_state := Online o; c_send := sd |} e o
                       else Ok ({| c_state := Online o; c_send := sd |}, [])) in
   match c_state c3 with
   | Online o3 =>
     let* (ack', rr', evs) := recv_chunks (o_ack o3) (o_rr o3) cs in
     Ok (mk {| c_state := Online (o_set_ack o3 ack' rr'); c_send := c_send c3 |} e sent evs [] ROk)
   | _ => Ok (mk c3 e sent [] [] ROk)
   end) = Ok out ->
  move fed st (c_state (out_conn out)) /\ Forall (ctl_ok (c_state (out_conn out))) (out_sent out).
Proof.
  intros M. destruct (if rr then _ else _) as [[c3 sent]| | |] eqn:Er; cbn [bind]; try discriminate.
  apply resend_or_not in Er as [o3 [E0 T]]. rewrite E0.
  destruct (recv_chunks (o_ack o3) (o_rr o3) cs) as [[[ack' rr'] evs]| | |]; cbn [bind]; try discriminate.
  eapply online_moves; [exact T|exact M].
Qed.

Lemma feed_moves c e d out : feed c e d = Ok out ->
  move (Some d) (c_state c) (c_state (out_conn out)) /\ Forall (ctl_ok (c_state (out_conn out))) (out_sent out).
Proof.
  destruct c as [st sd]. unfold feed. cbn [c_state c_send].
  assert (Hsame : move (Some d) st st) by apply keep_move, keep_refl.
  pose proof (fun ack => keep_move (Some d) _ _ (ack_keep st ack)) as Hack.
  destruct d as [t1 t2 pl|tk ack ctl|tk ack rr n cs].
  - apply quiet_moves, Hsame.
  - cbn [dgram_tok dgram_ack].
    destruct (match state_token st with Some expected => negb (tok_eqb tk expected) | None => false end);
      [apply quiet_moves, Hsame|].
    destruct ((ack <? 0) || (SEQ_MOD <=? ack)); [discriminate|].
    destruct ctl as [|resp| | |reason|resp]; try apply quiet_moves, (Hack ack).
    + destruct st as [| |t|o|]; try apply quiet_moves, (Hack ack).
      assert (Hp : forall t, move (Some (DControl tk ack (Connect resp))) Unconnected (Pending t)).
      { intros t. exists tk, ack, resp. reflexivity. }
      destruct tk as [tk|]; [|apply tick_action_moves, Hp].
      destruct (list_eq_dec Z.eq_dec tk TOKEN_NONE); [|apply quiet_moves, (Hack ack)].
      destruct (token_random (e_rand e)) as [[nt rnd']| | |]; cbn [bind]; try discriminate. apply tick_action_moves, Hp.
    + destruct st as [| |t|o|]; try apply quiet_moves, (Hack ack).
      apply control_moves; [intros tk' a' _; exact I|]. exists ack. reflexivity.
    + apply quiet_moves. destruct st; exact I.
  - cbn [dgram_tok dgram_ack].
    destruct (match state_token st with Some expected => negb (tok_eqb tk expected) | None => false end);
      [apply quiet_moves, Hsame|].
    destruct ((ack <? 0) || (SEQ_MOD <=? ack)); [discriminate|].
    destruct st as [| |t|o|]; cbn [c_state]; try apply quiet_moves, Hsame.
    + apply chunks_moves. reflexivity.
    + apply chunks_moves, (Hack ack).
Qed.

Lemma app_moves c e op out : app_op op -> step c e op = Ok out ->
  move None (c_state c) (c_state (out_conn out)) /\ Forall (ctl_ok (c_state (out_conn out))) (out_sent out).
Proof.
  destruct c as [st sd]. intros Ha. unfold step. cbn [c_state c_send].
  destruct op as [|data vital| | |reason|data|d| |]; try contradiction.
  - destruct st; try discriminate. apply tick_action_moves. exact I.
  - destruct st as [| |t|o|]; try discriminate.
    destruct (online_send params6 (e_now e) o data vital) as [[[o' ds] r]| | |] eqn:Es; cbn [bind]; try discriminate.
    apply send_toks in Es. eapply online_moves; [exact Es|reflexivity].
  - destruct st as [| |t|o|]; try discriminate.
    destruct (online_flush params6 o) as [[o' ds]| | |] eqn:Ef; cbn [bind]; try discriminate.
    apply flush_toks in Ef. eapply online_moves; [exact Ef|reflexivity].
  - destruct (match st with
              | Online o => match queue_back (o_queue o) with Some rc => triggered (rc_next rc) (e_now e) | None => false end
              | _ => false end) eqn:Ers.
    + destruct st as [| |t|o|]; try discriminate Ers. unfold do_resend.
      destruct (online_resend params6 (e_now e) o) as [[[o' ds] ts]| | |] eqn:Er; cbn [bind]; try discriminate.
      apply resend_toks in Er. eapply online_moves; [exact Er|reflexivity].
    + destruct (triggered sd (e_now e)); [|apply quiet_moves, keep_move, keep_refl].
      apply tick_action_moves, keep_move, keep_refl.
  - destruct st as [| |t|o|]; try discriminate; (destruct (existsb _ reason); [discriminate|]);
      (apply control_moves; [intros tk a _|]; exact I).
  - destruct st as [| |t|o|]; try discriminate.
    destruct (MAX_PAYLOAD <? _); intros H; injection H as <-; cbn; (split; [reflexivity|]); repeat constructor.
Qed.

Definition later (st : state6) : Prop :=
  match st with Connecting | Online _ | Disconnected => True | _ => False end.

(* x: an endpoint, y: its peer, bagy: the datagrams y has sent *)
Record pair_inv (x y : state6) (bagy : list flight) : Prop := {
  pj_ca : forall f tk a, In f bagy -> f_d f = DControl tk a ConnectAccept ->
          match y with Pending t => tk = t | Online o => o_own o = tk | Disconnected => True | _ => False end;
  pj_co : forall f tk a r, In f bagy -> f_d f = DControl tk a (Connect r) -> later y;
  pj_pend : forall t, x = Pending t -> later y;
  pj_on : forall ox, x = Online ox ->
          match y with Pending t => o_own ox = t | Online oy => o_own ox = o_own oy | Unconnected => False | _ => True end;
}.

Lemma later_move fed z z' : later z -> move fed z z' -> later z'.
Proof. destruct z, z'; cbn; intros H M; try contradiction; exact I. Qed.

Lemma tok_pair_step (z p : state6) (bagz bagp : list flight) z' new fed :
  pair_inv p z bagz -> pair_inv z p bagp ->
  move fed z z' -> Forall (fun f => ctl_ok z' (f_d f)) new ->
  (forall d, fed = Some d -> exists f, In f bagp /\ f_d f = d) ->
  pair_inv p z' (bagz ++ new) /\ pair_inv z' p bagp.
Proof.
  intros [A1 A2 A3 A4] [B1 B2 B3 B4] M Hnew Hfed. rewrite Forall_forall in Hnew. split; constructor.
  - intros f tk a Hin Hd. apply in_app_or in Hin as [Hin|Hin].
    + specialize (A1 f tk a Hin Hd). destruct z, z'; cbn in *; try contradiction; try exact I; congruence.
    + specialize (Hnew f Hin). rewrite Hd in Hnew. cbn in Hnew. rewrite Hnew. reflexivity.
  - intros f tk a r Hin Hd. apply in_app_or in Hin as [Hin|Hin].
    + eapply later_move; [eapply A2; eassumption|exact M].
    + specialize (Hnew f Hin). rewrite Hd in Hnew. cbn in Hnew. rewrite Hnew. exact I.
  - intros t Hp. eapply later_move; [eapply A3, Hp|exact M].
  - intros op Hp. specialize (A4 op Hp).
    destruct z as [| |t|oz|], z' as [| |t'|oz'|]; cbn in *; try contradiction; try exact I; try congruence.
    destruct M as [a Ha]. destruct (Hfed _ Ha) as [f [Hin Hd]].
    specialize (B1 f _ _ Hin Hd). rewrite Hp in B1. exact B1.
  - exact B1.
  - exact B2.
  - intros t' Hz'. subst z'. destruct z as [| |t|oz|]; cbn in M; try contradiction.
    + destruct M as [tk [a [r Hf]]]. destruct (Hfed _ Hf) as [f [Hin Hd]]. eapply B2; eassumption.
    + eapply B3. reflexivity.
  - intros o' Hz'. subst z'. destruct z as [| |t|oz|]; cbn in M; try contradiction.
    + destruct M as [a Ha]. destruct (Hfed _ Ha) as [f [Hin Hd]]. specialize (B1 f _ _ Hin Hd).
      destruct p; try contradiction; try exact I; congruence.
    + specialize (B3 t eq_refl). destruct p as [| |tp|op|]; cbn in B3; try contradiction; try exact I.
      specialize (A4 op eq_refl). cbn in A4. congruence.
    + specialize (B4 oz eq_refl). destruct p; try contradiction; try exact I; congruence.
Qed.

Lemma pair_inv_incl x y bag bag' : pair_inv x y bag -> incl bag' bag -> pair_inv x y bag'.
Proof.
  intros [A1 A2 A3 A4] Hi. constructor; try assumption.
  - intros f tk a Hin. apply A1, Hi, Hin.
  - intros f tk a r Hin. eapply A2, Hi, Hin.
Qed.

Definition tok_inv (w : link) : Prop :=
  pair_inv (c_state (l_conn (k_a w))) (c_state (l_conn (k_b w))) (k_ba w) /\
  pair_inv (c_state (l_conn (k_b w))) (c_state (l_conn (k_a w))) (k_ab w).

Lemma tok_inv_new ra rb : tok_inv (link_new ra rb).
Proof.
  split; constructor; cbn; try (intros; contradiction); intros; discriminate.
Qed.

Lemma remove_nth_incl {A} k (l : list A) : incl (remove_nth k l) l.
Proof.
  revert k. induction l as [|x l IH]; intros k; destruct k; cbn; try apply incl_refl.
  - apply incl_tl, incl_refl.
  - intros y [<-|H]; [left; reflexivity|right; apply (IH k), H].
Qed.

Lemma tok_side_step now z op z' fl (p : state6) bagz bagp :
  side_step now z op = Ok (z', fl) ->
  (app_op op \/ exists f, In f bagp /\ op = OpFeed (f_d f)) ->
  pair_inv p (c_state (l_conn z)) bagz -> pair_inv (c_state (l_conn z)) p bagp ->
  pair_inv p (c_state (l_conn z')) (bagz ++ fl) /\ pair_inv (c_state (l_conn z')) p bagp.
Proof.
  intros H Hop P1 P2. apply side_step_inv in H as [out [Hs [-> ->]]].
  change (l_conn (after z op out)) with (out_conn out).
  destruct Hop as [Ha|[f [Hin ->]]].
  - destruct (app_moves _ _ _ _ Ha Hs) as [M S].
    eapply (tok_pair_step _ p bagz bagp _ _ None P1 P2 M); [|intros d Hd; discriminate Hd].
    apply Forall_map. exact S.
  - unfold step in Hs. destruct (feed_moves _ _ _ _ Hs) as [M S].
    eapply (tok_pair_step _ p bagz bagp _ _ _ P1 P2 M); [apply Forall_map; exact S|].
    intros d Hd. injection Hd as <-. exists f. split; [exact Hin|reflexivity].
Qed.

Lemma tok_inv_at w s : tok_inv w <->
  pair_inv (c_state (l_conn (get w (other s)))) (c_state (l_conn (get w s))) (bag w s) /\
  pair_inv (c_state (l_conn (get w s))) (c_state (l_conn (get w (other s)))) (bag w (other s)).
Proof. unfold tok_inv. destruct s; cbn [get bag other]; tauto. Qed.

Theorem tok_inv_step w l w' : tok_inv w -> admissible w l -> link_step w l = Ok w' -> tok_inv w'.
Proof.
  intros Hi Hadm Hs. destruct l as [s o|dt|from k|from k]; cbn [link_step] in Hs.
  - destruct Hadm as [Happ _].
    destruct (side_step (k_now w) (get w s) o) as [[z' fl]| | |] eqn:E; try discriminate. injection Hs as <-.
    apply (tok_inv_at _ s) in Hi as [P1 P2]. apply (tok_inv_at _ s).
    rewrite get_set_same, get_set_other, bag_set_same, bag_set_other.
    exact (tok_side_step _ _ _ _ _ _ _ _ E (or_introl Happ) P1 P2).
  - injection Hs as <-. exact Hi.
  - destruct (nth_error (bag w from) k) as [f|] eqn:Ek; [|injection Hs as <-; exact Hi].
    destruct (side_step (k_now w) (get w (other from)) (OpFeed (f_d f))) as [[z' fl]| | |] eqn:E; try discriminate.
    injection Hs as <-. apply nth_error_In in Ek.
    apply (tok_inv_at _ (other from)) in Hi as [P1 P2]. apply (tok_inv_at _ (other from)).
    rewrite get_set_same, get_set_other, bag_set_same, bag_set_other. rewrite other_other in *.
    exact (tok_side_step _ _ _ _ _ _ _ _ E (or_intror (ex_intro _ f (conj Ek eq_refl))) P1 P2).
  - injection Hs as <-. apply (tok_inv_at _ from) in Hi as [P1 P2]. apply (tok_inv_at _ from).
    destruct from; (split; [eapply pair_inv_incl; [exact P1|apply remove_nth_incl]|exact P2]).
Qed.

Theorem tok_inv_run ls : forall w w', tok_inv w -> admissible_run w ls -> link_run w ls = Ok w' -> tok_inv w'.
Proof.
  induction ls as [|l ls IH]; intros w w' Hi Ha Hr; cbn [admissible_run link_run] in *.
  - injection Hr as <-. exact Hi.
  - destruct Ha as [Ha1 Ha2]. destruct (link_step w l) as [w1| | |] eqn:E; try discriminate.
    eapply IH; [eapply tok_inv_step; eassumption|exact Ha2|exact Hr].
Qed.

Theorem tokens_agree ra rb ls w oa ob :
  admissible_run (link_new ra rb) ls -> link_run (link_new ra rb) ls = Ok w ->
  c_state (l_conn (k_a w)) = Online oa -> c_state (l_conn (k_b w)) = Online ob -> o_own oa = o_own ob.
Proof.
  intros Ha Hr Hoa Hob. destruct (tok_inv_run ls _ w (tok_inv_new ra rb) Ha Hr) as [PA _].
  pose proof (pj_on _ _ _ PA oa Hoa) as H. rewrite Hob in H. exact H.
Qed.
