(* C14: string_from_int / int_from_string — printing an i32 in decimal and parsing it back *)
From LibTw2 Require Import Base.Res Model.Varint Model.Packer Model.Codec.
From Coq Require Import ZArith Lia Bool List ZifyBool.
Open Scope Z_scope.

Lemma parse_digits_app neg : forall s1 acc s2,
  parse_digits neg acc (s1 ++ s2) =
  match parse_digits neg acc s1 with Some a => parse_digits neg a s2 | None => None end.
Proof.
  induction s1 as [|d s1 IH]; intros acc s2; cbn [app parse_digits]; [reflexivity|].
  destruct (is_digit d); [|reflexivity].
  destruct (is_i32 _); [apply IH|reflexivity].
Qed.

(* one more digit d behind the accumulator; the accumulator of a negative number is negative *)
Lemma parse_digit (neg : bool) acc d : 0 <= d < 10 -> is_i32 (acc * 10 + (if neg then - d else d)) = true ->
  parse_digits neg acc [48 + d] = Some (acc * 10 + (if neg then - d else d)).
Proof.
  intros Hd Hi. cbn [parse_digits]. unfold is_digit.
  replace ((48 <=? 48 + d) && (48 + d <=? 57)) with true by lia.
  replace (48 + d - 48) with d by lia. rewrite <- Z.add_opp_r. destruct neg; rewrite Hi; reflexivity.
Qed.

Lemma parse_digits_of (neg : bool) fuel : forall n, 0 <= n < 10 ^ Z.of_nat fuel ->
  is_i32 (if neg then - n else n) = true ->
  parse_digits neg 0 (digits_of fuel n) = Some (if neg then - n else n).
Proof.
  induction fuel as [|f IH]; intros n Hn Hi.
  - assert (n = 0) by (cbn in Hn; lia). subst. destruct neg; reflexivity.
  - cbn [digits_of]. destruct (n <? 10) eqn:E.
    + rewrite parse_digit by (lia || exact Hi). reflexivity.
    + rewrite Nat2Z.inj_succ, Z.pow_succ_r in Hn by lia.
      pose proof (Z.div_mod n 10 ltac:(lia)) as Hdm. pose proof (Z.mod_pos_bound n 10 ltac:(lia)) as Hr.
      assert (Hq : 0 <= n / 10 < 10 ^ Z.of_nat f) by lia.
      unfold is_i32, i32_min, i32_max in *.
      rewrite parse_digits_app, IH by (destruct neg; lia).
      rewrite parse_digit by (unfold is_i32, i32_min, i32_max; destruct neg; lia).
      destruct neg; f_equal; lia.
Qed.

Definition dig_ok (s : bytes) : bool := forallb is_digit s.

Lemma digits_of_ok fuel : forall n, 0 <= n -> dig_ok (digits_of fuel n) = true.
Proof.
  unfold dig_ok. induction fuel as [|f IH]; intros n Hn; cbn [digits_of]; [reflexivity|].
  destruct (n <? 10) eqn:E; [|rewrite forallb_app, IH by (apply Z.div_pos; lia)];
    cbn [forallb andb]; unfold is_digit; pose proof (Z.mod_pos_bound n 10); lia.
Qed.

Lemma digits_of_nonempty fuel n : digits_of (S fuel) n <> [].
Proof.
  cbn [digits_of]. destruct (n <? 10); [discriminate|].
  intros H. apply app_eq_nil in H as [_ H]. discriminate.
Qed.

Lemma parse_int_digits s : s <> [] -> dig_ok s = true -> parse_int s = parse_digits false 0 s.
Proof.
  destruct s as [|d s]; [contradiction|]. intros _ H. apply andb_true_iff in H as [H _].
  unfold is_digit in H. cbn [parse_int].
  replace (d =? 43) with false by lia. replace (d =? 45) with false by lia. reflexivity.
Qed.

Theorem parse_print_int v : is_i32 v = true -> parse_int (print_int v) = Some v.
Proof.
  intros Hv. assert (Hr : - 10 ^ 10 < v < 10 ^ 10) by (unfold is_i32, i32_min, i32_max in Hv; lia).
  change (10 ^ 10) with (10 ^ Z.of_nat 10) in Hr.
  unfold print_int. destruct (v <? 0) eqn:E.
  - pose proof (digits_of_nonempty 9 (- v)) as Hne. cbn [parse_int Z.eqb Pos.eqb].
    destruct (digits_of 10 (- v)) eqn:Ed; [contradiction|]. rewrite <- Ed.
    rewrite <- (Z.opp_involutive v) at 2. rewrite <- (Z.opp_involutive v) in Hv.
    apply (parse_digits_of true); [lia|exact Hv].
  - rewrite parse_int_digits by (apply digits_of_nonempty || (apply digits_of_ok; lia)).
    apply (parse_digits_of false); [lia|exact Hv].
Qed.

Lemma digit_str d : is_digit d = true -> (d =? 0) = false /\ byte_ok d = true.
Proof. unfold is_digit, byte_ok. lia. Qed.

Lemma dig_ok_str s : dig_ok s = true -> has_nul s = false /\ bytes_ok s = true.
Proof.
  unfold dig_ok, has_nul, bytes_ok. induction s as [|d s IH]; cbn [forallb existsb]; intros H; [split; reflexivity|].
  apply andb_true_iff in H as [Hd Hs]. destruct (digit_str d Hd) as [-> ->]. exact (IH Hs).
Qed.

Lemma print_int_str v : has_nul (print_int v) = false /\ bytes_ok (print_int v) = true.
Proof.
  unfold print_int. destruct (v <? 0) eqn:E; [|apply dig_ok_str, digits_of_ok; lia].
  destruct (dig_ok_str _ (digits_of_ok 10 (- v) ltac:(lia))) as [H1 H2].
  unfold has_nul, bytes_ok in *. cbn [existsb forallb]. rewrite H1, H2. split; reflexivity.
Qed.
