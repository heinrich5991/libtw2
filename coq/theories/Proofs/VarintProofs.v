(* Theorems about the varint codec, proved on the arithmetic forms and
   transported to the bit-level model by read_int_arith / write_int_arith. *)
From LibTw2 Require Import Base.Res Base.Bits Model.Varint Proofs.VarintArith.
From Coq Require Import ZArith Lia Bool List ZifyBool.
Open Scope Z_scope.

Lemma bytes_ok_app a b : bytes_ok a = true -> bytes_ok b = true -> bytes_ok (a ++ b) = true.
Proof. unfold bytes_ok. intros Ha Hb. rewrite forallb_app, Ha, Hb. reflexivity. Qed.

Lemma write_groups_ok n : forall q, 0 <= q < 256 * 128 ^ Z.of_nat n -> bytes_ok (write_groups n q) = true.
Proof.
  unfold bytes_ok, byte_ok. induction n as [|n IH]; intros q Hq; cbn [write_groups].
  - cbn [forallb]. change (128 ^ Z.of_nat 0) with 1 in Hq. lia.
  - rewrite Nat2Z.inj_succ, Z.pow_succ_r in Hq by lia.
    destruct (q <? 128) eqn:E; cbn [forallb]; [lia|].
    rewrite IH by (Z.div_mod_to_equations; lia). Z.div_mod_to_equations; lia.
Qed.

Lemma write_int_a_bytes_ok v : is_i32 v = true -> bytes_ok (write_int_a v) = true.
Proof.
  intros Hv. pose proof (mag_range v Hv) as Hm. rewrite write_int_a_groups.
  pose proof (sgn_range v) as Hs.
  unfold bytes_ok, byte_ok. destruct (mag v <? 64) eqn:E; cbn [forallb]; [lia|].
  fold byte_ok. fold (bytes_ok (write_groups 3 (mag v / 64))).
  rewrite write_groups_ok by (change (128 ^ Z.of_nat 3) with 2097152; Z.div_mod_to_equations; lia).
  Z.div_mod_to_equations; lia.
Qed.

Lemma write_int_a_length v : 1 <= Z.of_nat (length (write_int_a v)) <= 5.
Proof.
  unfold write_int_a.
  destruct (mag v <? 64); [cbn [length]; lia|].
  destruct (mag v <? 8192); [cbn [length]; lia|].
  destruct (mag v <? 1048576); [cbn [length]; lia|].
  destruct (mag v <? 134217728); cbn [length]; lia.
Qed.

(* below 2^31 the sign flag flips every bit *)
Lemma fin_small s m : 0 <= m < 2147483648 -> fin s m = if s =? 1 then - m - 1 else m.
Proof.
  intros Hm. unfold fin, i32_of, all_ones32, two31, two32. destruct (s =? 1).
  - replace (4294967295 - m <? 2147483648) with false by lia. lia.
  - replace (m <? 2147483648) with true by lia. reflexivity.
Qed.

Lemma fin_mag v : is_i32 v = true -> fin (sgn v) (mag v) = v.
Proof.
  intros Hv. rewrite fin_small by (apply mag_range, Hv). unfold sgn, mag.
  destruct (v <? 0) eqn:E; cbn [Z.eqb Pos.eqb]; lia.
Qed.

Lemma mag_sgn_fin s m : s = 0 \/ s = 1 -> 0 <= m < 2147483648 ->
  mag (fin s m) = m /\ sgn (fin s m) = s.
Proof.
  intros Hs Hm. rewrite fin_small by exact Hm. unfold mag, sgn. destruct Hs as [-> | ->]; cbn [Z.eqb Pos.eqb].
  - replace (m <? 0) with false by lia. split; reflexivity.
  - replace (- m - 1 <? 0) with true by lia. split; [lia|reflexivity].
Qed.

Lemma fin_is_i32 s m : 0 <= m < 4294967296 -> is_i32 (fin s m) = true.
Proof.
  unfold is_i32, i32_min, i32_max, fin, i32_of, all_ones32, two31, two32. intros Hm.
  destruct (s =? 1).
  - destruct (4294967295 - m <? 2147483648) eqn:E; lia.
  - destruct (m <? 2147483648) eqn:E; lia.
Qed.

(* the first byte: extend flag e, sign s, six low bits l *)
Lemma first_byte e s l b : b = 128 * e + 64 * s + l -> 0 <= e <= 1 -> 0 <= s <= 1 -> 0 <= l < 64 ->
  (b <? 128) = (e =? 0) /\ (b / 64) mod 2 = s /\ b mod 64 = l.
Proof. intros -> He Hs Hl. Z.div_mod_to_equations. lia. Qed.

Lemma ext_byte l : 0 <= l < 128 -> (128 + l <? 128) = false /\ (128 + l) mod 128 = l.
Proof. intros Hl. Z.div_mod_to_equations. lia. Qed.

Lemma read_write_groups n : forall w s m q rest, 0 < q < 16 * 128 ^ Z.of_nat n ->
  read_groups n w s m (write_groups n q ++ rest) = Ok (fin s (m + q * w), [], rest).
Proof.
  induction n as [|n IH]; intros w s m q rest Hq; cbn [write_groups].
  - change (128 ^ Z.of_nat 0) with 1 in Hq. cbn [app read_groups].
    rewrite Z.mod_small, ovl_nonzero by lia. replace (q <? 16) with true by lia. reflexivity.
  - rewrite Nat2Z.inj_succ, Z.pow_succ_r in Hq by lia. destruct (q <? 128) eqn:E; cbn [app read_groups].
    + rewrite E, Z.mod_small, ovl_nonzero by lia. reflexivity.
    + destruct (ext_byte (q mod 128)) as [-> ->]; [apply Z.mod_pos_bound; lia|].
      assert (Hs : m + q mod 128 * w + q / 128 * (w * 128) = m + q * w)
        by (rewrite (Z.div_mod q 128) at 3 by lia; ring).
      rewrite IH, Hs by (Z.div_mod_to_equations; lia). reflexivity.
Qed.

Theorem roundtrip_a v rest : is_i32 v = true ->
  read_int_a (write_int_a v ++ rest) = Ok (v, [], rest).
Proof.
  intros Hv. rewrite <- (fin_mag v Hv) at 2. pose proof (mag_range v Hv) as Hm.
  pose proof (sgn_range v) as Hs.
  rewrite write_int_a_groups. destruct (mag v <? 64) eqn:E; cbn [app]; rewrite read_int_a_groups.
  - destruct (first_byte 0 (sgn v) (mag v) (64 * sgn v + mag v)) as (-> & -> & ->); try lia. reflexivity.
  - pose proof (Z.mod_pos_bound (mag v) 64 eq_refl).
    destruct (first_byte 1 (sgn v) (mag v mod 64) (128 + 64 * sgn v + mag v mod 64)) as (-> & -> & ->); try lia. cbn [Z.eqb].
    rewrite read_write_groups by (change (128 ^ Z.of_nat 3) with 2097152; Z.div_mod_to_equations; lia).
    replace (mag v mod 64 + mag v / 64 * 64) with (mag v) by (Z.div_mod_to_equations; lia). reflexivity.
Qed.

Theorem varint_roundtrip v rest : is_i32 v = true -> bytes_ok rest = true ->
  exists bs, write_int v = Ok bs
    /\ read_int (bs ++ rest) = Ok (v, [], rest)
    /\ (1 <= length bs <= 5)%nat.
Proof.
  intros Hv Hr. exists (write_int_a v). split; [apply write_int_arith, Hv|]. split.
  - rewrite read_int_arith by (apply bytes_ok_app; [apply write_int_a_bytes_ok, Hv|exact Hr]).
    apply roundtrip_a, Hv.
  - pose proof (write_int_a_length v). lia.
Qed.

Definition all_ext (bs : bytes) : bool := forallb (fun b => 128 <=? b) bs.

Lemma read_groups_fails_iff n : forall w s m bs,
  read_groups n w s m bs = Err tt <-> ((length bs <= n)%nat /\ all_ext bs = true).
Proof.
  unfold all_ext. induction n as [|n IH]; intros w s m [|b r]; cbn [read_groups forallb length].
  1, 3: split; [intros _; split; [lia|reflexivity]|reflexivity].
  - split; [discriminate|lia].
  - destruct (b <? 128) eqn:E.
    + split; [discriminate|]. intros [_ H]. lia.
    + rewrite IH. replace (128 <=? b) with true by lia. cbn [andb]. split; intros [H1 H2]; (split; [lia|exact H2]).
Qed.

Theorem read_int_a_fails_iff bs :
  read_int_a bs = Err tt <-> ((length bs < 5)%nat /\ all_ext bs = true).
Proof.
  destruct bs as [|b0 r0]; [cbn; split; [split; [lia|reflexivity]|reflexivity]|].
  rewrite read_int_a_groups. unfold all_ext. cbn [forallb length]. destruct (b0 <? 128) eqn:E.
  - split; [discriminate|]. intros [_ H]. lia.
  - rewrite read_groups_fails_iff. replace (128 <=? b0) with true by lia. cbn [andb].
    split; intros [H1 H2]; (split; [lia|exact H2]).
Qed.

Definition ok_or_err {E A} (r : res E A) : Prop :=
  match r with Ok _ | Err _ => True | _ => False end.

Lemma read_groups_total n : forall w s m bs, ok_or_err (read_groups n w s m bs).
Proof.
  induction n as [|n IH]; intros w s m [|b r]; cbn [read_groups]; try exact I.
  destruct (b <? 128); [exact I|apply IH].
Qed.

Theorem read_int_a_total bs : ok_or_err (read_int_a bs).
Proof.
  destruct bs as [|b0 r0]; [exact I|]. rewrite read_int_a_groups.
  destruct (b0 <? 128); [exact I|apply read_groups_total].
Qed.

(* the bit-level loop, on any list of integers *)
Lemma read_loop_total k : forall i st, ok_or_err (read_loop k i st).
Proof.
  induction k as [|k IH]; intros i st; cbn [read_loop]; [exact I|].
  destruct (Z.land (r_src st) 128 =? 0); [exact I|].
  destruct (r_rest st); [exact I|]. apply IH.
Qed.

Lemma read_finish_total sign r : ok_or_err r -> ok_or_err (read_finish sign r).
Proof. destruct r; exact (fun H => H). Qed.

Lemma read_int_total bs : ok_or_err (read_int bs).
Proof. destruct bs as [|b0 rest]; [exact I|]. exact (read_finish_total _ _ (read_loop_total 4 0 _)). Qed.

(* the bytes pre, read as at most n groups and then a last byte, give q with warnings ws *)
Inductive reads : nat -> bytes -> Z -> list pwarn -> Prop :=
| reads_pad b : reads 0 [b] (b mod 32) (ovl b (if b <? 16 then [] else [NonZeroIntPadding]))
| reads_last n b : b < 128 -> reads (S n) [b] (b mod 128) (ovl b [])
| reads_ext n b pre q ws : 128 <= b -> reads n pre q ws -> reads (S n) (b :: pre) (b mod 128 + 128 * q) ws.

Lemma read_groups_reads n : forall w s m bs v ws rest, read_groups n w s m bs = Ok (v, ws, rest) ->
  exists pre q, bs = pre ++ rest /\ v = fin s (m + q * w) /\ reads n pre q ws.
Proof.
  induction n as [|n IH]; intros w s m [|b r] v ws rest H; cbn [read_groups] in H; try discriminate.
  - injection H as <- <- <-. exists [b], (b mod 32). repeat split. constructor.
  - destruct (b <? 128) eqn:E.
    + injection H as <- <- <-. exists [b], (b mod 128). repeat split. constructor. lia.
    + destruct (IH _ _ _ _ _ _ _ H) as (pre & q & -> & -> & Hr).
      exists (b :: pre), (b mod 128 + 128 * q). split; [reflexivity|]. split; [f_equal; ring|].
      constructor; [lia|exact Hr].
Qed.

Lemma reads_length n pre q ws : reads n pre q ws -> (1 <= length pre <= S n)%nat.
Proof. induction 1; cbn [length]; lia. Qed.

(* the value stays within what the groups can hold; only a read of all S n bytes can leave
   the range of the canonical encodings *)
Lemma reads_range n pre q ws : reads n pre q ws ->
  0 <= q < 32 * 128 ^ Z.of_nat n /\ (q < 16 * 128 ^ Z.of_nat n \/ length pre = S n).
Proof.
  induction 1 as [b|n b Hb|n b pre q ws Hb Hr IH]; cbn [length];
    rewrite ?Nat2Z.inj_succ, ?Z.pow_succ_r by lia; change (128 ^ Z.of_nat 0) with 1.
  - pose proof (Z.mod_pos_bound b 32 eq_refl). lia.
  - pose proof (Z.mod_pos_bound b 128 eq_refl). assert (0 < 128 ^ Z.of_nat n) by (apply Z.pow_pos_nonneg; lia). lia.
  - pose proof (Z.mod_pos_bound b 128 eq_refl). lia.
Qed.

Lemma reads_shortest : forall n pre q ws, reads n pre q ws -> (length (write_groups n q) <= length pre)%nat.
Proof.
  induction 1 as [b|k b Hb|k b p r ws Hb Hr IH]; cbn [write_groups length]; [lia| |].
  - pose proof (Z.mod_pos_bound b 128 eq_refl). replace (b mod 128 <? 128) with true by lia. cbn [length]. lia.
  - destruct (_ <? 128); cbn [length]; [lia|].
    replace ((b mod 128 + 128 * r) / 128) with r by (Z.div_mod_to_equations; lia). lia.
Qed.

Lemma reads_canonical n pre q : bytes_ok pre = true -> reads n pre q [] ->
  0 < q < 16 * 128 ^ Z.of_nat n /\ write_groups n q = pre.
Proof.
  intros Hok H. remember [] as ws eqn:Hws. revert Hok Hws.
  induction H as [b|n b Hb|n b pre q ws Hb Hr IH]; intros Hok Hws; apply bytes_ok_cons in Hok as [Hr0 Hok];
    rewrite ?Nat2Z.inj_succ, ?Z.pow_succ_r by lia; change (128 ^ Z.of_nat 0) with 1; cbn [write_groups].
  - apply ovl_nil in Hws as [Hb0 Hws]. destruct (b <? 16) eqn:E; [|discriminate].
    rewrite Z.mod_small by lia. split; [lia|reflexivity].
  - apply ovl_nil in Hws as [Hb0 _]. rewrite Z.mod_small by lia.
    assert (0 < 128 ^ Z.of_nat n) by (apply Z.pow_pos_nonneg; lia). replace (b <? 128) with true by lia.
    split; [lia|reflexivity].
  - destruct (IH Hok Hws) as [Hq <-]. pose proof (Z.mod_pos_bound b 128 eq_refl).
    replace (b mod 128 + 128 * q <? 128) with false by lia.
    replace ((b mod 128 + 128 * q) / 128) with q by (Z.div_mod_to_equations; lia).
    replace (128 + (b mod 128 + 128 * q) mod 128) with b by (Z.div_mod_to_equations; lia).
    split; [lia|reflexivity].
Qed.

Definition consumed_of (bs rest : bytes) : bytes := firstn (length bs - length rest) bs.

Lemma consumed_app a rest : consumed_of (a ++ rest) rest = a.
Proof.
  unfold consumed_of. rewrite app_length, Nat.add_sub, firstn_app, Nat.sub_diag, firstn_all.
  apply app_nil_r.
Qed.

(* a successful read took the first byte alone (q = 0), or groups worth q behind it *)
Lemma read_int_a_reads bs v ws rest : read_int_a bs = Ok (v, ws, rest) ->
  exists b0 pre q, bs = (b0 :: pre) ++ rest /\ v = fin ((b0 / 64) mod 2) (b0 mod 64 + q * 64)
    /\ (b0 < 128 /\ pre = [] /\ q = 0 /\ ws = [] \/ 128 <= b0 /\ reads 3 pre q ws).
Proof.
  destruct bs as [|b0 r0]; [discriminate|]. rewrite read_int_a_groups. destruct (b0 <? 128) eqn:E; intros H.
  - injection H as <- <- <-. exists b0, [], 0. rewrite Z.add_0_r. repeat split. left. repeat split. lia.
  - destruct (read_groups_reads _ _ _ _ _ _ _ _ H) as (pre & q & -> & -> & Hr).
    exists b0, pre, q. repeat split. right. split; [lia|exact Hr].
Qed.

Theorem read_int_a_consumes bs v ws rest : read_int_a bs = Ok (v, ws, rest) ->
  bs = consumed_of bs rest ++ rest /\ (1 <= length (consumed_of bs rest) <= 5)%nat /\ is_i32 v = true.
Proof.
  intros H. destruct (read_int_a_reads _ _ _ _ H) as (b0 & pre & q & -> & -> & Hc).
  rewrite consumed_app. split; [reflexivity|]. pose proof (Z.mod_pos_bound b0 64 eq_refl).
  destruct Hc as [(_ & -> & -> & _)|[_ Hr]].
  - split; [cbn; lia|apply fin_is_i32; lia].
  - pose proof (reads_length _ _ _ _ Hr). destruct (reads_range _ _ _ _ Hr) as [Hq _].
    change (128 ^ Z.of_nat 3) with 2097152 in Hq. split; [cbn [length]; lia|apply fin_is_i32; lia].
Qed.

Lemma write_int_a_fin s m : 0 <= s <= 1 -> 0 <= m < 2147483648 ->
  write_int_a (fin s m) =
  if m <? 64 then [64 * s + m] else 128 + 64 * s + m mod 64 :: write_groups 3 (m / 64).
Proof.
  intros Hs Hm. rewrite write_int_a_groups. destruct (mag_sgn_fin s m) as [-> ->]; [lia|exact Hm|reflexivity].
Qed.

Theorem shortest_a bs v ws rest : bytes_ok bs = true -> read_int_a bs = Ok (v, ws, rest) ->
  (length (write_int_a v) <= length (consumed_of bs rest))%nat.
Proof.
  intros Hok H. destruct (read_int_a_reads _ _ _ _ H) as (b0 & pre & q & -> & -> & Hc).
  rewrite consumed_app.
  pose proof (Z.mod_pos_bound b0 64 eq_refl) as H0. pose proof (Z.mod_pos_bound (b0 / 64) 2 eq_refl) as Hs.
  destruct Hc as [(_ & -> & -> & _)|[_ Hr]].
  - rewrite write_int_a_fin by lia. replace (b0 mod 64 + 0 * 64 <? 64) with true by lia. reflexivity.
  - cbn [length]. destruct (reads_range _ _ _ _ Hr) as [Hq [Hc | ->]].
    2:{ pose proof (write_int_a_length (fin ((b0 / 64) mod 2) (b0 mod 64 + q * 64))). lia. }
    change (128 ^ Z.of_nat 3) with 2097152 in Hc. rewrite write_int_a_fin by lia.
    destruct (_ <? 64); cbn [length]; [lia|]. apply le_n_S.
    replace ((b0 mod 64 + q * 64) / 64) with q by (Z.div_mod_to_equations; lia).
    exact (reads_shortest _ _ _ _ Hr).
Qed.

Theorem warnfree_canonical_a bs v rest : bytes_ok bs = true -> read_int_a bs = Ok (v, [], rest) ->
  consumed_of bs rest = write_int_a v.
Proof.
  intros Hok H. destruct (read_int_a_reads _ _ _ _ H) as (b0 & pre & q & -> & -> & Hc).
  rewrite consumed_app. rewrite <- app_comm_cons in Hok. apply bytes_ok_cons in Hok as [Hb Hok].
  pose proof (Z.mod_pos_bound b0 64 eq_refl) as H0. pose proof (Z.mod_pos_bound (b0 / 64) 2 eq_refl) as Hs.
  destruct Hc as [(Hlt & -> & -> & _)|[Hge Hr]].
  - rewrite write_int_a_fin by lia. replace (b0 mod 64 + 0 * 64 <? 64) with true by lia.
    f_equal. Z.div_mod_to_equations; lia.
  - apply reads_canonical in Hr as [Hq <-].
    2:{ unfold bytes_ok in *. rewrite forallb_app in Hok. apply andb_true_iff in Hok as [Hok _]. exact Hok. }
    change (128 ^ Z.of_nat 3) with 2097152 in Hq.
    rewrite write_int_a_fin by lia. replace (b0 mod 64 + q * 64 <? 64) with false by lia.
    f_equal; [|f_equal]; Z.div_mod_to_equations; lia.
Qed.

Theorem canonical_warnfree_a bs v ws rest : read_int_a bs = Ok (v, ws, rest) ->
  is_i32 v = true -> bs = write_int_a v ++ rest -> ws = [].
Proof.
  intros H Hv ->. rewrite roundtrip_a in H by exact Hv. injection H as <-. reflexivity.
Qed.

Lemma fin_doc b0 m : 0 <= b0 < 256 -> 0 <= m < 2147483648 ->
  fin ((b0 / 64) mod 2) m = if doc_sign b0 then - m - 1 else m.
Proof.
  intros Hb Hm. rewrite fin_small by exact Hm. unfold doc_sign.
  replace (64 <=? b0 mod 128) with ((b0 / 64) mod 2 =? 1) by (Z.div_mod_to_equations; lia). reflexivity.
Qed.

Lemma doc_ext_lt b : doc_ext b = negb (b <? 128).
Proof. unfold doc_ext. lia. Qed.

Lemma doc_tail_stop i bs : doc_tail i false bs = Some 0.
Proof. destruct i; reflexivity. Qed.

(* doc/int.md and read_groups go through the groups behind the first byte in step: m is what
   has been gathered below the weight w; the padding bits, if the last byte is reached, are clear *)
Lemma doc_tail_groups n : forall w s m bs, (n <= 3)%nat -> w = 2 ^ (27 - 7 * Z.of_nat n) -> 0 <= m < w ->
  bytes_ok bs = true -> nth n bs 0 < 16 \/ all_ext (firstn n bs) = false ->
  match read_groups n w s m bs with
  | Ok (v, _, _) => exists t, doc_tail n true bs = Some t /\ v = fin s (m + t) /\ 0 <= m + t < 2147483648
  | _ => doc_tail n true bs = None
  end.
Proof.
  unfold all_ext. induction n as [|n IH]; intros w s m [|b r] Hn Hw Hm Hok Hpad; [reflexivity| |reflexivity|];
    apply bytes_ok_cons in Hok as [Hb Hok]; cbn [nth firstn forallb] in Hpad; cbn [read_groups doc_tail negb].
  - change (2 ^ (27 - 7 * Z.of_nat 0)) with 134217728 in Hw. subst w.
    exists (b mod 16 * 2 ^ 27). rewrite !Z.mod_small by lia. repeat split; lia.
  - assert (Hw20 : w <= 2 ^ 20) by (subst w; apply Z.pow_le_mono_r; lia).
    pose proof (Z.mod_pos_bound b 128 eq_refl) as Hd. rewrite doc_ext_lt, <- Hw. destruct (b <? 128) eqn:E; cbn [negb].
    + rewrite doc_tail_stop. eexists. split; [reflexivity|]. rewrite Z.add_0_r. split; [reflexivity|nia].
    + assert (Hw' : w * 128 = 2 ^ (27 - 7 * Z.of_nat n))
        by (subst w; rewrite <- (Z.pow_add_r 2 _ 7) by lia; f_equal; lia).
      specialize (IH (w * 128) s (m + b mod 128 * w) r ltac:(lia) Hw' ltac:(nia) Hok ltac:(lia)).
      destruct (read_groups n (w * 128) s (m + b mod 128 * w) r) as [[[v ws] r']| | |]; [|rewrite IH; reflexivity ..].
      destruct IH as (t & -> & -> & Ht). exists (b mod 128 * w + t). rewrite Z.add_assoc.
      split; [reflexivity|]. split; [reflexivity|exact Ht].
Qed.

Lemma padding_zero_nth b0 r0 : padding_zero (b0 :: r0) = true -> 128 <= b0 ->
  nth 3 r0 0 < 16 \/ all_ext (firstn 3 r0) = false.
Proof.
  unfold padding_zero, doc_ext, all_ext. destruct r0 as [|b1 [|b2 [|b3 [|b4 r]]]]; cbn [nth firstn forallb]; lia.
Qed.

Theorem doc_a bs : bytes_ok bs = true -> padding_zero bs = true ->
  match read_int_a bs with
  | Ok (v, _, _) => doc_value bs = Some v
  | _ => doc_value bs = None
  end.
Proof.
  intros Hok Hpad. destruct bs as [|b0 r0]; [reflexivity|]. apply bytes_ok_cons in Hok as [H0 Hok].
  rewrite read_int_a_groups. cbn [doc_value]. rewrite doc_ext_lt. pose proof (Z.mod_pos_bound b0 64 eq_refl) as M0.
  destruct (b0 <? 128) eqn:E0; cbn [negb].
  - rewrite doc_tail_stop, fin_doc, Z.add_0_r by lia. reflexivity.
  - pose proof (doc_tail_groups 3 64 ((b0 / 64) mod 2) (b0 mod 64) r0 ltac:(lia) eq_refl M0 Hok
                  (padding_zero_nth b0 r0 Hpad ltac:(lia))) as H.
    destruct (read_groups 3 64 _ _ r0) as [[[v ws] r]| | |]; [|rewrite H; reflexivity ..].
    destruct H as (t & -> & -> & Ht). rewrite fin_doc by lia. reflexivity.
Qed.

(* From here on lia knows / and mod by constants, in every file that loads this one and
   does not import ZifyBool afterwards (which puts its own hook back): a redefinition cannot
   be confined to the file it stands in, and proofs further down count on it. *)
Ltac Zify.zify_post_hook ::= Z.div_mod_to_equations.
