(* C18: ServerInfo::sort_clients. derive(Ord) on ClientInfo is a total order in which
   equal means identical, so the sorted list is a function of the multiset of clients:
   two client lists that are permutations of each other sort to the same list. *)
From LibTw2 Require Import Base.Res Model.ServerBrowse.
From Coq Require Import ZArith Lia Bool List Sorting.Permutation Sorting.Sorted.
Open Scope Z_scope.

Record ord_ok {A} (cmp : A -> A -> comparison) : Prop := {
  o_eq : forall a b, cmp a b = Eq -> a = b;
  o_refl : forall a, cmp a a = Eq;
  o_anti : forall a b, cmp b a = CompOpp (cmp a b);
  o_trans : forall a b c, cmp a b = Lt -> cmp b c = Lt -> cmp a c = Lt }.

Lemma z_ord_ok : ord_ok Z.compare.
Proof.
  split.
  - apply Z.compare_eq.
  - apply Z.compare_refl.
  - intros a b. apply Z.compare_antisym.
  - intros a b c H1 H2. rewrite Z.compare_lt_iff in *. lia.
Qed.

Lemma lex_eq c1 c2 : lex c1 c2 = Eq <-> c1 = Eq /\ c2 = Eq.
Proof. destruct c1; cbn; split; intros H; try (destruct H; discriminate); try discriminate; auto; apply H. Qed.
Lemma lex_lt c1 c2 : lex c1 c2 = Lt <-> c1 = Lt \/ (c1 = Eq /\ c2 = Lt).
Proof.
  destruct c1; cbn; split; intros H; auto.
  - destruct H as [H|[_ H]]; [discriminate|exact H].
  - destruct H as [H|[H _]]; discriminate.
Qed.
Lemma lex_opp c1 c2 : lex (CompOpp c1) (CompOpp c2) = CompOpp (lex c1 c2).
Proof. destruct c1; reflexivity. Qed.

Lemma lex_trans {A B} (cA : A -> A -> comparison) (cB : B -> B -> comparison) : ord_ok cA ->
  forall a1 a2 a3 b1 b2 b3, (cB b1 b2 = Lt -> cB b2 b3 = Lt -> cB b1 b3 = Lt) ->
  lex (cA a1 a2) (cB b1 b2) = Lt -> lex (cA a2 a3) (cB b2 b3) = Lt -> lex (cA a1 a3) (cB b1 b3) = Lt.
Proof.
  intros HA a1 a2 a3 b1 b2 b3 HB [H1|[H1 H1']]%lex_lt [H2|[H2 H2']]%lex_lt; apply lex_lt.
  - left. exact (o_trans _ HA _ _ _ H1 H2).
  - left. apply (o_eq _ HA) in H2. subst. exact H1.
  - left. apply (o_eq _ HA) in H1. subst. exact H2.
  - right. apply (o_eq _ HA) in H1. apply (o_eq _ HA) in H2. subst.
    split; [apply (o_refl _ HA)|exact (HB H1' H2')].
Qed.

Definition pair_cmp {A B} (cA : A -> A -> comparison) (cB : B -> B -> comparison) (x y : A * B) : comparison :=
  lex (cA (fst x) (fst y)) (cB (snd x) (snd y)).

Lemma pair_ord_ok {A B} (cA : A -> A -> comparison) (cB : B -> B -> comparison) :
  ord_ok cA -> ord_ok cB -> ord_ok (pair_cmp cA cB).
Proof.
  intros HA HB. unfold pair_cmp. split.
  - intros [a1 b1] [a2 b2]. cbn [fst snd]. intros H. apply lex_eq in H as [H1 H2].
    f_equal; [apply (o_eq _ HA), H1|apply (o_eq _ HB), H2].
  - intros [a b]. cbn [fst snd]. rewrite (o_refl _ HA), (o_refl _ HB). reflexivity.
  - intros x y. rewrite (o_anti _ HA), (o_anti _ HB). apply lex_opp.
  - intros [a1 b1] [a2 b2] [a3 b3]. apply (lex_trans cA cB HA), (o_trans _ HB).
Qed.

Lemma bytes_ord_ok : ord_ok bytes_cmp.
Proof.
  split.
  - induction a as [|x a IH]; destruct b as [|y b]; cbn [bytes_cmp]; intros H; try discriminate; [reflexivity|].
    apply lex_eq in H as [H1 H2]. apply Z.compare_eq in H1. subst. f_equal. apply IH, H2.
  - induction a as [|x a IH]; cbn [bytes_cmp]; [reflexivity|]. rewrite Z.compare_refl, IH. reflexivity.
  - induction a as [|x a IH]; destruct b as [|y b]; cbn [bytes_cmp]; try reflexivity.
    rewrite (Z.compare_antisym x y), IH. apply lex_opp.
  - induction a as [|x a IH]; destruct b as [|y b]; destruct c as [|z c]; cbn [bytes_cmp];
      try discriminate; try reflexivity.
    apply (lex_trans Z.compare bytes_cmp z_ord_ok), IH.
Qed.

Definition client_key (c : client) : bytes * (bytes * (Z * (Z * Z))) :=
  (c_name c, (c_clan c, (c_country c, (c_score c, c_flags c)))).

Lemma client_cmp_key a b :
  client_cmp a b =
  pair_cmp bytes_cmp (pair_cmp bytes_cmp (pair_cmp Z.compare (pair_cmp Z.compare Z.compare)))
    (client_key a) (client_key b).
Proof. reflexivity. Qed.

Lemma client_key_inj a b : client_key a = client_key b -> a = b.
Proof. destruct a, b. unfold client_key. cbn. intros H. injection H as -> -> -> -> ->. reflexivity. Qed.

Lemma client_ord_ok : ord_ok client_cmp.
Proof.
  pose proof (pair_ord_ok _ _ bytes_ord_ok (pair_ord_ok _ _ bytes_ord_ok
    (pair_ord_ok _ _ z_ord_ok (pair_ord_ok _ _ z_ord_ok z_ord_ok)))) as K.
  split; intros; rewrite ?client_cmp_key in *.
  - apply client_key_inj. exact (o_eq _ K _ _ H).
  - apply (o_refl _ K).
  - apply (o_anti _ K).
  - exact (o_trans _ K _ _ _ H H0).
Qed.

Definition cle (a b : client) : Prop := client_leb a b = true.

Lemma cle_total a b : cle a b \/ cle b a.
Proof.
  unfold cle, client_leb. rewrite (o_anti _ client_ord_ok a b).
  destruct (client_cmp a b); cbn; auto.
Qed.

Lemma cle_refl a : cle a a.
Proof. unfold cle, client_leb. rewrite (o_refl _ client_ord_ok). reflexivity. Qed.

Lemma cle_antisym a b : cle a b -> cle b a -> a = b.
Proof.
  unfold cle, client_leb. rewrite (o_anti _ client_ord_ok a b).
  destruct (client_cmp a b) eqn:E; cbn; intros H1 H2; try discriminate.
  apply (o_eq _ client_ord_ok), E.
Qed.

Lemma cle_trans a b c : cle a b -> cle b c -> cle a c.
Proof.
  unfold cle, client_leb.
  destruct (client_cmp a b) eqn:E1; try discriminate; intros _;
  destruct (client_cmp b c) eqn:E2; try discriminate; intros _.
  - apply (o_eq _ client_ord_ok) in E1. subst. rewrite E2. reflexivity.
  - apply (o_eq _ client_ord_ok) in E1. subst. rewrite E2. reflexivity.
  - apply (o_eq _ client_ord_ok) in E2. subst. rewrite E1. reflexivity.
  - rewrite (o_trans _ client_ord_ok _ _ _ E1 E2). reflexivity.
Qed.

Lemma insert_client_perm c l : Permutation (insert_client c l) (c :: l).
Proof.
  induction l as [|x l IH]; cbn [insert_client]; [reflexivity|].
  destruct (client_leb c x); [reflexivity|].
  rewrite IH. apply perm_swap.
Qed.

Lemma sort_clients_perm l : Permutation (sort_clients l) l.
Proof.
  induction l as [|c l IH]; cbn [sort_clients]; [reflexivity|].
  rewrite insert_client_perm. constructor. exact IH.
Qed.

Lemma insert_client_sorted c l : StronglySorted cle l -> StronglySorted cle (insert_client c l).
Proof.
  induction 1 as [|x l Hs IH Hx]; cbn [insert_client].
  - constructor; constructor.
  - destruct (client_leb c x) eqn:E.
    + constructor; [constructor; assumption|].
      constructor; [exact E|].
      eapply Forall_impl; [|exact Hx]. intros y Hy. exact (cle_trans _ _ _ E Hy).
    + constructor; [exact IH|].
      apply (Permutation_Forall (Permutation_sym (insert_client_perm c l))).
      constructor; [|exact Hx].
      destruct (cle_total c x) as [H|H]; [unfold cle in H; congruence|exact H].
Qed.

Lemma sort_clients_sorted l : StronglySorted cle (sort_clients l).
Proof.
  induction l as [|c l IH]; cbn [sort_clients]; [constructor|].
  apply insert_client_sorted, IH.
Qed.

(* a sorted list is determined by its elements when the order is antisymmetric *)
Lemma sorted_perm_eq {A} (R : A -> A -> Prop) : (forall a b, R a b -> R b a -> a = b) ->
  forall l1 l2, StronglySorted R l1 -> StronglySorted R l2 -> Permutation l1 l2 -> l1 = l2.
Proof.
  intros Hanti. induction l1 as [|a l1 IH]; intros l2 H1 H2 P.
  - apply Permutation_nil in P. subst. reflexivity.
  - destruct l2 as [|b l2]; [apply Permutation_sym, Permutation_nil in P; discriminate|].
    inversion H1 as [|? ? Hs1 Ha]; subst. inversion H2 as [|? ? Hs2 Hb]; subst.
    assert (Hab : a = b).
    { assert (Hin_a : In a (b :: l2)) by (eapply Permutation_in; [exact P|left; reflexivity]).
      assert (Hin_b : In b (a :: l1)) by (eapply Permutation_in; [exact (Permutation_sym P)|left; reflexivity]).
      destruct Hin_a as [->|Hin_a]; [reflexivity|].
      destruct Hin_b as [->|Hin_b]; [reflexivity|].
      rewrite Forall_forall in Ha, Hb.
      apply Hanti; [apply Ha, Hin_b|apply Hb, Hin_a]. }
    subst b. f_equal. apply IH; [assumption|assumption|].
    exact (Permutation_cons_inv P).
Qed.

(* the documented sort makes the client list canonical *)
Theorem sort_clients_canonical l1 l2 : Permutation l1 l2 -> sort_clients l1 = sort_clients l2.
Proof.
  intros P. apply (sorted_perm_eq cle cle_antisym); try apply sort_clients_sorted.
  rewrite (sort_clients_perm l1), P. symmetry. apply sort_clients_perm.
Qed.

Lemma sort_clients_length l : length (sort_clients l) = length l.
Proof. apply Permutation_length, sort_clients_perm. Qed.
