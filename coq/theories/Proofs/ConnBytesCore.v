(* What the connection layer guarantees of an emitted datagram (Proofs/ConnCoreInv.v), in the terms
   of the packet codecs: the facts Proofs/ConnBytes6.v and Proofs/ConnBytes7.v share. *)
From LibTw2 Require Import Base.Res Model.PacketTypes Model.PacketBase Model.ConnCore Proofs.ConnCoreInv
  Proofs.PktBits6.
From Coq Require Import ZArith Lia Bool List.
Open Scope Z_scope.

Lemma bytes_ok_app_intro a b : bytes_ok a = true -> bytes_ok b = true -> bytes_ok (a ++ b) = true.
Proof. unfold bytes_ok. intros Ha Hb. rewrite forallb_app, Ha, Hb. reflexivity. Qed.

Lemma byteb2 a b : byteb a && byteb b = true -> bytes_ok [a; b] = true.
Proof. unfold bytes_ok, byte_ok, byteb. cbn [forallb]. lia. Qed.

Lemma byteb3 a b c : byteb a && byteb b && byteb c = true -> bytes_ok [a; b; c] = true.
Proof. unfold bytes_ok, byte_ok, byteb. cbn [forallb]. lia. Qed.

Lemma has_nul_of_forallb r : forallb (fun b => negb (b =? 0)) r = true -> has_nul r = false.
Proof.
  unfold has_nul. induction r as [|b r IH]; [reflexivity|].
  cbn [forallb existsb]. intros H. apply andb_true_iff in H as [Hb Hr]. rewrite (IH Hr).
  destruct (b =? 0); [discriminate Hb|reflexivity].
Qed.

Lemma header_expressible tok ack : tok_ok tok -> 0 <= ack < SEQ_MOD ->
  (0 <=? ack) && (ack <? 1024) && match tok with Some t => token_ok t | None => true end = true.
Proof.
  unfold SEQ_MOD, token_ok. intros Htok Hack. destruct tok as [t|]; cbn [tok_ok] in Htok; [rewrite Htok, Nat.eqb_refl|]; lia.
Qed.

(* a chunk packet that is flushed is not of class K05 *)
Lemma flushed_not_k05 (rr : bool) n : rr = true \/ n <> 0 -> (if rr then false else n =? 0) = false.
Proof. intros [->|Hn]; [reflexivity|]. destruct rr; [reflexivity|]. apply Z.eqb_neq, Hn. Qed.

Section FlatEnc.
Variables (wf : chunk -> bool) (hdr enc : chunk -> bytes).
Hypothesis enc_eq : forall c, enc c = hdr c ++ ch_data c.
Hypothesis hdr_length : forall c, wf c = true -> Z.of_nat (length (hdr c)) = chunk_hdr (is_vital c).
Hypothesis hdr_bytes_ok : forall c, wf c = true -> bytes_ok (hdr c) = true.

Lemma flat_enc_length cs : forallb wf cs = true -> Z.of_nat (length (flat_map enc cs)) = chunks_size cs.
Proof.
  induction cs as [|c cs IH]; cbn [forallb flat_map chunks_size]; [reflexivity|].
  intros H. apply andb_true_iff in H as [Hc Hcs].
  rewrite enc_eq, !app_length, !Nat2Z.inj_add, (hdr_length c Hc), (IH Hcs). reflexivity.
Qed.

Lemma flat_enc_bytes_ok cs : forallb wf cs = true -> forallb (fun c => bytes_ok (ch_data c)) cs = true ->
  bytes_ok (flat_map enc cs) = true.
Proof.
  induction cs as [|c cs IH]; cbn [forallb flat_map]; [reflexivity|]. intros Hw Hb.
  apply andb_true_iff in Hw as [Hc Hcs]. apply andb_true_iff in Hb as [Hb1 Hb2]. rewrite enc_eq.
  apply bytes_ok_app_intro; [apply bytes_ok_app_intro; [exact (hdr_bytes_ok c Hc)|exact Hb1]|exact (IH Hcs Hb2)].
Qed.
End FlatEnc.
