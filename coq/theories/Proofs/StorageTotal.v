(* C13, beyond the property: the receiving Manager does not panic on ANY stream of messages
   (hostile ones included: any ticks, part numbers, checksums, any bytes as data, up to 64 KiB per
   message), from its initial state.  Invariant: the DeltaReceiver is well-formed (C12's wf) and its
   buffer holds bytes; every snapshot the Storage keeps satisfies the state invariant of Snap
   (C11's sgood), so applying whatever delta parses ends with a value or an error (C11_total). *)
From LibTw2 Require Import Base.Res Model.Receiver Proofs.ReceiverBase Proofs.ReceiverChunks
  Proofs.ReceiverSteps Proofs.ReceiverXfer Proofs.ReceiverProofs Proofs.StorageRecv.
From LibTw2 Require Import Model.Varint Model.Packer Model.Snap Proofs.SnapBase Proofs.SnapRep
  Proofs.SnapTotal Proofs.SnapTotal2 Proofs.SnapReg.
From LibTw2 Require Import Model.Storage Proofs.StorageBase.
From Coq Require Import ZArith List Lia Bool ZifyBool ZifyNat.
Import ListNotations.
Open Scope Z_scope.

Definition BIG : Z := 65536.
Definition msg_ok (m : snapmsg) : bool := bytes_ok (msg_data m) && (lenZ (msg_data m) <=? BIG).

Lemma forallb_firstn {A} (p : A -> bool) n l : forallb p l = true -> forallb p (firstn n l) = true.
Proof.
  revert l. induction n as [|n IH]; intros [|x l] H; try reflexivity.
  cbn [forallb firstn] in *. apply andb_true_iff in H. destruct H as [H1 H2]. rewrite H1, (IH l H2). reflexivity.
Qed.
Lemma forallb_skipn {A} (p : A -> bool) n l : forallb p l = true -> forallb p (skipn n l) = true.
Proof.
  revert l. induction n as [|n IH]; intros [|x l] H; try reflexivity; try exact H.
  cbn [forallb skipn] in *. apply andb_true_iff in H. destruct H as [H1 H2]. apply IH, H2.
Qed.

Lemma sub_list_ok v st en : bytes_ok v = true -> bytes_ok (sub_list v st en) = true.
Proof. intros H. unfold sub_list, bytes_ok. apply forallb_firstn, forallb_skipn, H. Qed.
Lemma sub_list_len v st en : (length (sub_list v st en) <= length v)%nat.
Proof. unfold sub_list. rewrite firstn_length, skipn_length. lia. Qed.

Lemma bytes_ok_app a b : bytes_ok (a ++ b) = bytes_ok a && bytes_ok b.
Proof. apply forallb_app. Qed.

Lemma ranges_ok buf parts : bytes_ok buf = true ->
  bytes_ok (concat (map (range_data buf) parts)) = true
  /\ (length (concat (map (range_data buf) parts)) <= length parts * length buf)%nat.
Proof.
  intros Hb. induction parts as [|e parts [IH1 IH2]]; [split; [reflexivity|cbn; lia]|].
  cbn [map concat length]. rewrite bytes_ok_app, app_length. unfold range_data at 1 3.
  split; [rewrite sub_list_ok by exact Hb; exact IH1|].
  pose proof (sub_list_len buf (fst (snd e)) (snd (snd e))). lia.
Qed.

Definition rgood (s : receiver) : Prop :=
  wf s = true /\ bytes_ok (r_buf s) = true /\ lenZ (r_buf s) <= BIG * Z.of_nat (length (r_parts s))
  /\ (r_cur s <> None -> r_result s = []).

Definition rd_ok (rd : received) : Prop :=
  match rd_data_and_crc rd with
  | Some (d, _) => bytes_ok d = true /\ Z.of_nat (length d) <= 32 * 32 * BIG
  | None => True
  end.

(* new_receiver, and `finished` after a one-message transfer *)
Lemma rgood_idle prev result :
  rgood {| r_prev := prev; r_cur := None; r_parts := []; r_buf := []; r_result := result |}.
Proof.
  split; [reflexivity|]. split; [reflexivity|]. split; [cbn; unfold BIG; lia|]. intros H. contradiction H. reflexivity.
Qed.

Lemma msg_ok_small m : msg_ok m = true -> msg_small m = true.
Proof. unfold msg_ok, msg_small, BIG, max_data. lia. Qed.

Lemma rgood_start s tick dt np crc : rgood s -> wf (start_state s tick dt np crc) = true ->
  rgood (start_state s tick dt np crc).
Proof.
  intros G Hwf. split; [exact Hwf|]. unfold start_state. destruct (cur_has_tick s tick); [apply G|].
  cbn [set_cur init_delta r_buf r_parts r_result r_cur]. split; [reflexivity|].
  split; [rewrite lenZ_nil; cbn [length]; unfold BIG; lia|reflexivity].
Qed.

(* at most 32 parts of at most BIG bytes each *)
Lemma total_bound (len p bl : nat) : (len <= p * bl)%nat -> Z.of_nat p <= 32 -> Z.of_nat bl <= BIG * 32 ->
  Z.of_nat len <= 32 * 32 * BIG.
Proof. unfold BIG. intros. nia. Qed.

Lemma rgood_store s2 c tick dt np part crc d :
  rgood s2 -> r_cur s2 = Some c -> bytes_ok d = true -> lenZ d <= BIG ->
  let r := snap_store s2 c tick dt np part crc d in
  (wf (fst r) = true -> rgood (fst r)) /\ forall rd, fst (snd r) = Ok (Some rd) -> rd_ok rd.
Proof.
  intros (Hwf2 & Hb2 & Hl2 & Hr2) Hc2 Hmb Hml. cbv zeta.
  destruct (wf_unfold s2 c Hc2 Hwf2) as [H1 [H2 [H3 _]]].
  assert (Hres : r_result s2 = []) by (apply Hr2; rewrite Hc2; discriminate).
  destruct (in_dec Z.eq_dec part (keys (r_parts s2))) as [Hin|Hnin].
  { rewrite snap_store_dup by exact Hin. split; [intros _; repeat split; assumption|discriminate]. }
  assert (HB : 0 <= BIG <= max_data) by (unfold BIG, max_data; lia).
  destruct (snap_store_new s2 c tick dt np part crc d Hnin) as [parts' [_ [Hlp [_ [_ [_ Heq]]]]]];
    [apply (offsets_fit BIG _ _ _ HB Hl2); [lia|exact Hml]|unfold i32_max; lia|exact H3|].
  assert (Hbb : bytes_ok (r_buf s2 ++ d) = true) by (rewrite bytes_ok_app, Hb2, Hmb; reflexivity).
  assert (Hlen : lenZ (r_buf s2 ++ d) <= BIG * Z.of_nat (length parts')).
  { rewrite lenZ_app, Hlp. apply offsets_grow; assumption. }
  rewrite Heq. destruct (Z.of_nat (length parts') =? c_num_parts c) eqn:E; cbn [fst snd].
  - split.
    + intros Hwf'. split; [exact Hwf'|]. split; [exact Hbb|]. split; [exact Hlen|].
      intros Hne. contradiction Hne. reflexivity.
    + intros rd [= <-]. unfold rd_ok. cbn [rd_data_and_crc]. rewrite Hres.
      destruct (ranges_ok (r_buf s2 ++ d) parts' Hbb) as [R1 R2]. split; [exact R1|].
      apply Z.eqb_eq in E. rewrite <- E in H2.
      apply (total_bound _ _ _ R2 H2). rewrite <- lenZ_spec. apply (Z.le_trans _ _ _ Hlen).
      apply Z.mul_le_mono_nonneg_l; [discriminate|exact H2].
  - split; [|discriminate]. intros Hwf'. split; [exact Hwf'|]. split; [exact Hbb|]. split; [exact Hlen|].
    intros _. exact Hres.
Qed.

Theorem rgood_step s m : rgood s -> msg_ok m = true ->
  rgood (fst (recv_step s m))
  /\ is_panic (fst (snd (recv_step s m))) = false
  /\ forall rd, fst (snd (recv_step s m)) = Ok (Some rd) -> rd_ok rd.
Proof.
  intros G Hm. pose proof G as (Hwf & _).
  destruct (step_wf s m Hwf (msg_ok_small m Hm)) as [Hwf' [Hnp _]].
  apply andb_true_iff in Hm. destruct Hm as [Hmb Hml]. apply Z.leb_le in Hml.
  enough (rgood (fst (recv_step s m)) /\ forall rd, fst (snd (recv_step s m)) = Ok (Some rd) -> rd_ok rd) by tauto.
  destruct (step_cases s m) as [[e E]|[Hc Hw]]; [rewrite E; split; [exact G|discriminate]|].
  destruct m as [tick dt np part crc d|tick dt crc d|tick dt]; cbn [recv_step msg_tick msg_wellformed msg_data] in *.
  - assert (Hnp32 : 0 < np <= 32) by lia. assert (Hp : 0 <= part < np) by lia.
    rewrite (snap_norm _ _ _ _ _ _ _ Hc (conj (Z.lt_le_incl _ _ (proj1 Hnp32)) (proj2 Hnp32)) Hp) in *.
    assert (G2 : rgood (start_state s tick dt np crc)) by (apply rgood_start, wf_start; assumption).
    destruct (rgood_store _ _ tick dt np part crc d G2 (start_state_cur s tick dt np crc) Hmb Hml) as [H1 H2].
    split; [apply H1, Hwf'|exact H2].
  - rewrite snap_single_ok by exact Hc. split; [apply rgood_idle|]. intros rd [= <-].
    split; [exact Hmb|]. rewrite <- lenZ_spec. unfold BIG in *. lia.
  - rewrite snap_empty_ok by exact Hc. split; [apply rgood_idle|]. intros rd [= <-]. exact I.
Qed.

Definition stgood (st : storage) : Prop := forall t X, In (t, X) (st_snaps st) -> sgood X.

Lemma add_delta_total st crc dt tick d : stgood st -> dgood d ->
  stgood (fst (add_delta st crc dt tick d)) /\ fine_out (fst (snd (add_delta st crc dt tick d))).
Proof.
  intros Hst Hd.
  assert (Hsub : forall snaps1, incl snaps1 (st_snaps st) -> forall t X, In (t, X) snaps1 -> sgood X).
  { intros snaps1 Hincl t X Hin. apply (Hst t X), Hincl, Hin. }
  destruct (add_delta_cases st crc dt tick d) as [[_ ->]|(_ & snaps1 & free1 & Hincl & [[_ ->]|(b & Hbase & H)])].
  - split; [exact Hst|exact I].
  - split; [exact (Hsub _ Hincl)|exact I].
  - assert (Hb : sgood b) by (destruct (0 <=? dt); [apply (Hsub _ Hincl dt), Hbase|subst b; apply sgood_empty]).
    pose proof (snap_read_with_delta_good b d Hb Hd) as Hw. unfold wpost in Hw.
    destruct (snap_read_with_delta b d) as [[X|e|s0|] ws]; cbn [fst] in Hw; try contradiction.
    + destruct (match crc with Some c => negb (c =? Snap.crc (sn_raw X)) | None => false end).
      * destruct H as [free' ->]. split; [exact (Hsub _ Hincl)|exact I].
      * destruct H as (st' & -> & _ & _ & Hincl'). split; [|exact I]. intros t0 X0 Hin.
        apply Hincl' in Hin. destruct Hin as [[= <- <-]|Hin]; [exact Hw|apply (Hsub _ Hincl t0 X0 Hin)].
    + destruct H as [free' ->]. split; [exact (Hsub _ Hincl)|exact I].
Qed.

Lemma lift_st_fine {A} (r : res sterr A) : fine_out r -> fine_out (lift_st r).
Proof. destruct r; cbn; auto. Qed.

Lemma mgr_add_delta_total sz st rd : stgood st -> rd_ok rd ->
  stgood (fst (mgr_add_delta sz st rd)) /\ fine_out (fst (snd (mgr_add_delta sz st rd))).
Proof.
  intros Hst Hrd. unfold mgr_add_delta, rd_ok in *. destruct (rd_data_and_crc rd) as [[data crc]|].
  - destruct Hrd as [Hb Hlen].
    pose proof (delta_read_bytes_post sz data Hb ltac:(unfold BIG, i32_max in *; lia)) as Hw. unfold wpost in Hw.
    destruct (delta_read_bytes sz data) as [[d|e|s0|] ws]; cbn [fst] in Hw; try contradiction.
    + destruct (add_delta_total st (Some crc) (rd_delta_tick rd) (rd_tick rd) d Hst Hw) as [H1 H2].
      destruct (add_delta st (Some crc) (rd_delta_tick rd) (rd_tick rd) d) as [st' [r ws']]. cbn [fst snd] in *.
      split; [exact H1|apply lift_st_fine, H2].
    + cbn [fst snd]. split; [exact Hst|exact I].
  - destruct (add_delta_total st None (rd_delta_tick rd) (rd_tick rd) delta_empty Hst (dgood_empty [])) as [H1 H2].
    destruct (add_delta st None (rd_delta_tick rd) (rd_tick rd) delta_empty) as [st' [r ws']]. cbn [fst snd] in *.
    split; [exact H1|apply lift_st_fine, H2].
Qed.

Definition mgood (m : manager) : Prop := rgood (m_recv m) /\ stgood (m_store m).

Lemma mgood_new : mgood manager_new.
Proof. split; [apply rgood_idle|intros t X []]. Qed.

Theorem manager_feed_total sz m msg : mgood m -> msg_ok msg = true ->
  mgood (fst (manager_feed sz m msg)) /\ fine_out (fst (snd (manager_feed sz m msg))).
Proof.
  intros [Gr Gs] Hm. destruct (rgood_step (m_recv m) msg Gr Hm) as (Gr' & Hnp & Hrd).
  pose proof (recv_no_fuel (m_recv m) msg) as Hnf.
  unfold manager_feed. destruct (recv_step (m_recv m) msg) as [r' [res rws]]. cbn [fst snd] in *.
  destruct res as [[rd|]|e|s0|]; try discriminate; try (exfalso; apply Hnf; reflexivity).
  - destruct (mgr_add_delta_total sz (m_store m) rd Gs (Hrd rd eq_refl)) as [H1 H2].
    destruct (mgr_add_delta sz (m_store m) rd) as [st' [r2 ws2]]. cbn [fst snd] in *.
    split; [split; assumption|]. destruct r2; cbn; auto.
  - cbn [fst snd]. split; [split; assumption|exact I].
  - cbn [fst snd]. split; [split; assumption|exact I].
Qed.

Fixpoint feed_all (sz : osize) (m : manager) (ms : list snapmsg) : list (res merr (option snap)) :=
  match ms with
  | [] => []
  | x :: r => fst (snd (manager_feed sz m x)) :: feed_all sz (fst (manager_feed sz m x)) r
  end.

Theorem feed_all_total sz ms : forall m, mgood m -> forallb msg_ok ms = true -> Forall fine_out (feed_all sz m ms).
Proof.
  induction ms as [|x ms IH]; intros m G H; [constructor|].
  cbn [forallb] in H. apply andb_true_iff in H. destruct H as [Hx H].
  destruct (manager_feed_total sz m x G Hx) as [G' F]. cbn [feed_all]. constructor; [exact F|apply IH; assumption].
Qed.
