(* Packer / Unpacker: a well-formed field list packs to its encoding (or to the
   fitting prefix of it plus CapacityError) and unpacks to itself. *)
From LibTw2 Require Import Base.Res Base.Bits Model.Varint Model.Packer
  Proofs.VarintArith Proofs.VarintProofs.
From Coq Require Import ZArith Lia Bool List.
Open Scope Z_scope.

Definition cap_res (ok : bool) : res perr unit := if ok then Ok tt else Err CapacityError.

(* a write arm of pack_field: buf_write, its flag turned into the result *)
Definition bw (t : target) (bs : bytes) : target * res perr unit :=
  let (t', ok) := buf_write t bs in (t', cap_res ok).

Definition tgt_ok (t : target) : Prop := (length (t_data t) <= t_cap t)%nat.

Lemma firstn_app_le {A} (l1 l2 : list A) n : (n <= length l1)%nat -> firstn n (l1 ++ l2) = firstn n l1.
Proof.
  intros H. rewrite firstn_app. replace (n - length l1)%nat with 0%nat by lia.
  cbn [firstn]. apply app_nil_r.
Qed.

Lemma bw_spec t bs : tgt_ok t ->
  bw t bs = ({| t_data := firstn (t_cap t) (t_data t ++ bs); t_cap := t_cap t |},
             cap_res (length (t_data t ++ bs) <=? t_cap t)%nat).
Proof.
  unfold tgt_ok, bw, buf_write. intros Hok. rewrite app_length.
  destruct (length bs <=? t_cap t - length (t_data t))%nat eqn:E.
  - apply Nat.leb_le in E. replace (length (t_data t) + length bs <=? t_cap t)%nat with true
      by (symmetry; apply Nat.leb_le; lia).
    rewrite firstn_all2 by (rewrite app_length; lia). reflexivity.
  - apply Nat.leb_gt in E. replace (length (t_data t) + length bs <=? t_cap t)%nat with false
      by (symmetry; apply Nat.leb_gt; lia).
    rewrite firstn_app, (firstn_all2 (t_data t)) by lia. reflexivity.
Qed.

Lemma bw_tgt_ok t bs : tgt_ok t -> tgt_ok (fst (bw t bs)).
Proof.
  intros H. rewrite bw_spec by exact H. unfold tgt_ok. cbn [fst t_data t_cap].
  rewrite firstn_length. lia.
Qed.

Lemma bw_nil t : tgt_ok t -> bw t [] = (t, Ok tt).
Proof.
  intros Hok. rewrite bw_spec by exact Hok. unfold tgt_ok in Hok. rewrite app_nil_r, firstn_all2 by exact Hok.
  apply Nat.leb_le in Hok. rewrite Hok. destruct t; reflexivity.
Qed.

(* two writes in a row = one write of the concatenation *)
Lemma bw_app t a b : tgt_ok t ->
  bw t (a ++ b) = match bw t a with (t1, Ok _) => bw t1 b | r => r end.
Proof.
  intros Hok. rewrite (bw_spec t a) by exact Hok.
  destruct (length (t_data t ++ a) <=? t_cap t)%nat eqn:E; cbn [cap_res].
  - apply Nat.leb_le in E.
    rewrite bw_spec by exact Hok. rewrite bw_spec by (unfold tgt_ok; cbn [t_data t_cap]; rewrite firstn_length; lia).
    cbn [t_data t_cap]. rewrite (firstn_all2 (t_data t ++ a)) by lia. rewrite app_assoc. reflexivity.
  - apply Nat.leb_gt in E. rewrite bw_spec by exact Hok.
    rewrite app_assoc. rewrite firstn_app_le by lia.
    replace (length ((t_data t ++ a) ++ b) <=? t_cap t)%nat with false; [reflexivity|].
    symmetry. apply Nat.leb_gt. rewrite app_length. lia.
Qed.

Lemma write_int_bytes_eq v : is_i32 v = true -> write_int v = Ok (write_int_bytes v).
Proof. intros H. unfold write_int_bytes. rewrite write_int_arith by exact H. reflexivity. Qed.

Lemma write_int_bytes_ok v : is_i32 v = true -> bytes_ok (write_int_bytes v) = true.
Proof.
  intros H. unfold write_int_bytes. rewrite write_int_arith by exact H. apply write_int_a_bytes_ok, H.
Qed.

Lemma length_is_i32 {A} (d : list A) : (Z.of_nat (length d) <=? i32_max) = true ->
  is_i32 (Z.of_nat (length d)) = true.
Proof. unfold is_i32, i32_min. lia. Qed.

Lemma pack_int_bw t v : is_i32 v = true -> pack_int t v = bw t (write_int_bytes v).
Proof.
  intros H. unfold pack_int. rewrite write_int_bytes_eq by exact H. reflexivity.
Qed.

Lemma pack_field_bw t f : tgt_ok t -> field_wf f = true -> pack_field t f = bw t (field_bytes f).
Proof.
  intros Hok Hwf. destruct f as [v|s|d|r|r]; cbn [pack_field field_bytes field_wf] in *.
  - apply pack_int_bw, Hwf.
  - apply andb_true_iff in Hwf as [Hn _]. apply negb_true_iff in Hn. rewrite Hn.
    rewrite bw_app by exact Hok. unfold bw at 1. destruct (buf_write t s) as [t1 []]; reflexivity.
  - apply andb_true_iff in Hwf as [Hl _].
    replace (i32_max <? Z.of_nat (length d)) with false by lia.
    rewrite pack_int_bw, bw_app by (apply length_is_i32, Hl || exact Hok).
    destruct (bw t (write_int_bytes (Z.of_nat (length d)))) as [t1 [[]|e|s|]]; reflexivity.
  - reflexivity.
  - reflexivity.
Qed.

Lemma pack_fields_spec fs : forall t, tgt_ok t -> forallb field_wf fs = true ->
  pack_fields t fs = bw t (encoding fs).
Proof.
  induction fs as [|f fs IH]; intros t Hok Hwf.
  - symmetry. apply bw_nil, Hok.
  - cbn [forallb] in Hwf. apply andb_true_iff in Hwf as [Hf Hfs].
    cbn [pack_fields encoding flat_map]. fold (encoding fs).
    rewrite pack_field_bw by assumption. rewrite bw_app by exact Hok.
    pose proof (bw_tgt_ok t (field_bytes f) Hok) as Hok'.
    destruct (bw t (field_bytes f)) as [t1 [[]|e|s|]]; try reflexivity.
    apply IH; assumption.
Qed.

Theorem pack_spec fs cap : forallb field_wf fs = true ->
  pack fs cap = (firstn cap (encoding fs), cap_res (length (encoding fs) <=? cap)%nat).
Proof.
  intros Hwf. unfold pack. rewrite pack_fields_spec; [|unfold tgt_ok; cbn; lia|exact Hwf].
  rewrite bw_spec by (unfold tgt_ok; cbn; lia). reflexivity.
Qed.

Lemma split_nul_app s r : has_nul s = false -> split_nul (s ++ 0 :: r) = Some (s, r).
Proof.
  induction s as [|b s IH]; cbn [has_nul existsb app split_nul]; intros H.
  - reflexivity.
  - apply orb_false_iff in H as [Hb Hs]. rewrite Hb. fold (has_nul s) in Hs. rewrite IH by exact Hs. reflexivity.
Qed.

Lemma bytes_ok_app_inv a b : bytes_ok (a ++ b) = true -> bytes_ok a = true /\ bytes_ok b = true.
Proof. unfold bytes_ok. rewrite forallb_app. intros H. apply andb_true_iff in H. exact H. Qed.

Lemma field_bytes_ok f : field_wf f = true -> bytes_ok (field_bytes f) = true.
Proof.
  destruct f as [v|s|d|r|r]; cbn [field_wf field_bytes]; intros H.
  - apply write_int_bytes_ok, H.
  - apply andb_true_iff in H as [_ H]. apply bytes_ok_app; [exact H|reflexivity].
  - apply andb_true_iff in H as [Hl H]. apply bytes_ok_app; [apply write_int_bytes_ok, length_is_i32, Hl|exact H].
  - exact H.
  - exact H.
Qed.

Lemma read_write_int v rest : is_i32 v = true -> bytes_ok rest = true ->
  read_int (write_int_bytes v ++ rest) = Ok (v, [], rest).
Proof.
  intros Hv Hr. destruct (varint_roundtrip v rest Hv Hr) as [bs [Hw [Hrd _]]].
  unfold write_int_bytes. rewrite Hw. exact Hrd.
Qed.

Lemma firstn_skipn_app {A} (a b : list A) :
  firstn (length a) (a ++ b) = a /\ skipn (length a) (a ++ b) = b.
Proof.
  rewrite firstn_app, skipn_app, firstn_all, skipn_all, Nat.sub_diag. cbn [firstn skipn app].
  rewrite app_nil_r. split; reflexivity.
Qed.

Lemma unpack_step_field f rest : field_wf f = true -> bytes_ok rest = true ->
  (forall r, f <> FRest r) ->
  unpack_step (field_bytes f ++ rest) (kind_of f) = (rest, Ok f, []).
Proof.
  intros Hwf Hr Hnr. destruct f as [v|s|d|r|r]; cbn [field_wf field_bytes kind_of unpack_step] in *.
  - rewrite read_write_int by assumption. reflexivity.
  - apply andb_true_iff in Hwf as [Hn _]. apply negb_true_iff in Hn.
    rewrite <- app_assoc. cbn [app]. rewrite split_nul_app by exact Hn. reflexivity.
  - apply andb_true_iff in Hwf as [Hl Hd]. rewrite <- app_assoc.
    rewrite read_write_int by (apply length_is_i32, Hl || apply bytes_ok_app; assumption).
    replace (Z.of_nat (length d) <? 0) with false by lia. rewrite Nat2Z.id.
    replace (Z.of_nat (length (d ++ rest)) <? Z.of_nat (length d)) with false
      by (rewrite app_length; lia).
    destruct (firstn_skipn_app d rest) as [-> ->]. reflexivity.
  - replace (length (r ++ rest) <? length r)%nat with false
      by (symmetry; apply Nat.ltb_ge; rewrite app_length; lia).
    destruct (firstn_skipn_app r rest) as [-> ->]. reflexivity.
  - exfalso. apply (Hnr r). reflexivity.
Qed.

Lemma encoding_ok fs : forallb field_wf fs = true -> bytes_ok (encoding fs) = true.
Proof.
  induction fs as [|f fs IH]; cbn [forallb encoding flat_map]; intros H; [reflexivity|].
  apply andb_true_iff in H as [Hf Hfs]. apply bytes_ok_app; [apply field_bytes_ok, Hf|apply IH, Hfs].
Qed.

Theorem unpack_encoding fs : fields_wf fs = true ->
  unpack (map kind_of fs) (encoding fs) = Ok (fs, [], []).
Proof.
  unfold fields_wf. intros H. apply andb_true_iff in H as [Hwf Hlast].
  induction fs as [|f fs IH]; [reflexivity|].
  cbn [forallb] in Hwf. apply andb_true_iff in Hwf as [Hf Hfs].
  cbn [map unpack encoding flat_map]. fold (encoding fs).
  destruct f as [v|s|d|r|r].
  1-4: rewrite unpack_step_field; [|exact Hf|apply encoding_ok, Hfs|intros r0; discriminate];
       rewrite IH; [reflexivity|exact Hfs|destruct fs; exact Hlast].
  (* FRest: must be last *)
  destruct fs as [|f' fs']; [|discriminate Hlast].
  cbn [encoding flat_map field_bytes kind_of unpack_step map unpack]. rewrite app_nil_r. reflexivity.
Qed.

(* C08 fields: what was packed successfully is read back identically *)
Theorem pack_unpack fs cap out : fields_wf fs = true -> pack fs cap = (out, Ok tt) ->
  out = encoding fs /\ (length out <= cap)%nat
  /\ unpack (map kind_of fs) out = Ok (fs, [], []).
Proof.
  intros Hwf Hp. pose proof Hwf as Hwf'. unfold fields_wf in Hwf'. apply andb_true_iff in Hwf' as [Hf _].
  rewrite pack_spec in Hp by exact Hf.
  destruct (length (encoding fs) <=? cap)%nat eqn:E; cbn [cap_res] in Hp; [|discriminate].
  apply Nat.leb_le in E. injection Hp as <-. rewrite firstn_all2 by lia.
  split; [reflexivity|]. split; [exact E|]. apply unpack_encoding, Hwf.
Qed.

(* demo-mode finish: ExcessData iff at least four bytes or a non-zero byte are left *)
Theorem finish_demo rest : finish_warns true rest = true <->
  ((4 <= length rest)%nat \/ exists b, In b rest /\ b <> 0).
Proof.
  unfold finish_warns. rewrite orb_true_iff, existsb_exists, Nat.leb_le.
  split; (intros [H|[b [Hin Hb]]]; [left; exact H|right; exists b; split; [exact Hin|lia]]).
Qed.
Theorem finish_normal rest : finish_warns false rest = true <-> rest <> [].
Proof.
  unfold finish_warns. destruct rest; cbn; split; intros H; try discriminate; try reflexivity.
  exfalso; apply H; reflexivity.
Qed.
