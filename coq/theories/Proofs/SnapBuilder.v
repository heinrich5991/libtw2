(* Snap::recycle and Builder::add_item: never a panic on accepted snapshots (C11);
   the builder's own snapshots are consistent and recycle keeps their UUID types (C10). *)
From LibTw2 Require Import Base.Res Model.Varint Model.Packer Model.Snap Proofs.SnapBase Proofs.SnapRep Proofs.SnapDelta
  Proofs.SnapApply Proofs.SnapOk Proofs.SnapTotal Proofs.SnapTotal2 Proofs.SnapC09 Proofs.SnapSer Proofs.SnapReg
  Proofs.SnapObs.
From Coq Require Import ZArith List Lia Bool Permutation.
Import ListNotations.
Open Scope Z_scope.

Lemma reg_ok_iff t : reg_ok t = true <-> 16384 <= t < 32768.
Proof. unfold reg_ok, OFFSET_EXTENDED_TYPE_ID, MAX_EXTENDED_TYPE_ID. rewrite andb_true_iff, Z.leb_le, Z.ltb_lt. tauto. Qed.

Lemma recycle_scan_fine : forall keys next,
  (forall k, In k keys -> key_to_raw_type_id k = TYPE_ID_EX -> reg_ok (key_to_id k) = true) ->
  16384 <= next <= 32768 ->
  exists n', recycle_scan keys next = Ok n' /\ 16384 <= n' <= 32768.
Proof.
  induction keys as [|k keys IH]; intros next Hk Hn; [exists next; split; [reflexivity|exact Hn]|].
  cbn [recycle_scan]. destruct (Z.eqb_spec (key_to_raw_type_id k) TYPE_ID_EX) as [Ht|Ht]; cbn [negb];
    [|exists next; split; [reflexivity|exact Hn]].
  pose proof (Hk k (or_introl eq_refl) Ht) as Hr. apply reg_ok_iff in Hr.
  replace (65535 <? next + 256) with false by (symmetry; apply Z.ltb_ge; lia).
  assert (Hk' : forall k0, In k0 keys -> key_to_raw_type_id k0 = TYPE_ID_EX -> reg_ok (key_to_id k0) = true)
    by (intros; apply Hk; [right|]; assumption).
  destruct (key_to_id k <? next + 256).
  - replace (65535 <? key_to_id k + 1) with false by (symmetry; apply Z.ltb_ge; lia). apply IH; [exact Hk'|lia].
  - apply IH; [exact Hk'|exact Hn].
Qed.

Lemma uuid_words_i32 u : forallb is_i32 (uuid_to_item_data u) = true.
Proof.
  assert (H : forall x, is_i32 (i32_of (x mod two32)) = true) by (intros x; apply (wrap_range x)).
  unfold uuid_to_item_data, uuid_word. cbn [forallb]. rewrite !H. reflexivity.
Qed.

Definition reg_items (l : list (Z * Z)) : items := map (fun ut => (key TYPE_ID_EX (snd ut), uuid_to_item_data (fst ut))) l.

Lemma reg_items_nodup ext : NoDup (map fst ext) ->
  (forall u u' t, aget u ext = Some t -> aget u' ext = Some t -> u = u') ->
  (forall u t, In (u, t) ext -> reg_ok t = true) -> NoDup (map fst (reg_items ext)).
Proof.
  intros Hnd Hinj Hreg. unfold reg_items. rewrite map_map. cbn [fst].
  apply NoDup_map_inj; [|apply (NoDup_map_inv fst), Hnd].
  intros [u t] [u' t'] Hin Hin' E. cbn [snd] in E.
  pose proof (Hreg _ _ Hin) as Hr. pose proof (Hreg _ _ Hin') as Hr'. apply reg_ok_iff in Hr, Hr'.
  apply key_inj in E; try (unfold TYPE_ID_EX; lia). destruct E as [_ <-].
  f_equal. apply (Hinj u u' t); apply in_aget; assumption.
Qed.

Lemma recycle_fill_rep : forall l R chR, good R -> rep R chR ->
  (forall u t, In (u, t) l -> reg_ok t = true) ->
  NoDup (map fst (chR ++ reg_items l)) -> lim_ok (chR ++ reg_items l) ->
  exists R', recycle_fill l R = Ok R' /\ good R' /\ rep R' (chR ++ reg_items l).
Proof.
  induction l as [|[u t] l IH]; intros R chR G HR Hreg Hnd Hlim.
  - exists R. cbn [reg_items map]. rewrite app_nil_r. auto.
  - change (reg_items ((u, t) :: l)) with ((key TYPE_ID_EX t, uuid_to_item_data u) :: reg_items l) in *.
    pose proof (Hreg u t (or_introl eq_refl)) as Hr. apply reg_ok_iff in Hr.
    assert (Hfresh : aget (key TYPE_ID_EX t) (rs_offs R) = None)
      by (apply (rep_get_none _ _ _ HR), aget_none, (nodup_mid _ _ _ _ Hnd)).
    rewrite app_cons_snoc in *.
    pose proof (fits_of_lim _ _ _ _ HR (lim_ok_prefix _ _ Hlim)) as Hf.
    cbn [recycle_fill]. rewrite (add_item_push _ _ _ _ Hfresh Hf). apply IH; try assumption.
    + apply good_pushed; [exact G|exact Hfresh|apply key_i32; unfold TYPE_ID_EX; lia|apply uuid_words_i32|exact Hf].
    + apply rep_pushed; assumption.
    + intros u' t' Hin. apply (Hreg u' t'). right. exact Hin.
Qed.

Lemma registry_lim ch ext : NoDup (map fst ch) -> ext_ok ch ext -> lim_ok ch ->
  NoDup (map fst (reg_items ext)) /\ lim_ok (reg_items ext).
Proof.
  intros Hndc Hext Hlim. pose proof (sortedb_nodup _ (eo_sorted _ _ Hext)) as Hnde.
  assert (Hnd : NoDup (map fst (reg_items ext))).
  { apply reg_items_nodup; [exact Hnde|apply (eo_inj _ _ Hext)|].
    intros u t Hin. apply (eo_entry _ _ Hext u t), in_aget; assumption. }
  split; [exact Hnd|]. apply (lim_ok_weight _ ch); [|exact Hlim]. apply weight_le'; [exact Hnd|].
  intros k d Hin. unfold reg_items in Hin. apply in_map_iff in Hin. destruct Hin as [[u t] [E Hin]].
  injection E as <- <-. destruct (eo_entry _ _ Hext u t (in_aget _ _ _ Hnde Hin)) as (_ & d & Hd & _ & Hl).
  exists d. split; [exact Hd|exact Hl].
Qed.

Lemma recycle_fill_registry ch ext : NoDup (map fst ch) -> ext_ok ch ext -> lim_ok ch ->
  exists R', recycle_fill ext raw_empty = Ok R' /\ good R' /\ rep R' (reg_items ext).
Proof.
  intros Hnd Hext Hlim. destruct (registry_lim ch ext Hnd Hext Hlim) as [Hndr Hlimr].
  apply (recycle_fill_rep ext raw_empty [] good_empty rep_empty); [|exact Hndr|exact Hlimr].
  intros u t Hin. apply (eo_entry _ _ Hext u t), in_aget; [apply sortedb_nodup, (eo_sorted _ _ Hext)|exact Hin].
Qed.

Theorem snap_recycle_fine S : sgood S ->
  exists b, snap_recycle S = Ok b /\ 16384 <= b_next b <= 32768 /\ good (sn_raw (b_snap b))
    /\ sn_ext (b_snap b) = sn_ext S.
Proof.
  intros G. destruct (sg_ext _ G) as (ch & R & Hext & Hitems & Hlen). unfold snap_recycle.
  destruct (recycle_scan_fine (map fst (rs_offs (sn_raw S))) OFFSET_EXTENDED_TYPE_ID) as (n' & -> & Hn').
  - intros k Hin Ht. apply (rep_in_keys _ _ _ R) in Hin. destruct (aget k ch) as [d|] eqn:Hd; [|contradiction].
    destruct (Hitems k d Hd) as [Hreg _]. destruct (Hreg Ht) as (u & _ & Hu). apply (eo_entry _ _ Hext u _ Hu).
  - unfold OFFSET_EXTENDED_TYPE_ID. lia.
  - destruct (recycle_fill_registry ch (sn_ext S) (rep_nodup _ _ R) Hext (good_lim _ _ (sg_raw _ G) R))
      as (R' & -> & G' & _).
    cbn [bind]. eexists. split; [reflexivity|]. cbn [b_next b_snap sn_raw sn_ext]. auto.
Qed.

(* the last step of Builder::add_item: the item itself, under a raw type number *)
Definition add_typed (id : Z) (data : list Z) (b : builder) (ty : Z) : builder * res berr unit :=
  match add_item (sn_raw (b_snap b)) ty id data with
  | Ok R => ({| b_snap := {| sn_raw := R; sn_ext := sn_ext (b_snap b) |}; b_next := b_next b |}, Ok tt)
  | Err e => (b, Err e)
  | Panic s => (b, Panic s)
  | OutOfFuel => (b, OutOfFuel)
  end.

(* before it, a UUID that is not registered yet gets the next number and its registry item *)
Lemma builder_add_eq b t id data : builder_add b t id data =
  match t with
  | Ordinal o => if (0 <? o) && (o <? OFFSET_EXTENDED_TYPE_ID) then add_typed id data b o else (b, Panic site_ordinal)
  | Uuid u =>
    match aget u (sn_ext (b_snap b)) with
    | Some ty => add_typed id data b ty
    | None =>
      if negb (OFFSET_EXTENDED_TYPE_ID <=? b_next b) then (b, Panic site_next_low)
      else if MAX_EXTENDED_TYPE_ID <=? b_next b then (b, Err BTooManyItems)
      else match add_item (sn_raw (b_snap b)) TYPE_ID_EX (b_next b) (uuid_to_item_data u) with
           | Ok R => add_typed id data {| b_snap := {| sn_raw := R; sn_ext := ains u (b_next b) (sn_ext (b_snap b)) |};
                                          b_next := b_next b + 1 |} (b_next b)
           | Err e => (b, Err e)
           | Panic s => (b, Panic s)
           | OutOfFuel => (b, OutOfFuel)
           end
    end
  end.
Proof. reflexivity. Qed.

Lemma add_typed_fine id data b ty : fine (snd (add_typed id data b ty)).
Proof. unfold add_typed. pose proof (add_item_fine (sn_raw (b_snap b)) ty id data) as H. destruct (add_item _ ty id data); exact H. Qed.

Lemma add_typed_ext id data b ty : sn_ext (b_snap (fst (add_typed id data b ty))) = sn_ext (b_snap b).
Proof. unfold add_typed. destruct (add_item _ ty id data); reflexivity. Qed.

(* no panic is left but the two assertions on its arguments / numbering *)
Theorem builder_add_fine b t id data :
  (forall o, t = Ordinal o -> 0 < o < OFFSET_EXTENDED_TYPE_ID) -> OFFSET_EXTENDED_TYPE_ID <= b_next b ->
  fine (snd (builder_add b t id data)).
Proof.
  intros Ho Hn. rewrite builder_add_eq. destruct t as [o|u].
  - specialize (Ho o eq_refl). rewrite (proj2 (andb_true_iff _ _)) by (split; apply Z.ltb_lt; lia). apply add_typed_fine.
  - destruct (aget u (sn_ext (b_snap b))) as [ty|]; [apply add_typed_fine|].
    rewrite (proj2 (Z.leb_le _ _) Hn). cbn [negb]. destruct (MAX_EXTENDED_TYPE_ID <=? b_next b); [exact I|].
    pose proof (add_item_fine (sn_raw (b_snap b)) TYPE_ID_EX (b_next b) (uuid_to_item_data u)) as H0.
    destruct (add_item _ TYPE_ID_EX _ _); try exact H0. apply add_typed_fine.
Qed.

Definition uuid_okb (u : Z) : bool := (0 <=? u) && (u <? 2 ^ 128).

(* the registry `ext` with numbers below `next` describes the items `ch` exactly *)
Record bstate (ch : items) (ext : list (Z * Z)) (next : Z) : Prop := {
  bs_sorted : sortedb (map fst ext) = true;
  bs_entry : forall u t, aget u ext = Some t ->
    16384 <= t < next /\ uuid_okb u = true /\ aget (key TYPE_ID_EX t) ch = Some (uuid_to_item_data u);
  bs_inj : forall u u' t, aget u ext = Some t -> aget u' ext = Some t -> u = u';
  bs_reg : forall k d, aget k ch = Some d -> key_to_raw_type_id k = TYPE_ID_EX -> exists u, aget u ext = Some (key_to_id k);
  bs_high : forall k d, aget k ch = Some d -> 16384 <= key_to_raw_type_id k -> exists u, aget u ext = Some (key_to_raw_type_id k);
  bs_contig : forall t, 16384 <= t < next -> exists u, aget u ext = Some t
}.

Record bgood (b : builder) : Prop := {
  bg_raw : good (sn_raw (b_snap b));
  bg_next : 16384 <= b_next b <= 32768;
  bg_st : exists ch, rep (sn_raw (b_snap b)) ch /\ bstate ch (sn_ext (b_snap b)) (b_next b)
}.

Lemma bgood_new : bgood builder_new.
Proof.
  split; [apply good_empty|cbn [builder_new b_next]; unfold OFFSET_EXTENDED_TYPE_ID; lia|]. exists []. split; [apply rep_empty|].
  split; cbn [builder_new b_snap b_next snap_empty sn_ext aget map]; try discriminate; try reflexivity.
  intros t Ht. unfold OFFSET_EXTENDED_TYPE_ID in Ht. lia.
Qed.

Lemma bstate_push ch ext next k d : bstate ch ext next -> aget k ch = None ->
  key_to_raw_type_id k <> TYPE_ID_EX ->
  (16384 <= key_to_raw_type_id k -> exists u, aget u ext = Some (key_to_raw_type_id k)) ->
  bstate (ch ++ [(k, d)]) ext next.
Proof.
  intros B Hn Hty Hhigh. split.
  - apply (bs_sorted _ _ _ B).
  - intros u t Hu. destruct (bs_entry _ _ _ B u t Hu) as (H1 & H2 & H3). split; [exact H1|split; [exact H2|]].
    rewrite aget_app, H3. reflexivity.
  - apply (bs_inj _ _ _ B).
  - intros k' d' Hk' Ht'. destruct (aget_snoc_inv _ _ _ _ _ Hk') as [Hk0|[-> _]]; [|contradiction].
    apply (bs_reg _ _ _ B k' d' Hk0 Ht').
  - intros k' d' Hk' Ht'. destruct (aget_snoc_inv _ _ _ _ _ Hk') as [Hk0|[-> _]]; [|apply Hhigh, Ht'].
    apply (bs_high _ _ _ B k' d' Hk0 Ht').
  - apply (bs_contig _ _ _ B).
Qed.

Lemma bstate_register ch ext next u : bstate ch ext next -> aget u ext = None -> uuid_okb u = true ->
  16384 <= next < 32768 -> aget (key TYPE_ID_EX next) ch = None ->
  bstate (ch ++ [(key TYPE_ID_EX next, uuid_to_item_data u)]) (ains u next ext) (next + 1).
Proof.
  intros B Hu Hok Hn Hfresh.
  assert (Hty : key_to_raw_type_id (key TYPE_ID_EX next) = TYPE_ID_EX) by (apply key_to_ty_key; unfold TYPE_ID_EX; lia).
  assert (Hid : key_to_id (key TYPE_ID_EX next) = next) by (apply key_to_id_key; unfold TYPE_ID_EX; lia).
  split.
  - apply ains_sorted, (bs_sorted _ _ _ B).
  - intros u' t Hu'. destruct (Z.eq_dec u' u) as [->|Hne].
    + rewrite aget_ains_same in Hu'. injection Hu' as <-. split; [lia|]. split; [exact Hok|].
      rewrite aget_app, Hfresh. cbn [aget]. rewrite Z.eqb_refl. reflexivity.
    + rewrite aget_ains_other in Hu' by exact Hne. destruct (bs_entry _ _ _ B u' t Hu') as (H1 & H2 & H3).
      split; [lia|]. split; [exact H2|]. rewrite aget_app, H3. reflexivity.
  - apply ains_inj; [apply (bs_inj _ _ _ B)|]. intros u' Hu'. destruct (bs_entry _ _ _ B u' next Hu') as [? _]. lia.
  - intros k d Hk Ht. destruct (aget_snoc_inv _ _ _ _ _ Hk) as [Hk0|[-> _]]; [|rewrite Hid; exists u; apply aget_ains_same].
    destruct (bs_reg _ _ _ B k d Hk0 Ht) as [u' Hu']. exists u'. rewrite aget_ains_other; [exact Hu'|]. intros ->. congruence.
  - intros k d Hk Ht. destruct (aget_snoc_inv _ _ _ _ _ Hk) as [Hk0|[-> _]]; [|rewrite Hty in Ht; unfold TYPE_ID_EX in Ht; lia].
    destruct (bs_high _ _ _ B k d Hk0 Ht) as [u' Hu']. exists u'. rewrite aget_ains_other; [exact Hu'|]. intros ->. congruence.
  - intros t Ht. destruct (Z.eq_dec t next) as [->|Hne]; [exists u; apply aget_ains_same|].
    destruct (bs_contig _ _ _ B t) as [u' Hu']; [lia|]. exists u'. rewrite aget_ains_other; [exact Hu'|]. intros ->. congruence.
Qed.

Lemma add_typed_bgood id data b ty : bgood b -> 0 < ty <= 65535 -> 0 <= id <= 65535 -> forallb is_i32 data = true ->
  (16384 <= ty -> exists u, aget u (sn_ext (b_snap b)) = Some ty) -> bgood (fst (add_typed id data b ty)).
Proof.
  intros G Hty Hid Hd Hhigh. destruct (bg_st _ G) as (ch & HR & B). unfold add_typed.
  pose proof (add_item_good _ ty id data (bg_raw _ G) ltac:(lia) Hid Hd) as G'.
  destruct (add_item (sn_raw (b_snap b)) ty id data) as [R'| | |] eqn:E; try exact G.
  apply add_item_ok in E. destruct E as (Hn & _ & ->).
  split; cbn [fst b_snap b_next sn_raw sn_ext]; [exact G'|apply (bg_next _ G)|].
  exists (ch ++ [(key ty id, data)]). split; [apply rep_pushed; assumption|].
  apply bstate_push; [exact B|apply (rep_get_none _ _ _ HR), Hn| |]; rewrite key_to_ty_key by lia;
    [unfold TYPE_ID_EX; lia|exact Hhigh].
Qed.

Definition op_ok (t : tyid) (id : Z) (data : list Z) : Prop :=
  match t with Ordinal o => 0 < o < OFFSET_EXTENDED_TYPE_ID | Uuid u => uuid_okb u = true end
  /\ 0 <= id <= 65535 /\ forallb is_i32 data = true.

Theorem builder_add_bgood b t id data : bgood b -> op_ok t id data ->
  bgood (fst (builder_add b t id data)) /\ fine (snd (builder_add b t id data)).
Proof.
  intros G (Ht & Hid & Hd). pose proof (bg_next _ G) as Hn. split.
  2:{ apply builder_add_fine; [intros o ->; exact Ht|]. unfold OFFSET_EXTENDED_TYPE_ID. lia. }
  destruct (bg_st _ G) as (ch & HR & B). rewrite builder_add_eq. destruct t as [o|u].
  - unfold OFFSET_EXTENDED_TYPE_ID in *. rewrite (proj2 (andb_true_iff _ _)) by (split; apply Z.ltb_lt; lia).
    apply add_typed_bgood; try assumption; lia.
  - destruct (aget u (sn_ext (b_snap b))) as [ty|] eqn:Hu.
    + destruct (bs_entry _ _ _ B u ty Hu) as (H1 & _ & _). apply add_typed_bgood; eauto; lia.
    + rewrite (proj2 (Z.leb_le _ _)) by (unfold OFFSET_EXTENDED_TYPE_ID; lia). cbn [negb].
      destruct (Z.leb_spec MAX_EXTENDED_TYPE_ID (b_next b)) as [Hmax|Hmax]; [exact G|]. unfold MAX_EXTENDED_TYPE_ID in Hmax.
      pose proof (add_item_good _ TYPE_ID_EX (b_next b) (uuid_to_item_data u) (bg_raw _ G)) as G1.
      destruct (add_item _ TYPE_ID_EX _ _) as [R1| | |] eqn:E1; try exact G.
      apply add_item_ok in E1. destruct E1 as (Hfresh & _ & ->).
      apply add_typed_bgood; try assumption; [|lia|intros _; exists u; apply aget_ains_same].
      split; cbn [b_snap b_next sn_raw sn_ext]; [apply G1; [unfold TYPE_ID_EX; lia|lia|apply uuid_words_i32]|lia|].
      exists (ch ++ [(key TYPE_ID_EX (b_next b), uuid_to_item_data u)]). split; [apply rep_pushed; assumption|].
      apply bstate_register; [exact B|exact Hu|exact Ht|lia|apply (rep_get_none _ _ _ HR), Hfresh].
Qed.

(* add_item never forgets a registered UUID, and a new one gets the next number *)
Lemma builder_add_keeps b t id data u' ty : aget u' (sn_ext (b_snap b)) = Some ty ->
  aget u' (sn_ext (b_snap (fst (builder_add b t id data)))) = Some ty.
Proof.
  intros Hu'. rewrite builder_add_eq. destruct t as [o|u].
  - destruct ((0 <? o) && (o <? OFFSET_EXTENDED_TYPE_ID)); [rewrite add_typed_ext|]; exact Hu'.
  - destruct (aget u (sn_ext (b_snap b))) eqn:Hu; [rewrite add_typed_ext; exact Hu'|].
    destruct (negb _); [exact Hu'|]. destruct (MAX_EXTENDED_TYPE_ID <=? b_next b); [exact Hu'|].
    destruct (add_item _ TYPE_ID_EX _ _); try exact Hu'. rewrite add_typed_ext. cbn [b_snap sn_ext].
    rewrite aget_ains_other; congruence.
Qed.

Lemma builder_add_number b u id data : aget u (sn_ext (b_snap b)) = None ->
  snd (builder_add b (Uuid u) id data) = Ok tt ->
  aget u (sn_ext (b_snap (fst (builder_add b (Uuid u) id data)))) = Some (b_next b).
Proof.
  intros Hu. rewrite builder_add_eq, Hu. destruct (negb _); [discriminate|].
  destruct (MAX_EXTENDED_TYPE_ID <=? b_next b); [discriminate|].
  destruct (add_item _ TYPE_ID_EX _ _); try discriminate. intros _. rewrite add_typed_ext. apply aget_ains_same.
Qed.

Fixpoint build (ops : list (tyid * Z * list Z)) (b : builder) : builder :=
  match ops with
  | [] => b
  | (t, id, data) :: r => build r (fst (builder_add b t id data))
  end.

Theorem build_bgood ops : (forall t id data, In (t, id, data) ops -> op_ok t id data) ->
  forall b, bgood b -> bgood (build ops b).
Proof.
  induction ops as [|[[t id] data] ops IH]; intros Hok b G; [exact G|]. cbn [build].
  apply IH; [intros; apply Hok; right; assumption|].
  apply builder_add_bgood; [exact G|apply Hok; left; reflexivity].
Qed.
