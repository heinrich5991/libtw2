(* Invariant of the shared online core (both protocol versions): packet contents stay
   within every size limit, so no call panics, resend terminates, and every datagram
   that is emitted is well-formed. *)
From LibTw2 Require Import Base.Res Model.PacketTypes Model.ConnCore.
From Coq Require Import ZArith Lia Bool List.
Open Scope Z_scope.

Definition pp_ok (pp : params) : Prop := pp = params6 \/ pp = params7.

Definition data_ok (pp : params) (d : bytes) : Prop :=
  Z.of_nat (length d) <= MAX_PAYLOAD /\ Z.of_nat (length d) < 2 ^ p_size_bits pp.

Definition chunk_ok (pp : params) (c : chunk) : Prop :=
  data_ok pp (ch_data c) /\
  match ch_vital c with Some (s, _) => 0 <= s < SEQ_MOD | None => True end.

Definition pc_ok (pp : params) (p : pcontents) : Prop :=
  pc_num p = Z.of_nat (length (pc_chunks p)) /\ pc_num p <= 255 /\
  pc_len p <= fit_limit pp /\ Forall (chunk_ok pp) (pc_chunks p).

Definition rchunk_ok (pp : params) (c : rchunk) : Prop :=
  data_ok pp (rc_data c) /\ 0 <= rc_seq c < SEQ_MOD /\ rc_next c <> None.

Definition tok_ok (t : option token) : Prop :=
  match t with Some x => length x = 4%nat | None => True end.

Definition online_ok (pp : params) (o : online) : Prop :=
  pc_ok pp (o_packet o) /\ pc_ok pp (o_packet_nv o) /\
  pc_num (o_packet_nv o) <= pc_num (o_packet o) /\ pc_len (o_packet_nv o) <= pc_len (o_packet o) /\
  Forall (rchunk_ok pp) (o_queue o) /\
  0 <= o_ack o < SEQ_MOD /\ 0 <= o_seq o < SEQ_MOD.

Lemma online_ok_ack pp o : online_ok pp o -> 0 <= o_ack o < SEQ_MOD.
Proof. intros [_ [_ [_ [_ [_ [H _]]]]]]. exact H. Qed.

(* what a receiver may rely on for a datagram the connection layer emits *)
Definition dgram_ok (pp : params) (d : dgram) : Prop :=
  match d with
  | DChunks tok ack rr n cs =>
    tok_ok tok /\
    0 <= ack < SEQ_MOD /\ n = Z.of_nat (length cs) /\ n <= 255 /\ Forall (chunk_ok pp) cs /\
    chunks_dgram_size pp tok (chunks_size cs) <= MAX_PACKETSIZE /\
    (rr = true \/ n <> 0)          (* a flush only happens when there is something to send *)
  | DControl tok ack c =>
    tok_ok tok /\
    0 <= ack < SEQ_MOD /\ control_size pp tok c <= MAX_PACKETSIZE /\
    match c with Close r => forallb (fun b => negb (b =? 0)) r = true /\ (length r <= 127)%nat | _ => True end
  | DConnless _ _ p => Z.of_nat (length p) <= MAX_PAYLOAD
  end.

Lemma nul_free r : existsb (fun b => b =? 0) r = false -> forallb (fun b => negb (b =? 0)) r = true.
Proof.
  induction r as [|b r IH]; [reflexivity|]. cbn [existsb forallb]. intros H.
  apply orb_false_iff in H as [Hb Hr]. rewrite Hb, (IH Hr). reflexivity.
Qed.

Lemma control_dgram_ok pp tok ack c :
  tok_ok tok -> 0 <= ack < SEQ_MOD -> control_size pp tok c <= MAX_PACKETSIZE ->
  match c with Close r => (length r <= 127)%nat /\ existsb (fun b => b =? 0) r = false | _ => True end ->
  dgram_ok pp (DControl tok ack c).
Proof.
  intros Ht Ha Hs Hc. split; [exact Ht|]. split; [exact Ha|]. split; [exact Hs|].
  destruct c; try exact I. destruct Hc as [Hl Hn]. split; [apply nul_free, Hn|exact Hl].
Qed.

Lemma bind_ok {E A B} (r : res E A) (f : A -> res E B) b : bind r f = Ok b -> exists a, r = Ok a /\ f a = Ok b.
Proof. destruct r; cbn [bind]; try discriminate. intros H. eexists; split; [reflexivity|exact H]. Qed.

Lemma chunks_size_app a b : chunks_size (a ++ b) = chunks_size a + chunks_size b.
Proof. induction a as [|c a IH]; cbn [app chunks_size]; lia. Qed.

Lemma chunks_size_nonneg cs : 0 <= chunks_size cs.
Proof.
  induction cs as [|c cs IH]; cbn [chunks_size]; [lia|].
  unfold chunk_size, chunk_hdr. destruct (is_vital c); lia.
Qed.

Lemma fit_limit_bounds pp : pp_ok pp -> 1390 <= fit_limit pp <= 1393.
Proof. intros [-> | ->]; unfold fit_limit, MAX_PAYLOAD, params6, params7; cbn [p_v7]; lia. Qed.

Lemma pc_empty_ok pp : pp_ok pp -> pc_ok pp pc_empty.
Proof.
  intros H. unfold pc_ok, pc_empty, pc_len. cbn. pose proof (fit_limit_bounds pp H).
  repeat split; try lia. constructor.
Qed.

Lemma pc_write_ok pp p data vital :
  pp_ok pp -> pc_ok pp p -> data_ok pp data ->
  match vital with Some (s, _) => 0 <= s < SEQ_MOD | None => True end ->
  pc_num p < 255 ->
  pc_len p + chunk_hdr (match vital with Some _ => true | None => false end)
    + Z.of_nat (length data) <= fit_limit pp ->
  exists p', pc_write_chunk pp p data vital = Ok p' /\ pc_ok pp p' /\
    pc_chunks p' = pc_chunks p ++ [{| ch_data := data; ch_vital := vital |}] /\
    pc_num p' = pc_num p + 1 /\
    pc_len p' = pc_len p + chunk_hdr (match vital with Some _ => true | None => false end)
                + Z.of_nat (length data).
Proof.
  intros Hpp [Hn [Hle [Hlen Hall]]] [Hd1 Hd2] Hv Hnum Hfit.
  pose proof (fit_limit_bounds pp Hpp) as Hfl.
  unfold pc_write_chunk.
  replace (2 ^ p_size_bits pp <=? Z.of_nat (length data)) with false by lia.
  set (c := {| ch_data := data; ch_vital := vital |}).
  assert (Hcs : chunk_size c = chunk_hdr (match vital with Some _ => true | None => false end)
                               + Z.of_nat (length data)).
  { unfold chunk_size, is_vital, c. cbn. destruct vital; reflexivity. }
  replace (2048 <? pc_len p + chunk_size c) with false by lia.
  replace (255 <=? pc_num p) with false by lia.
  eexists. split; [reflexivity|]. cbn [pc_chunks pc_num].
  assert (Hl : pc_len {| pc_num := pc_num p + 1; pc_chunks := pc_chunks p ++ [c] |}
               = pc_len p + chunk_size c).
  { unfold pc_len. cbn [pc_chunks]. rewrite chunks_size_app. cbn [chunks_size]. lia. }
  split; [|split; [reflexivity|split; [reflexivity|rewrite Hl, Hcs; lia]]].
  unfold pc_ok. cbn [pc_num pc_chunks]. rewrite Hl, Hcs.
  repeat split; try lia.
  - rewrite app_length. cbn [length]. lia.
  - apply Forall_app. split; [exact Hall|]. constructor; [|constructor].
    unfold chunk_ok, c. cbn. split; [split; assumption|exact Hv].
Qed.

Lemma pc_write_shape pp p data vital p' : pc_write_chunk pp p data vital = Ok p' ->
  p' = {| pc_num := pc_num p + 1; pc_chunks := pc_chunks p ++ [{| ch_data := data; ch_vital := vital |}] |} /\
  pc_num p < 255.
Proof.
  unfold pc_write_chunk. destruct (2 ^ p_size_bits pp <=? _); [discriminate|].
  destruct (2048 <? _); [discriminate|]. destruct (255 <=? pc_num p) eqn:E; [discriminate|].
  intros H; injection H as <-. split; [reflexivity|lia].
Qed.

Lemma can_fit_true pp p len vital :
  can_fit_chunk pp p len vital = true -> pc_num p < 255 /\ pc_len p + chunk_hdr vital + len <= fit_limit pp.
Proof. unfold can_fit_chunk. intros H. apply andb_true_iff in H. lia. Qed.

Lemma online_flush_ok pp o :
  pp_ok pp -> online_ok pp o -> tok_ok (o_their o) ->
  exists o' ds, online_flush pp o = Ok (o', ds) /\ online_ok pp o' /\ Forall (dgram_ok pp) ds /\
    o_own o' = o_own o /\ o_their o' = o_their o /\
    pc_num (o_packet o') = 0 /\ pc_len (o_packet o') = 0.
Proof.
  intros Hpp Hok Htok. pose proof Hok as Hok0. destruct Hok as [Hp [Hnv [Hn1 [Hn2 [Hq [Ha Hs]]]]]].
  pose proof (fit_limit_bounds pp Hpp) as Hfl. destruct Hp as [Hpn [Hple [Hplen Hpall]]].
  unfold online_flush. destruct (can_send o) eqn:Ecs; cbn [negb].
  2:{ exists o, []. split; [reflexivity|]. split; [exact Hok0|]. split; [constructor|].
      do 2 (split; [reflexivity|]).
      unfold can_send in Ecs. apply orb_false_iff in Ecs as [E _].
      assert (Hz : pc_num (o_packet o) = 0) by lia. split; [exact Hz|].
      unfold pc_len. rewrite Hz in Hpn. destruct (pc_chunks (o_packet o)); [reflexivity|cbn in Hpn; lia]. }
  assert (Hsz : chunks_dgram_size pp (o_their o) (pc_len (o_packet o)) <= MAX_PACKETSIZE).
  { unfold chunks_dgram_size, MAX_PACKETSIZE, tok_size6.
    destruct Hpp as [-> | ->]; unfold fit_limit, MAX_PAYLOAD, params6, params7 in *; cbn [p_v7 p_header] in *;
      destruct (o_their o); lia. }
  replace (MAX_PACKETSIZE <? chunks_dgram_size pp (o_their o) (pc_len (o_packet o))) with false by lia.
  eexists _, _. split; [reflexivity|].
  split.
  { unfold online_ok, o_clear. cbn. pose proof (pc_empty_ok pp Hpp).
    repeat split; try assumption; try lia; try apply H. }
  split.
  { constructor; [|constructor]. unfold dgram_ok. split; [exact Htok|]. repeat split; try assumption; try lia.
    unfold can_send in Ecs. apply orb_true_iff in Ecs as [E|E]; [right; lia|left; exact E]. }
  unfold o_clear. cbn. repeat split.
Qed.

Lemma data_fits_empty pp d : pp_ok pp -> data_ok pp d -> 3 + Z.of_nat (length d) <= fit_limit pp.
Proof.
  intros [-> | ->] [H1 H2]; unfold fit_limit, MAX_PAYLOAD, params6, params7 in *; cbn [p_v7 p_size_bits] in *;
    [change (2 ^ 10) with 1024 in H2|]; lia.
Qed.

Lemma seq_next_range s : 0 <= seq_next s < SEQ_MOD.
Proof. unfold seq_next, SEQ_MOD. apply Z.mod_pos_bound. lia. Qed.

Lemma mk_online_ok pp o :
  pc_ok pp (o_packet o) -> pc_ok pp (o_packet_nv o) ->
  pc_num (o_packet_nv o) <= pc_num (o_packet o) -> pc_len (o_packet_nv o) <= pc_len (o_packet o) ->
  Forall (rchunk_ok pp) (o_queue o) -> 0 <= o_ack o < SEQ_MOD -> 0 <= o_seq o < SEQ_MOD ->
  online_ok pp o.
Proof. unfold online_ok. tauto. Qed.

Lemma online_queue_ok pp now o data vital :
  pp_ok pp -> online_ok pp o -> data_ok pp data ->
  pc_num (o_packet o) < 255 ->
  pc_len (o_packet o) + chunk_hdr vital + Z.of_nat (length data) <= fit_limit pp ->
  exists o', online_queue pp now o data vital = Ok o' /\ online_ok pp o' /\
    o_own o' = o_own o /\ o_their o' = o_their o.
Proof.
  intros Hpp Hok Hd Hnum Hfit. destruct Hok as [Hp [Hnv [Hn1 [Hn2 [Hq [Ha Hs]]]]]].
  unfold online_queue. destruct vital.
  - replace (2048 <? Z.of_nat (length data)) with false by (destruct Hd; unfold MAX_PAYLOAD in *; lia).
    destruct (pc_write_ok pp (o_packet o) data (Some (seq_next (o_seq o), false)) Hpp Hp Hd
                (seq_next_range _) Hnum Hfit) as [p' [Hw [Hp' [_ [Hnum' Hlen']]]]].
    rewrite Hw. eexists. split; [reflexivity|]. cbn. split; [|repeat split].
    apply mk_online_ok; cbn; try assumption; try lia; try apply seq_next_range.
    + unfold chunk_hdr in Hlen'. lia.
    + constructor; [|exact Hq]. unfold rchunk_ok. cbn. split; [exact Hd|]. split; [apply seq_next_range|discriminate].
  - assert (Hnv1 : pc_num (o_packet_nv o) < 255) by lia.
    assert (Hnv2 : pc_len (o_packet_nv o) + chunk_hdr false + Z.of_nat (length data) <= fit_limit pp) by lia.
    destruct (pc_write_ok pp (o_packet_nv o) data None Hpp Hnv Hd I Hnv1 Hnv2) as [nv' [Hw1 [Hnv' [_ [Hnn Hnl]]]]].
    destruct (pc_write_ok pp (o_packet o) data None Hpp Hp Hd I Hnum Hfit) as [p' [Hw2 [Hp' [_ [Hpn Hpl]]]]].
    rewrite Hw1, Hw2. eexists. split; [reflexivity|]. unfold o_set_packets. cbn. split; [|repeat split].
    apply mk_online_ok; cbn; try assumption; lia.
Qed.

Lemma online_send_ok pp now o data vital :
  pp_ok pp -> online_ok pp o -> tok_ok (o_their o) ->
  exists o' ds r, online_send pp now o data vital = Ok (o', ds, r) /\ online_ok pp o' /\
    Forall (dgram_ok pp) ds /\ o_own o' = o_own o /\ o_their o' = o_their o.
Proof.
  intros Hpp Hok Htok. unfold online_send.
  destruct ((MAX_PAYLOAD <? Z.of_nat (length data))
            || negb (p_v7 pp) && (2 ^ p_size_bits pp <=? Z.of_nat (length data))) eqn:Elong.
  { exists o, [], SendTooLong. split; [reflexivity|]. split; [exact Hok|]. split; [constructor|].
    split; reflexivity. }
  assert (Hd : data_ok pp data).
  { unfold data_ok. apply orb_false_iff in Elong as [E1 E2].
    split; [lia|]. destruct Hpp as [-> | ->]; unfold params6, params7 in *; cbn [p_v7 p_size_bits negb andb] in *.
    - lia.
    - change (2 ^ 12) with 4096. unfold MAX_PAYLOAD in E1. lia. }
  pose proof (data_fits_empty pp data Hpp Hd) as Hfe.
  destruct (can_fit_chunk pp (o_packet o) (Z.of_nat (length data)) vital) eqn:Ecf; cbn [negb bind].
  - apply can_fit_true in Ecf as [Hn Hf].
    destruct (online_queue_ok pp now o data vital Hpp Hok Hd Hn Hf) as [o' [Hq [Hok' [H1 H2]]]].
    rewrite Hq. cbn [bind]. exists o', [], SendOk. split; [reflexivity|]. split; [exact Hok'|]. split; [constructor|].
    split; [exact H1|exact H2].
  - destruct (online_flush_ok pp o Hpp Hok Htok) as [o1 [ds [Hfl [Hok1 [Hds [Ho [Ht [Hz1 Hz2]]]]]]]].
    rewrite Hfl. cbn [bind].
    assert (Hn : pc_num (o_packet o1) < 255) by lia.
    assert (Hf : pc_len (o_packet o1) + chunk_hdr vital + Z.of_nat (length data) <= fit_limit pp)
      by (unfold chunk_hdr; destruct vital; lia).
    destruct (online_queue_ok pp now o1 data vital Hpp Hok1 Hd Hn Hf) as [o' [Hq [Hok' [H1 H2]]]].
    rewrite Hq. cbn [bind]. exists o', ds, SendOk. split; [reflexivity|]. split; [exact Hok'|]. split; [exact Hds|].
    split; congruence.
Qed.

Lemma o_set_packets_ok pp o p :
  online_ok pp o -> pc_ok pp p ->
  pc_num (o_packet_nv o) <= pc_num p -> pc_len (o_packet_nv o) <= pc_len p ->
  online_ok pp (o_set_packets o p (o_packet_nv o)).
Proof.
  intros [Hp [Hnv [Hn1 [Hn2 [Hq [Ha Hs]]]]]] Hp' H1 H2. apply mk_online_ok; cbn; assumption.
Qed.

Lemma resend_write_ok pp o c :
  pp_ok pp -> online_ok pp o -> rchunk_ok pp c -> pc_num (o_packet o) < 255 ->
  pc_len (o_packet o) + chunk_hdr true + Z.of_nat (length (rc_data c)) <= fit_limit pp ->
  exists p, pc_write_chunk pp (o_packet o) (rc_data c) (Some (rc_seq c, true)) = Ok p /\
    online_ok pp (o_set_packets o p (o_packet_nv o)).
Proof.
  intros Hpp Hok [Hd [Hseq _]] Hn Hf. pose proof Hok as [Hp [Hnv [Hn1 [Hn2 _]]]].
  destruct (pc_write_ok pp (o_packet o) (rc_data c) (Some (rc_seq c, true)) Hpp Hp Hd Hseq Hn Hf)
    as [p [Hw [Hp' [_ [Hpn Hpl]]]]].
  exists p. split; [exact Hw|]. apply o_set_packets_ok; try assumption; unfold chunk_hdr in Hpl; lia.
Qed.

Lemma resend_loop_ok pp : pp_ok pp -> forall todo fuel o out ts,
  online_ok pp o -> tok_ok (o_their o) -> Forall (rchunk_ok pp) todo -> Forall (dgram_ok pp) out ->
  (2 * length todo <= fuel)%nat ->
  exists o' out' ts', resend_loop pp fuel o todo out ts = Ok (o', out', ts') /\
    online_ok pp o' /\ Forall (dgram_ok pp) out' /\ o_own o' = o_own o /\ o_their o' = o_their o.
Proof.
  intros Hpp. induction todo as [|c rest IH]; intros fuel o out ts Hok Htok Htodo Hout Hfuel.
  - destruct fuel; cbn [resend_loop]; eexists _, _, _; (split; [reflexivity|]);
      (split; [exact Hok|]); (split; [exact Hout|]); repeat split.
  - inversion Htodo as [|c' rest' Hc Hrest]; subst.
    cbn [length] in Hfuel. destruct fuel as [|fuel]; [lia|]. cbn [resend_loop].
    destruct (can_fit_chunk pp (o_packet o) (Z.of_nat (length (rc_data c))) true) eqn:Ecf.
    + apply can_fit_true in Ecf as [Hn Hf].
      destruct (resend_write_ok pp o c Hpp Hok Hc Hn Hf) as [p [Hw Hok2]]. rewrite Hw.
      apply (IH fuel _ out ts Hok2 Htok Hrest Hout). lia.
    + destruct (online_flush_ok pp o Hpp Hok Htok) as [o1 [ds [Hfl [Hok1 [Hds [Ho1 [Ht1 [Hz1 Hz2]]]]]]]].
      rewrite Hfl.
      (* after the flush the packet is empty: the chunk fits *)
      destruct fuel as [|fuel]; [lia|]. cbn [resend_loop].
      pose proof (data_fits_empty pp (rc_data c) Hpp (proj1 Hc)) as Hfe.
      replace (can_fit_chunk pp (o_packet o1) (Z.of_nat (length (rc_data c))) true) with true
        by (symmetry; unfold can_fit_chunk, chunk_hdr; rewrite Hz1, Hz2; lia).
      destruct (resend_write_ok pp o1 c Hpp Hok1 Hc) as [p [Hw Hok2]]; [lia|unfold chunk_hdr; lia|]. rewrite Hw.
      assert (Htok1 : tok_ok (o_their o1)) by (rewrite Ht1; exact Htok).
      destruct (IH fuel _ (out ++ ds) true Hok2 Htok1 Hrest) as [o' [out' [ts' [Hr [Hok' [Hout' [E1 E2]]]]]]];
        [apply Forall_app; split; assumption|lia|].
      exists o', out', ts'. split; [exact Hr|]. split; [exact Hok'|]. split; [exact Hout'|].
      cbn in E1, E2. split; congruence.
Qed.

Lemma restart_timers_ok pp now q : Forall (rchunk_ok pp) q -> Forall (rchunk_ok pp) (restart_timers now q).
Proof.
  intros H. unfold restart_timers. apply Forall_map. eapply Forall_impl; [|exact H].
  intros c [Hd [Hs _]]. unfold rchunk_ok. cbn. split; [exact Hd|]. split; [exact Hs|discriminate].
Qed.

Lemma online_resend_ok pp now o :
  pp_ok pp -> online_ok pp o -> tok_ok (o_their o) ->
  exists o' ds ts, online_resend pp now o = Ok (o', ds, ts) /\ online_ok pp o' /\
    Forall (dgram_ok pp) ds /\ o_own o' = o_own o /\ o_their o' = o_their o.
Proof.
  intros Hpp Hok Htok. unfold online_resend.
  destruct (o_queue o) as [|c q] eqn:Eq.
  { exists o, [], false. split; [reflexivity|]. split; [exact Hok|]. split; [constructor|].
    split; reflexivity. }
  rewrite <- Eq.
  pose proof Hok as Hok0. destruct Hok0 as [Hp [Hnv [Hn1 [Hn2 [Hq [Ha Hs]]]]]].
  set (q' := restart_timers now (o_queue o)).
  set (o1 := {| o_own := o_own o; o_their := o_their o; o_ack := o_ack o; o_seq := o_seq o;
                o_rr := o_rr o; o_packet := o_packet_nv o; o_packet_nv := o_packet_nv o; o_queue := q' |}).
  assert (Hq' : Forall (rchunk_ok pp) q') by (apply restart_timers_ok, Hq).
  assert (Hok1 : online_ok pp o1) by (apply mk_online_ok; cbn; try assumption; lia).
  assert (Hfuel : (2 * length (rev q') <= resend_fuel o)%nat).
  { unfold resend_fuel, q', restart_timers. rewrite rev_length, map_length. lia. }
  destruct (resend_loop_ok pp Hpp (rev q') (resend_fuel o) o1 [] false Hok1 Htok
              (Forall_rev Hq') (Forall_nil _) Hfuel)
    as [o' [out' [ts' [Hr [Hok' [Hout' [E1 E2]]]]]]].
  exists o', out', ts'. split; [exact Hr|]. split; [exact Hok'|]. split; [exact Hout'|]. split; [exact E1|exact E2].
Qed.

Definition chunk_in_ok (c : chunk) : Prop :=
  match ch_vital c with Some (s, _) => 0 <= s < SEQ_MOD | None => True end.

Lemma seq_update_range a s : 0 <= a < SEQ_MOD -> 0 <= fst (seq_update a s) < SEQ_MOD.
Proof.
  intros Ha. unfold seq_update. destruct (seq_compare (seq_next a) s); cbn [fst];
    try exact Ha; apply seq_next_range.
Qed.

Lemma recv_chunks_ok cs : forall ack rr, 0 <= ack < SEQ_MOD -> Forall chunk_in_ok cs ->
  exists ack' rr' evs, recv_chunks ack rr cs = Ok (ack', rr', evs) /\ 0 <= ack' < SEQ_MOD.
Proof.
  induction cs as [|c cs IH]; intros ack rr Ha Hcs.
  - eexists _, _, _. split; [reflexivity|exact Ha].
  - inversion Hcs as [|c' cs' Hc Hrest]; subst. cbn [recv_chunks]. unfold chunk_in_ok in Hc.
    destruct (ch_vital c) as [[s r]|].
    + replace ((s <? 0) || (SEQ_MOD <=? s)) with false by lia.
      pose proof (seq_update_range ack s Ha) as Hr.
      destruct (seq_update ack s) as [a' o] eqn:Eu. cbn [fst] in Hr.
      destruct o.
      * destruct (IH ack true Ha Hrest) as [a2 [r2 [e2 [H1 H2]]]]. eexists _, _, _. split; [exact H1|exact H2].
      * destruct (IH a' rr Hr Hrest) as [a2 [r2 [e2 [H1 H2]]]]. rewrite H1. eexists _, _, _. split; [reflexivity|exact H2].
      * destruct (IH ack true Ha Hrest) as [a2 [r2 [e2 [H1 H2]]]]. eexists _, _, _. split; [exact H1|exact H2].
    + destruct (IH ack rr Ha Hrest) as [a2 [r2 [e2 [H1 H2]]]]. rewrite H1. eexists _, _, _. split; [reflexivity|exact H2].
Qed.

Lemma take_until_seq_forall (P : rchunk -> Prop) q ack l :
  take_until_seq q ack = Some l -> Forall P q -> Forall P l.
Proof.
  revert l. induction q as [|c q IH]; intros l H Hq; cbn [take_until_seq] in H; [discriminate|].
  inversion Hq; subst.
  destruct (rc_seq c =? ack); [injection H as <-; constructor|].
  destruct (take_until_seq q ack) as [l'|]; [|discriminate]. injection H as <-.
  constructor; [assumption|]. apply IH; [reflexivity|assumption].
Qed.

Lemma ack_chunks_ok pp o ack : online_ok pp o -> online_ok pp (ack_chunks o ack).
Proof.
  intros Hok. unfold ack_chunks. destruct (take_until_seq (o_queue o) ack) as [q|] eqn:E; [|exact Hok].
  destruct Hok as [Hp [Hnv [Hn1 [Hn2 [Hq [Ha Hs]]]]]]. apply mk_online_ok; cbn; try assumption.
  eapply take_until_seq_forall; eassumption.
Qed.

Lemma ack_chunks_toks o ack : o_own (ack_chunks o ack) = o_own o /\ o_their (ack_chunks o ack) = o_their o.
Proof. unfold ack_chunks. destruct (take_until_seq (o_queue o) ack); split; reflexivity. Qed.

Lemma o_set_ack_ok pp o a r : online_ok pp o -> 0 <= a < SEQ_MOD -> online_ok pp (o_set_ack o a r).
Proof.
  intros [Hp [Hnv [Hn1 [Hn2 [Hq [Ha Hs]]]]]] Hr. apply mk_online_ok; cbn; assumption.
Qed.

Lemma online_new_ok pp own their : pp_ok pp -> online_ok pp (online_new own their).
Proof.
  intros Hpp. pose proof (pc_empty_ok pp Hpp). apply mk_online_ok; cbn; try assumption; try lia; try constructor;
    unfold SEQ_MOD; lia.
Qed.

Definition chunks_tok (t : option token) (d : dgram) : Prop :=
  match d with DChunks tok _ _ _ _ => tok = t | _ => False end.

Lemma online_flush_emit pp o o' ds : online_flush pp o = Ok (o', ds) ->
  Forall (chunks_tok (o_their o)) ds /\ o_their o' = o_their o.
Proof.
  unfold online_flush. destruct (negb (can_send o)).
  - intros H; injection H as <- <-. split; [constructor|reflexivity].
  - destruct (MAX_PACKETSIZE <? _); [discriminate|]. intros H; injection H as <- <-.
    split; [constructor; [reflexivity|constructor]|reflexivity].
Qed.

Lemma online_send_emit pp now o data vital o' ds r :
  online_send pp now o data vital = Ok (o', ds, r) -> Forall (chunks_tok (o_their o)) ds.
Proof.
  unfold online_send. destruct (_ || _).
  - intros H; injection H as <- <- <-. constructor.
  - intros H. apply bind_ok in H as [[o1 out] [H1 H2]]. apply bind_ok in H2 as [o2 [_ H2]].
    injection H2 as <- <- <-.
    destruct (negb (can_fit_chunk pp (o_packet o) (Z.of_nat (length data)) vital)).
    + apply online_flush_emit in H1. apply H1.
    + injection H1 as <- <-. constructor.
Qed.

Lemma resend_loop_emit pp : forall fuel o todo out ts o' out' ts',
  resend_loop pp fuel o todo out ts = Ok (o', out', ts') ->
  Forall (chunks_tok (o_their o)) out -> Forall (chunks_tok (o_their o)) out'.
Proof.
  induction fuel as [|fuel IH]; intros o todo out ts o' out' ts' H Hout; destruct todo as [|c rest]; cbn [resend_loop] in H;
    try discriminate; try (injection H as <- <- <-; exact Hout).
  destruct (can_fit_chunk pp (o_packet o) (Z.of_nat (length (rc_data c))) true).
  - destruct (pc_write_chunk pp (o_packet o) (rc_data c) (Some (rc_seq c, true))) as [p| | |]; try discriminate.
    specialize (IH _ _ _ _ _ _ _ H). cbn [o_set_packets o_their] in IH. apply IH, Hout.
  - destruct (online_flush pp o) as [[o1 d]| | |] eqn:Ef; try discriminate.
    apply online_flush_emit in Ef as [Hd Ht]. specialize (IH _ _ _ _ _ _ _ H). rewrite Ht in IH.
    apply IH. apply Forall_app. split; assumption.
Qed.

Lemma online_resend_emit pp now o o' ds ts :
  online_resend pp now o = Ok (o', ds, ts) -> Forall (chunks_tok (o_their o)) ds.
Proof.
  unfold online_resend. destruct (o_queue o) as [|c q].
  - intros H; injection H as <- <- <-. constructor.
  - intros H. apply resend_loop_emit in H; [exact H|constructor].
Qed.
