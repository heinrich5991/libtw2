(* C02, the healing schedule, as far as it concerns the online core that 0.6 and 0.7 share
   (Model/ConnCore.v) and the ghost vocabulary of the link (Model/LinkGhost.v): which datagrams a
   flush, a resend and a due tick emit, what their arrival in order does to the receiver, and what
   is known of a datagram in flight while the link heals, and why three rounds of speaking and
   hearing leave both cores quiet. Link6Heal.v and Link7Heal.v put the two state machines and the
   two links around it. *)
From LibTw2 Require Import Base.Res Model.PacketTypes Model.ConnCore Model.Conn6 Model.LinkGhost
  Proofs.ConnCoreInv Proofs.LinkArith Proofs.LinkCore Proofs.ConnProgress.
From Coq Require Import ZArith Lia Bool List.
Open Scope Z_scope.

(* the acknowledgement number after a list of chunks has been received: recv_chunks without the
   events and the request_resend flag *)
Fixpoint ack_after (a : Z) (cs : list chunk) : Z :=
  match cs with
  | [] => a
  | c :: r => match ch_vital c with
              | Some (s, _) => ack_after (fst (seq_update a s)) r
              | None => ack_after a r
              end
  end.

Lemma seq_update_fst a s x o : seq_update a s = (x, o) -> o <> Current -> x = a.
Proof.
  unfold seq_update. destruct (seq_compare (seq_next a) s); intros H Ho; injection H as <- <-;
    try reflexivity. exfalso. apply Ho. reflexivity.
Qed.

Lemma recv_ack_after cs : forall a rr a' rr' evs,
  recv_chunks a rr cs = Ok (a', rr', evs) -> a' = ack_after a cs.
Proof.
  induction cs as [|c cs IH]; intros a rr a' rr' evs H; cbn [recv_chunks ack_after] in *.
  - injection H as <- _ _. reflexivity.
  - destruct (ch_vital c) as [[s r]|].
    + destruct ((s <? 0) || (SEQ_MOD <=? s)); [discriminate|].
      destruct (seq_update a s) as [x o] eqn:E. cbn [fst]. destruct o.
      * rewrite (seq_update_fst _ _ _ _ E) by discriminate. eapply IH, H.
      * destruct (recv_chunks x rr cs) as [[[a2 r2] e2]| | |] eqn:E2; try discriminate.
        injection H as <- _ _. eapply IH, E2.
      * rewrite (seq_update_fst _ _ _ _ E) by discriminate. eapply IH, H.
    + destruct (recv_chunks a rr cs) as [[[a2 r2] e2]| | |] eqn:E2; try discriminate.
      injection H as <- _ _. eapply IH, E2.
Qed.

Lemma ack_after_app l1 : forall a l2, ack_after a (l1 ++ l2) = ack_after (ack_after a l1) l2.
Proof.
  induction l1 as [|c l1 IH]; intros a l2; cbn [app ack_after]; [reflexivity|].
  destruct (ch_vital c) as [[s r]|]; apply IH.
Qed.

(* vital chunks of a datagram are less than 767 chunks behind the sender's history: a packet under
   construction holds chunks of the last 512 + (at most 254 chunks written after it) *)
Definition tight (n : Z) (cs : list chunk) : Prop :=
  forall c s r, In c cs -> ch_vital c = Some (s, r) -> exists i, n - 767 < i <= n /\ s = seqof i.

Lemma pk_ok_tight cs : forall n sub nvs, pk_ok cs n sub nvs -> (length cs <= 255)%nat -> tight n cs.
Proof.
  induction cs as [|c cs IH]; intros n sub nvs H Hl x s r Hin Hv; [destruct Hin|].
  cbn [pk_ok] in H. destruct H as [Hc Hr]. cbn [length] in Hl. destruct Hin as [<-|Hin].
  - unfold chunk_is in Hc. rewrite Hv in Hc. destruct Hc as [i [H1 [H2 [H3 _]]]].
    exists i. unfold zlen in H2. split; [lia|exact H3].
  - eapply (IH n sub nvs Hr); [lia|exact Hin|exact Hv].
Qed.

Lemma tight_nil n : tight n [].
Proof. intros c s r []. Qed.

Lemma tight_flat n ds : tight n (flat ds) -> Forall (fun d => tight n (dgram_chunks d)) ds.
Proof.
  intros H. apply Forall_forall. intros d Hd c s r Hin Hv. apply (H c s r); [|exact Hv].
  unfold flat. apply in_flat_map. exists d. split; assumption.
Qed.

Definition dgram_rr (d : dgram) : bool := match d with DChunks _ _ rr _ _ => rr | _ => false end.
Definition benign (d : dgram) : Prop :=
  match d with DChunks _ _ _ _ _ => True | DControl _ _ KeepAlive => True | _ => False end.
(* d carries the token tok, and asks for a resend only if its sender had a request pending (rr0) *)
Definition dg_ok (tok : option token) (rr0 : bool) (d : dgram) : Prop :=
  benign d /\ dgram_tok d = tok /\ (rr0 = false -> dgram_rr d = false).

Lemma dg_ok_weaken tok rr0 rr1 ds : (rr0 = false -> rr1 = false) ->
  Forall (dg_ok tok rr1) ds -> Forall (dg_ok tok rr0) ds.
Proof.
  intros Hr. apply Forall_impl. intros d [D1 [D2 D3]]. split; [exact D1|]. split; [exact D2|].
  intros E. apply D3, Hr, E.
Qed.

Lemma dg_ok_benign tok rr0 ds : Forall (dg_ok tok rr0) ds -> Forall benign ds.
Proof. apply Forall_impl. intros d [H _]. exact H. Qed.

(* a flush leaves no resend request pending: it sends one, or there was none *)
Lemma flush_emits pp o o' ds : online_flush pp o = Ok (o', ds) ->
  o_own o' = o_own o /\ o_their o' = o_their o /\ Forall (dg_ok (o_their o) (o_rr o)) ds /\ o_rr o' = false.
Proof.
  unfold online_flush. destruct (can_send o) eqn:E; cbn [negb].
  - destruct (MAX_PACKETSIZE <? _); [discriminate|]. intros H; injection H as <- <-.
    do 2 (split; [reflexivity|]). split; [|reflexivity]. constructor; [|constructor].
    split; [exact I|]. split; [reflexivity|]. intros Hr. exact Hr.
  - intros H; injection H as <- <-. unfold can_send in E. apply orb_false_iff in E as [_ E].
    do 2 (split; [reflexivity|]). split; [constructor|exact E].
Qed.

Lemma flush_toks pp o o' ds : online_flush pp o = Ok (o', ds) ->
  o_own o' = o_own o /\ o_their o' = o_their o /\ Forall benign ds.
Proof.
  intros H. destruct (flush_emits _ _ _ _ H) as [E1 [E2 [E3 _]]].
  split; [exact E1|]. split; [exact E2|eapply dg_ok_benign, E3].
Qed.

Lemma flush_shape pp o o' ds : online_flush pp o = Ok (o', ds) -> pk_count_ok (o_packet o) ->
  pc_chunks (o_packet o') = [] /\ o_queue o' = o_queue o /\
  (ds = [] \/ ds = [DChunks (o_their o) (o_ack o) (o_rr o) (pc_num (o_packet o)) (pc_chunks (o_packet o))]) /\
  (can_send o = true -> ds <> []).
Proof.
  intros H Hc. unfold online_flush in H. destruct (can_send o) eqn:E; cbn [negb] in H.
  - destruct (MAX_PACKETSIZE <? _) in H; [discriminate|]. injection H as <- <-.
    do 2 (split; [reflexivity|]). split; [right; reflexivity|intros _; discriminate].
  - injection H as <- <-. unfold can_send in E. apply orb_false_iff in E as [E _].
    split; [apply count_zero_nil; [exact Hc|lia]|].
    split; [reflexivity|]. split; [left; reflexivity|discriminate].
Qed.

Lemma flush_tight pp o o' ds sub nvs a : online_flush pp o = Ok (o', ds) -> snd_inv o sub nvs a ->
  pk_count_ok (o_packet o) -> Forall (fun d => tight (zlen sub) (dgram_chunks d)) ds.
Proof.
  intros H Hs Hc. destruct (flush_shape pp o o' ds H Hc) as [_ [_ [[->| ->] _]]]; constructor; [|constructor].
  cbn [dgram_chunks]. eapply pk_ok_tight; [exact (si_pk _ _ _ _ Hs)|].
  destruct Hc as [H1 H2]. unfold zlen in H1. lia.
Qed.

Lemma flush_empty pp o o' ds : online_flush pp o = Ok (o', ds) -> pk_count_ok (o_packet o) ->
  pc_chunks (o_packet o) = [] -> Forall (fun d => dgram_chunks d = []) ds.
Proof.
  intros H Hc He. destruct (flush_shape pp o o' ds H Hc) as [_ [_ [[->| ->] _]]]; constructor; [|constructor].
  exact He.
Qed.

Lemma resend_loop_emits pp : forall todo fuel o out ts o' out' ts' tok rr0,
  resend_loop pp fuel o todo out ts = Ok (o', out', ts') ->
  o_their o = tok -> (rr0 = false -> o_rr o = false) -> Forall (dg_ok tok rr0) out ->
  o_own o' = o_own o /\ o_their o' = tok /\ Forall (dg_ok tok rr0) out' /\ (rr0 = false -> o_rr o' = false).
Proof.
  induction todo as [|c rest IH].
  - intros fuel o out ts o' out' ts' tok rr0 H Ht Hrr Ho. destruct fuel; cbn in H; injection H as <- <- _; repeat split; assumption.
  - induction fuel as [|fuel IHf]; intros o out ts o' out' ts' tok rr0 H Ht Hrr Ho; cbn [resend_loop] in H; [discriminate|].
    destruct (can_fit_chunk _ _ _ _).
    + destruct (pc_write_chunk _ _ _ _) as [p| | |]; try discriminate.
      exact (IH _ _ _ _ _ _ _ _ _ H Ht Hrr Ho).
    + destruct (online_flush pp o) as [[o1 d1]| | |] eqn:Ef; try discriminate.
      destruct (flush_emits _ _ _ _ Ef) as [To [Tt [Dg Rr]]]. rewrite Ht in Dg. rewrite <- To.
      apply (IHf _ _ _ _ _ _ _ _ H); [congruence|intros _; exact Rr|].
      apply Forall_app. split; [exact Ho|exact (dg_ok_weaken _ _ _ _ Hrr Dg)].
Qed.

Lemma resend_emits pp now o o' ds ts : online_resend pp now o = Ok (o', ds, ts) ->
  o_own o' = o_own o /\ o_their o' = o_their o /\
  Forall (dg_ok (o_their o) (o_rr o)) ds /\ (o_rr o = false -> o_rr o' = false).
Proof.
  unfold online_resend. destruct (o_queue o).
  - intros H; injection H as <- <- _. repeat split; [constructor|intros E; exact E].
  - intros H. eapply resend_loop_emits in H; [exact H|reflexivity|intros E; exact E|constructor].
Qed.

Lemma resend_toks pp now o o' ds ts : online_resend pp now o = Ok (o', ds, ts) ->
  o_own o' = o_own o /\ o_their o' = o_their o /\ Forall benign ds.
Proof.
  intros H. destruct (resend_emits _ _ _ _ _ _ H) as [E1 [E2 [E3 _]]].
  split; [exact E1|]. split; [exact E2|eapply dg_ok_benign, E3].
Qed.

Lemma resend_empty pp now o : o_queue o = [] -> online_resend pp now o = Ok (o, [], false).
Proof. intros H. unfold online_resend. rewrite H. reflexivity. Qed.

Lemma resend_tight pp now o o' ds ts sub nvs a :
  online_resend pp now o = Ok (o', ds, ts) -> snd_inv o sub nvs a -> pk_count_ok (o_packet_nv o) ->
  tight (zlen sub) (flat ds).
Proof.
  intros Hr Hs Hc. destruct (o_queue o) as [|c0 q0] eqn:Eq.
  { unfold online_resend in Hr. rewrite Eq in Hr. injection Hr as _ <- _. apply tight_nil. }
  assert (Hq : o_queue o <> []) by (rewrite Eq; discriminate).
  destruct (resend_flat pp now o o' ds ts Hr Hc Hq) as [Hflat _].
  intros c s r Hin Hv.
  assert (Hin' : In c (pc_chunks (o_packet_nv o) ++ map rchunk_chunk (rev (restart_timers now (o_queue o))))).
  { rewrite <- Hflat. apply in_or_app. left. exact Hin. }
  destruct Hs as [H1 H2 H3 H4 H5 H6 H7].
  apply in_app_or in Hin' as [Hnv|Hq'].
  - unfold nonvital_only in H6. rewrite Forall_forall in H6. rewrite (H6 c Hnv) in Hv. discriminate.
  - apply in_map_iff in Hq' as [e [<- He]]. apply In_nth_error in He as [k Hk].
    destruct (queue_is_rev _ _ _ _ (queue_is_restart now _ _ _ _ H2) k e Hk) as [A [B C]].
    cbn in Hv. injection Hv as <- _. exists (a + 1 + Z.of_nat k). split; [lia|exact A].
Qed.

Lemma queue_toks pp now o data vital o' : online_queue pp now o data vital = Ok o' ->
  o_own o' = o_own o /\ o_their o' = o_their o.
Proof.
  unfold online_queue. destruct vital.
  - destruct (2048 <? _); [discriminate|]. destruct (pc_write_chunk _ _ _ _); try discriminate.
    intros H; injection H as <-. split; reflexivity.
  - destruct (pc_write_chunk pp (o_packet_nv o) data None); try discriminate.
    destruct (pc_write_chunk pp (o_packet o) data None); try discriminate.
    intros H; injection H as <-. split; reflexivity.
Qed.

Lemma send_toks pp now o data vital o' ds r : online_send pp now o data vital = Ok (o', ds, r) ->
  o_own o' = o_own o /\ o_their o' = o_their o /\ Forall benign ds.
Proof.
  unfold online_send. destruct (_ || _); [intros H; injection H as <- <- _; repeat split; constructor|].
  destruct (negb (can_fit_chunk _ _ _ _)).
  - destruct (online_flush pp o) as [[o1 d1]| | |] eqn:Ef; cbn [bind]; try discriminate.
    destruct (online_queue pp now o1 data vital) as [o2| | |] eqn:Eq; cbn [bind]; try discriminate.
    intros H; injection H as <- <- _. apply flush_toks in Ef as [E1 [E2 E3]]. apply queue_toks in Eq as [Q1 Q2].
    split; [congruence|]. split; [congruence|exact E3].
  - cbn [bind]. destruct (online_queue pp now o data vital) as [o2| | |] eqn:Eq; cbn [bind]; try discriminate.
    intros H; injection H as <- <- _. apply queue_toks in Eq as [Q1 Q2]. repeat split; try assumption. constructor.
Qed.

Lemma queue_is_nil q n sub : queue_is q n n sub -> q = [].
Proof. destruct q as [|c q]; [reflexivity|]. cbn. intros [H _]. lia. Qed.

Lemma ack_all o sub nvs a : snd_inv o sub nvs a -> o_queue (ack_chunks o (seqof (zlen sub))) = [].
Proof.
  intros Hs. pose proof (zlen_nonneg sub) as Hn.
  pose proof (queue_is_len _ _ _ _ (si_queue _ _ _ _ Hs)) as Hl. pose proof (zlen_nonneg (o_queue o)).
  assert (H2 : snd_inv (ack_chunks o (seqof (zlen sub))) sub nvs (Z.max a (zlen sub))).
  { apply ack_link; [exact Hs|lia|lia]. }
  replace (Z.max a (zlen sub)) with (zlen sub) in H2 by lia.
  eapply queue_is_nil, (si_queue _ _ _ _ H2).
Qed.

Lemma ack_empty o ack : o_queue o = [] -> ack_chunks o ack = o.
Proof. intros H. unfold ack_chunks. rewrite H. reflexivity. Qed.

Lemma queue_back_some q : q <> [] -> exists rc, queue_back q = Some rc /\ In rc q.
Proof.
  induction q as [|c q IH]; [contradiction|]. intros _. destruct q as [|c' q].
  - exists c. split; [reflexivity|left; reflexivity].
  - destruct IH as [rc [H1 H2]]; [discriminate|]. exists rc. split; [exact H1|right; exact H2].
Qed.

Definition tval (t : timeout) : Z := match t with Some x => x | None => 0 end.

Lemma tval_triggered t now : t <> None -> tval t <= now -> triggered t now = true.
Proof. destruct t as [x|]; [|contradiction]. cbn. lia. Qed.

Lemma resend_due pp o now : Forall (rchunk_ok pp) (o_queue o) -> o_queue o <> [] ->
  match queue_back (o_queue o) with Some rc => tval (rc_next rc) | None => 0 end <= now ->
  match queue_back (o_queue o) with Some rc => triggered (rc_next rc) now | None => false end = true.
Proof.
  intros Hok Hq. destruct (queue_back_some _ Hq) as [rc [-> Hin]].
  rewrite Forall_forall in Hok. apply tval_triggered, (Hok rc Hin).
Qed.

(* what a tick does to the online core once the send timer and the oldest resend timer have run
   out: it resends what is queued, else flushes what is pending, else sends a keep-alive *)
Definition tick_emits (pp : params) (now : Z) (o o' : online) (ds : list dgram) : Prop :=
  (o_queue o <> [] /\ exists ts, online_resend pp now o = Ok (o', ds, ts)) \/
  (o_queue o = [] /\ can_send o = true /\ online_flush pp o = Ok (o', ds)) \/
  (o_queue o = [] /\ can_send o = false /\ o' = o /\ ds = [DControl (o_their o) (o_ack o) KeepAlive]).

Lemma tick_emits_keeps pp now o o1 ds sub nvs a dl :
  pk_count_ok (o_packet o) -> pk_count_ok (o_packet_nv o) ->
  snd_inv o sub nvs a -> o_ack o = seqof dl -> 0 <= dl -> tick_emits pp now o o1 ds ->
  o_own o1 = o_own o /\ o_their o1 = o_their o /\ (o_rr o = false -> o_rr o1 = false) /\
  snd_inv o1 sub nvs a /\ pk_count_ok (o_packet o1) /\ (o_queue o = [] -> o_queue o1 = []) /\
  Forall (dg_ok (o_their o) (o_rr o)) ds /\ Forall (fun d => tight (zlen sub) (dgram_chunks d)) ds.
Proof.
  intros Hcp Hcnv Hsnd Hack Hdl [[Hq [ts Er]]|[[Hq [_ Ef]]|[_ [_ [-> ->]]]]].
  - destruct (resend_emits _ _ _ _ _ _ Er) as [E1 [E2 [E3 E4]]].
    destruct (resend_link _ _ _ _ _ _ _ _ a dl Er Hcp Hcnv Hsnd Hack Hdl) as [Hs1 [_ [Hc1 _]]].
    do 5 (split; [assumption|]). split; [intros E; contradiction|]. split; [exact E3|].
    eapply tight_flat, resend_tight; eassumption.
  - destruct (flush_emits _ _ _ _ Ef) as [E1 [E2 [G5 G2]]].
    destruct (flush_shape _ _ _ _ Ef Hcp) as [_ [G3 _]].
    destruct (flush_link _ _ _ _ _ _ a dl Ef Hcp Hsnd Hack Hdl) as [Hs1 [_ [Hc1 _]]].
    split; [exact E1|]. split; [exact E2|]. split; [intros _; exact G2|]. do 2 (split; [assumption|]).
    split; [congruence|]. split; [exact G5|]. eapply flush_tight; eassumption.
  - do 2 (split; [reflexivity|]). split; [intros E; exact E|]. do 2 (split; [assumption|]).
    split; [intros E; exact E|]. split; (constructor; [|constructor]); [|apply tight_nil].
    split; [exact I|]. split; [reflexivity|intros _; reflexivity].
Qed.

(* what an endpoint that had acknowledged a of its n submitted chunks has said with the datagrams ds,
   and the state o2 it is left in: something was emitted; the packet under construction is empty and
   no request is pending. With a non-empty queue the datagrams take a receiver that has got d of
   the n chunks (a <= d) to n (catch_up); with an empty queue and nothing pending they carry no chunk *)
Definition spoken (tok : option token) (n a : Z) (o o2 : online) (ds : list dgram) : Prop :=
  pc_chunks (o_packet o2) = [] /\ o_rr o2 = false /\ (o_queue o = [] -> o_queue o2 = []) /\
  ds <> [] /\ Forall (dg_ok tok (o_rr o)) ds /\
  Forall (fun d => tight n (dgram_chunks d)) ds /\
  (o_queue o <> [] -> forall d, a <= d <= n -> ack_after (seqof d) (flat ds) = seqof n) /\
  (o_queue o = [] -> pc_chunks (o_packet o) = [] -> Forall (fun d => dgram_chunks d = []) ds).

Lemma speak_online pp now o o1 ds1 o2 ds2 sub nvs a dl :
  pk_count_ok (o_packet o) -> pk_count_ok (o_packet_nv o) ->
  snd_inv o sub nvs a -> o_ack o = seqof dl -> 0 <= dl ->
  tick_emits pp now o o1 ds1 -> online_flush pp o1 = Ok (o2, ds2) ->
  o_own o2 = o_own o /\ o_their o2 = o_their o /\ spoken (o_their o) (zlen sub) a o o2 (ds1 ++ ds2).
Proof.
  intros Hcp Hcnv Hsnd Hack Hdl Htick Ef.
  destruct (tick_emits_keeps _ _ _ _ _ _ _ _ _ Hcp Hcnv Hsnd Hack Hdl Htick)
    as [To1 [Tt1 [Hrr1 [Hs1 [Hc1 [Hq1 [Dg1 Ti1]]]]]]].
  destruct (flush_emits _ _ _ _ Ef) as [To2 [Tt2 [F5 F2]]].
  destruct (flush_shape _ _ _ _ Ef Hc1) as [F1 [F3 _]].
  split; [congruence|]. split; [congruence|]. split; [exact F1|]. split; [exact F2|].
  split; [intros E; rewrite F3; exact (Hq1 E)|].
  assert (Hcatch : o_queue o <> [] -> forall d, a <= d <= zlen sub ->
            ack_after (seqof d) (flat (ds1 ++ ds2)) = seqof (zlen sub)).
  { intros Hq d Hd. destruct Htick as [[_ [ts Er]]|[[E _]|[E _]]]; try contradiction.
    destruct (catch_up pp now o _ _ a d false o1 ds1 ts o2 ds2 Hsnd Hcnv Hq Hd Er Ef) as [rr' [evs [E _]]].
    symmetry. eapply recv_ack_after, E. }
  split.
  { destruct Htick as [[Hq _]|[[_ [Ecs Ef1]]|[_ [_ [_ ->]]]]]; [| |discriminate].
    - (* otherwise a = |sub|, and the queue would be empty *)
      intros E. pose proof (Hcatch Hq a) as Hca. rewrite E in Hca. cbn in Hca.
      pose proof (queue_is_len _ _ _ _ (si_queue _ _ _ _ Hsnd)) as Hl. pose proof (si_win _ _ _ _ Hsnd) as Hw.
      pose proof (zlen_nonneg (o_queue o)) as Hn. apply seqof_inj in Hca; [|lia|lia].
      apply Hq, length_zero_iff_nil. unfold zlen in *. lia.
    - intros E. apply app_eq_nil in E as [E _].
      destruct (flush_shape _ _ _ _ Ef1 Hcp) as [_ [_ [_ G7]]]. exact (G7 Ecs E). }
  split; [apply Forall_app; split; [exact Dg1|]; rewrite <- Tt1; eapply dg_ok_weaken; eassumption|].
  split; [apply Forall_app; split; [exact Ti1|eapply flush_tight; eassumption]|].
  split; [exact Hcatch|].
  intros Hq Hpe. apply Forall_app.
  destruct Htick as [[Hq' _]|[[_ [_ Ef1]]|[_ [_ [-> ->]]]]]; [contradiction| |].
  - destruct (flush_shape _ _ _ _ Ef1 Hcp) as [G1 _].
    split; eapply flush_empty; eassumption.
  - split; [constructor; [reflexivity|constructor]|eapply flush_empty; eassumption].
Qed.

(* sent when its sender had submitted nX chunks, to a receiver that has submitted nY: its vital
   chunks are recent, its token is tok, and it asks for a resend only if it acknowledges all nY *)
Definition fl_ok (tok : option token) (nX nY : Z) (f : flight) : Prop :=
  f_n f = nX /\ nY - f_c f <= 511 /\ tight nX (dgram_chunks (f_d f)) /\ benign (f_d f) /\
  dgram_tok (f_d f) = tok /\ (dgram_rr (f_d f) = false \/ f_c f = nY).

Lemma fl_ok_flights tok n c nY rr0 ds :
  nY - c <= 511 -> Forall (dg_ok tok rr0) ds -> Forall (fun d => tight n (dgram_chunks d)) ds ->
  (rr0 = false \/ c = nY) -> Forall (fl_ok tok n nY) (map (mk_flight n c) ds).
Proof.
  intros Hg Hd Ht Hr. apply Forall_map. rewrite Forall_forall in *. intros d Hin.
  destruct (Hd d Hin) as [D1 [D2 D3]]. unfold fl_ok, mk_flight. cbn [f_d f_n f_c].
  split; [reflexivity|]. split; [exact Hg|]. split; [apply Ht, Hin|]. split; [exact D1|]. split; [exact D2|].
  destruct Hr as [E|E]; [left; apply D3, E|right; exact E].
Qed.

(* it is fresh (the hypothesis (F) of C01) for a receiver that has submitted nY chunks and has been
   given no more than the nX there are *)
Lemma fl_ok_fresh tok nX nY f dY : fl_ok tok nX nY f -> dY <= nX ->
  nY - f_c f < 1024 /\
  forall c s r, In c (dgram_chunks (f_d f)) -> ch_vital c = Some (s, r) -> dY - idx_of (f_n f) s < 768.
Proof.
  intros [F1 [F2 [F3 _]]] Hd. split; [lia|]. intros c s r Hin Hv.
  destruct (F3 c s r Hin Hv) as [i [Hi ->]]. rewrite F1, (idx_of_spec nX (seqof i) i); [lia|lia|reflexivity].
Qed.

Lemma fl_ok_acks_all tok nX f n dc fsub fnvs o sub nvs a :
  fl_ok tok nX (zlen sub) f -> flight_ok f n dc fsub fnvs -> snd_inv o sub nvs a ->
  f_c f = zlen sub -> o_queue (ack_chunks o (dgram_ack (f_d f))) = [].
Proof.
  intros [_ [_ [_ [Hb _]]]] [_ [_ [Hack _]]] Hs E.
  replace (dgram_ack (f_d f)) with (seqof (zlen sub)); [eapply ack_all, Hs|].
  rewrite <- E. symmetry. destruct (f_d f); try contradiction; apply Hack; reflexivity.
Qed.

(* what the arrival, in order, of the datagrams F does to the online core of a receiver that has
   submitted nY chunks: the acknowledgement number advances; a datagram that acknowledges all nY
   empties the queue, and an empty queue stays empty; datagrams without chunks leave the request
   flag alone *)
Definition heard (nY : Z) (oy : online) (F : list flight) (oy' : online) : Prop :=
  o_packet oy' = o_packet oy /\ o_ack oy' = ack_after (o_ack oy) (flat (map f_d F)) /\
  (F <> [] -> Forall (fun f => f_c f = nY) F -> o_queue oy' = []) /\
  (o_queue oy = [] -> o_queue oy' = []) /\
  (Forall (fun f => dgram_chunks (f_d f) = []) F -> o_rr oy' = o_rr oy).

Lemma heard_nil nY oy : heard nY oy [] oy.
Proof. repeat split; try (intros H; exact H). intros H. contradiction. Qed.

Lemma heard_one nY oy f oy' :
  o_packet oy' = o_packet oy -> o_queue oy' = o_queue (ack_chunks oy (dgram_ack (f_d f))) ->
  o_ack oy' = ack_after (o_ack oy) (dgram_chunks (f_d f)) -> (dgram_chunks (f_d f) = [] -> o_rr oy' = o_rr oy) ->
  (f_c f = nY -> o_queue (ack_chunks oy (dgram_ack (f_d f))) = []) -> heard nY oy [f] oy'.
Proof.
  intros Hp Hq Ha Hr Hall. split; [exact Hp|]. split; [cbn; rewrite app_nil_r; exact Ha|]. rewrite Hq.
  split; [intros _ H; apply Hall, (Forall_inv H)|]. split; [intros E; rewrite (ack_empty _ _ E); exact E|].
  intros H. apply Hr, (Forall_inv H).
Qed.

Lemma heard_cons nY oy f oy1 F oy2 : heard nY oy [f] oy1 -> heard nY oy1 F oy2 -> heard nY oy (f :: F) oy2.
Proof.
  intros [P1 [A1 [Q1 [E1 R1]]]] [P2 [A2 [Q2 [E2 R2]]]].
  split; [congruence|]. split; [rewrite A2, A1; unfold flat; cbn [map flat_map]; rewrite app_nil_r, ack_after_app; reflexivity|].
  split; [intros _ H; apply E2, Q1; [discriminate|constructor; [exact (Forall_inv H)|constructor]]|].
  split; [intros E; apply E2, E1, E|].
  intros H. rewrite (R2 (Forall_inv_tail H)). apply R1. constructor; [exact (Forall_inv H)|constructor].
Qed.

(* one round of the healing, seen from the two online cores: the speaker (o, then o') says what it
   has, the hearer (oy, then oy') is given it in order. full: the speaker had been given all the
   hearer has submitted, so what it says acknowledges all of it *)
Definition round_end (full : Prop) (o o' oy oy' : online) : Prop :=
  pc_chunks (o_packet o') = [] /\ o_rr o' = false /\ (o_queue o = [] -> o_queue o' = []) /\
  o_packet oy' = o_packet oy /\ (full -> o_queue oy' = []) /\ (o_queue oy = [] -> o_queue oy' = []) /\
  (o_queue o = [] -> pc_chunks (o_packet o) = [] -> o_rr oy' = o_rr oy).

Lemma spoken_heard (full : Prop) tok n a m c nY o o' ds oy oy' :
  spoken tok n a o o' ds -> heard nY oy (map (mk_flight m c) ds) oy' -> (full -> c = nY) ->
  round_end full o o' oy oy' /\
  (o_queue o <> [] -> forall d, a <= d <= n -> o_ack oy = seqof d -> o_ack oy' = seqof n).
Proof.
  intros [P [R [Q [Ne [_ [_ [Ca Em]]]]]]] [Pk [Ak [Qf [Qe Rr]]]] Hc.
  rewrite map_map in Ak. cbn [mk_flight f_d] in Ak. rewrite map_id in Ak. split.
  - do 3 (split; [assumption|]). split; [exact Pk|]. split; [|split; [exact Qe|]].
    + intros F. apply Qf; [intros E; apply map_eq_nil in E; exact (Ne E)|].
      apply Forall_map, Forall_forall. intros d _. exact (Hc F).
    + intros Hq Hp. apply Rr, Forall_map, (Em Hq Hp).
  - intros Hq d Hd E. rewrite Ak, E. exact (Ca Hq d Hd).
Qed.

(* why three rounds are enough: A speaks, B speaks having been given all of A's, A speaks having
   been given all of B's. B's acknowledgement empties A's queue, A's then B's; A's third turn
   carries no chunk, so it cannot make B ask for a resend again *)
Lemma rounds_quiet (F1 F2 F3 : Prop) oa1 oa2 oa3 oa4 ob1 ob2 ob3 ob4 :
  round_end F1 oa1 oa2 ob1 ob2 -> round_end F2 ob2 ob3 oa2 oa3 -> round_end F3 oa3 oa4 ob3 ob4 -> F2 -> F3 ->
  o_queue oa4 = [] /\ o_queue ob4 = [] /\ pc_chunks (o_packet oa4) = [] /\ pc_chunks (o_packet ob4) = [] /\
  o_rr oa4 = false /\ o_rr ob4 = false.
Proof.
  intros [Pa2 _] [Pb3 [Rb3 [_ [Ka3 [Qa3 _]]]]] [Pa4 [Ra4 [Qa4 [Kb4 [Qb4 [_ Rb4]]]]]] H2 H3.
  specialize (Qa3 H2). rewrite <- Ka3 in Pa2.
  split; [exact (Qa4 Qa3)|]. split; [exact (Qb4 H3)|]. split; [exact Pa4|]. split; [rewrite Kb4; exact Pb3|].
  split; [exact Ra4|]. rewrite (Rb4 Qa3 Pa2). exact Rb3.
Qed.

Lemma prefix_all {A} (l s : list A) : l = firstn (Z.to_nat (zlen l)) s -> zlen l = zlen s -> l = s.
Proof. intros Hp E. rewrite Hp, E. unfold zlen. rewrite Nat2Z.id. apply firstn_all. Qed.
