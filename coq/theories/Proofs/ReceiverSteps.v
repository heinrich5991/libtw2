(* One call of the receiver, in closed form; the general invariants of
   DeltaReceiver: well-formed states never panic, ticks only move forward,
   a tick that was handed out is never accepted again. *)
From LibTw2 Require Import Base.Res Model.Receiver Proofs.ReceiverBase.
From Coq Require Import ZArith Lia Bool List ZifyBool ZifyNat.
Open Scope Z_scope.

(* the largest data field of one message for which the u32 offsets provably cannot
   overflow: 33 * 2^26 < 2^32 (messages on the wire are below 1400 bytes) *)
Definition max_data : Z := 67108864.

Definition msg_small (m : snapmsg) : bool := lenZ (msg_data m) <=? max_data.

Definition range_ok (blen : Z) (e : Z * (Z * Z)) : bool :=
  (0 <=? fst (snd e)) && (fst (snd e) <=? snd (snd e)) && (snd (snd e) <=? blen).

(* states from which no call can panic: while a transfer is in progress fewer than
   num_parts <= 32 parts are stored, their ranges lie inside receive_buf, and
   receive_buf holds at most max_data bytes per stored part *)
Definition wf (s : receiver) : bool :=
  match r_cur s with
  | None => true
  | Some c => (Z.of_nat (length (r_parts s)) <? c_num_parts c) && (c_num_parts c <=? 32)
              && forallb (range_ok (lenZ (r_buf s))) (r_parts s)
              && (lenZ (r_buf s) <=? max_data * Z.of_nat (length (r_parts s)))
  end.

(* nothing of tick T or newer has been accepted yet *)
Definition before (s : receiver) (T : Z) : bool :=
  match r_cur s with
  | Some c => c_tick c <? T
  | None => match r_prev s with Some p => p <? T | None => true end
  end.

Definition range_data (buf : bytes) (e : Z * (Z * Z)) : bytes := sub_list buf (fst (snd e)) (snd (snd e)).

Lemma gather_spec buf parts : forallb (range_ok (lenZ buf)) parts = true ->
  gather buf (lenZ buf) parts = Some (concat (map (range_data buf) parts)).
Proof.
  induction parts as [|[k [st en]] parts IH]; intros H; [reflexivity|].
  cbn [forallb] in H. apply andb_true_iff in H. destruct H as [Hr Hf].
  unfold range_ok in Hr. cbn [fst snd] in Hr.
  cbn [gather map concat]. rewrite slice_spec by lia. rewrite IH by exact Hf. reflexivity.
Qed.

Definition new_current (tick dt np crc : Z) : current :=
  {| c_tick := tick; c_delta_tick := wrap32 (tick - dt); c_num_parts := np; c_crc := crc |}.

(* the state and `current` after the first half of snap() *)
Definition start_state (s : receiver) (tick dt np crc : Z) : receiver :=
  if cur_has_tick s tick then s else set_cur (init_delta s) (Some (new_current tick dt np crc)).
Definition start_cur (s : receiver) (tick dt np crc : Z) : current :=
  match r_cur s with
  | Some c => if c_tick c =? tick then c else new_current tick dt np crc
  | None => new_current tick dt np crc
  end.

Lemma start_state_cur s tick dt np crc :
  r_cur (start_state s tick dt np crc) = Some (start_cur s tick dt np crc).
Proof.
  unfold start_state, start_cur, cur_has_tick.
  destruct (r_cur s) as [c|] eqn:E; [destruct (c_tick c =? tick) eqn:Et|]; cbn [r_cur set_cur]; try rewrite E; reflexivity.
Qed.

Lemma start_state_prev s tick dt np crc : r_prev (start_state s tick dt np crc) = r_prev s.
Proof. unfold start_state. destruct (cur_has_tick s tick); reflexivity. Qed.

Lemma start_cur_tick s tick dt np crc : c_tick (start_cur s tick dt np crc) = tick.
Proof.
  unfold start_cur. destruct (r_cur s) as [c|]; [destruct (c_tick c =? tick) eqn:E|]; cbn [c_tick new_current]; lia.
Qed.

Lemma start_fresh s tick dt np crc : cur_has_tick s tick = false ->
  start_state s tick dt np crc = set_cur (init_delta s) (Some (new_current tick dt np crc))
  /\ start_cur s tick dt np crc = new_current tick dt np crc.
Proof.
  unfold start_state, start_cur, cur_has_tick. intros H. rewrite H. split; [reflexivity|].
  destruct (r_cur s); [rewrite H|]; reflexivity.
Qed.

Lemma start_same s c tick dt np crc : r_cur s = Some c -> c_tick c = tick ->
  start_state s tick dt np crc = s /\ start_cur s tick dt np crc = c.
Proof. unfold start_state, start_cur, cur_has_tick. intros -> ->. rewrite Z.eqb_refl. split; reflexivity. Qed.

Lemma snap_refused s tick dt np part crc d :
  snap s tick dt np part crc d =
  if negb (can_receive s tick) then (s, (Err OldDelta, []))
  else if negb ((0 <=? np) && (np <=? 32)) then (s, (Err InvalidNumParts, []))
  else if negb ((0 <=? part) && (part <? np)) then (s, (Err InvalidPart, []))
  else snap_store (start_state s tick dt np crc) (start_cur s tick dt np crc) tick dt np part crc d.
Proof.
  unfold snap, start_state, start_cur, cur_has_tick, new_current.
  destruct (negb (can_receive s tick)); [reflexivity|].
  destruct (negb ((0 <=? np) && (np <=? 32))); [reflexivity|].
  destruct (negb ((0 <=? part) && (part <? np))); [reflexivity|].
  destruct (r_cur s) as [c|] eqn:E; [destruct (c_tick c =? tick)|]; cbn [negb r_cur set_cur init_delta];
    rewrite ?E; reflexivity.
Qed.

Lemma snap_norm s tick dt np part crc d :
  can_receive s tick = true -> 0 <= np <= 32 -> 0 <= part < np ->
  snap s tick dt np part crc d
  = snap_store (start_state s tick dt np crc) (start_cur s tick dt np crc) tick dt np part crc d.
Proof.
  intros Hc Hnp Hp. rewrite snap_refused, Hc.
  replace ((0 <=? np) && (np <=? 32)) with true by lia.
  replace ((0 <=? part) && (part <? np)) with true by lia. reflexivity.
Qed.

(* the state after a one-message transfer *)
Definition finished (tick : Z) (result : bytes) : receiver :=
  {| r_prev := Some tick; r_cur := None; r_parts := []; r_buf := []; r_result := result |}.

Lemma snap_single_ok s tick dt crc d : can_receive s tick = true ->
  snap_single s tick dt crc d
  = (finished tick d,
     (Ok (Some {| rd_delta_tick := wrap32 (tick - dt); rd_tick := tick; rd_data_and_crc := Some (d, crc) |}),
      if cur_has_tick s tick then [DuplicateSnap] else [])).
Proof. intros Hc. unfold snap_single. rewrite Hc. reflexivity. Qed.

Lemma snap_empty_ok s tick dt : can_receive s tick = true ->
  snap_empty s tick dt
  = (finished tick [],
     (Ok (Some {| rd_delta_tick := wrap32 (tick - dt); rd_tick := tick; rd_data_and_crc := None |}),
      if cur_has_tick s tick then [DuplicateSnap] else [])).
Proof. intros Hc. unfold snap_empty. rewrite Hc. reflexivity. Qed.

Definition attr_warn (c : current) (tick dt np crc : Z) : list rwarn :=
  if negb (wrap32 (tick - dt) =? c_delta_tick c) || negb (np =? c_num_parts c) || negb (crc =? c_crc c)
  then [DifferingAttributes] else [].

Lemma snap_store_new s2 c tick dt np part crc d :
  ~ In part (keys (r_parts s2)) ->
  lenZ (r_buf s2) + lenZ d < two32 ->
  Z.of_nat (length (r_parts s2)) < i32_max ->
  forallb (range_ok (lenZ (r_buf s2))) (r_parts s2) = true ->
  exists parts',
    pm_insert part (lenZ (r_buf s2), lenZ (r_buf s2) + lenZ d) (r_parts s2) = (parts', None)
    /\ length parts' = S (length (r_parts s2))
    /\ (forall e, In e parts' <-> e = (part, (lenZ (r_buf s2), lenZ (r_buf s2) + lenZ d)) \/ In e (r_parts s2))
    /\ (ascending (keys (r_parts s2)) = true -> ascending (keys parts') = true)
    /\ forallb (range_ok (lenZ (r_buf s2 ++ d))) parts' = true
    /\ snap_store s2 c tick dt np part crc d =
       if Z.of_nat (length parts') =? c_num_parts c
       then (set_result (finish_delta (set_parts (set_buf s2 (r_buf s2 ++ d)) parts') (c_tick c))
                        (r_result s2 ++ concat (map (range_data (r_buf s2 ++ d)) parts')),
             (Ok (Some {| rd_delta_tick := c_delta_tick c; rd_tick := c_tick c;
                          rd_data_and_crc := Some (r_result s2 ++ concat (map (range_data (r_buf s2 ++ d)) parts'),
                                                   c_crc c) |}),
              attr_warn c tick dt np crc))
       else (set_parts (set_buf s2 (r_buf s2 ++ d)) parts', (Ok None, attr_warn c tick dt np crc)).
Proof.
  intros Hnin Hlen Hcnt Hrng.
  pose proof (lenZ_nonneg (r_buf s2)). pose proof (lenZ_nonneg d).
  assert (E1 : (two32 <=? lenZ (r_buf s2)) = false) by lia.
  assert (E2 : (two32 <=? lenZ (r_buf s2) + lenZ d) = false) by lia.
  destruct (pm_insert_new part (lenZ (r_buf s2), lenZ (r_buf s2) + lenZ d) (r_parts s2) Hnin)
    as [parts' [Hins [Hl [Hin Hasc]]]].
  assert (E3 : (i32_max <? Z.of_nat (length parts')) = false) by (clear - Hl Hcnt; lia).
  exists parts'. split; [exact Hins|]. split; [exact Hl|]. split; [exact Hin|]. split; [exact Hasc|].
  assert (Hrng' : forallb (range_ok (lenZ (r_buf s2 ++ d))) parts' = true).
  { apply forallb_forall. intros e He. apply Hin in He. rewrite lenZ_app. clear - He Hrng H H0.
    destruct He as [->|He].
    - unfold range_ok. cbn [fst snd]. lia.
    - rewrite forallb_forall in Hrng. specialize (Hrng e He). unfold range_ok in *. lia. }
  split; [exact Hrng'|].
  unfold snap_store. fold (attr_warn c tick dt np crc).
  apply pm_contains_false in Hnin. rewrite Hnin, E1, E2.
  cbn [r_parts set_buf]. rewrite Hins, E3.
  destruct (Z.of_nat (length parts') =? c_num_parts c) eqn:E; cbn [negb]; [|reflexivity].
  cbn [r_buf r_parts r_result finish_delta set_parts set_buf].
  rewrite gather_spec by exact Hrng'. reflexivity.
Qed.

Lemma snap_store_dup s2 c tick dt np part crc d : In part (keys (r_parts s2)) ->
  snap_store s2 c tick dt np part crc d = (s2, (Err DuplicatePart, attr_warn c tick dt np crc)).
Proof.
  intros Hin. apply pm_contains_In in Hin. unfold snap_store. rewrite Hin. reflexivity.
Qed.

Definition msg_wellformed (m : snapmsg) : bool :=
  match m with
  | MSnap _ _ np part _ _ => (0 <=? np) && (np <=? 32) && (0 <=? part) && (part <? np)
  | _ => true
  end.

Lemma cannot_receive s m : can_receive s (msg_tick m) = false -> recv_step s m = (s, (Err OldDelta, [])).
Proof.
  intros Hc. destruct m; cbn [recv_step msg_tick] in *; [unfold snap|unfold snap_single|unfold snap_empty];
    rewrite Hc; reflexivity.
Qed.

Lemma step_cases s m :
  (exists e, recv_step s m = (s, (Err e, [])))
  \/ (can_receive s (msg_tick m) = true /\ msg_wellformed m = true).
Proof.
  destruct (can_receive s (msg_tick m)) eqn:Hc; [|left; eexists; apply cannot_receive, Hc].
  destruct (msg_wellformed m) eqn:Hw; [right; split; reflexivity|left].
  destruct m as [tick dt np part crc d|tick dt crc d|tick dt]; try discriminate.
  cbn [recv_step msg_tick msg_wellformed] in *. rewrite snap_refused, Hc. cbn [negb].
  destruct ((0 <=? np) && (np <=? 32)); [|eexists; reflexivity].
  destruct ((0 <=? part) && (part <? np)) eqn:Hp; [|eexists; reflexivity]. lia.
Qed.

Lemma snap_store_ticks s2 c tick dt np part crc d :
  let r := snap_store s2 c tick dt np part crc d in
  fst (snd r) <> OutOfFuel
  /\ ((r_cur (fst r) = r_cur s2 /\ r_prev (fst r) = r_prev s2 /\ forall rd, fst (snd r) <> Ok (Some rd))
      \/ (r_cur (fst r) = None /\ r_prev (fst r) = Some (c_tick c)
          /\ forall rd, fst (snd r) = Ok (Some rd) -> rd_tick rd = c_tick c)).
Proof.
  cbv zeta. unfold snap_store.
  destruct (pm_contains part (r_parts s2));
    [|destruct (two32 <=? lenZ (r_buf s2));
      [|destruct (two32 <=? lenZ (r_buf s2) + lenZ d);
        [|destruct (pm_insert _ _ _) as [parts' [v|]];
          [|destruct (i32_max <? Z.of_nat (length parts'));
            [|destruct (negb (Z.of_nat (length parts') =? c_num_parts c));
              [|destruct (gather _ _ _)]]]]]];
    cbn [fst snd r_cur r_prev set_buf set_parts set_result finish_delta]; (split; [discriminate|]).
  1-6: left; repeat split; discriminate.
  all: right; repeat split; try discriminate.
  intros rd [= <-]. reflexivity.
Qed.

Lemma accepted_ticks s m : can_receive s (msg_tick m) = true -> msg_wellformed m = true ->
  let r := recv_step s m in
  fst (snd r) <> OutOfFuel
  /\ (((exists c, r_cur (fst r) = Some c /\ c_tick c = msg_tick m) /\ r_prev (fst r) = r_prev s
       /\ forall rd, fst (snd r) <> Ok (Some rd))
      \/ (r_cur (fst r) = None /\ r_prev (fst r) = Some (msg_tick m)
          /\ forall rd, fst (snd r) = Ok (Some rd) -> rd_tick rd = msg_tick m)).
Proof.
  intros Hc Hw. destruct m as [tick dt np part crc d|tick dt crc d|tick dt]; cbn [recv_step msg_tick msg_wellformed] in *.
  - rewrite snap_norm by (try exact Hc; lia).
    pose proof (snap_store_ticks (start_state s tick dt np crc) (start_cur s tick dt np crc) tick dt np part crc d) as H.
    cbv zeta in H. rewrite start_state_cur, start_state_prev, start_cur_tick in H.
    destruct H as [Hf [(E1 & E2 & E3)|H]]; (split; [exact Hf|]); [left|right; exact H].
    split; [eexists; split; [exact E1|apply start_cur_tick]|split; assumption].
  - rewrite snap_single_ok by exact Hc. cbn [fst snd finished r_cur r_prev].
    split; [discriminate|right]. repeat split. intros rd [= <-]. reflexivity.
  - rewrite snap_empty_ok by exact Hc. cbn [fst snd finished r_cur r_prev].
    split; [discriminate|right]. repeat split. intros rd [= <-]. reflexivity.
Qed.

(* the receiver has no loops: no call runs out of fuel *)
Lemma recv_no_fuel s m : fst (snd (recv_step s m)) <> OutOfFuel.
Proof.
  destruct (step_cases s m) as [[e ->]|[Hc Hw]]; [discriminate|apply (accepted_ticks s m Hc Hw)].
Qed.

Lemma old_tick_refused s m t : newest_seen s = Some t -> msg_tick m < t ->
  recv_step s m = (s, (Err OldDelta, [])).
Proof.
  intros Hn Hlt. apply cannot_receive. unfold can_receive, newest_seen in *.
  destruct (r_cur s) as [c|]; [injection Hn as Hn; lia|rewrite Hn; lia].
Qed.

Lemma newer_can_receive s t T : (forall t0, newest_seen s = Some t0 -> t0 <= t) -> t < T -> can_receive s T = true.
Proof.
  intros Hs Hlt. unfold can_receive, newest_seen in *. destruct (r_cur s) as [c|].
  - specialize (Hs _ eq_refl). lia.
  - destruct (r_prev s) as [p|]; [specialize (Hs _ eq_refl); lia|reflexivity].
Qed.

Lemma wf_start s tick dt np crc : wf s = true -> 0 < np <= 32 ->
  wf (start_state s tick dt np crc) = true.
Proof.
  intros Hwf Hnp. unfold start_state. destruct (cur_has_tick s tick); [exact Hwf|].
  unfold wf. cbn [r_cur set_cur init_delta r_parts r_buf new_current c_num_parts length forallb].
  rewrite lenZ_nil. unfold max_data. lia.
Qed.

Lemma wf_unfold s c : r_cur s = Some c -> wf s = true ->
  Z.of_nat (length (r_parts s)) < c_num_parts c /\ c_num_parts c <= 32
  /\ forallb (range_ok (lenZ (r_buf s))) (r_parts s) = true
  /\ lenZ (r_buf s) <= max_data * Z.of_nat (length (r_parts s)).
Proof.
  intros Hc Hwf. unfold wf in Hwf. rewrite Hc in Hwf.
  apply andb_true_iff in Hwf. destruct Hwf as [Hwf H4].
  apply andb_true_iff in Hwf. destruct Hwf as [Hwf H3].
  apply andb_true_iff in Hwf. destruct Hwf as [H1 H2]. repeat split; (lia || exact H3).
Qed.

(* the bounds of wf: at most 32 parts of at most max_data bytes never overflow the u32 offsets *)
Lemma offsets_fit c a b k : 0 <= c <= max_data -> a <= c * k -> k <= 32 -> b <= c -> a + b < two32.
Proof. unfold max_data, two32. nia. Qed.

Lemma offsets_grow c a b k : a <= c * Z.of_nat k -> b <= c -> a + b <= c * Z.of_nat (S k).
Proof. lia. Qed.

Definition outcome_ok (m : snapmsg) (o : outcome) : Prop :=
  is_panic (fst o) = false /\ forall rd, fst o = Ok (Some rd) -> rd_tick rd = msg_tick m.

Lemma refused_ok m e : outcome_ok m (Err e, []).
Proof. split; [reflexivity|discriminate]. Qed.

Lemma snap_store_wf s2 c tick dt np part crc d :
  r_cur s2 = Some c -> c_tick c = tick -> wf s2 = true -> lenZ d <= max_data ->
  wf (fst (snap_store s2 c tick dt np part crc d)) = true
  /\ outcome_ok (MSnap tick dt np part crc d) (snd (snap_store s2 c tick dt np part crc d)).
Proof.
  intros Hc Ht Hwf Hd.
  destruct (wf_unfold s2 c Hc Hwf) as [H1 [H2 [H3 H4]]].
  destruct (in_dec Z.eq_dec part (keys (r_parts s2))) as [Hin|Hnin].
  - rewrite snap_store_dup by exact Hin. split; [exact Hwf|split; [reflexivity|discriminate]].
  - destruct (snap_store_new s2 c tick dt np part crc d Hnin) as [parts' [Hins [Hl [Hin [_ [Hrng Heq]]]]]];
      [apply (offsets_fit max_data _ _ _ ltac:(unfold max_data; lia) H4); [lia|exact Hd]|unfold i32_max; lia|exact H3|].
    rewrite Heq. destruct (Z.of_nat (length parts') =? c_num_parts c) eqn:E; cbn [fst snd].
    + split; [reflexivity|]. split; [reflexivity|].
      intros rd Hrd. injection Hrd as <-. cbn [rd_tick msg_tick]. exact Ht.
    + split; [|split; [reflexivity|intros rd Hrd; discriminate]].
      unfold wf. cbn [r_cur set_parts set_buf r_parts r_buf]. rewrite Hc.
      rewrite Hrng, lenZ_app, Hl. pose proof (offsets_grow _ _ _ _ H4 Hd). lia.
Qed.

Theorem step_wf s m : wf s = true -> msg_small m = true ->
  wf (fst (recv_step s m)) = true /\ outcome_ok m (snd (recv_step s m)).
Proof.
  intros Hwf Hsm. destruct (step_cases s m) as [[e ->]|[Hc Hw]].
  { split; [exact Hwf|apply refused_ok]. }
  destruct m as [tick dt np part crc d|tick dt crc d|tick dt]; cbn [recv_step msg_tick msg_wellformed] in *.
  - rewrite snap_norm by (try exact Hc; lia).
    apply snap_store_wf; [apply start_state_cur|apply start_cur_tick|apply wf_start; [exact Hwf|lia]|].
    apply Z.leb_le, Hsm.
  - rewrite snap_single_ok by exact Hc. split; [reflexivity|]. split; [reflexivity|].
    intros rd [= <-]. reflexivity.
  - rewrite snap_empty_ok by exact Hc. split; [reflexivity|]. split; [reflexivity|].
    intros rd [= <-]. reflexivity.
Qed.

Definition takes_fresh (s : receiver) (t : Z) : bool := can_receive s t && negb (cur_has_tick s t).

Lemma takes_fresh_before s T : takes_fresh s T = before s T.
Proof.
  unfold takes_fresh, before, can_receive, cur_has_tick. destruct (r_cur s) as [c|]; [lia|apply andb_true_r].
Qed.

Lemma before_spec s T : before s T = true <-> can_receive s T = true /\ cur_has_tick s T = false.
Proof. rewrite <- takes_fresh_before. unfold takes_fresh. rewrite andb_true_iff, negb_true_iff. reflexivity. Qed.

Lemma step_before s m T : before s T = true -> msg_tick m < T -> before (fst (recv_step s m)) T = true.
Proof.
  intros Hb Hlt. destruct (step_cases s m) as [[e ->]|[Hc Hw]]; [exact Hb|].
  unfold before.
  destruct (accepted_ticks s m Hc Hw) as [_ [[[c [-> Ht]] _]|(-> & -> & _)]]; lia.
Qed.

(* tick T has been passed: a newer transfer is in progress, or T or a newer tick was completed *)
Definition passed (s : receiver) (T : Z) : bool :=
  match r_cur s with
  | Some c => T <? c_tick c
  | None => match r_prev s with Some p => T <=? p | None => false end
  end.

Lemma passed_refused s m T : passed s T = true -> msg_tick m <= T ->
  recv_step s m = (s, (Err OldDelta, [])).
Proof.
  intros Hp Hle. apply cannot_receive. unfold passed, can_receive in *.
  destruct (r_cur s) as [c|]; [lia|]. destruct (r_prev s); [lia|discriminate].
Qed.

(* whatever is fed (no reset), a passed tick stays passed *)
Lemma step_passed s m T : passed s T = true -> passed (fst (recv_step s m)) T = true.
Proof.
  intros Hp. destruct (step_cases s m) as [[e ->]|[Hc Hw]]; [exact Hp|].
  destruct (Z_le_gt_dec (msg_tick m) T) as [Hle|Hgt]; [rewrite (passed_refused s m T) by assumption; exact Hp|].
  unfold passed.
  destruct (accepted_ticks s m Hc Hw) as [_ [[[c [-> Ht]] _]|(-> & -> & _)]]; lia.
Qed.

Lemma delivered_passed s m rd : fst (snd (recv_step s m)) = Ok (Some rd) ->
  rd_tick rd = msg_tick m /\ passed (fst (recv_step s m)) (msg_tick m) = true.
Proof.
  destruct (step_cases s m) as [[e ->]|[Hc Hw]]; [discriminate|]. intros Hrd.
  destruct (accepted_ticks s m Hc Hw) as [_ [(_ & _ & Hno)|(Ecur & Eprev & Ht)]]; [destruct (Hno rd Hrd)|].
  split; [exact (Ht rd Hrd)|]. unfold passed. rewrite Ecur, Eprev. lia.
Qed.

Lemma fresh_step_indep s1 s2 m :
  msg_wellformed m = true -> r_prev s1 = r_prev s2 ->
  takes_fresh s1 (msg_tick m) = true -> takes_fresh s2 (msg_tick m) = true ->
  recv_step s1 m = recv_step s2 m.
Proof.
  intros Hw Hprev H1 H2. rewrite takes_fresh_before in H1, H2.
  apply before_spec in H1, H2. destruct H1 as [Hc1 Hn1], H2 as [Hc2 Hn2].
  destruct m as [tick dt np part crc d|tick dt crc d|tick dt]; cbn [recv_step msg_tick msg_wellformed] in *.
  - rewrite !snap_norm by (assumption || lia).
    destruct (start_fresh s1 tick dt np crc Hn1) as [-> ->]. destruct (start_fresh s2 tick dt np crc Hn2) as [-> ->].
    unfold set_cur, init_delta. cbn [r_prev r_cur r_parts r_buf r_result]. rewrite Hprev. reflexivity.
  - rewrite !snap_single_ok by assumption. rewrite Hn1, Hn2. reflexivity.
  - rewrite !snap_empty_ok by assumption. rewrite Hn1, Hn2. reflexivity.
Qed.

Lemma accepted_newest s m : msg_wellformed m = true -> can_receive s (msg_tick m) = true ->
  newest_seen (fst (recv_step s m)) = Some (msg_tick m).
Proof.
  intros Hw Hc. unfold newest_seen.
  destruct (accepted_ticks s m Hc Hw) as [_ [[[c [-> Ht]] _]|(-> & -> & _)]]; congruence.
Qed.

Lemma newest_seen_step s m :
  newest_seen (fst (recv_step s m)) = newest_seen s \/ newest_seen (fst (recv_step s m)) = Some (msg_tick m).
Proof.
  destruct (step_cases s m) as [[e ->]|[Hc Hw]]; [left; reflexivity|right; apply accepted_newest; assumption].
Qed.
