(* C14: whole messages — the id in front (ordinal << 1 | sys, or 0|sys followed by the
   16-byte UUID, or the 8-byte connless id), the dispatch through the id table, the body *)
From LibTw2 Require Import Base.Res Base.Bits Model.Varint Model.Packer Model.Codec
  Proofs.VarintArith Proofs.VarintProofs Proofs.PackerProofs Proofs.CodecDecode Proofs.CodecEncode.
From Coq Require Import ZArith Lia Bool List ZifyBool.
Open Scope Z_scope.

Lemma bytes_eqb_eq a : forall b, bytes_eqb a b = true <-> a = b.
Proof.
  induction a as [|x a IH]; intros [|y b]; cbn [bytes_eqb]; split; intros H; try reflexivity; try discriminate.
  - apply andb_true_iff in H as [Hx Hr]. apply IH in Hr. f_equal; [lia|exact Hr].
  - injection H as -> ->. rewrite Z.eqb_refl. apply IH. reflexivity.
Qed.

Lemma msgid_eqb_eq a b : msgid_eqb a b = true <-> a = b.
Proof.
  destruct a, b; cbn [msgid_eqb]; split; intros H; try discriminate; try (injection H as ->);
    try (f_equal; try lia; apply bytes_eqb_eq; assumption); try apply Z.eqb_refl; apply bytes_eqb_eq; reflexivity.
Qed.

Lemma ckind_eqb_eq a b : ckind_eqb a b = true <-> a = b.
Proof. destruct a, b; cbn; split; intros H; try reflexivity; discriminate. Qed.

Definition flagz (sys : bool) : Z := if sys then 1 else 0.

Lemma land1 x : Z.land x 1 = x mod 2.
Proof. exact (land_pow2_mask x 1 ltac:(lia)). Qed.

Lemma shiftr1 x : Z.shiftr x 1 = x / 2.
Proof. rewrite shiftr_div by lia. reflexivity. Qed.

Definition sg_id_ok (id : msgid) : bool :=
  match id with
  | IdOrd n => (0 <? n) && (n <? 1073741824)
  | IdUuid u => bytes_ok u && (length u =? 16)%nat
  | IdConn _ => false
  end.

Lemma decode_id_canon sys id rest : sg_id_ok id = true -> bytes_ok rest = true ->
  decode_id (id_bytes sys id ++ rest) = (rest, Ok (sys, id), []).
Proof.
  intros Hid Hr. destruct id as [n|u|b]; cbn [sg_id_ok] in Hid; [| |discriminate]; unfold decode_id, id_bytes.
  - fold (flagz sys). assert (Hf : 0 <= flagz sys <= 1) by (destruct sys; cbn; lia).
    rewrite rd_int; [|unfold is_i32, i32_min, i32_max; lia|exact Hr]. cbn [int_of].
    rewrite land1, shiftr1.
    replace ((n * 2 + flagz sys) / 2) with n by (Z.div_mod_to_equations; lia).
    replace (negb (n =? 0)) with true by lia.
    replace (negb ((n * 2 + flagz sys) mod 2 =? 0)) with sys; [reflexivity|].
    destruct sys; cbn [flagz]; Z.div_mod_to_equations; lia.
  - fold (flagz sys). apply andb_true_iff in Hid as [Hu Hl]. apply Nat.eqb_eq in Hl.
    rewrite <- app_assoc. rewrite rd_int; [|destruct sys; reflexivity|apply bytes_ok_app; assumption].
    cbn [int_of]. rewrite land1, shiftr1.
    replace (negb (flagz sys / 2 =? 0)) with false by (destruct sys; reflexivity).
    rewrite <- Hl. rewrite rd_raw by assumption. cbn [payload].
    replace (negb (flagz sys mod 2 =? 0)) with sys by (destruct sys; reflexivity). reflexivity.
Qed.

Lemma key_eqb_iff d k id :
  ckind_eqb (c_kind d) k && msgid_eqb (c_id_dec d) id = true <-> c_kind d = k /\ c_id_dec d = id.
Proof. rewrite andb_true_iff, ckind_eqb_eq, msgid_eqb_eq. reflexivity. Qed.

(* the first arm with the right key is the codec itself when no key occurs twice *)
Lemma find_codec_unique tbl : forall c, ids_unique tbl = true -> In c tbl ->
  find_codec tbl (c_kind c) (c_id_dec c) = Some c.
Proof.
  induction tbl as [|d tl IH]; intros c Hu Hin; [contradiction|].
  cbn [ids_unique] in Hu. apply andb_true_iff in Hu as [Hd Hu]. apply negb_true_iff, not_true_iff_false in Hd.
  unfold find_codec. cbn [find]. destruct Hin as [->|Hin].
  - rewrite (proj2 (key_eqb_iff c _ _) (conj eq_refl eq_refl)). reflexivity.
  - destruct (ckind_eqb (c_kind d) (c_kind c) && msgid_eqb (c_id_dec d) (c_id_dec c)) eqn:E; [|apply IH; assumption].
    exfalso. apply key_eqb_iff in E as [E1 E2]. apply Hd, existsb_exists. exists c.
    split; [exact Hin|]. apply key_eqb_iff. split; symmetry; assumption.
Qed.

Lemma id_ok_sg k id : id_ok k id = true -> k = KSystem \/ k = KGame -> sg_id_ok id = true.
Proof. intros H [-> | ->]; destruct id; try discriminate; exact H. Qed.

Definition is_sys (c : codec) : bool := match c_kind c with KSystem => true | _ => false end.

Lemma wf_parts c : wf_codec c = true ->
  forallb mop_ok (c_dec c) = true /\ rest_only_last (c_dec c) = true /\ wf_enc c = true
  /\ c_id_enc c = c_id_dec c /\ id_ok (c_kind c) (c_id_dec c) = true.
Proof.
  intros H. pose proof (wf_codec_enc c H) as He. unfold wf_codec in H.
  repeat (apply andb_true_iff in H as [H ?]).
  repeat split; try assumption. symmetry. apply msgid_eqb_eq. assumption.
Qed.

(* System::decode / Game::decode on the canonical message *)
Theorem decode_sysgame_canonical tbl c demo vs : ids_unique tbl = true -> In c tbl -> wf_codec c = true ->
  (c_kind c = KSystem \/ c_kind c = KGame) -> well_typed (c_dec c) vs = true ->
  decode_sysgame tbl (is_sys c) demo (canonical_msg c vs) = (Ok (c, vs), []).
Proof.
  intros Hu Hin Hwf Hk Ht. destruct (wf_parts c Hwf) as [Hm [Hl [He [Hid Hok]]]].
  unfold decode_sysgame, canonical_msg. rewrite Hid. fold (is_sys c).
  rewrite decode_id_canon; [|exact (id_ok_sg _ _ Hok Hk)|apply enc_values_ok; assumption].
  rewrite Bool.eqb_reflx.
  replace (if is_sys c then KSystem else KGame) with (c_kind c) by (unfold is_sys; destruct Hk as [-> | ->]; reflexivity).
  rewrite find_codec_unique, decode_w_canonical by assumption. reflexivity.
Qed.

Theorem decode_connless_canonical tbl c demo vs : ids_unique tbl = true -> In c tbl -> wf_codec c = true ->
  c_kind c = KConnless -> well_typed (c_dec c) vs = true ->
  decode_connless tbl demo (canonical_msg c vs) = (Ok (c, vs), []).
Proof.
  intros Hu Hin Hwf Hk Ht. destruct (wf_parts c Hwf) as [Hm [Hl [He [Hid Hok]]]].
  unfold decode_connless, canonical_msg. rewrite Hid, Hk.
  unfold id_ok in Hok. rewrite Hk in Hok. destruct (c_id_dec c) as [n|u|b] eqn:Eid; try discriminate.
  apply andb_true_iff in Hok as [Hb Hlen]. apply Nat.eqb_eq in Hlen.
  cbn [id_bytes]. rewrite <- Hlen. rewrite rd_raw; [|exact Hb|apply enc_values_ok; assumption].
  cbn [payload]. rewrite <- Eid, <- Hk. rewrite find_codec_unique, decode_w_canonical by assumption. reflexivity.
Qed.

Lemma lift_pack_int t x : is_i32 x = true -> lift_pack (pack_int t x) = lbw t (write_int_bytes x).
Proof. intros H. rewrite pack_int_bw by exact H. reflexivity. Qed.

Lemma encode_id_canon t sys id : tgt_ok t -> sg_id_ok id = true -> encode_id t sys id = lbw t (id_bytes sys id).
Proof.
  intros Hok Hid. destruct id as [n|u|b]; cbn [sg_id_ok] in Hid; [| |discriminate]; unfold encode_id, id_bytes; fold (flagz sys).
  - assert (Hf : 0 <= flagz sys <= 1) by (destruct sys; cbn; lia).
    replace (n =? 0) with false by lia.
    unfold u32_of, two32, two31. rewrite (Z.mod_small n) by lia.
    replace (2147483648 <=? n) with false by lia.
    rewrite (Z.mod_small (n * 2)) by lia. unfold i32_of, two31.
    replace (n * 2 + flagz sys <? 2147483648) with true by lia.
    apply lift_pack_int. unfold is_i32, i32_min, i32_max. lia.
  - apply andb_true_iff in Hid as [Hu _].
    rewrite lift_pack_int by (destruct sys; reflexivity).
    rewrite lbw_app by exact Hok.
    pose proof (lbw_tgt_ok t (write_int_bytes (flagz sys)) Hok) as Hok'.
    destruct (lbw t (write_int_bytes (flagz sys))) as [t1 [[]|e|s|]]; reflexivity.
Qed.

(* what follows a header that wrote the bytes ib *)
Lemma encode_body_canonical c vs cap ib : wf_enc c = true -> well_typed (c_dec c) vs = true ->
  (let hdr := lbw (empty_target cap) ib in
   match hdr with
   | (t1, Ok _) => finish_target (encode_ops (c_dec c) vs (c_enc c) t1)
   | r => finish_target r
   end) = if (length (ib ++ canonical c vs) <=? cap)%nat then Ok (ib ++ canonical c vs) else Err CapacityErr.
Proof.
  intros He Ht. cbv zeta. rewrite <- finish_lbw_empty, lbw_app by apply empty_ok.
  pose proof (lbw_tgt_ok (empty_target cap) ib (empty_ok cap)) as H1.
  destruct (lbw (empty_target cap) ib) as [t1 [[]|e|s|]]; try reflexivity.
  cbn [fst] in H1. rewrite encode_ops_canonical by assumption. reflexivity.
Qed.

Theorem encode_msg_canonical c vs cap : wf_codec c = true -> c_kind c <> KObjMsg ->
  well_typed (c_dec c) vs = true ->
  encode_msg c vs cap =
  if (length (canonical_msg c vs) <=? cap)%nat then Ok (canonical_msg c vs) else Err CapacityErr.
Proof.
  intros Hwf Hk Ht. destruct (wf_parts c Hwf) as [Hm [Hl [He [Hid Hok]]]].
  unfold encode_msg, canonical_msg. rewrite Hid. destruct (c_kind c); cbv iota zeta.
  - rewrite encode_id_canon by (apply empty_ok || exact (id_ok_sg _ _ Hok (or_introl eq_refl))).
    apply encode_body_canonical; assumption.
  - rewrite encode_id_canon by (apply empty_ok || exact (id_ok_sg _ _ Hok (or_intror eq_refl))).
    apply encode_body_canonical; assumption.
  - unfold id_ok in Hok. destruct (c_id_dec c) as [n|u|b]; try discriminate. apply andb_true_iff in Hok as [Hb _].
    rewrite pack_field_bw by (apply empty_ok || exact Hb). apply (encode_body_canonical c vs cap b); assumption.
  - contradiction Hk. reflexivity.
Qed.
