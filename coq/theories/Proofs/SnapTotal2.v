(* Totality of the delta readers and of read_with_delta on accepted inputs (C11). *)
From LibTw2 Require Import Base.Res Model.Varint Model.Packer Model.Snap Proofs.SnapBase Proofs.SnapRep Proofs.SnapDelta
  Proofs.SnapApply Proofs.SnapOk Proofs.SnapTotal Proofs.VarintArith Proofs.VarintProofs.
From Coq Require Import ZArith List Lia Bool Permutation.
Import ListNotations.
Open Scope Z_scope.

Definition wpost {A} (P : A -> Prop) (r : wres A) : Prop :=
  match fst r with Ok a => P a | Err _ => True | _ => False end.

Lemma wpost_bind {A B} (Q : A -> Prop) (P : B -> Prop) (m : wres A) (f : A -> wres B) :
  wpost Q m -> (forall a, Q a -> wpost P (f a)) -> wpost P (wbind m f).
Proof.
  destruct m as [[a|e|s|] ws]; unfold wpost; cbn [fst wbind]; intros Hm Hf; try contradiction; [|exact I].
  specialize (Hf a Hm). destruct (f a) as [r ws']. exact Hf.
Qed.

Lemma wbind_ok' {A B} (a : A) (f : A -> wres B) : wbind (Ok a, []) f = f a.
Proof. apply wbind_ok. Qed.

Lemma wpost_weaken {A} (Q P : A -> Prop) (r : wres A) : (forall a, Q a -> P a) -> wpost Q r -> wpost P r.
Proof. unfold wpost. destruct (fst r); auto. Qed.

Lemma wpost_ret {A} (P : A -> Prop) a : P a -> wpost P (wret a).
Proof. intros H. exact H. Qed.
Lemma wpost_err {A} (P : A -> Prop) e : wpost P (@werr A e).
Proof. exact I. Qed.
Lemma wpost_warn_if (c : bool) w : wpost (fun _ : unit => True) (if c then wwarn w else wret tt).
Proof. destruct c; exact I. Qed.
Lemma wpost_lift {A} (P : A -> Prop) (r : res serr A) : post P r -> wpost P (wlift r).
Proof. exact (fun H => H). Qed.

Lemma wpost_ok {A} (P : A -> Prop) (m : wres A) a ws : wpost P m -> m = (Ok a, ws) -> P a.
Proof. intros H ->. exact H. Qed.

Lemma wpost_fine {A} (P : A -> Prop) (m : wres A) : wpost P m -> fine (fst m).
Proof. apply post_fine. Qed.

Record dgood (d : delta) : Prop := {
  dg_ranges : forall k r, In (k, r) (d_upd d) -> (fst r <= snd r <= length (d_buf d))%nat;
  dg_buf : forallb is_i32 (d_buf d) = true
}.

Lemma dgood_empty del : dgood {| d_del := del; d_upd := []; d_buf := [] |}.
Proof. split; [intros k r []|reflexivity]. Qed.

Lemma dgood_created A B chA chB : rep A chA -> rep B chB -> forallb is_i32 (rs_buf B) = true ->
  dgood (created A B chA chB).
Proof.
  intros HA HB HbB. split; cbn [created d_upd d_buf].
  - intros k r Hin. destruct (in_ranges_split _ _ _ _ Hin) as (pre & d & post & E & ->). cbn [fst snd].
    rewrite E, flat_app. cbn [flat flat_map snd]. rewrite !app_length. lia.
  - apply diffs_i32, view_flat_i32; assumption.
Qed.

Section ReaderTotal.
  Variable St : Type.
  Variable rd_empty : St -> bool.
  Variable rd_int : St -> res unit (Z * list pwarn * St).
  Variable rd_size : St -> nat.
  Variable okst : St -> Prop.                    (* what the reader needs of its state (bytes are u8) *)
  Hypothesis R1 : forall p, okst p -> fine (rd_int p).
  Hypothesis R2 : forall p v ws p', okst p -> rd_int p = Ok (v, ws, p') ->
    (rd_size p' < rd_size p)%nat /\ is_i32 v = true /\ okst p'.
  Hypothesis R4 : forall p, (1 <= rd_size p)%nat.

  Notation rie := (read_int_err St rd_int).

  Lemma rie_post p e : okst p ->
    wpost (fun vp => (rd_size (snd vp) < rd_size p)%nat /\ is_i32 (fst vp) = true /\ okst (snd vp)) (rie p e).
  Proof.
    intros Hp. unfold read_int_err. pose proof (R1 p Hp) as H1. destruct (rd_int p) as [[[v ws] p']| | |] eqn:E; try contradiction.
    - unfold wpost. cbn [fst snd]. apply (R2 p v ws p' Hp E).
    - exact I.
  Qed.

  Lemma read_deleted_post : forall fuel n p del, okst p -> (rd_size p <= fuel)%nat ->
    wpost (fun pd => (rd_size (fst pd) <= rd_size p)%nat /\ okst (fst pd)) (read_deleted St rd_int fuel n p del).
  Proof.
    induction fuel as [|fuel IH]; intros n p del Hp Hf; cbn [read_deleted].
    - pose proof (R4 p). lia.
    - destruct (n <=? 0); [apply wpost_ret; cbn; split; [lia|exact Hp]|].
      eapply wpost_bind; [apply rie_post, Hp|]. intros [v p'] (H1 & _ & H3). cbn [fst snd] in *.
      eapply wpost_weaken; [|apply (IH (n - 1) p' (sins v del) H3); lia].
      intros [p2 d2] [H4 H5]. cbn [fst] in *. split; [lia|exact H5].
  Qed.

  Lemma read_data_post : forall fuel n p acc, okst p -> (rd_size p <= fuel)%nat -> forallb is_i32 acc = true ->
    wpost (fun pd => (rd_size (fst pd) <= rd_size p)%nat /\ okst (fst pd) /\ forallb is_i32 (snd pd) = true)
          (read_data St rd_int fuel n p acc).
  Proof.
    induction fuel as [|fuel IH]; intros n p acc Hp Hf Ha; cbn [read_data].
    - pose proof (R4 p). lia.
    - destruct (n <=? 0).
      + apply wpost_ret. cbn [fst snd]. split; [lia|split; [exact Hp|apply forallb_rev, Ha]].
      + eapply wpost_bind; [apply rie_post, Hp|]. intros [v p'] (H1 & H2 & H3). cbn [fst snd] in *.
        eapply wpost_weaken; [|apply (IH (n - 1) p' (v :: acc) H3); [lia|cbn [forallb]; rewrite H2, Ha; reflexivity]].
        intros [p2 d2] (H4 & H5 & H6). cbn [fst snd] in *. repeat split; [lia|exact H5|exact H6].
  Qed.

  (* `num` counts the updates; each consumes input, so it cannot reach i32::MAX *)
  Lemma read_updates_post sz : forall fuel p d num, okst p -> (rd_size p <= fuel)%nat -> dgood d ->
    num + Z.of_nat (rd_size p) <= i32_max ->
    wpost (fun dn => dgood (fst dn)) (read_updates St rd_empty rd_int rd_size fuel sz p d num).
  Proof.
    induction fuel as [|fuel IH]; intros p d num Hp Hf Hd Hn; cbn [read_updates].
    - pose proof (R4 p). lia.
    - destruct (rd_empty p); [apply wpost_ret; exact Hd|].
      eapply wpost_bind; [apply rie_post, Hp|]. intros [ty p1] (A1 & _ & A3). cbn [fst snd] in *.
      eapply wpost_bind; [apply rie_post, A3|]. intros [id p2] (B1 & _ & B3). cbn [fst snd] in *.
      destruct (is_u16 ty) eqn:Ht; cbn [negb]; [|apply wpost_err].
      destruct (is_u16 id) eqn:Hi; cbn [negb]; [|apply wpost_err].
      eapply (wpost_bind (fun sp => (rd_size (snd sp) <= rd_size p2)%nat /\ okst (snd sp))).
      { destruct (sz ty); [apply wpost_ret; cbn; split; [lia|exact B3]|].
        eapply wpost_bind; [apply rie_post, B3|]. intros [s p3] (C1 & _ & C3). cbn [fst snd] in *.
        destruct (s <? 0); [apply wpost_err|apply wpost_ret; cbn; split; [lia|exact C3]]. }
      intros [size p3] [D1 D3]. cbn [fst snd] in *.
      destruct (u32_max <? Z.of_nat (length (d_buf d))); [apply wpost_err|].
      destruct (u32_max <? Z.of_nat (length (d_buf d)) + size); [apply wpost_err|].
      eapply wpost_bind; [apply (read_data_post (rd_size p3) size p3 [] D3 (le_n _) eq_refl)|].
      intros [p4 data] (E1 & E3 & E4). cbn [fst snd] in *.
      eapply (wpost_bind (fun _ : unit => True)); [destruct (aget (key ty id) (d_upd d)); exact I|]. intros _ _.
      eapply wpost_bind; [apply wpost_warn_if|]. intros _ _.
      destruct (Z.eqb_spec num i32_max) as [->|Hne]; [pose proof (R4 p); lia|].
      apply IH; [exact E3|lia| |lia].
      split; cbn [d_upd d_buf].
      + intros k r Hin. apply ains_in in Hin. destruct Hin as [E|Hin].
        * injection E as _ ->. cbn [fst snd]. rewrite app_length. lia.
        * pose proof (dg_ranges _ Hd k r Hin). rewrite app_length. lia.
      + rewrite forallb_app, (dg_buf _ Hd), E4. reflexivity.
  Qed.

  Theorem read_delta_post sz p : okst p -> Z.of_nat (rd_size p) <= i32_max ->
    wpost dgood (read_delta St rd_empty rd_int rd_size sz p).
  Proof.
    intros Hp Hn. unfold read_delta, read_delta_header.
    eapply (wpost_bind (fun x => (rd_size (snd x) <= rd_size p)%nat /\ okst (snd x))).
    { eapply wpost_bind; [apply rie_post, Hp|]. intros [nd p1] (A1 & _ & A3). cbn [fst snd] in *.
      destruct (nd <? 0); [apply wpost_err|].
      eapply wpost_bind; [apply rie_post, A3|]. intros [nu p2] (B1 & _ & B3). cbn [fst snd] in *.
      destruct (nu <? 0); [apply wpost_err|].
      eapply wpost_bind; [apply rie_post, B3|]. intros [z p3] (C1 & _ & C3). cbn [fst snd] in *.
      eapply wpost_bind; [apply wpost_warn_if|]. intros _ _. apply wpost_ret. cbn [snd]. split; [lia|exact C3]. }
    intros [[nd nu] p1] [A1 A3]. cbn [fst snd] in *.
    eapply wpost_bind; [apply (read_deleted_post (rd_size p1) nd p1 [] A3 (le_n _))|].
    intros [p2 del] [B1 B3]. cbn [fst snd] in *.
    eapply wpost_bind; [apply wpost_warn_if|]. intros _ _.
    eapply wpost_bind; [apply (read_updates_post sz (rd_size p2) p2 _ 0 B3 (le_n _) (dgood_empty del)); lia|].
    intros [d num] Hd. cbn [fst] in Hd.
    eapply wpost_bind; [apply wpost_warn_if|]. intros _ _. apply wpost_ret. exact Hd.
  Qed.
End ReaderTotal.

Theorem delta_read_from_ints_post sz ints : forallb is_i32 ints = true ->
  Z.of_nat (length ints) < i32_max -> wpost dgood (delta_read_from_ints sz ints).
Proof.
  intros Hi Hn. unfold delta_read_from_ints.
  apply (read_delta_post (list Z) int_rd_empty int_rd_int (fun p => Datatypes.S (length p))
           (fun p => forallb is_i32 p = true)).
  - intros p _. destruct p; exact I.
  - intros p v ws p' Hp E. destruct p as [|x p]; [discriminate|]. injection E as <- <- <-.
    apply forallb_cons in Hp. cbn [length]. split; [lia|exact Hp].
  - intros p. lia.
  - exact Hi.
  - rewrite Nat2Z.inj_succ. lia.
Qed.

Theorem delta_read_bytes_post sz bs : bytes_ok bs = true ->
  Z.of_nat (length bs) < i32_max -> wpost dgood (delta_read_bytes sz bs).
Proof.
  intros Hok Hn. unfold delta_read_bytes.
  apply (read_delta_post bytes byte_rd_empty read_int (fun p => Datatypes.S (length p)) (fun p => bytes_ok p = true)).
  - intros p Hp. apply read_int_fine, Hp.
  - intros p v ws p' Hp E. destruct (read_int_shrinks _ _ _ _ Hp E) as (H1 & H2 & H3). repeat split; [lia|exact H2|exact H3].
  - intros p. lia.
  - exact Hok.
  - rewrite Nat2Z.inj_succ. lia.
Qed.

Lemma rwd_copy_good A chA d : rep A chA -> keys_i32 A -> forallb is_i32 (rs_buf A) = true ->
  forall l S n, incl l (rs_offs A) -> good S -> sortedb (map fst (rs_offs S) ++ map fst l) = true ->
  post (fun Sn => good (fst Sn)) (rwd_copy (rs_buf A) d l S n).
Proof.
  intros HA IA HbA. induction l as [|[k r] l IH]; intros S n Hincl G Hs; [exact G|].
  apply incl_cons_inv in Hincl. destruct Hincl as [Hin Hincl].
  destruct (rep_in _ _ _ _ HA Hin) as (dd & _ & _ & Hsl).
  pose proof (slice_forallb is_i32 _ _ _ HbA (Hsl unit)) as Hdd.
  pose proof (keys_i32_in _ _ _ IA Hin) as Hki.
  cbn [map fst] in Hs. destruct (sortedb_mid _ _ _ Hs) as [Hlt Hs'].
  assert (Hnone : aget k (rs_offs S) = None) by (apply aget_none; intros Hi; apply Hlt in Hi; lia).
  rewrite (rwd_copy_round _ d k r l S n dd Hsl Hki Hnone).
  destruct (smem k (d_del d)); [apply IH; assumption|]. destruct (fits S (length dd)) eqn:Hf; [|exact I].
  apply IH; [exact Hincl|apply good_pushed; assumption|].
  cbn [pushed rs_offs]. rewrite ains_keys, sins_last, <- app_assoc by exact Hlt. exact Hs.
Qed.

Lemma apply_item_delta_post in_ diff : forallb is_i32 diff = true ->
  post (fun out => length out = length diff /\ forallb is_i32 out = true)
       (apply_item_delta in_ diff (length diff)).
Proof.
  intros Hd. unfold apply_item_delta. rewrite Nat.eqb_refl. destruct in_ as [i|]; cbn [negb]; [|split; [reflexivity|exact Hd]].
  destruct (Nat.eqb_spec (length i) (length diff)) as [Hl|]; [|exact I].
  split; [rewrite zip_with_length; assumption|apply zip_with_i32, wadd_i32].
Qed.

Lemma rwd_update_good A chA dbuf : rep A chA -> forallb is_i32 dbuf = true ->
  forall upd S, (forall k r, In (k, r) upd -> (fst r <= snd r <= length dbuf)%nat) -> good S ->
  post good (rwd_update A dbuf upd S).
Proof.
  intros HA Hdb. induction upd as [|[k r] upd IH]; intros S Hr G; [exact G|].
  assert (Hr' : forall k0 r0, In (k0, r0) upd -> (fst r0 <= snd r0 <= length dbuf)%nat)
    by (intros k0 r0 H0; apply (Hr k0 r0); right; exact H0).
  cbn [rwd_update]. set (k' := key (key_to_raw_type_id k) (key_to_id k)).
  assert (Hkk : is_i32 k' = true) by (apply key_i32; [apply key_to_ty_range|apply key_to_id_range]).
  unfold slice at 1. rewrite in_bounds by (apply (Hr k r); left; reflexivity).
  cbn [bind]. set (diff := firstn (snd r - fst r) (skipn (fst r) dbuf)).
  assert (Hdi : forallb is_i32 diff = true) by (apply forallb_firstn, forallb_skipn, Hdb).
  rewrite (raw_item_rep A chA _ _ HA). destruct (g_rep _ G) as [ch R].
  destruct (aget k' (rs_offs S)) as [r0|] eqn:Hocc.
  - unfold prepare_item. rewrite Hocc. cbn [bind].
    destruct (rep_in _ _ _ _ R (aget_in _ _ _ Hocc)) as (d0 & _ & _ & Hs0). rewrite Hs0. cbn [bind].
    destruct (Nat.eqb_spec (range_len r0) (length diff)) as [Hl|Hl]; cbn [negb bind]; [|exact I].
    rewrite Hl. eapply post_bind; [apply apply_item_delta_post, Hdi|]. intros out [Ho1 Ho2].
    destruct (good_write S k' r0 out G Hocc) as (buf' & Ew & Gw); [lia|exact Ho2|].
    rewrite Ew. cbn [bind]. apply IH; assumption.
  - destruct (fits S (length diff)) eqn:Hf; [|rewrite (prepare_item_vacant _ _ _ Hocc), Hf; exact I].
    destruct (reserve_steps S k' (length diff) Hocc Hf) as (S1 & ro & E1 & E2 & E3 & E4).
    rewrite E1. cbn [bind]. destruct (E2 serr) as [z Ez]. rewrite Ez. cbn [bind].
    rewrite E3, Nat.eqb_refl. cbn [negb bind].
    eapply post_bind; [apply apply_item_delta_post, Hdi|]. intros out [Ho1 Ho2].
    destruct (E4 out Ho1) as [Ew Eo]. rewrite Ew. cbn [bind]. rewrite Eo.
    change {| rs_offs := rs_offs (pushed S k' out); rs_buf := rs_buf (pushed S k' out) |} with (pushed S k' out).
    apply IH; [exact Hr'|]. apply good_pushed; try assumption. rewrite Ho1. exact Hf.
Qed.

Theorem read_with_delta_good A d : good A -> dgood d -> wpost good (raw_read_with_delta A d).
Proof.
  intros G D. destruct (g_rep _ G) as [chA HA]. unfold raw_read_with_delta.
  eapply wpost_bind.
  - apply wpost_lift, (rwd_copy_good A chA d HA (g_keys _ G) (g_buf _ G)); [apply incl_refl|apply good_empty|].
    apply (rep_sorted _ _ HA).
  - intros [S1 nd] G1. eapply wpost_bind; [apply wpost_warn_if|]. intros _ _.
    apply wpost_lift, (rwd_update_good A chA (d_buf d) HA (dg_buf _ D)); [apply (dg_ranges _ D)|exact G1].
Qed.
