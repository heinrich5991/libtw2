(* Demo model: chunk headers, tick markers, the message int layer, one chunk written and read. *)
From LibTw2 Require Import Base.Res Model.Varint Model.Packer Model.Demo
  Proofs.VarintProofs Proofs.PackerProofs Proofs.HuffmanDecode Proofs.DemoBase Props.C07.
From Coq Require Import ZArith Lia Bool List ZifyBool.
Open Scope Z_scope.

(* facts about the five-bit field of a chunk's flag byte are checked value by value, in boolean form *)
Definition all32 : list Z := map Z.of_nat (seq 0 32).
Lemma sweep32 (P : Z -> Prop) (b : Z -> bool) :
  (forall s, b s = true -> P s) -> forallb b all32 = true -> forall s, 0 <= s < 32 -> P s.
Proof.
  intros Hb H s Hs. apply Hb. rewrite forallb_forall in H. apply H. unfold all32.
  apply in_map_iff. exists (Z.to_nat s). split; [lia|]. apply in_seq. lia.
Qed.

Lemma data_flags k s : 0 <= s < 32 ->
  Z.land (Z.lor (kind_flag k) s) 128 = 0
  /\ Z.land (Z.lor (kind_flag k) s) 96 = kind_flag k
  /\ Z.land (Z.lor (kind_flag k) s) 31 = s.
Proof.
  revert s. apply (sweep32 _ (fun s => (Z.land (Z.lor (kind_flag k) s) 128 =? 0)
                                       && (Z.land (Z.lor (kind_flag k) s) 96 =? kind_flag k)
                                       && (Z.land (Z.lor (kind_flag k) s) 31 =? s)));
    [intros s H; lia|destruct k; vm_compute; reflexivity].
Qed.

Lemma delta_flags d : 0 <= d < 32 ->
  (Z.land (Z.lor (Z.lor 128 32) d) 128 =? 0) = false
  /\ (Z.land (Z.lor (Z.lor 128 32) d) 64 =? 0) = true
  /\ (Z.land (Z.lor (Z.lor 128 32) d) 32 =? 0) = false
  /\ Z.land (Z.lor (Z.lor 128 32) d) 31 = d.
Proof.
  revert d. apply (sweep32 _ (fun d => negb (Z.land (Z.lor (Z.lor 128 32) d) 128 =? 0)
                                       && (Z.land (Z.lor (Z.lor 128 32) d) 64 =? 0)
                                       && negb (Z.land (Z.lor (Z.lor 128 32) d) 32 =? 0)
                                       && (Z.land (Z.lor (Z.lor 128 32) d) 31 =? d)));
    [intros d H; lia|vm_compute; reflexivity].
Qed.

Lemma absolute_flags (kf : bool) :
  (Z.land (Z.lor 128 (if kf then 64 else 0)) 128 =? 0) = false
  /\ (Z.land (Z.lor 128 (if kf then 64 else 0)) 64 =? 0) = negb kf
  /\ (Z.land (Z.lor 128 (if kf then 64 else 0)) 32 =? 0) = true
  /\ (Z.land (Z.lor 128 (if kf then 64 else 0)) 31 =? 0) = true.
Proof. destruct kf; repeat split. Qed.

Lemma kind_of_flag k :
  (if kind_flag k =? 0 then KUnknown else if kind_flag k =? 32 then KSnapshot
   else if kind_flag k =? 64 then KMessage else KSnapshotDelta) = k.
Proof. destruct k; reflexivity. Qed.

Definition chdr_ok (h : chdr) : bool :=
  match h with
  | HTick (TDelta d) keyframe => (0 <=? d) && (d <=? 31) && negb keyframe
  | HTick (TAbsolute t) _ => is_i32 t
  | HData _ size => (0 <=? size) && (size <=? 65535)
  end.
Definition chdr_warns (h : chdr) : list dwarn :=
  match h with HData KUnknown _ => [UnknownChunkType] | _ => [] end.
Definition chdr_len (h : chdr) : Z :=
  match h with
  | HTick (TDelta _) _ => 1
  | HTick (TAbsolute _) _ => 5
  | HData _ size => if size <? 30 then 1 else if size <=? 255 then 2 else 3
  end.

Lemma chdr_len_pos h : 1 <= chdr_len h.
Proof. destruct h as [[d|t] kf|k size]; cbn [chdr_len]; [lia|lia|]. destruct (size <? 30), (size <=? 255); lia. Qed.

Lemma v5_cases v : version_ge v V5 = true -> v = V5 \/ v = V6.
Proof. destruct v; cbn; intros H; try discriminate; auto. Qed.

Theorem chdr_roundtrip h v rest : chdr_ok h = true -> version_ge v V5 = true ->
  exists bs, chdr_write h v = Ok bs
    /\ chdr_read v (bs ++ rest) = (Ok (Some (h, rest)), chdr_warns h)
    /\ zlen bs = chdr_len h.
Proof.
  intros Hok Hv. unfold chdr_write. rewrite Hv. cbn [negb].
  destruct h as [[d|t] kf|k size]; cbn [chdr_ok] in Hok.
  - replace (max_tick_delta v) with 31 by (destruct (v5_cases v Hv) as [-> | ->]; reflexivity).
    destruct kf; [lia|]. replace (d <=? 31) with true by lia. cbn [negb].
    eexists. split; [reflexivity|]. split; [|reflexivity].
    destruct (delta_flags d ltac:(lia)) as (F1 & F2 & F3 & F4).
    unfold chdr_read. cbn [app]. rewrite Hv, F1, F2, F3, F4. reflexivity.
  - eexists. split; [reflexivity|]. split; [|reflexivity].
    destruct (absolute_flags kf) as (F1 & F2 & F3 & F4).
    unfold chdr_read. rewrite <- app_comm_cons, Hv, F1, F2, F3, F4. cbn [negb].
    rewrite rd_be_i32_be32, negb_involutive by exact Hok. reflexivity.
  - unfold chdr_len.
    destruct (size <? 30) eqn:E30;
      [replace ((size <? 0) || (255 <? size)) with false by lia|destruct (size <=? 255) eqn:E255].
    all: eexists; (split; [reflexivity|]); (split; [|reflexivity]); unfold chdr_read; cbn [app].
    + destruct (data_flags k size ltac:(lia)) as (-> & -> & ->). rewrite kind_of_flag. cbn [Z.eqb negb].
      replace (size =? 30) with false by lia. replace (size =? 31) with false by lia. reflexivity.
    + destruct (data_flags k 30 ltac:(lia)) as (-> & -> & ->). rewrite kind_of_flag, E30. apply f_equal, app_nil_r.
    + destruct (data_flags k 31 ltac:(lia)) as (-> & -> & ->). rewrite kind_of_flag.
      replace (size mod 256 + size / 256 * 256) with size by lia.
      replace (size <? 255) with false by lia. apply f_equal, app_nil_r.
Qed.

(* the writer writes V5 headers also into V6 files: same bytes *)
Lemma chdr_write_v5 h v : version_ge v V5 = true -> chdr_write h v = chdr_write h V5.
Proof. intros Hv. destruct (v5_cases v Hv) as [-> | ->]; reflexivity. Qed.

Lemma tick_marker_next p tick kf : p < tick ->
  tick_marker_new tick (Some p) kf V5
  = Ok (if negb kf && (tick - p <=? 31) then TDelta (tick - p) else TAbsolute tick).
Proof.
  intros H. unfold tick_marker_new, is_i32, i32_min, i32_max. cbn [max_tick_delta].
  replace (p <? tick) with true by lia. cbn [negb].
  destruct (negb kf && (tick - p <=? 31)) eqn:E.
  - replace (_ && (tick - p <=? 2147483647)) with true by lia.
    replace ((tick - p <? 0) || (255 <? tick - p)) with false by lia. reflexivity.
  - destruct (_ && (tick - p <=? 2147483647)); reflexivity.
Qed.

Lemma write_tick_next p kf tick : is_i32 tick = true -> p < tick ->
  exists bs, write_tick (Some p) kf tick = Ok (bs, Some tick)
    /\ zlen bs = if negb kf && (tick - p <=? 31) then 1 else 5.
Proof.
  intros Ht Hlt. unfold write_tick. rewrite (tick_marker_next p tick kf Hlt).
  set (tm := if negb kf && (tick - p <=? 31) then TDelta (tick - p) else TAbsolute tick).
  destruct (chdr_roundtrip (HTick tm kf) V5 []) as (bs & -> & _ & Hl); [|reflexivity|].
  - subst tm. destruct (negb kf && (tick - p <=? 31)) eqn:E; cbn [chdr_ok]; [lia|exact Ht].
  - exists bs. split; [reflexivity|]. rewrite Hl. subst tm. destruct (negb kf && _); reflexivity.
Qed.

Lemma tick_marker_inv tick prev kf tm : tick_marker_new tick prev kf V5 = Ok tm ->
  match tm with
  | TAbsolute t => t = tick /\ match prev with Some p => p < tick | None => True end
  | TDelta d => exists p, prev = Some p /\ tick = p + d /\ 0 <= d <= 31 /\ kf = false
  end.
Proof.
  destruct prev as [p|]; [|intros [= <-]; auto].
  destruct (Z.ltb_spec p tick) as [Hp|Hp].
  - rewrite tick_marker_next by exact Hp.
    destruct (negb kf && (tick - p <=? 31)) eqn:E; intros [= <-]; [|auto].
    exists p. destruct kf; [discriminate|]. repeat split; lia.
  - unfold tick_marker_new. replace (p <? tick) with false by lia. discriminate.
Qed.

Lemma write_tick_inv prev kf tick bs prev' : write_tick prev kf tick = Ok (bs, prev') ->
  prev' = Some tick
  /\ exists tm, tick_marker_new tick prev kf V5 = Ok tm /\ chdr_write (HTick tm kf) V5 = Ok bs.
Proof.
  unfold write_tick. destruct (tick_marker_new tick prev kf V5) as [tm| | |]; try discriminate.
  destruct (chdr_write (HTick tm kf) V5) as [h| | |] eqn:Eh; try discriminate.
  intros [= <- <-]. split; [reflexivity|]. exists tm. split; [reflexivity|exact Eh].
Qed.

Definition next_prev (prev : option Z) (cs : list chunk) : option Z :=
  fold_left (fun p c => match c with CTick t _ => Some t | _ => p end) cs prev.

Lemma next_prev_cons prev c cs : next_prev prev (c :: cs) = next_prev (next_prev prev [c]) cs.
Proof. reflexivity. Qed.

Lemma write_chunk_prev prev c bs prev' : write_chunk prev c = Ok (bs, prev') -> prev' = next_prev prev [c].
Proof.
  destruct c as [tick kf|d|d|d|]; cbn [write_chunk next_prev fold_left].
  - intros H. apply write_tick_inv in H. tauto.
  - destruct (write_chunk_impl KSnapshot d); intros [= _ <-]. reflexivity.
  - destruct (write_chunk_impl KSnapshotDelta d); intros [= _ <-]. reflexivity.
  - destruct (write_message d); intros [= _ <-]. reflexivity.
  - discriminate.
Qed.

Lemma list_ind4 (P : bytes -> Prop) :
  P [] -> (forall a, P [a]) -> (forall a b, P [a; b]) -> (forall a b c, P [a; b; c]) ->
  (forall a b c d r, P r -> P (a :: b :: c :: d :: r)) -> forall l, P l.
Proof.
  intros H0 H1 H2 H3 H4. fix IH 1. intros l.
  destruct l as [|a [|b [|c [|d r]]]];
    [apply H0|apply H1|apply H2|apply H3|apply H4, IH].
Qed.

Lemma pad4_cons4 a b c d r : pad4 (a :: b :: c :: d :: r) = a :: b :: c :: d :: pad4 r.
Proof.
  unfold pad4. cbn [length]. replace (S (S (S (S (length r))))) with (length r + 1 * 4)%nat by lia.
  rewrite Nat.mod_add by lia. reflexivity.
Qed.

Lemma le_groups_spec msg : bytes_ok msg = true ->
  forallb is_i32 (le_groups msg) = true /\ flat_map i32_to_le (le_groups msg) = pad4 msg.
Proof.
  induction msg as [|a|a b|a b c|a b c d r IH] using list_ind4; intros H; [split; reflexivity|..];
    rewrite !bytes_ok_cons in H; cbn [le_groups forallb flat_map];
    rewrite i32_from_le_is_i32, i32_to_from_le by lia; [split; reflexivity..|].
  destruct IH as [-> ->]; [tauto|]. rewrite pad4_cons4. split; reflexivity.
Qed.

Lemma le_groups_count (msg : bytes) : zlen msg <= 4 * Z.of_nat (length (le_groups msg)) <= zlen msg + 3.
Proof.
  induction msg as [|a|a b|a b c|a b c d r IH] using list_ind4;
    rewrite ?zlen_length in *; cbn [le_groups length] in *; lia.
Qed.

Definition packed (vs : list Z) : bytes := flat_map write_int_bytes vs.

Lemma pack_ints_ok vs : forallb is_i32 vs = true -> pack_ints vs = Ok (packed vs).
Proof.
  induction vs as [|v vs IH]; cbn [forallb pack_ints packed flat_map]; intros H; [reflexivity|].
  apply andb_true_iff in H as [Hv Hvs]. rewrite write_int_bytes_eq by exact Hv.
  rewrite IH by exact Hvs. reflexivity.
Qed.

Lemma packed_bytes_ok vs : forallb is_i32 vs = true -> bytes_ok (packed vs) = true.
Proof.
  induction vs as [|v vs IH]; cbn [forallb packed flat_map]; intros H; [reflexivity|].
  apply andb_true_iff in H as [Hv Hvs]. apply bytes_ok_app; [|apply IH, Hvs].
  exact (field_bytes_ok (FInt v) Hv).
Qed.

Lemma write_int_bytes_nonempty v : is_i32 v = true -> exists b t, write_int_bytes v = b :: t.
Proof.
  intros Hv. destruct (varint_roundtrip v [] Hv eq_refl) as (bs & Hw & _ & Hl).
  unfold write_int_bytes. rewrite Hw. destruct bs as [|b t]; [cbn in Hl; lia|]. eauto.
Qed.

Lemma msg_loop_packed vs : forall fuel room, forallb is_i32 vs = true ->
  (length (packed vs) < length fuel)%nat -> 0 <= room ->
  msg_loop fuel (packed vs) room
  = if Z.of_nat (length vs) <=? room then (Ok (flat_map i32_to_le vs), []) else (Err EMsgTooLong, []).
Proof.
  induction vs as [|v vs IH]; intros fuel room H Hf Hr.
  - replace (_ <=? room) with true by (cbn [length]; lia). destruct fuel; reflexivity.
  - cbn [forallb] in H. apply andb_true_iff in H as [Hv Hvs].
    pose proof (read_write_int v (packed vs) Hv (packed_bytes_ok vs Hvs)) as Hrd.
    destruct (write_int_bytes_nonempty v Hv) as (b & t & Hb).
    unfold packed in *. cbn [flat_map length] in *. rewrite Hb, <- app_comm_cons in *.
    destruct fuel as [|f0 fuel]; [cbn [length] in Hf; lia|]. cbn [length] in Hf. rewrite app_length in Hf.
    cbn [msg_loop]. rewrite Hrd. cbn [map].
    destruct (room <=? 0) eqn:E0; [replace (_ <=? room) with false by lia; reflexivity|].
    rewrite IH by (try assumption; lia).
    replace (Z.of_nat (S (length vs)) <=? room) with (Z.of_nat (length vs) <=? room - 1) by lia.
    destruct (_ <=? room - 1); reflexivity.
Qed.

(* the built-in table is C07's *)
Lemma demo_table_wf : wf_table demo_table = true.
Proof. exact C07_builtin_wf. Qed.

(* the writer accepts a payload whose compressed form fits whatever its content *)
Lemma write_chunk_impl_fits k d : bytes_ok d = true -> 3 * zlen d + 4 <= 65535 ->
  exists bs, write_chunk_impl k d = Ok bs.
Proof.
  intros Hd Hlen. rewrite zlen_length in Hlen.
  destruct (C07_len demo_table d false demo_table_wf Hd) as (n & _ & Hfit & _ & Hn).
  destruct (Hfit demo_cap) as (c & Ec & Hc); [pose proof demo_cap_val; lia|].
  unfold write_chunk_impl. rewrite Ec, zlen_length. replace (65535 <? _) with false by lia.
  destruct (chdr_roundtrip (HData k (Z.of_nat (length c))) V5 []) as (h & -> & _);
    [cbn [chdr_ok]; lia|reflexivity|]. eauto.
Qed.

(* ... so a message of zeros of any length up to 87000: every group packs to one zero byte *)
Lemma le_groups_all_zero (l : bytes) : Forall (eq 0) l -> Forall (eq 0) (le_groups l).
Proof.
  induction l as [|a|a b|a b c|a b c d r IH] using list_ind4; intros H;
    repeat (apply Forall_cons_iff in H as [<- H]); cbn [le_groups]; repeat constructor. apply IH, H.
Qed.

Lemma packed_all_zero vs : Forall (eq 0) vs -> packed vs = vs.
Proof. induction 1 as [|v vs <- _ IH]; [reflexivity|]. cbn [packed flat_map]. fold (packed vs). rewrite IH. reflexivity. Qed.

Lemma write_message_zeros n : 3 * Z.of_nat n + 25 <= 4 * 65535 -> exists bs, write_message (zeros n) = Ok bs.
Proof.
  intros Hn. destruct (le_groups_spec _ (bytes_ok_zeros n)) as [Hg _].
  pose proof (le_groups_count (zeros n)) as Hc. rewrite zlen_zeros in Hc.
  assert (Hp : zlen (packed (le_groups (zeros n))) = Z.of_nat (length (le_groups (zeros n)))).
  { rewrite packed_all_zero, zlen_length; [reflexivity|].
    apply le_groups_all_zero, Forall_forall. intros y Hy. symmetry. exact (repeat_spec _ _ _ Hy). }
  unfold write_message, DEMO_MAX_SIZE. rewrite (pack_ints_ok _ Hg), Hp. replace (65536 <? _) with false by lia.
  apply write_chunk_impl_fits; [apply (packed_bytes_ok _ Hg)|lia].
Qed.

Lemma data_chunk_read k d bs v rest prev :
  version_ge v V5 = true -> bytes_ok d = true -> zlen d <= 65536 ->
  write_chunk_impl k d = Ok bs -> k <> KUnknown ->
  read_chunk v {| ds_rest := bs ++ rest; ds_tick := prev |}
  = (let st' := {| ds_rest := rest; ds_tick := prev |} in
     match k with
     | KSnapshot => (Ok (Some (CSnapshot d, st')), [])
     | KSnapshotDelta => (Ok (Some (CDelta d, st')), [])
     | _ => wmap (fun m => Some (CMessage m, st')) (msg_loop (0 :: d) d DEMO_MAX_INTS)
     end)
  /\ 1 <= zlen bs.
Proof.
  intros Hv Hd Hlen H Hk. unfold write_chunk_impl in H.
  destruct (compress demo_table d false demo_cap) as [c| | |] eqn:Ec; try discriminate.
  destruct (65535 <? zlen c) eqn:En; [discriminate|].
  pose proof (zlen_nonneg c) as Hc0.
  destruct (chdr_roundtrip (HData k (zlen c)) v (c ++ rest)) as (h & Hw & Hr & Hl);
    [cbn [chdr_ok]; lia|exact Hv|].
  rewrite chdr_write_v5 in Hw by exact Hv. rewrite Hw in H. injection H as <-.
  split; [|rewrite zlen_app; pose proof (chdr_len_pos (HData k (zlen c))); lia].
  assert (Hdec : demo_decompress demo_dec_fuel demo_table c demo_cap = Ok d).
  { rewrite demo_decompress_eq, <- (app_nil_r c).
    apply (roundtrip demo_table d false demo_cap c [] demo_cap demo_dec_fuel demo_table_wf Hd Ec).
    - rewrite zlen_length in Hlen. pose proof demo_cap_val. lia.
    - rewrite zlen_length in En. pose proof demo_dec_fuel_val. lia. }
  unfold read_chunk. cbn [ds_rest ds_tick]. rewrite <- app_assoc, Hr, (split_at_app c rest) by reflexivity.
  rewrite Hdec. destruct k; [reflexivity| |reflexivity|contradiction].
  cbn [chdr_warns app]. destruct (msg_loop _ _ _) as [[m|e|s|] ws]; reflexivity.
Qed.

(* what the reader makes of any message the writer accepts: its int buffer holds DEMO_MAX_INTS
   four-byte groups *)
Lemma message_chunk_read v prev d bs rest :
  version_ge v V5 = true -> bytes_ok d = true -> write_message d = Ok bs ->
  read_chunk v {| ds_rest := bs ++ rest; ds_tick := prev |}
  = (if Z.of_nat (length (le_groups d)) <=? DEMO_MAX_INTS
     then (Ok (Some (CMessage (pad4 d), {| ds_rest := rest; ds_tick := prev |})), [])
     else (Err EMsgTooLong, []))
  /\ 1 <= zlen bs.
Proof.
  intros Hv Hok Ew. destruct (le_groups_spec d Hok) as [Hg Hpad].
  unfold write_message, DEMO_MAX_SIZE in Ew. rewrite (pack_ints_ok _ Hg) in Ew.
  destruct (65536 <? zlen (packed (le_groups d))) eqn:E; [discriminate|].
  destruct (data_chunk_read KMessage _ bs v rest prev Hv (packed_bytes_ok _ Hg) ltac:(lia) Ew) as [-> Hl];
    [discriminate|]. split; [|exact Hl].
  rewrite msg_loop_packed; [|exact Hg|cbn [length]; lia|discriminate].
  rewrite Hpad. destruct (_ <=? DEMO_MAX_INTS); reflexivity.
Qed.

Theorem chunk_roundtrip v prev c bs prev' rest :
  version_ge v V5 = true -> chunk_ok c = true -> k15_chunk c = false ->
  write_chunk prev c = Ok (bs, prev') ->
  read_chunk v {| ds_rest := bs ++ rest; ds_tick := prev |}
    = (Ok (Some (pad4_chunk c, {| ds_rest := rest; ds_tick := prev' |})), [])
  /\ 1 <= zlen bs.
Proof.
  intros Hv Hok Hk H. unfold k15_chunk, DEMO_MAX_SIZE in Hk.
  destruct c as [tick kf|d|d|d|]; cbn [write_chunk chunk_ok pad4_chunk] in *.
  - destruct (write_tick_inv _ _ _ _ _ H) as (-> & tm & Etm & Eh). apply tick_marker_inv in Etm.
    assert (Hch : chdr_ok (HTick tm kf) = true).
    { destruct tm; cbn [chdr_ok]; [destruct Etm as (p & _ & _ & Hd & ->); lia|destruct Etm as [-> _]; exact Hok]. }
    destruct (chdr_roundtrip (HTick tm kf) v rest Hch Hv) as (h' & Hw & Hr & Hl).
    rewrite chdr_write_v5, Eh in Hw by exact Hv. injection Hw as <-.
    split; [|pose proof (chdr_len_pos (HTick tm kf)); lia].
    unfold read_chunk. cbn [ds_rest ds_tick]. rewrite Hr. cbn [chdr_warns].
    destruct tm as [dd|t].
    + destruct Etm as (p & -> & -> & _). unfold is_i32, i32_max in *.
      replace (2147483647 <? p + dd) with false by lia. reflexivity.
    + destruct Etm as [-> Hp]. destruct prev as [p|]; [|reflexivity].
      replace (tick <=? p) with false by lia. reflexivity.
  - destruct (write_chunk_impl KSnapshot d) as [b| | |] eqn:Ew; try discriminate. injection H as <- <-.
    apply (data_chunk_read KSnapshot d b v rest prev Hv Hok ltac:(lia) Ew). discriminate.
  - destruct (write_chunk_impl KSnapshotDelta d) as [b| | |] eqn:Ew; try discriminate. injection H as <- <-.
    apply (data_chunk_read KSnapshotDelta d b v rest prev Hv Hok ltac:(lia) Ew). discriminate.
  - destruct (write_message d) as [b| | |] eqn:Ew; try discriminate. injection H as <- <-.
    destruct (message_chunk_read v prev d b rest Hv Hok Ew) as [-> Hl]. split; [|exact Hl].
    unfold DEMO_MAX_INTS. pose proof (le_groups_count d). replace (_ <=? 16384) with true by lia. reflexivity.
  - discriminate.
Qed.

(* K15: a message of more than MAX_SNAPSHOT_SIZE bytes that the writer accepts has more
   four-byte groups than the reader's int buffer holds *)
Theorem long_message_rejected v prev d bs prev' rest :
  version_ge v V5 = true -> bytes_ok d = true -> DEMO_MAX_SIZE < zlen d ->
  write_chunk prev (CMessage d) = Ok (bs, prev') ->
  read_chunk v {| ds_rest := bs ++ rest; ds_tick := prev |} = (Err EMsgTooLong, []).
Proof.
  intros Hv Hok Hlong H. cbn [write_chunk] in H.
  destruct (write_message d) as [b| | |] eqn:Ew; try discriminate. injection H as <- <-.
  destruct (message_chunk_read v prev d b rest Hv Hok Ew) as [-> _].
  unfold DEMO_MAX_INTS, DEMO_MAX_SIZE in *. pose proof (le_groups_count d).
  replace (_ <=? 16384) with false by lia. reflexivity.
Qed.
