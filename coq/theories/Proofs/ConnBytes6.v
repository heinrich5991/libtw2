(* C04 at the byte level (0.6): a datagram the connection layer emits (dgram_ok), written by
   the library's own Packet::write, is at most 1400 bytes and is read back by Packet::read as
   the same value without a single warning, and its chunks iterate back bit-identical. Bridges
   Proofs/Conn6Inv.v (what is emitted) with Props/C05 (packet codec round trip). *)
From LibTw2 Require Import Base.Res Model.PacketTypes Model.PacketBase Model.Packet6 Model.PacketInst
  Model.ConnCore Proofs.ConnCoreInv Proofs.ConnBytesCore
  Proofs.PktBits6 Proofs.Packet6Write Proofs.Packet6Read Proofs.Packet6Chunks Proofs.PacketInstProofs.
From LibTw2 Require Gen.Consts6 Gen.Bits6.
From Coq Require Import ZArith Lia Bool List.
Open Scope Z_scope.

Definition ctl6_of (c : control) : option control6 :=
  match c with
  | KeepAlive => Some C6KeepAlive
  | Connect _ => Some C6Connect
  | ConnectAccept => Some C6ConnectAccept
  | Accept => Some C6Accept
  | Close r => Some (C6Close r)
  | TokenMsg _ => None
  end.

(* the packet value handed to Packet::write for an abstract datagram *)
Definition encode6 (d : dgram) : option packet6 :=
  match d with
  | DConnless _ _ p => Some (P6Connless p)
  | DControl tok ack c => match ctl6_of c with Some c6 => Some (P6Connected ack tok (P6Control c6)) | None => None end
  | DChunks tok ack rr n cs => Some (P6Connected ack tok (P6Chunks rr n (flat_map chunk_enc6 cs)))
  end.

(* payloads and tokens are byte strings (the model keeps bytes as Z) *)
Definition dgram_bytes_ok (d : dgram) : bool :=
  match d with
  | DConnless _ _ p => bytes_ok p
  | DControl tok _ c => match tok with Some t => bytes_ok t | None => true end
                        && match c with Close r => bytes_ok r | _ => true end
  | DChunks tok _ _ _ cs => match tok with Some t => bytes_ok t | None => true end
                            && forallb (fun c => bytes_ok (ch_data c)) cs
  end.

Lemma chunks_ok_wf6 cs : Forall (chunk_ok params6) cs -> forallb chunk_wf6 cs = true.
Proof.
  intros H. apply forallb_forall. intros c Hin. rewrite Forall_forall in H.
  destruct (H c Hin) as [[_ H2] Hv]. unfold chunk_wf6, vital_wf. cbn [params6 p_size_bits] in H2.
  change (2 ^ 10) with 1024 in H2. destruct (ch_vital c) as [[s r]|]; unfold SEQ_MOD in Hv; lia.
Qed.

Lemma chunk_hdr6_length c : chunk_wf6 c = true -> Z.of_nat (length (chunk_hdr6 c)) = chunk_hdr (is_vital c).
Proof.
  intros Hc. rewrite (proj1 (chunk_hdr6_spec c Hc)). unfold is_vital. destruct (ch_vital c); reflexivity.
Qed.

Lemma chunk_hdr6_bytes_ok c : chunk_wf6 c = true -> bytes_ok (chunk_hdr6 c) = true.
Proof.
  destruct c as [d v]. unfold chunk_wf6, chunk_hdr6. cbn [ch_data ch_vital].
  intros Hwf. apply andb_true_iff in Hwf as [Hd Hv]. apply Z.ltb_lt in Hd.
  destruct (chunk_flags_facts6 v) as (Hf & _ & _).
  set (h := {| Bits6.ch6_flags := chunk_flags v; Bits6.ch6_size := Z.of_nat (length d) |}).
  assert (Hh : PktBits6.ch6_in_range h = true)
    by (unfold PktBits6.ch6_in_range, h; cbn [Bits6.ch6_flags Bits6.ch6_size]; lia).
  destruct v as [[s r]|].
  - cbn [vital_wf] in Hv.
    assert (Hhv : PktBits6.chv6_in_range {| Bits6.chv6_h := h; Bits6.chv6_sequence := s |} = true).
    { unfold PktBits6.chv6_in_range. cbn [Bits6.chv6_h Bits6.chv6_sequence]. rewrite Hh. lia. }
    destruct (PktBits6.chv6_pack_unpack _ Hhv) as ([a b c] & -> & _ & Hb & _). exact (byteb3 a b c Hb).
  - destruct (PktBits6.ch6_pack_unpack _ Hh) as ([a b] & -> & _ & Hb & _). exact (byteb2 a b Hb).
Qed.

Theorem emitted_expressible6 d p :
  dgram_ok params6 d -> encode6 d = Some p ->
  expressible6 p = true /\ K05_6 p = false /\ K06_6 p = false.
Proof.
  intros Hok He. destruct d as [t r pl|tok ack c|tok ack rr n cs]; cbn [encode6] in He.
  - injection He as <-. cbn [dgram_ok] in Hok. unfold MAX_PAYLOAD in Hok. cbn [expressible6 K05_6 K06_6].
    unfold Consts6.MAX_PACKETSIZE, Consts6.HEADER_SIZE, Consts6.PADDING_SIZE_CONNLESS, Consts6.MAX_PAYLOAD.
    repeat split; lia.
  - destruct (ctl6_of c) as [c6|] eqn:Ec; [|discriminate]. injection He as <-.
    destruct Hok as (Htok & Hack & _ & Hcl). cbn [expressible6 K05_6 K06_6].
    rewrite (header_expressible tok ack Htok Hack). cbn [andb]. split; [|split; reflexivity].
    destruct c; try discriminate Ec; injection Ec as <-; try reflexivity.
    destruct Hcl as [Hnul Hlen]. rewrite (has_nul_of_forallb _ Hnul).
    unfold Consts6.CTRLMSG_CLOSE_REASON_LENGTH. cbn [negb andb]. lia.
  - injection He as <-. destruct Hok as (Htok & Hack & Hn & Hn255 & Hcs & Hsz & Hne).
    cbn [expressible6 K05_6 K06_6]. rewrite (header_expressible tok ack Htok Hack), (flushed_not_k05 rr n Hne).
    cbn [andb]. split; [|split; reflexivity].
    rewrite <- (flat_enc_length chunk_wf6 chunk_hdr6 chunk_enc6 (fun _ => eq_refl) chunk_hdr6_length cs
                  (chunks_ok_wf6 cs Hcs)) in Hsz.
    unfold chunks_dgram_size, MAX_PACKETSIZE, tok_size6 in Hsz. cbn [params6 p_v7 p_header] in Hsz.
    unfold Consts6.TOKEN_SIZE, Consts6.MAX_PACKETSIZE, Consts6.HEADER_SIZE. destruct tok; lia.
Qed.

Lemma emitted_bytes_ok6 d p :
  dgram_ok params6 d -> dgram_bytes_ok d = true -> encode6 d = Some p -> packet_bytes_ok6 p = true.
Proof.
  intros Hok Hb He. destruct d as [t r pl|tok ack c|tok ack rr n cs]; cbn [encode6] in He.
  - injection He as <-. exact Hb.
  - destruct (ctl6_of c) as [c6|] eqn:Ec; [|discriminate]. injection He as <-.
    cbn [dgram_bytes_ok] in Hb. cbn [packet_bytes_ok6].
    destruct c; try discriminate Ec; injection Ec as <-; exact Hb.
  - injection He as <-. cbn [dgram_bytes_ok] in Hb. apply andb_true_iff in Hb as [Hb1 Hb2].
    cbn [packet_bytes_ok6]. rewrite Hb1. destruct Hok as (_ & _ & _ & _ & Hcs & _).
    exact (flat_enc_bytes_ok chunk_wf6 chunk_hdr6 chunk_enc6 (fun _ => eq_refl) chunk_hdr6_bytes_ok cs
             (chunks_ok_wf6 cs Hcs) Hb2).
Qed.

Theorem emitted_reads_back6 d p :
  dgram_ok params6 d -> dgram_bytes_ok d = true -> encode6 d = Some p ->
  exists out,
    write6_tw p 1400 = Ok out /\ (length out <= 1400)%nat
    /\ (exists views, read6_tw out (true_hint6 p) 1400 = ([], Ok (p, views)))
    /\ match d with
       | DChunks _ _ _ n cs =>
         exists cvs it', chunks_iter_all6 (flat_map chunk_enc6 cs) n = Ok (cvs, [], it') /\ map fst cvs = cs
       | _ => True
       end.
Proof.
  intros Hok Hb He.
  pose proof (emitted_expressible6 d p Hok He) as (Hx & Hk5 & Hk6).
  pose proof (Packet6Write.write6_ok tw_comp p 1400 Hx Hk6 (le_n _)) as [Hw Hlen].
  exists (Packet6Write.encoding6 tw_comp p). split; [exact Hw|]. split; [exact Hlen|]. split.
  - eexists. unfold read6_tw.
    rewrite (Packet6Read.read_encoding6 tw_comp tw_decomp PacketInstProofs.tw_rt p 1400 Hx
               (emitted_bytes_ok6 d p Hok Hb He) (le_n _)).
    unfold Packet6Read.k05_warnings6. rewrite Hk5. reflexivity.
  - destruct d as [t r pl|tok ack c|tok ack rr n cs]; try exact I.
    destruct Hok as (_ & _ & -> & _ & Hcs & _). apply chunks_roundtrip6, chunks_ok_wf6, Hcs.
Qed.
