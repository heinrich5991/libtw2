(* C01 for 0.6: the invariant of the two-endpoint link and its preservation by every
   admissible label. *)
From LibTw2 Require Import Base.Res Model.PacketTypes Model.ConnCore Model.Conn6 Model.LinkGhost Model.Link6
  Proofs.ConnCoreInv Proofs.Conn6Inv Proofs.LinkArith Proofs.LinkCore Proofs.LinkSide.
From Coq Require Import ZArith Lia Bool List.
Open Scope Z_scope.

Definition never_online (st : state6) : Prop :=
  match st with Unconnected | Connecting | Pending _ => True | _ => False end.

(* what holds of one side, relative to the peer's histories *)
Record side_inv (x : lside) (subY delY nvsY : list bytes) (ansY : bool) : Prop := {
  sv_conn : conn_ok6 (l_conn x);
  sv_fresh : never_online (c_state (l_conn x)) ->
             l_sub x = [] /\ l_del x = [] /\ l_nvs x = [] /\ l_ready x = 0;
  sv_online : forall o, c_state (l_conn x) = Online o ->
      exists a, snd_inv o (l_sub x) (l_nvs x) a /\ a <= zlen delY /\ o_ack o = seqof (zlen (l_del x));
  sv_prefix : l_del x = firstn (Z.to_nat (zlen (l_del x))) subY;
  sv_dle : zlen (l_del x) <= zlen subY;
  sv_gap : zlen (l_sub x) - zlen delY <= 511;
  sv_nvr : incl (l_nvr x) nvsY;
  sv_ready : 0 <= l_ready x <= 1;
  sv_ready_conn : c_state (l_conn x) = Connecting -> l_ready x = 0;
  sv_ans : 1 <= l_ready x -> ansY = true;
}.

Definition flight_inv (x : lside) (f : flight) : Prop :=
  flight_ok f (zlen (l_sub x)) (zlen (l_del x)) (l_sub x) (l_nvs x) /\
  dgram_in_ok (f_d f) /\
  (is_connect_accept (f_d f) = true -> l_answered x = true).
Definition bag_inv (fl : list flight) (x : lside) : Prop := Forall (flight_inv x) fl.

Definition link_inv (w : link) : Prop :=
  side_inv (k_a w) (l_sub (k_b w)) (l_del (k_b w)) (l_nvs (k_b w)) (l_answered (k_b w)) /\
  side_inv (k_b w) (l_sub (k_a w)) (l_del (k_a w)) (l_nvs (k_a w)) (l_answered (k_a w)) /\
  bag_inv (k_ab w) (k_a w) /\ bag_inv (k_ba w) (k_b w).

Definition grows (x x' : lside) : Prop :=
  (exists e, l_sub x' = l_sub x ++ e) /\ (exists e, l_del x' = l_del x ++ e) /\
  incl (l_nvs x) (l_nvs x') /\ (l_answered x = true -> l_answered x' = true).

Lemma grows_refl x : grows x x.
Proof.
  repeat split; try (exists []; rewrite app_nil_r; reflexivity); try apply incl_refl. auto.
Qed.

(* the side as LinkSide sees it *)
Definition phase6 (st : state6) : phase :=
  match st with Online o => On o | Disconnected => Closed | _ => Fresh end.
Definition hist6 (x : lside) : hist :=
  {| h_sub := l_sub x; h_del := l_del x; h_nvs := l_nvs x; h_nvr := l_nvr x; h_ready := l_ready x |}.

Lemma phase6_fresh st : phase6 st = Fresh <-> never_online st.
Proof. destruct st; cbn; split; intros H; try discriminate; try contradiction; auto. Qed.

Lemma phase6_on st o : phase6 st = On o <-> st = Online o.
Proof. destruct st; cbn; split; intros H; try discriminate; injection H as ->; reflexivity. Qed.

(* sv_ready_conn follows from sv_fresh *)
Lemma side_inv_hist x subY delY nvsY ansY :
  side_inv x subY delY nvsY ansY <->
  conn_ok6 (l_conn x) /\ hist_inv (phase6 (c_state (l_conn x))) (hist6 x) subY delY nvsY ansY.
Proof.
  split.
  - intros [C F O P D G N R RC A]. split; [exact C|]. constructor; try assumption.
    + intros E. apply F, phase6_fresh, E.
    + intros o E. apply O, phase6_on, E.
  - intros [C [F O P D G N R A]]. constructor; try assumption.
    + intros H. apply F, phase6_fresh, H.
    + intros o H. apply O, phase6_on, H.
    + intros H. apply F. rewrite H. reflexivity.
Qed.

Lemma grows_hist x x' :
  grows x x' <-> hgrows (hist6 x) (hist6 x') /\ (l_answered x = true -> l_answered x' = true).
Proof. unfold grows, hgrows. cbn. tauto. Qed.

Lemma side_inv_mono x y y' :
  side_inv x (l_sub y) (l_del y) (l_nvs y) (l_answered y) -> grows y y' ->
  side_inv x (l_sub y') (l_del y') (l_nvs y') (l_answered y').
Proof.
  intros Hi Hg. apply grows_hist in Hg as [Hg Ha]. apply side_inv_hist in Hi as [C Hh]. apply side_inv_hist.
  split; [exact C|]. exact (hist_inv_peer _ _ (hist6 y) (hist6 y') _ _ Hh Hg Ha).
Qed.

Lemma flight_inv_mono x x' f : flight_inv x f -> grows x x' -> flight_inv x' f.
Proof.
  intros [Hf [Hin Hca]] Hg. apply grows_hist in Hg as [Hg Ha].
  split; [exact (flight_ok_grow f (hist6 x) (hist6 x') Hf Hg)|]. split; [exact Hin|intros H; apply Ha, Hca, H].
Qed.

Lemma bag_inv_mono fl x x' : bag_inv fl x -> grows x x' -> bag_inv fl x'.
Proof. intros H Hg. eapply Forall_impl; [|exact H]. intros f Hf. eapply flight_inv_mono; eassumption. Qed.

Definition after (x : lside) (o : op) (out : outcome) : lside :=
  {| l_conn := out_conn out; l_rand := e_rand (out_env out);
     l_sub := match o, out_res out with OpSend d true, ROk => l_sub x ++ [d] | _, _ => l_sub x end;
     l_del := l_del x ++ vital_payloads (out_events out);
     l_nvs := match o, out_res out with OpSend d false, ROk => d :: l_nvs x | _, _ => l_nvs x end;
     l_nvr := l_nvr x ++ nonvital_payloads (out_events out);
     l_ready := l_ready x + ready_events (out_events out);
     l_answered := l_answered x || existsb is_connect_accept (out_sent out) |}.

Definition flights_of (x : lside) (out : outcome) : list flight :=
  map (fun d => {| f_d := d; f_n := zlen (l_sub x); f_c := zlen (l_del x) |}) (out_sent out).

Lemma side_step_unfold now x o out :
  step (l_conn x) {| e_now := now; e_rand := l_rand x |} o = Ok out ->
  side_step now x o = Ok (after x o out, flights_of x out).
Proof. intros H. unfold side_step. rewrite H. reflexivity. Qed.

Lemma hist_after x o out :
  hist6 (after x o out) =
  h_recv (match o, out_res out with OpSend d v, ROk => h_send (hist6 x) d v | _, _ => hist6 x end) (out_events out).
Proof.
  unfold hist6, after. cbn [l_sub l_del l_nvs l_nvr l_ready].
  destruct o as [|d []| | | | | | |]; try reflexivity; destruct (out_res out); reflexivity.
Qed.

Lemma hist_after_nosend x o out :
  (forall d v, o <> OpSend d v) -> hist6 (after x o out) = h_recv (hist6 x) (out_events out).
Proof. intros Ho. destruct o; try reflexivity. exfalso. eapply Ho. reflexivity. Qed.

Lemma dgram_ok_in pp d : dgram_ok pp d -> dgram_in_ok d.
Proof.
  destruct d as [t r p|t a c|t a rr n cs]; cbn; [exact (fun _ => I)| |].
  - intros [H1 [H2 _]]. split; assumption.
  - intros [H1 [H2 [_ [_ [H5 _]]]]]. split; [exact H1|]. split; [exact H2|].
    eapply Forall_impl; [|exact H5]. intros c [_ Hc]. exact Hc.
Qed.

(* what every case of the two step theorems establishes *)
Definition step_inv (x : lside) (o : op) (out : outcome) (subY delY nvsY : list bytes) (ansY : bool) : Prop :=
  side_inv (after x o out) subY delY nvsY ansY /\ bag_inv (flights_of x out) (after x o out) /\
  grows x (after x o out).

(* it is enough to look at the histories and at the emitted datagrams as they stood before the call;
   that an emitted ConnectAccept is recorded in l_answered is how `after` is made *)
Lemma step_inv_intro x o out subY delY nvsY ansY :
  conn_ok6 (out_conn out) -> Forall (dgram_ok pp6) (out_sent out) ->
  hist_inv (phase6 (c_state (out_conn out))) (hist6 (after x o out)) subY delY nvsY ansY ->
  hgrows (hist6 x) (hist6 (after x o out)) ->
  flights_ok (l_sub x) (l_del x) (l_nvs x) (out_sent out) ->
  step_inv x o out subY delY nvsY ansY.
Proof.
  intros Hc Hds Hh Hg Hfl. split; [apply side_inv_hist; split; assumption|]. split.
  - apply Forall_map. unfold flights_ok in Hfl. rewrite Forall_forall in *. intros d Hin.
    split; [exact (flight_ok_grow _ (hist6 x) _ (Hfl d Hin) Hg)|].
    split; [eapply dgram_ok_in, Hds, Hin|]. intros Hca. apply orb_true_iff. right.
    apply existsb_exists. exists d. split; assumption.
  - apply grows_hist. split; [exact Hg|]. cbn. intros ->. reflexivity.
Qed.

Lemma still_step x o out subY delY nvsY ansY :
  side_inv x subY delY nvsY ansY -> (forall d v, o <> OpSend d v) -> still (out_events out) ->
  conn_ok6 (out_conn out) -> Forall (dgram_ok pp6) (out_sent out) ->
  phase_next (phase6 (c_state (l_conn x))) (phase6 (c_state (out_conn out))) (hist6 x) delY ->
  flights_ok (l_sub x) (l_del x) (l_nvs x) (out_sent out) ->
  step_inv x o out subY delY nvsY ansY.
Proof.
  intros Hi Ho Hq Hc Hds Hph Hfl. apply side_inv_hist in Hi as [_ Hh].
  apply step_inv_intro; try assumption; rewrite (hist_after_nosend x o out Ho), (h_recv_still _ _ Hq).
  - eapply hist_inv_phase; eassumption.
  - apply hgrows_refl.
Qed.

Lemma same_phase_step x o out subY delY nvsY ansY :
  side_inv x subY delY nvsY ansY -> (forall d v, o <> OpSend d v) -> still (out_events out) ->
  conn_ok6 (out_conn out) -> Forall (dgram_ok pp6) (out_sent out) ->
  phase6 (c_state (out_conn out)) = phase6 (c_state (l_conn x)) ->
  flights_ok (l_sub x) (l_del x) (l_nvs x) (out_sent out) ->
  step_inv x o out subY delY nvsY ansY.
Proof.
  intros Hi Ho Hq Hc Hds Hph Hfl. apply still_step; try assumption. rewrite Hph.
  eapply phase_next_same, side_inv_hist, Hi.
Qed.

Lemma control_flights x subY delY nvsY ansY tok c :
  side_inv x subY delY nvsY ansY -> c_state (l_conn x) <> Disconnected ->
  flights_ok (l_sub x) (l_del x) (l_nvs x) [DControl tok (phase_ack (phase6 (c_state (l_conn x)))) c].
Proof.
  intros Hi Hd. apply side_inv_hist in Hi as [_ Hh]. apply (control_flights_ok _ _ _ _ _ _ _ _ Hh).
  destruct (c_state (l_conn x)); try discriminate. contradiction.
Qed.

Lemma send_control_shape st c ds : send_control st c = Ok ds ->
  exists tok, ds = [DControl tok (phase_ack (phase6 st)) c].
Proof.
  unfold send_control. destruct st as [| |t|o|]; try discriminate;
    (destruct (MAX_PACKETSIZE <? _); [discriminate|]); intros H; injection H as <-; eexists; reflexivity.
Qed.

Lemma online_parts x subY delY nvsY ansY on :
  side_inv x subY delY nvsY ansY -> c_state (l_conn x) = Online on ->
  pk_count_ok (o_packet on) /\ pk_count_ok (o_packet_nv on) /\ on_inv on (l_sub x) (l_del x) (l_nvs x) delY.
Proof.
  intros Hi Hon. pose proof (sv_conn _ _ _ _ _ Hi) as Hc. unfold conn_ok6 in Hc. rewrite Hon in Hc.
  destruct Hc as [[Hp [Hnv _]] _].
  split; [eapply pc_ok_count, Hp|]. split; [eapply pc_ok_count, Hnv|]. apply (sv_online _ _ _ _ _ Hi), Hon.
Qed.

(* the timer action, run on a connection in the phase of x (its state may be one the call moved to) *)
Lemma tick_action_step x o c e out subY delY nvsY ansY :
  side_inv x subY delY nvsY ansY -> (forall d v, o <> OpSend d v) ->
  tick_action c e = Ok out -> conn_ok6 (out_conn out) -> Forall (dgram_ok pp6) (out_sent out) ->
  phase6 (c_state c) = phase6 (c_state (l_conn x)) ->
  step_inv x o out subY delY nvsY ansY.
Proof.
  intros Hi Ho Ht Hc' Hds Hph.
  assert (Hnd : c_state c <> Disconnected -> c_state (l_conn x) <> Disconnected).
  { intros H E. rewrite E in Hph. destruct (c_state c); try discriminate. contradiction. }
  unfold tick_action in Ht.
  assert (Hctl : forall ctl s, (let* d := send_control (c_state c) ctl in Ok (mk {| c_state := c_state c; c_send := s |} e d [] [] ROk)) = Ok out ->
            c_state c <> Disconnected -> step_inv x o out subY delY nvsY ansY).
  { intros ctl s H Hd. apply bind_ok in H as [ds [Hsc H]]. injection H as <-. apply send_control_shape in Hsc as [tok ->].
    apply same_phase_step; try assumption; [apply still_nil|]. cbn [out_sent mk]. rewrite Hph. apply (control_flights _ _ _ _ _ _ _ Hi); auto. }
  destruct (c_state c) as [| |t|on|] eqn:Es; try (eapply Hctl; [exact Ht|discriminate]).
  - injection Ht as <-. apply same_phase_step; try assumption; [apply still_nil|cbn; congruence|constructor].
  - destruct (can_send on); [|eapply Hctl; [exact Ht|discriminate]].
    apply bind_ok in Ht as [[o' ds] [Hf Ht]]. injection Ht as <-.
    symmetry in Hph. apply phase6_on in Hph. destruct (online_parts _ _ _ _ _ _ Hi Hph) as [Hcp [_ Hon]].
    destruct (flush_on _ _ _ _ _ _ _ _ Hf Hcp Hon). apply still_step; try assumption. apply still_nil.
  - injection Ht as <-. apply same_phase_step; try assumption; [apply still_nil|cbn; congruence|constructor].
Qed.

Theorem app_step_inv now x subY delY nvsY ansY o :
  side_inv x subY delY nvsY ansY -> app_op o ->
  valid_op6 (l_conn x) {| e_now := now; e_rand := l_rand x |} o -> window_ok x o ->
  exists x' fl, side_step now x o = Ok (x', fl) /\ side_inv x' subY delY nvsY ansY /\
                bag_inv fl x' /\ grows x x'.
Proof.
  intros Hi Happ Hv Hw. pose proof (sv_conn _ _ _ _ _ Hi) as Hc.
  destruct (step_ok6 _ _ _ Hc Hv) as [out [Hstep [Hc' Hds]]].
  exists (after x o out), (flights_of x out). split; [apply side_step_unfold, Hstep|].
  change (step_inv x o out subY delY nvsY ansY).
  destruct o as [|data vital| | |reason|data|d| |]; try contradiction; cbn [valid_op6] in Hv; unfold step in Hstep; cbn [e_now e_rand] in Hstep.
  - rewrite Hv in Hstep. eapply tick_action_step; try eassumption; [discriminate|]. rewrite Hv. reflexivity.
  - destruct Hv as [on Hon]. rewrite Hon in Hstep.
    apply bind_ok in Hstep as [[[o' ds] r] [Es Hstep]]. injection Hstep as <-.
    destruct (online_parts _ _ _ _ _ _ Hi Hon) as [Hcp [_ Hinv]].
    assert (Hwin : vital = true -> zlen (o_queue on) < 511).
    { intros ->. unfold window_ok in Hw. rewrite Hon in Hw. exact Hw. }
    destruct (send_on _ _ _ _ _ _ _ _ (hist6 x) _ Es Hcp Hinv Hwin) as [Hfl Hres].
    apply side_inv_hist in Hi as [_ Hh]. rewrite Hon in Hh.
    destruct r; (apply step_inv_intro; try assumption; rewrite hist_after; cbn [out_res out_events out_conn c_state mk];
                 rewrite (h_recv_still _ _ still_nil)).
    + apply (hist_inv_send on); assumption.
    + apply hgrows_send.
    + subst o'. exact Hh.
    + apply hgrows_refl.
  - destruct Hv as [on Hon]. rewrite Hon in Hstep.
    apply bind_ok in Hstep as [[o' ds] [Ef Hstep]]. injection Hstep as <-.
    destruct (online_parts _ _ _ _ _ _ Hi Hon) as [Hcp [_ Hinv]].
    destruct (flush_on _ _ _ _ _ _ _ _ Ef Hcp Hinv). apply still_step; try assumption; [discriminate|apply still_nil].
  - destruct (match c_state (l_conn x) with
              | Online o => match queue_back (o_queue o) with Some rc => triggered (rc_next rc) now | None => false end
              | _ => false end) eqn:Ers.
    + (* the resend deadline has passed *)
      destruct (c_state (l_conn x)) as [| |t|on|] eqn:Est; try discriminate.
      apply bind_ok in Hstep as [[c' ds] [Hr Hstep]]. injection Hstep as <-.
      unfold do_resend in Hr. apply bind_ok in Hr as [[[o' ds'] ts] [Hr E]]. injection E as <- <-.
      destruct (online_parts _ _ _ _ _ _ Hi Est) as [Hcp [Hcnv Hinv]].
      destruct (resend_on _ _ _ _ _ _ _ _ _ _ Hr Hcp Hcnv Hinv).
      apply still_step; try assumption; [discriminate|apply still_nil].
    + destruct (triggered (c_send (l_conn x)) now).
      * eapply tick_action_step; try eassumption; [discriminate|reflexivity].
      * injection Hstep as <-. apply same_phase_step; try assumption; [discriminate|apply still_nil|reflexivity|constructor].
  - destruct Hv as [H1 [H2 [Hn Hl]]]. rewrite Hn in Hstep.
    pose proof (fun tok => control_flights _ _ _ _ _ tok (Close reason) Hi H2) as Hcf.
    destruct (c_state (l_conn x)) as [| |t|on|]; try contradiction;
      apply bind_ok in Hstep as [ds [Hsc Hstep]]; injection Hstep as <-;
      apply send_control_shape in Hsc as [tok ->];
      (apply still_step; try assumption; try exact I; [discriminate|apply still_nil|apply Hcf]).
  - destruct Hv as [on Hon]. rewrite Hon in Hstep.
    destruct (MAX_PAYLOAD <? Z.of_nat (length data)); injection Hstep as <-;
      (apply same_phase_step; try assumption; [discriminate|apply still_nil|rewrite Hon; reflexivity|]);
      [constructor|apply connless_flights_ok].
Qed.

Lemma quiet_step x d e' evs ws subY delY nvsY ansY :
  side_inv x subY delY nvsY ansY -> still evs ->
  step_inv x (OpFeed d) (mk (l_conn x) e' [] evs ws ROk) subY delY nvsY ansY.
Proof.
  intros Hi Hq.
  apply same_phase_step; [exact Hi|discriminate|exact Hq|exact (sv_conn _ _ _ _ _ Hi)|constructor|reflexivity|constructor].
Qed.

Lemma close_step x d s e' reason subY delY nvsY ansY :
  side_inv x subY delY nvsY ansY ->
  step_inv x (OpFeed d) (mk {| c_state := Disconnected; c_send := s |} e' [] [EvDisconnect reason] [] ROk)
    subY delY nvsY ansY.
Proof.
  intros Hi. apply still_step; [exact Hi|discriminate|repeat split|exact I|constructor|exact I|constructor].
Qed.

(* feed processes the acknowledgement of a datagram first (written out the way the clause
   "| s => s" of Conn6.feed elaborates) *)
Definition acked6 (st : state6) (ack : Z) : state6 :=
  match st with
  | Online o => Online (ack_chunks o ack)
  | Unconnected => Unconnected | Connecting => Connecting | Pending t => Pending t | Disconnected => Disconnected
  end.

Section Feed.
Variables (now : Z) (x y : lside) (f : flight).
Hypothesis Hi : side_inv x (l_sub y) (l_del y) (l_nvs y) (l_answered y).
Hypothesis Hy : side_inv y (l_sub x) (l_del x) (l_nvs x) (l_answered x).
Hypothesis Hf : flight_inv y f.
Hypothesis Hfresh : fresh f x.

Lemma acked_phase st ack : c_state (l_conn x) = st -> dgram_ack_of (f_d f) = Some ack ->
  phase_next (phase6 st) (phase6 (acked6 st ack)) (hist6 x) (l_del y).
Proof.
  intros Est Hack. destruct Hf as [[_ [Hfc [Hfa _]]] _]. rewrite (Hfa _ Hack). destruct Hfresh as [Hfr _].
  destruct st as [| |t|on|]; try exact I; try reflexivity.
  pose proof (sv_dle _ _ _ _ _ Hy). pose proof (sv_gap _ _ _ _ _ Hy).
  apply (ack_on on (l_sub x)); [apply (sv_online _ _ _ _ _ Hi), Est|lia..].
Qed.

Lemma acked_step st ack d s e' : c_state (l_conn x) = st -> dgram_ack_of (f_d f) = Some ack ->
  let c1 := {| c_state := acked6 st ack; c_send := s |} in
  conn_ok6 c1 ->
  step_inv x (OpFeed d) (mk c1 e' [] [] [] ROk) (l_sub y) (l_del y) (l_nvs y) (l_answered y).
Proof.
  intros Est Hack c1 Hc1. apply still_step; [exact Hi|discriminate|apply still_nil|exact Hc1|constructor| |constructor].
  rewrite Est. apply acked_phase; assumption.
Qed.

(* a chunk datagram, once the receiver is online with record o (acknowledgement processed) *)
Lemma chunks_arrive o s e tk ack rr n cs d out :
  f_d f = DChunks tk ack rr n cs ->
  on_inv o (l_sub x) (l_del x) (l_nvs x) (l_del y) -> pk_count_ok (o_packet o) -> pk_count_ok (o_packet_nv o) ->
  feed_online s e o rr cs = Ok out ->
  conn_ok6 (out_conn out) -> Forall (dgram_ok pp6) (out_sent out) ->
  step_inv x (OpFeed d) out (l_sub y) (l_del y) (l_nvs y) (l_answered y).
Proof.
  intros Efd Hon Hcp Hcnv Ht Hc' Hds. apply bind_ok in Ht as [[c3 sent] [Hrs Ht]].
  assert (H3 : exists o3 s3, c3 = {| c_state := Online o3; c_send := s3 |} /\
                 on_inv o3 (l_sub x) (l_del x) (l_nvs x) (l_del y) /\ flights_ok (l_sub x) (l_del x) (l_nvs x) sent).
  { destruct rr.
    - unfold do_resend in Hrs. apply bind_ok in Hrs as [[[o' ds] ts] [Hr E]]. injection E as <- <-.
      destruct (resend_on _ _ _ _ _ _ _ _ _ _ Hr Hcp Hcnv Hon). eexists _, _. split; [reflexivity|split; assumption].
    - injection Hrs as <- <-. eexists _, _. split; [reflexivity|]. split; [exact Hon|constructor]. }
  destruct H3 as [o3 [s3 [-> [Hon3 Hfl]]]]. cbn [c_state c_send] in Ht.
  apply bind_ok in Ht as [[[ack' rr'] evs] [Hrc Ht]]. injection Ht as <-.
  apply side_inv_hist in Hi as [_ Hh]. destruct Hf as [Hfok _]. destruct Hfresh as [_ Hold].
  apply step_inv_intro; try assumption; rewrite hist_after_nosend by discriminate; [|apply hgrows_recv].
  rewrite <- (f_equal dgram_chunks Efd : _ = cs) in Hrc.
  exact (hist_inv_recv _ _ _ _ _ _ f _ _ _ _ Hh Hfok Hold (sv_gap _ _ _ _ _ Hy) Hon3 Hrc).
Qed.

Theorem feed_step_inv : rand_ok {| e_now := now; e_rand := l_rand x |} ->
  exists x' fl, side_step now x (OpFeed (f_d f)) = Ok (x', fl) /\
                side_inv x' (l_sub y) (l_del y) (l_nvs y) (l_answered y) /\
                bag_inv fl x' /\ grows x x'.
Proof.
  intros Hrand. pose proof (sv_conn _ _ _ _ _ Hi) as Hc.
  assert (Hv : valid_op6 (l_conn x) {| e_now := now; e_rand := l_rand x |} (OpFeed (f_d f))) by (split; [apply Hf|exact Hrand]).
  destruct (step_ok6 _ _ _ Hc Hv) as [out [Hstep [Hc' Hds]]].
  exists (after x (OpFeed (f_d f)) out), (flights_of x out). split; [apply side_step_unfold, Hstep|].
  change (step_inv x (OpFeed (f_d f)) out (l_sub y) (l_del y) (l_nvs y) (l_answered y)).
  pose proof (proj2 (proj1 (side_inv_hist _ _ _ _ _) Hi)) as Hh.
  unfold step, feed in Hstep. cbn [e_now e_rand] in Hstep.
  destruct (f_d f) as [tk rs pl|tk ack ctl|tk ack rr n cs] eqn:Efd.
  { injection Hstep as <-. apply quiet_step; [assumption|repeat split]. }
  all: cbn [dgram_tok dgram_ack] in Hstep;
    destruct (match state_token _ with Some expected => negb (tok_eqb tk expected) | None => false end);
    [injection Hstep as <-; apply quiet_step; [assumption|repeat split]|];
    destruct ((ack <? 0) || (SEQ_MOD <=? ack)); [discriminate|];
    assert (Hack : dgram_ack_of (f_d f) = Some ack) by (rewrite Efd; reflexivity).
  - destruct ctl as [|resp| | |reason|resp];
      try (injection Hstep as <-; apply (acked_step _ _ _ _ _ eq_refl Hack), Hc').
    + (* Connect: an unconnected endpoint becomes the acceptor and answers *)
      destruct (c_state (l_conn x)) as [| |t|on|] eqn:Est;
        try (injection Hstep as <-; apply (acked_step _ _ _ _ _ Est Hack), Hc').
      assert (Hfin : forall t e', tick_action {| c_state := Pending t; c_send := c_send (l_conn x) |} e' = Ok out ->
                step_inv x (OpFeed (DControl tk ack (Connect resp))) out (l_sub y) (l_del y) (l_nvs y) (l_answered y)).
      { intros t e' Ht. eapply tick_action_step; try eassumption; [discriminate|]. rewrite Est. reflexivity. }
      destruct tk as [tk|]; [|eapply Hfin, Hstep].
      destruct (list_eq_dec Z.eq_dec tk TOKEN_NONE).
      * apply bind_ok in Hstep as [[nt rnd'] [_ Hstep]]. eapply Hfin, Hstep.
      * injection Hstep as <-. apply (acked_step _ _ _ _ _ Est Hack), Hc'.
    + (* ConnectAccept: the connecting endpoint goes online and reports Ready *)
      destruct (c_state (l_conn x)) as [| |t|on|] eqn:Est;
        try (injection Hstep as <-; apply (acked_step _ _ _ _ _ Est Hack), Hc').
      apply bind_ok in Hstep as [ds [Hsc Hstep]]. injection Hstep as <-.
      apply send_control_shape in Hsc as [tok ->]. cbn [phase6 phase_ack online_new o_ack].
      apply step_inv_intro; try assumption; rewrite ?hist_after_nosend by discriminate.
      * apply hist_inv_ready; [exact Hh|]. apply Hf. rewrite Efd. reflexivity.
      * apply hgrows_recv.
      * apply (control_flights_ok _ _ _ _ _ _ _ _ Hh). discriminate.
    + injection Hstep as <-. apply close_step; assumption.
  - destruct (c_state (l_conn x)) as [| |t|on|] eqn:Est; cbn [c_state] in Hstep;
      try (injection Hstep as <-; apply (acked_step _ _ _ _ _ Est Hack), Hc').
    + (* pending: the first chunk datagram takes the acceptor online *)
      eapply (chunks_arrive (online_new t t)); try eassumption;
        [exact (on_inv_new (hist6 x) _ _ _ _ _ _ Hh)|split; [reflexivity|cbn; lia]|split; [reflexivity|cbn; lia]].
    + destruct (online_parts _ _ _ _ _ _ Hi Est) as [Hcp [Hcnv _]].
      destruct (ack_chunks_same on ack) as [_ [_ [Ep [Env _]]]].
      eapply (chunks_arrive (ack_chunks on ack)); try eassumption; rewrite ?Ep, ?Env; try assumption.
      apply (acked_phase _ _ Est Hack).
Qed.
End Feed.

Definition admissible (w : link) (l : llabel) : Prop :=
  match l with
  | LApp s o =>
    app_op o /\ valid_op6 (l_conn (get w s)) {| e_now := k_now w; e_rand := l_rand (get w s) |} o /\
    window_ok (get w s) o
  | LTime _ => True
  | LDeliver from k =>
    match nth_error (bag w from) k with
    | Some f => fresh f (get w (other from)) /\
                rand_ok {| e_now := k_now w; e_rand := l_rand (get w (other from)) |}
    | None => True
    end
  | LDrop _ _ => True
  end.

Fixpoint admissible_run (w : link) (ls : list llabel) : Prop :=
  match ls with
  | [] => True
  | l :: r => admissible w l /\ match link_step w l with Ok w' => admissible_run w' r | _ => True end
  end.

Lemma link_inv_sym w :
  link_inv w ->
  side_inv (k_b w) (l_sub (k_a w)) (l_del (k_a w)) (l_nvs (k_a w)) (l_answered (k_a w)).
Proof. intros [_ [H _]]. exact H. Qed.

Lemma remove_nth_forall {A} (P : A -> Prop) k l : Forall P l -> Forall P (remove_nth k l).
Proof.
  revert k. induction l as [|x l IH]; intros k H; destruct k; cbn; try constructor; inversion H; subst; try assumption.
  apply IH; assumption.
Qed.

Lemma other_other s : other (other s) = s.
Proof. destruct s; reflexivity. Qed.

Lemma link_inv_side w s : link_inv w ->
  side_inv (get w s) (l_sub (get w (other s))) (l_del (get w (other s))) (l_nvs (get w (other s)))
    (l_answered (get w (other s))) /\
  bag_inv (bag w s) (get w s).
Proof. intros [Ha [Hb [Hab Hba]]]. destruct s; split; assumption. Qed.

Lemma set_side_inv w s x' fl : link_inv w ->
  side_inv x' (l_sub (get w (other s))) (l_del (get w (other s))) (l_nvs (get w (other s)))
    (l_answered (get w (other s))) ->
  bag_inv fl x' -> grows (get w s) x' -> link_inv (set_side w s x' fl).
Proof.
  intros [Ha [Hb [Hab Hba]]] Hi' Hfl Hg. unfold link_inv. destruct s; cbn in *.
  - split; [exact Hi'|]. split; [exact (side_inv_mono _ _ _ Hb Hg)|].
    split; [|exact Hba]. apply Forall_app. split; [eapply bag_inv_mono; eassumption|exact Hfl].
  - split; [exact (side_inv_mono _ _ _ Ha Hg)|]. split; [exact Hi'|].
    split; [exact Hab|]. apply Forall_app. split; [eapply bag_inv_mono; eassumption|exact Hfl].
Qed.

Theorem link_step_inv w l : link_inv w -> admissible w l ->
  exists w', link_step w l = Ok w' /\ link_inv w'.
Proof.
  intros Hinv Hadm. destruct l as [s o|dt|from k|from k]; cbn [link_step admissible] in *.
  - destruct Hadm as [Happ [Hv Hw]]. destruct (link_inv_side w s Hinv) as [Hs _].
    destruct (app_step_inv _ _ _ _ _ _ _ Hs Happ Hv Hw) as [x' [fl [E [Hi' [Hfl Hg]]]]].
    rewrite E. eexists. split; [reflexivity|]. apply set_side_inv; assumption.
  - eexists. split; [reflexivity|]. exact Hinv.
  - destruct (nth_error (bag w from) k) as [f|] eqn:Ek; [|eexists; split; [reflexivity|exact Hinv]].
    destruct Hadm as [Hfresh Hrand]. destruct (link_inv_side w from Hinv) as [Hy Hbag].
    destruct (link_inv_side w (other from) Hinv) as [Hx _]. rewrite other_other in Hx.
    assert (Hf : flight_inv (get w from) f) by (eapply Forall_forall; [exact Hbag|eapply nth_error_In, Ek]).
    destruct (feed_step_inv _ _ _ f Hx Hy Hf Hfresh Hrand) as [x' [fl [E [Hi' [Hfl Hg]]]]].
    rewrite E. eexists. split; [reflexivity|]. apply set_side_inv; try assumption. rewrite other_other. exact Hi'.
  - eexists. split; [reflexivity|]. destruct Hinv as [Ha [Hb [Hab Hba]]]. unfold link_inv. destruct from; cbn.
    + split; [exact Ha|]. split; [exact Hb|]. split; [apply remove_nth_forall, Hab|exact Hba].
    + split; [exact Ha|]. split; [exact Hb|]. split; [exact Hab|apply remove_nth_forall, Hba].
Qed.

Theorem link_run_inv ls : forall w, link_inv w -> admissible_run w ls ->
  exists w', link_run w ls = Ok w' /\ link_inv w'.
Proof.
  induction ls as [|l ls IH]; intros w Hi Ha; cbn [link_run admissible_run] in *.
  - exists w. split; [reflexivity|exact Hi].
  - destruct Ha as [Ha1 Ha2]. destruct (link_step_inv w l Hi Ha1) as [w1 [Hs Hi1]]. rewrite Hs in *.
    apply IH; assumption.
Qed.

Lemma link_new_inv ra rb : link_inv (link_new ra rb).
Proof.
  assert (H : forall r subY delY nvsY ansY, side_inv (lside_new r) subY delY nvsY ansY).
  { intros. apply side_inv_hist. split; [exact I|apply hist_inv_new]. }
  unfold link_inv, link_new. cbn. split; [apply H|]. split; [apply H|]. split; constructor.
Qed.

(* an executable version of the assumptions, for concrete traces *)
Definition rand_okb (rnd : list token) : bool :=
  forallb (fun t => Nat.eqb (length t) 4) rnd && match token_random rnd with Ok _ => true | _ => false end.

Definition valid_appb (x : lside) (o : op) : bool :=
  match o with
  | OpConnect => match c_state (l_conn x) with Unconnected => true | _ => false end
  | OpSend _ vital =>
    match c_state (l_conn x) with
    | Online on => if vital then zlen (o_queue on) <? 511 else true
    | _ => false
    end
  | OpFlush | OpSendConnless _ => match c_state (l_conn x) with Online _ => true | _ => false end
  | OpDisconnect r =>
    match c_state (l_conn x) with Unconnected | Disconnected => false | _ => true end
    && negb (existsb (fun b => b =? 0) r) && (length r <=? 127)%nat
  | OpTick => true
  | _ => false
  end.

Definition freshb (f : flight) (rcv : lside) : bool :=
  (zlen (l_sub rcv) - f_c f <? 1024) &&
  forallb (fun c => match ch_vital c with
                    | Some (s, _) => zlen (l_del rcv) - idx_of (f_n f) s <? 768
                    | None => true
                    end) (dgram_chunks (f_d f)).

Definition admissibleb (w : link) (l : llabel) : bool :=
  match l with
  | LApp s o => valid_appb (get w s) o
  | LTime _ | LDrop _ _ => true
  | LDeliver from k =>
    match nth_error (bag w from) k with
    | Some f => freshb f (get w (other from)) && rand_okb (l_rand (get w (other from)))
    | None => true
    end
  end.

Fixpoint admissible_runb (w : link) (ls : list llabel) : bool :=
  match ls with
  | [] => true
  | l :: r => admissibleb w l && match link_step w l with Ok w' => admissible_runb w' r | _ => true end
  end.

Lemma rand_okb_ok now rnd : rand_okb rnd = true -> rand_ok {| e_now := now; e_rand := rnd |}.
Proof.
  unfold rand_okb, rand_ok. cbn. intros H. apply andb_true_iff in H as [H1 H2]. split.
  - rewrite forallb_forall in H1. apply Forall_forall. intros t Ht. apply Nat.eqb_eq, H1, Ht.
  - destruct (token_random rnd) as [[t r]| | |]; try discriminate. eexists _, _. reflexivity.
Qed.

Lemma admissibleb_ok w l : admissibleb w l = true -> admissible w l.
Proof.
  destruct l as [s o|dt|from k|from k]; cbn [admissibleb admissible]; try (intros _; exact I).
  - intros H. unfold valid_appb in H.
    destruct o as [|data vital| | |reason|data|d| |]; try discriminate; cbn [app_op valid_op6 window_ok].
    + destruct (c_state (l_conn (get w s))); try discriminate. repeat split.
    + destruct (c_state (l_conn (get w s))) as [| |t|on|] eqn:E; try discriminate.
      split; [exact I|]. split; [eexists; reflexivity|]. destruct vital; [lia|exact I].
    + destruct (c_state (l_conn (get w s))) eqn:E; try discriminate. split; [exact I|]. split; [eexists; reflexivity|exact I].
    + repeat split.
    + apply andb_true_iff in H as [H H3]. apply andb_true_iff in H as [H1 H2].
      split; [exact I|]. split; [|exact I]. repeat split.
      * intros E. rewrite E in H1. discriminate.
      * intros E. rewrite E in H1. discriminate.
      * apply negb_true_iff, H2.
      * apply Nat.leb_le, H3.
    + destruct (c_state (l_conn (get w s))) eqn:E; try discriminate. split; [exact I|]. split; [eexists; reflexivity|exact I].
  - destruct (nth_error (bag w from) k) as [f|]; [|intros _; exact I].
    intros H. apply andb_true_iff in H as [H1 H2]. split; [|apply rand_okb_ok, H2].
    unfold freshb in H1. apply andb_true_iff in H1 as [Ha Hb]. split; [lia|].
    intros c s r Hin Hv. rewrite forallb_forall in Hb. specialize (Hb c Hin). rewrite Hv in Hb. lia.
Qed.

Lemma admissible_runb_ok ls : forall w, admissible_runb w ls = true -> admissible_run w ls.
Proof.
  induction ls as [|l ls IH]; intros w H; cbn [admissible_runb admissible_run] in *; [exact I|].
  apply andb_true_iff in H as [H1 H2]. split; [apply admissibleb_ok, H1|].
  destruct (link_step w l); try exact I. apply IH, H2.
Qed.
