(* Huffman::from_frequencies_array (Model/Huffman.v: merge_loop, descend, dfs_pre, dfs,
   from_frequencies) builds a well-formed table whenever it returns one, for EVERY
   frequency vector; and its only failure on 256 frequencies is the push on the full
   24-entry DFS stack.

   Plan of the proof:
   (1) merge_loop: the work list is a forest (list of `tree`) whose leaves are exactly the
       257 symbols, each once; the node vector holds the inner nodes of the forest
       (`repr`); the last element of the work list is the node pushed last.
   (2) at the end there is one tree, rooted at t_len - 1 = 512 = ROOT_IDX.
   (3) the explicit-stack depth-first walk (`dfs`), started below a tree with `k` ancestors
       on its stack, either overflows the stack (height + k > 24) or returns to the state
       it was entered in, having stored at every leaf the path from the root (`enter_tree`).
   (4) wf_table / depths_ok of the result. *)
From LibTw2 Require Import Base.Res Base.Bits Model.Huffman Model.HuffmanRef
  Proofs.HuffmanBits Proofs.HuffmanTable Proofs.HuffmanMerge.
From Coq Require Import ZArith List Lia Bool Permutation FinFun.
Import ListNotations.
Open Scope Z_scope.

Inductive tree := Lf (s : Z) | Nd (i : Z) (a b : tree).

Definition root_idx (tr : tree) : Z := match tr with Lf s => s | Nd i _ _ => i end.

Fixpoint leaves (tr : tree) : list Z :=
  match tr with Lf s => [s] | Nd _ a b => leaves a ++ leaves b end.

Fixpoint height (tr : tree) : nat :=
  match tr with Lf _ => O | Nd _ a b => S (Nat.max (height a) (height b)) end.

(* the number of loop iterations the walk spends below a tree after its first leaf *)
Fixpoint cost (tr : tree) : nat :=
  match tr with Lf _ => O | Nd _ a b => (cost a + S (cost b + 1))%nat end.

Fixpoint repr (t : table) (tr : tree) : Prop :=
  match tr with
  | Lf s => 0 <= s < NUM_SYMBOLS
  | Nd i a b => NUM_SYMBOLS <= i /\ lookup t i = Some (root_idx a, root_idx b) /\ repr t a /\ repr t b
  end.

(* q leads from the root of tr to the leaf s (false = children[0]) *)
Fixpoint tpath (tr : tree) (q : list bool) (s : Z) : Prop :=
  match tr with
  | Lf s' => q = [] /\ s' = s
  | Nd _ a b =>
    match q with
    | [] => False
    | false :: q' => tpath a q' s
    | true :: q' => tpath b q' s
    end
  end.

Lemma repr_ext t t' tr : (forall j, NUM_SYMBOLS <= j -> lookup t' j = lookup t j) -> repr t tr -> repr t' tr.
Proof.
  intros H. induction tr as [s|i a IHa b IHb]; cbn [repr]; [auto|].
  intros (Hi & Hl & Ha & Hb). rewrite H by exact Hi. auto.
Qed.

Lemma repr_push t nd tr : 0 <= t_len t -> repr t tr -> repr (push_node t nd) tr.
Proof.
  intros Hlen. induction tr as [s|i a IHa b IHb]; cbn [repr]; [auto|].
  intros (Hi & Hl & Ha & Hb). rewrite lookup_push by exact Hlen.
  pose proof (lookup_range _ _ _ Hl). destruct (Z.eqb_spec i (t_len t)); [lia|]. auto.
Qed.

Lemma leaves_range t tr s : repr t tr -> In s (leaves tr) -> 0 <= s < NUM_SYMBOLS.
Proof.
  induction tr as [s'|i a IHa b IHb]; cbn [repr leaves].
  - intros H [<-|[]]. exact H.
  - intros (_ & _ & Ha & Hb) Hin. apply in_app_or in Hin as [Hin|Hin]; auto.
Qed.

Lemma root_range t tr : repr t tr -> 0 <= root_idx tr.
Proof. destruct tr; cbn [repr root_idx]; unfold NUM_SYMBOLS; lia. Qed.

Lemma tpath_leaf tr : forall q s, tpath tr q s -> In s (leaves tr).
Proof.
  induction tr as [s'|i a IHa b IHb]; intros q s; cbn [tpath leaves].
  - intros [_ <-]. now left.
  - destruct q as [|[] q']; [intros []| |]; intros H; apply in_or_app; eauto.
Qed.

Lemma leaf_tpath tr : forall s, In s (leaves tr) -> exists q, tpath tr q s.
Proof.
  induction tr as [s'|i a IHa b IHb]; intros s; cbn [leaves].
  - intros [<-|[]]. exists []. cbn. auto.
  - intros Hin. apply in_app_or in Hin as [Hin|Hin].
    + destruct (IHa s Hin) as [q Hq]. exists (false :: q). exact Hq.
    + destruct (IHb s Hin) as [q Hq]. exists (true :: q). exact Hq.
Qed.

Lemma tpath_height tr : forall q s, tpath tr q s -> (length q <= height tr)%nat.
Proof.
  induction tr as [s'|i a IHa b IHb]; intros q s; cbn [tpath height].
  - intros [-> _]. cbn. lia.
  - destruct q as [|[] q']; [intros []| |]; intros H; cbn [length].
    + specialize (IHb _ _ H). lia.
    + specialize (IHa _ _ H). lia.
Qed.

Lemma tpath_walk t tr : repr t tr -> forall q s, tpath tr q s -> walk t q (root_idx tr) = Some s.
Proof.
  induction tr as [s'|i a IHa b IHb]; cbn [repr]; intros Hr q s; cbn [tpath root_idx].
  - intros [-> <-]. reflexivity.
  - destruct Hr as (Hi & Hl & Ha & Hb).
    destruct q as [|bit q']; [intros []|]. rewrite (walk_inner _ _ _ _ _ Hi Hl). cbn [fst snd].
    destruct bit; intros Hq; auto.
Qed.

Definition MInv (fl : list (Z * Z)) (nodes : table) (ts : list tree) : Prop :=
  Permutation (map snd fl) (map root_idx ts)
  /\ Forall (repr nodes) ts
  /\ Permutation (flat_map leaves ts) all_symbols
  /\ NUM_SYMBOLS <= t_len nodes
  /\ (exists fl0 f, fl = fl0 ++ [(f, t_len nodes - 1)])
  /\ t_len nodes + Z.of_nat (length fl) = 514.

Lemma merge_step fl nodes ts : MInv fl nodes ts -> (2 <= length fl)%nat ->
  exists f1 f2 rest ts',
    rev (sort_desc fl) = f1 :: f2 :: rest
    /\ forall fr, MInv (rev rest ++ [(fr, t_len nodes)]) (push_node nodes (snd f1, snd f2)) ts'.
Proof.
  intros (Hp & Hr & Hl & Hlen & Hlast & Hsum) H2.
  assert (Hperm : Permutation fl (rev (sort_desc fl))).
  { etransitivity; [symmetry; apply sort_desc_perm|apply Permutation_rev]. }
  destruct (rev (sort_desc fl)) as [|f1 [|f2 rest]] eqn:Hs.
  - apply Permutation_length in Hperm. cbn in Hperm. lia.
  - apply Permutation_length in Hperm. cbn in Hperm. lia.
  - exists f1, f2, rest.
    assert (Hp2 : Permutation (map snd (f1 :: f2 :: rest)) (map root_idx ts)).
    { etransitivity; [|exact Hp]. apply Permutation_map. now symmetry. }
    apply Permutation_map_inv in Hp2 as (l3 & Heq & Hp3).
    destruct l3 as [|t1 [|t2 ts2]]; try discriminate. cbn [map] in Heq.
    injection Heq as E1 E2 E3.
    exists (Nd (t_len nodes) t1 t2 :: ts2). split; [reflexivity|]. intros fr.
    assert (Hr3 : Forall (repr nodes) (t1 :: t2 :: ts2)) by (eapply Permutation_Forall; eassumption).
    inversion Hr3 as [|? ? Hr1 Hr3']; subst. inversion Hr3' as [|? ? Hr2 Hr4]; subst.
    unfold MInv. rewrite len_push. unfold NUM_SYMBOLS in *.
    split; [|split; [|split; [|split; [|split]]]].
    + rewrite map_app, map_rev. cbn [map snd root_idx]. rewrite E3.
      etransitivity; [apply Permutation_app_comm|]. cbn [app]. apply perm_skip.
      symmetry. apply Permutation_rev.
    + constructor.
      * cbn [repr]. unfold NUM_SYMBOLS. split; [lia|]. split; [|split; apply repr_push; auto; lia].
        rewrite lookup_push by lia. rewrite Z.eqb_refl. now rewrite E1, E2.
      * eapply Forall_impl; [|exact Hr4]. intros tr. apply repr_push. lia.
    + etransitivity; [|exact Hl]. etransitivity; [|symmetry; apply Permutation_flat_map; exact Hp3].
      cbn [flat_map leaves]. now rewrite app_assoc.
    + lia.
    + exists (rev rest), fr. do 3 f_equal. lia.
    + apply Permutation_length in Hperm. cbn [length] in Hperm.
      rewrite app_length, rev_length. cbn [length]. lia.
Qed.

Lemma merge_loop_spec : forall fuel fl nodes ts,
  MInv fl nodes ts -> (1 <= length fl <= fuel)%nat ->
  exists nodes' e ts', merge_loop fuel fl nodes = Ok nodes' /\ MInv [e] nodes' ts'.
Proof.
  induction fuel as [|f IH]; intros fl nodes ts HI Hlen; [lia|].
  destruct fl as [|x [|y r]].
  - cbn in Hlen. lia.
  - exists nodes, x, ts. split; [reflexivity|exact HI].
  - destruct (merge_step _ _ _ HI ltac:(cbn; lia)) as (f1 & f2 & rest & ts' & Hs & HI').
    specialize (HI' (Z.min (fst f1 + fst f2) u32_max)).
    cbn [merge_loop]. rewrite Hs. apply (IH _ _ _ HI').
    destruct HI as (_ & _ & _ & _ & _ & H1). destruct HI' as (_ & _ & _ & _ & _ & H2).
    rewrite len_push in H2. cbn [length] in *. lia.
Qed.

Lemma merge_init freqs : length freqs = 256%nat ->
  MInv (combine freqs (map Z.of_nat (seq 0 256)) ++ [(1, EOF)]) (of_list (repeat NODE_SENTINEL 257))
      (map Lf all_symbols).
Proof.
  intros Hlen. unfold MInv. rewrite len_of_list, repeat_length.
  assert (Hsnd : map snd (combine freqs (map Z.of_nat (seq 0 256)) ++ [(1, EOF)]) = all_symbols).
  { rewrite map_app. cbn [map snd].
    assert (Hc : forall (a : list Z) (b : list Z), length a = length b -> map snd (combine a b) = b).
    { induction a as [|x a IHa]; intros [|y b] Hab; try discriminate; [reflexivity|].
      cbn [combine map snd]. f_equal. apply IHa. now injection Hab. }
    rewrite Hc by (rewrite map_length, seq_length; exact Hlen).
    unfold all_symbols. change 257%nat with (256 + 1)%nat. rewrite seq_app, map_app. reflexivity. }
  split; [|split; [|split; [|split; [|split]]]].
  - rewrite Hsnd, map_map. cbn [root_idx]. now rewrite map_id.
  - apply Forall_forall. intros tr Hin. apply in_map_iff in Hin as (s & <- & Hs).
    cbn [repr]. unfold all_symbols in Hs. apply in_map_iff in Hs as (n & <- & Hn).
    apply in_seq in Hn. unfold NUM_SYMBOLS. lia.
  - rewrite flat_map_concat_map, map_map. cbn [leaves].
    rewrite <- flat_map_concat_map. clear. induction all_symbols as [|x l IH]; [reflexivity|].
    cbn [flat_map app]. now apply perm_skip.
  - unfold NUM_SYMBOLS. lia.
  - exists (combine freqs (map Z.of_nat (seq 0 256))), 1. reflexivity.
  - rewrite app_length, combine_length, map_length, seq_length, Hlen. cbn. lia.
Qed.

Lemma merge_result freqs : length freqs = 256%nat ->
  exists nodes tr,
    merge_loop 300 (combine freqs (map Z.of_nat (seq 0 256)) ++ [(1, EOF)])
               (of_list (repeat NODE_SENTINEL 257)) = Ok nodes
    /\ t_len nodes = Z.of_nat NUM_NODES /\ root_idx tr = ROOT_IDX /\ repr nodes tr
    /\ Permutation (leaves tr) all_symbols.
Proof.
  intros Hlen. pose proof (merge_init freqs Hlen) as HI.
  destruct (merge_loop_spec 300 _ _ _ HI) as (nodes & e & ts & Hm & HI').
  { destruct HI as (_ & _ & _ & _ & _ & H). rewrite len_of_list, repeat_length in H. lia. }
  destruct HI' as (Hp & Hr & Hl & _ & (fl0 & f & Hlast) & Hsum).
  cbn [length] in Hsum.
  assert (fl0 = []) as ->.
  { destruct fl0 as [|? [|? ?]]; [reflexivity|discriminate|discriminate]. }
  cbn [app] in Hlast. injection Hlast as ->. cbn [map snd] in Hp.
  apply Permutation_length_1_inv in Hp.
  destruct ts as [|tr [|? ?]]; try discriminate. injection Hp as Hroot.
  exists nodes, tr. split; [exact Hm|]. split; [unfold NUM_NODES; lia|].
  split; [unfold ROOT_IDX; lia|]. split; [now inversion Hr|].
  cbn [flat_map] in Hl. now rewrite app_nil_r in Hl.
Qed.

Lemma pow2_testbit k i : 0 <= k -> 0 <= i -> Z.testbit (2 ^ k) i = (i =? k).
Proof. intros Hk Hi. rewrite Z.pow2_bits_eqb by lia. apply Z.eqb_sym. Qed.

Lemma bit_clear bits k : 0 <= k -> 0 <= bits < 2 ^ k -> Z.land bits (Z.shiftl 1 k) = 0.
Proof.
  intros Hk Hb. rewrite Z.shiftl_1_l. apply Z.bits_inj'. intros i Hi.
  rewrite Z.land_spec, pow2_testbit, Z.bits_0 by lia.
  destruct (Z.eqb_spec i k) as [->|]; [|apply andb_false_r].
  rewrite (testbit_small bits k k) by lia. reflexivity.
Qed.

Lemma bit_set_range bits k : 0 <= k -> 0 <= bits < 2 ^ k ->
  0 <= Z.lor bits (Z.shiftl 1 k) < 2 ^ (k + 1).
Proof.
  intros Hk Hb. rewrite lor_shiftl_low by lia. rewrite Z.pow_add_r by lia. lia.
Qed.

Lemma bit_set_test bits k : 0 <= k -> 0 <= bits < 2 ^ k ->
  (Z.land (Z.lor bits (Z.shiftl 1 k)) (Z.shiftl 1 k) =? 0) = false.
Proof.
  intros Hk Hb. apply Z.eqb_neq. intros E. apply (f_equal (fun v => Z.testbit v k)) in E.
  rewrite Z.land_spec, Z.lor_spec, Z.shiftl_1_l, pow2_testbit, Z.eqb_refl, Z.bits_0, orb_true_r in E by lia.
  discriminate.
Qed.

Lemma bit_set_clear bits k : 0 <= k -> 0 <= bits < 2 ^ k ->
  Z.ldiff (Z.lor bits (Z.shiftl 1 k)) (Z.shiftl 1 k) = bits.
Proof.
  intros Hk Hb. apply Z.bits_inj'. intros i Hi.
  rewrite Z.ldiff_spec, Z.lor_spec, Z.shiftl_1_l, pow2_testbit by lia.
  destruct (Z.eqb_spec i k) as [->|].
  - rewrite (testbit_small bits k k) by lia. reflexivity.
  - cbn [negb]. now rewrite orb_false_r, andb_true_r.
Qed.

Lemma bits_of_snoc v k : bits_of v 0 (S k) = bits_of v 0 k ++ [Z.testbit v (Z.of_nat k)].
Proof.
  replace (S k) with (k + 1)%nat by lia. rewrite bits_of_app. cbn [bits_of]. reflexivity.
Qed.

Lemma bits_left bits k : 0 <= bits < 2 ^ Z.of_nat k ->
  bits_of bits 0 (S k) = bits_of bits 0 k ++ [false].
Proof. intros Hb. rewrite bits_of_snoc. rewrite (testbit_small bits (Z.of_nat k)) by lia. reflexivity. Qed.

Lemma bits_right bits k : 0 <= bits < 2 ^ Z.of_nat k ->
  bits_of (Z.lor bits (Z.shiftl 1 (Z.of_nat k))) 0 (S k) = bits_of bits 0 k ++ [true].
Proof.
  intros Hb. rewrite bits_of_snoc. f_equal.
  - apply bits_of_ext. intros i Hi. rewrite Z.lor_spec, Z.shiftl_1_l, pow2_testbit by lia.
    destruct (Z.eqb_spec (0 + i) (Z.of_nat k)); [lia|]. apply orb_false_r.
  - rewrite Z.lor_spec, Z.shiftl_1_l, pow2_testbit, Z.eqb_refl by lia. now rewrite orb_true_r.
Qed.

(* SymbolRepr::to_node followed by Node::to_symbol_repr *)
Lemma to_node_repr bits n : 0 <= bits < 2 ^ 24 -> 0 <= n ->
  exists v, to_node bits n = Some v /\ to_symbol_repr v = (bits, n).
Proof.
  intros Hb Hn. unfold to_node. rewrite (shiftr_div bits 24), Z.div_small by lia.
  eexists. split; [reflexivity|]. unfold to_symbol_repr. cbn [fst snd].
  assert (Hhi : 0 <= bits / 2 ^ 16 < 2 ^ 8) by (Z.div_mod_to_equations; lia).
  pose proof (Z.mod_pos_bound bits (2 ^ 16) ltac:(lia)) as Hlo.
  change 65535 with (2 ^ 16 - 1). change 255 with (2 ^ 8 - 1).
  rewrite (shiftr_div bits), (Z.lor_comm (Z.shiftl n 8)) by lia.
  rewrite lor_shiftl_low by (assumption || lia).
  rewrite !land_pow2_mask, shiftr_div by lia.
  rewrite Z.mod_add, Z.div_add by lia.
  rewrite (Z.mod_small (bits / 2 ^ 16)), (Z.div_small (bits / 2 ^ 16)) by assumption.
  rewrite Z.lor_comm, lor_shiftl_low by (assumption || lia).
  f_equal. pose proof (Z.div_mod bits (2 ^ 16)). lia.
Qed.

Lemma NoDup_app_inv {A} (l1 l2 : list A) : NoDup (l1 ++ l2) ->
  NoDup l1 /\ NoDup l2 /\ forall x, In x l1 -> ~ In x l2.
Proof.
  induction l1 as [|y l1 IH]; cbn [app]; [repeat split; [constructor|assumption|intros ? []]|].
  intros H. inversion H as [|? ? Hn Hd]; subst. destruct (IH Hd) as (H1 & H2 & H3).
  split; [|split; [exact H2|]].
  - constructor; [|exact H1]. intros Hin. apply Hn, in_or_app. now left.
  - intros x [<-|Hin] Hx; [apply Hn, in_or_app; now right|exact (H3 x Hin Hx)].
Qed.

(* one visit of the `while top >= NUM_SYMBOLS` loop and the assignment after it, then the
   rest of the outer loop *)
Definition enter (d f : nat) (nodes : table) (stack : list Z) (top bits : Z) : res unit table :=
  match descend d nodes stack top with
  | Ok (stack'', leaf) =>
    match to_node bits (Z.of_nat (length stack'')) with
    | None => Panic site_to_node
    | Some v =>
      match set_node nodes leaf v with
      | None => Panic site_ff_index
      | Some nodes' => dfs f nodes' stack'' leaf bits false
      end
    end
  | Err e => Err e | Panic p => Panic p | OutOfFuel => OutOfFuel
  end.

Lemma dfs_S f nodes stack top bits first :
  dfs (S f) nodes stack top bits first =
  match dfs_pre nodes stack top bits first with
  | PBreak => Ok nodes
  | PPanic p => Panic p
  | PContinue stack' top' bits' => dfs f nodes stack' top' bits' false
  | PDown stack' top' bits' => enter 30 f nodes stack' top' bits'
  end.
Proof. reflexivity. Qed.

Lemma descend_leaf d nodes stack top : top < NUM_SYMBOLS -> descend d nodes stack top = Ok (stack, top).
Proof. intros H. destruct d; cbn [descend]; destruct (Z.ltb_spec top NUM_SYMBOLS); try lia; reflexivity. Qed.

Lemma descend_inner d nodes stack top nd : NUM_SYMBOLS <= top -> lookup nodes top = Some nd ->
  descend (S d) nodes stack top =
  if (STACK_CAP <=? length stack)%nat then Panic site_stack_push else descend d nodes (top :: stack) (fst nd).
Proof.
  intros H Hl. cbn [descend]. destruct (Z.ltb_spec top NUM_SYMBOLS); [lia|]. now rewrite Hl.
Qed.

Lemma enter_leaf d f nodes nodes' stack s bits v : s < NUM_SYMBOLS ->
  to_node bits (Z.of_nat (length stack)) = Some v -> set_node nodes s v = Some nodes' ->
  enter d f nodes stack s bits = dfs f nodes' stack s bits false.
Proof. intros Hs Hv Hset. unfold enter. now rewrite descend_leaf, Hv, Hset. Qed.

Lemma enter_inner d f nodes stack i bits nd : NUM_SYMBOLS <= i -> lookup nodes i = Some nd ->
  enter (S d) f nodes stack i bits =
  if (24 <=? length stack)%nat then Panic site_stack_push else enter d f nodes (i :: stack) (fst nd) bits.
Proof.
  intros Hi Hl. unfold enter. rewrite (descend_inner _ _ _ _ _ Hi Hl). unfold STACK_CAP.
  now destruct (24 <=? length stack)%nat.
Qed.

(* back at node i, on top of the stack, from its first child: bit `length stack` of `bits`
   is clear; the walk sets it and goes down to the second child *)
Lemma dfs_from_left f nodes i stack top bits nd : lookup nodes i = Some nd ->
  (length stack < 24)%nat -> 0 <= bits < 2 ^ Z.of_nat (length stack) ->
  dfs (S f) nodes (i :: stack) top bits false
  = enter 30 f nodes (i :: stack) (snd nd) (Z.lor bits (Z.shiftl 1 (Z.of_nat (length stack)))).
Proof.
  intros Hl Hk Hb. rewrite dfs_S. unfold dfs_pre. rewrite bit_clear by lia. cbn [Z.eqb negb].
  unfold STACK_CAP. destruct (Nat.leb_spec 24 (length stack)); [lia|]. now rewrite Hl.
Qed.

(* ... from its second child: the bit is set; the walk clears it and goes up *)
Lemma dfs_from_right f nodes i stack top bits : 0 <= bits < 2 ^ Z.of_nat (length stack) ->
  dfs (S f) nodes (i :: stack) top (Z.lor bits (Z.shiftl 1 (Z.of_nat (length stack)))) false
  = dfs f nodes stack i bits false.
Proof.
  intros Hb. rewrite dfs_S. unfold dfs_pre. now rewrite bit_set_test, bit_set_clear by lia.
Qed.

Definition leaf_ok (nd : node) (pre q : list bool) : Prop :=
  snd (to_symbol_repr nd) = Z.of_nat (length pre + length q)
  /\ 0 <= fst (to_symbol_repr nd) < 2 ^ snd (to_symbol_repr nd)
  /\ code_of (to_symbol_repr nd) = pre ++ q.

Lemma leaf_ok_shift nd pre b q : leaf_ok nd (pre ++ [b]) q <-> leaf_ok nd pre (b :: q).
Proof.
  unfold leaf_ok. rewrite app_length, <- app_assoc. cbn [length app].
  now replace (length pre + 1 + length q)%nat with (length pre + S (length q))%nat by lia.
Qed.

(* nodes' is nodes with, at every leaf of tr, the path `pre` to the root of tr followed by
   the path from there to the leaf *)
Definition Post (nodes nodes' : table) (tr : tree) (pre : list bool) : Prop :=
  t_len nodes' = t_len nodes
  /\ (forall j, ~ In j (leaves tr) -> lookup nodes' j = lookup nodes j)
  /\ (forall q s, tpath tr q s -> exists nd, lookup nodes' s = Some nd /\ leaf_ok nd pre q).

Lemma Post_inner nodes nodes' tr pre : repr nodes tr -> Post nodes nodes' tr pre ->
  forall j, NUM_SYMBOLS <= j -> lookup nodes' j = lookup nodes j.
Proof.
  intros Hr (_ & Hsame & _) j Hj. apply Hsame. intros Hin. pose proof (leaves_range _ _ _ Hr Hin). lia.
Qed.

Lemma Post_leaf nodes nodes' s v bits k : set_node nodes s v = Some nodes' ->
  to_symbol_repr v = (bits, Z.of_nat k) -> 0 <= bits < 2 ^ Z.of_nat k ->
  Post nodes nodes' (Lf s) (bits_of bits 0 k).
Proof.
  intros Hset Hv Hb. split; [apply (lookup_set _ _ _ _ 0 Hset)|]. split.
  - intros j Hj. destruct (lookup_set _ _ _ _ j Hset) as [_ ->].
    destruct (Z.eqb_spec j s) as [->|]; [|reflexivity]. exfalso. apply Hj. now left.
  - intros q s' [-> <-]. destruct (lookup_set _ _ _ _ s Hset) as [_ Hls].
    rewrite Z.eqb_refl in Hls. exists v. split; [exact Hls|].
    unfold leaf_ok, code_of. rewrite Hv. cbn [fst snd length].
    now rewrite bits_of_length, Nat.add_0_r, app_nil_r, Nat2Z.id.
Qed.

Lemma Post_node nodes nodes_a nodes_ab i a b pre :
  Post nodes nodes_a a (pre ++ [false]) -> Post nodes_a nodes_ab b (pre ++ [true]) ->
  (forall s, In s (leaves a) -> ~ In s (leaves b)) ->
  Post nodes nodes_ab (Nd i a b) pre.
Proof.
  intros (Hlen_a & Hsame_a & Hleaf_a) (Hlen_b & Hsame_b & Hleaf_b) Hdisj.
  split; [congruence|]. split.
  - intros j Hj. cbn [leaves] in Hj.
    rewrite Hsame_b, Hsame_a; [reflexivity| |]; intros Hin; apply Hj, in_or_app; auto.
  - intros q s Hq. cbn [tpath] in Hq. destruct q as [|[] q']; [destruct Hq| |].
    + destruct (Hleaf_b _ _ Hq) as (nd & Hnd & Hok). exists nd. split; [exact Hnd|now apply leaf_ok_shift].
    + destruct (Hleaf_a _ _ Hq) as (nd & Hnd & Hok). exists nd. split; [|now apply leaf_ok_shift].
      rewrite Hsame_b; [exact Hnd|]. apply Hdisj, (tpath_leaf _ _ _ Hq).
Qed.

Lemma fits_node i a b k :
  (height (Nd i a b) + k <=? 24)%nat = (height a + S k <=? 24)%nat && (height b + S k <=? 24)%nat.
Proof.
  cbn [height].
  destruct (Nat.leb_spec (height a + S k) 24), (Nat.leb_spec (height b + S k) 24),
    (Nat.leb_spec (S (Nat.max (height a) (height b)) + k) 24); (reflexivity || lia).
Qed.

(* the walk below a tree entered with k ancestors on the stack: it overflows the stack iff
   height + k > 24; otherwise it comes back to the state it was entered in, after cost tr
   further rounds, with every leaf of the tree holding its path *)
Lemma enter_tree : forall tr nodes, repr nodes tr -> NoDup (leaves tr) -> NUM_SYMBOLS <= t_len nodes ->
  forall d stack bits,
  (length stack <= 24)%nat -> (25 <= d + length stack)%nat ->
  0 <= bits < 2 ^ Z.of_nat (length stack) ->
  if (height tr + length stack <=? 24)%nat
  then exists nodes', Post nodes nodes' tr (bits_of bits 0 (length stack))
         /\ forall fuel, enter d (cost tr + fuel) nodes stack (root_idx tr) bits
                         = dfs fuel nodes' stack (root_idx tr) bits false
  else forall fuel, enter d (cost tr + fuel) nodes stack (root_idx tr) bits = Panic site_stack_push.
Proof.
  induction tr as [s|i a IHa b IHb]; intros nodes Hr Hdup Hlen d stack bits Hk Hd Hb.
  - cbn [height cost root_idx Nat.add]. cbn [repr] in Hr.
    destruct (Nat.leb_spec (length stack) 24); [|lia].
    assert (Hb24 : 0 <= bits < 2 ^ 24).
    { assert (2 ^ Z.of_nat (length stack) <= 2 ^ 24) by (apply Z.pow_le_mono_r; lia). lia. }
    destruct (to_node_repr bits (Z.of_nat (length stack)) Hb24 ltac:(lia)) as (v & Hv & Hsr).
    destruct (set_node_some nodes s v ltac:(lia)) as [nodes' Hset].
    exists nodes'. split; [exact (Post_leaf _ _ _ _ _ _ Hset Hsr Hb)|].
    intros fuel. apply (enter_leaf _ _ _ _ _ _ _ v); (exact Hv || exact Hset || lia).
  - cbn [repr] in Hr. destruct Hr as (Hi & Hl & Ha & Hb').
    cbn [leaves] in Hdup. destruct (NoDup_app_inv _ _ Hdup) as (Hnda & Hndb & Hdisj).
    rewrite fits_node. cbn [cost root_idx]. set (k := length stack) in *.
    destruct d as [|d']; [lia|].
    pose proof (fun fuel => enter_inner d' fuel nodes stack i bits _ Hi Hl) as Hent.
    cbn [fst] in Hent. fold k in Hent.
    revert Hent. destruct (Nat.leb_spec 24 k) as [Hfull|Hroom]; intros Hent.
    { destruct (Nat.leb_spec (height a + S k) 24); [lia|]. intros fuel. apply Hent. }
    assert (Hb1 : 0 <= bits < 2 ^ Z.of_nat (S k)).
    { assert (2 ^ Z.of_nat k <= 2 ^ Z.of_nat (S k)) by (apply Z.pow_le_mono_r; lia). lia. }
    (* the first subtree *)
    pose proof (IHa nodes Ha Hnda Hlen d' (i :: stack) bits) as IH1.
    cbn [length] in IH1. fold k in IH1. specialize (IH1 ltac:(lia) ltac:(lia) Hb1).
    destruct (height a + S k <=? 24)%nat; cbn [andb].
    2:{ intros fuel. rewrite Hent, <- Nat.add_assoc. apply IH1. }
    destruct IH1 as (nodes_a & Pa & E1).
    pose proof (Post_inner _ _ _ _ Ha Pa) as Hinner_a.
    (* back at i, then the second subtree *)
    set (bits' := Z.lor bits (Z.shiftl 1 (Z.of_nat k))).
    assert (Hmid : forall fuel, enter (S d') (cost a + S (cost b + 1) + fuel) nodes stack i bits
                   = enter 30 (cost b + S fuel) nodes_a (i :: stack) (root_idx b) bits').
    { intros fuel. rewrite Hent.
      replace (cost a + S (cost b + 1) + fuel)%nat with (cost a + S (cost b + S fuel))%nat by lia.
      rewrite E1. apply (dfs_from_left _ nodes_a i stack _ bits (root_idx a, root_idx b));
        [now rewrite Hinner_a|lia|exact Hb]. }
    pose proof (IHb nodes_a (repr_ext _ _ _ Hinner_a Hb') Hndb ltac:(destruct Pa; lia) 30%nat (i :: stack) bits') as IH2.
    cbn [length] in IH2. fold k in IH2.
    specialize (IH2 ltac:(lia) ltac:(lia)
                  ltac:(rewrite Nat2Z.inj_succ; apply bit_set_range; [lia|exact Hb])).
    destruct (height b + S k <=? 24)%nat.
    2:{ intros fuel. rewrite Hmid. apply IH2. }
    destruct IH2 as (nodes_ab & Pb & E2).
    exists nodes_ab. split.
    + rewrite bits_left in Pa by exact Hb. unfold bits' in Pb. rewrite bits_right in Pb by exact Hb.
      exact (Post_node _ _ _ i a b _ Pa Pb Hdisj).
    + intros fuel. rewrite Hmid, E2. now apply dfs_from_right.
Qed.

(* the whole walk: entered at the root with an empty stack, left by the `break` *)
Lemma dfs_tree tr nodes : repr nodes tr -> NoDup (leaves tr) -> NUM_SYMBOLS <= t_len nodes ->
  if (height tr <=? 24)%nat
  then exists nodes', Post nodes nodes' tr []
         /\ forall fuel, dfs (S (cost tr + S fuel)) nodes [] (root_idx tr) 0 true = Ok nodes'
  else forall fuel, dfs (S (cost tr + S fuel)) nodes [] (root_idx tr) 0 true = Panic site_stack_push.
Proof.
  intros Hr Hdup Hlen.
  pose proof (enter_tree tr nodes Hr Hdup Hlen 30 [] 0 ltac:(cbn; lia) ltac:(cbn; lia) ltac:(cbn; lia)) as H.
  cbn [length bits_of] in H. rewrite Nat.add_0_r in H.
  destruct (height tr <=? 24)%nat; [|intros fuel; rewrite dfs_S; apply H].
  destruct H as (nodes' & HP & E). exists nodes'. split; [exact HP|].
  intros fuel. rewrite dfs_S. cbn [dfs_pre]. rewrite E. apply dfs_S.
Qed.

Lemma repr_subtree_ok t tr : repr t tr -> forall d, (height tr <= d)%nat ->
  subtree_ok t d (root_idx tr) = true.
Proof.
  induction tr as [s|i a IHa b IHb]; cbn [repr height root_idx].
  - intros Hs d _. rewrite subtree_ok_leaf by lia. apply Z.leb_le; lia.
  - intros (Hi & Hl & Ha & Hb) d Hd. destruct d as [|d]; [lia|]. rewrite subtree_ok_S.
    destruct (Z.ltb_spec i NUM_SYMBOLS); [lia|]. rewrite Hl. cbn [fst snd].
    rewrite IHa, IHb by (auto; lia). reflexivity.
Qed.

Lemma repr_depths_ok t tr : repr t tr -> forall d pre, (height tr <= d)%nat ->
  (forall q s, tpath tr q s -> exists nd, lookup t s = Some nd /\ leaf_ok nd pre q) ->
  depths_ok t d (root_idx tr) (Z.of_nat (length pre)) = true.
Proof.
  induction tr as [s|i a IHa b IHb]; cbn [repr height root_idx].
  - intros Hs d pre _ H. destruct (H [] s) as (nd & Hl & Hlen & _); [cbn; auto|].
    cbn [length] in Hlen. rewrite Nat.add_0_r in Hlen.
    rewrite depths_ok_leaf, Hl by lia. apply Z.eqb_eq; exact Hlen.
  - intros (Hi & Hl & Ha & Hb) d pre Hd H. destruct d as [|d]; [lia|]. rewrite depths_ok_S.
    destruct (Z.ltb_spec i NUM_SYMBOLS); [lia|]. rewrite Hl. cbn [fst snd].
    replace (Z.of_nat (length pre) + 1) with (Z.of_nat (length (pre ++ [false])))
      by (rewrite app_length; cbn [length]; lia).
    rewrite (IHa Ha d (pre ++ [false])); [| lia |].
    2:{ intros q s Hq. destruct (H (false :: q) s Hq) as (nd & Hnd & Hok). exists nd. split; [exact Hnd|].
        now apply leaf_ok_shift. }
    replace (length (pre ++ [false])) with (length (pre ++ [true])) by (rewrite !app_length; reflexivity).
    rewrite (IHb Hb d (pre ++ [true])); [reflexivity | lia |].
    intros q s Hq. destruct (H (true :: q) s Hq) as (nd & Hnd & Hok). exists nd. split; [exact Hnd|].
    now apply leaf_ok_shift.
Qed.

Lemma cost_leaves tr : (cost tr + 2 = 2 * length (leaves tr))%nat.
Proof.
  induction tr as [s|i a IHa b IHb]; cbn [cost leaves length]; [reflexivity|].
  rewrite app_length. lia.
Qed.

Lemma all_symbols_NoDup : NoDup all_symbols.
Proof.
  unfold all_symbols. apply Injective_map_NoDup; [|apply seq_NoDup].
  intros x y. apply Nat2Z.inj.
Qed.

Lemma all_symbols_length : length all_symbols = 257%nat.
Proof. unfold all_symbols. now rewrite map_length, seq_length. Qed.

Lemma tree_wf t tr : t_len t = Z.of_nat NUM_NODES -> repr t tr -> root_idx tr = ROOT_IDX ->
  (height tr <= 24)%nat -> Permutation (leaves tr) all_symbols ->
  (forall q s, tpath tr q s -> exists nd, lookup t s = Some nd /\ leaf_ok nd [] q) ->
  wf_table t = true /\ depths_ok t 24 ROOT_IDX 0 = true.
Proof.
  intros Hlen Hr Hroot Hh Hperm Hleaf. split.
  - unfold wf_table. rewrite Hlen, Z.eqb_refl. cbn [andb]. rewrite <- Hroot.
    rewrite (repr_subtree_ok t tr Hr 24%nat Hh). cbn [andb].
    apply forallb_forall. intros s Hs.
    assert (Hin : In s (leaves tr)) by (eapply Permutation_in; [symmetry; exact Hperm|exact Hs]).
    destruct (leaf_tpath tr s Hin) as [q Hq].
    destruct (Hleaf q s Hq) as (nd & Hnd & Hl & Hrange & Hcode).
    pose proof (tpath_height tr q s Hq) as Hqh. pose proof (tpath_walk t tr Hr q s Hq) as Hw. rewrite Hroot in Hw.
    cbn [app length Nat.add] in Hl, Hcode.
    assert (1 <= length q)%nat.
    { destruct tr as [s'|i a b]; [cbn [root_idx repr] in *; unfold ROOT_IDX, NUM_SYMBOLS in *; lia|].
      destruct q; [destruct Hq|cbn [length]; lia]. }
    unfold sym_ok. rewrite Hnd, Hcode, Hw, Z.eqb_refl, andb_true_r.
    rewrite !andb_true_iff, !Z.leb_le, Z.ltb_lt. lia.
  - rewrite <- Hroot. apply (repr_depths_ok t tr Hr 24%nat [] Hh Hleaf).
Qed.

Theorem from_frequencies_outcome freqs : length freqs = 256%nat ->
  (exists t, from_frequencies freqs = Ok t /\ wf_table t = true /\ depths_ok t 24 ROOT_IDX 0 = true)
  \/ from_frequencies freqs = Panic site_stack_push.
Proof.
  intros Hlen. destruct (merge_result freqs Hlen) as (nodes & tr & Hm & Hn & Hroot & Hr & Hperm).
  assert (Hdup : NoDup (leaves tr)).
  { eapply Permutation_NoDup; [symmetry; exact Hperm|apply all_symbols_NoDup]. }
  assert (Hcost : cost tr = 512%nat).
  { pose proof (cost_leaves tr) as Hc. rewrite (Permutation_length Hperm), all_symbols_length in Hc. lia. }
  pose proof (dfs_tree tr nodes Hr Hdup ltac:(rewrite Hn; unfold NUM_SYMBOLS, NUM_NODES; lia)) as Hdfs.
  rewrite Hroot, Hcost in Hdfs.
  (* 514 of the 4000 rounds of the walk are used. The cases are split while no numeral of that
     size stands in the goal: destruct is slow on them *)
  destruct (Nat.leb_spec (height tr) 24) as [Hh|Hh]; [left|right].
  - destruct Hdfs as (t & HP & E). pose proof HP as (Hlen' & _ & Hleaf). exists t. split.
    + unfold from_frequencies. rewrite Hlen, Hm. cbn [Nat.eqb negb].
      now rewrite (E 3486%nat : dfs 4000 _ _ _ _ _ = _), Hlen', Hn, Z.eqb_refl.
    + apply (tree_wf t tr); try assumption; [lia|].
      exact (repr_ext _ _ _ (Post_inner _ _ _ _ Hr HP) Hr).
  - unfold from_frequencies. rewrite Hlen, Hm. cbn [Nat.eqb negb].
    now rewrite (Hdfs 3486%nat : dfs 4000 _ _ _ _ _ = _).
Qed.

Theorem from_frequencies_wf freqs t : from_frequencies freqs = Ok t ->
  wf_table t = true /\ depths_ok t 24 ROOT_IDX 0 = true.
Proof.
  intros H. destruct (Nat.eqb_spec (length freqs) 256) as [Hlen|Hlen].
  - destruct (from_frequencies_outcome freqs Hlen) as [(t' & E & Hwf)|E]; rewrite E in H; [|discriminate].
    injection H as <-. exact Hwf.
  - unfold from_frequencies in H. apply Nat.eqb_neq in Hlen. rewrite Hlen in H. discriminate.
Qed.

Theorem from_frequencies_len_panic freqs : length freqs <> 256%nat ->
  from_frequencies freqs = Panic site_ff_len.
Proof. intros Hlen. unfold from_frequencies. apply Nat.eqb_neq in Hlen. now rewrite Hlen. Qed.
