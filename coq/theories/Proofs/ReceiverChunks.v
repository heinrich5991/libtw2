(* delta_chunks in closed form: one SnapEmpty, one SnapSingle, or ceil(len/900)
   Snap messages whose data concatenate to the original; never a panic below
   2^31 parts. *)
From LibTw2 Require Import Base.Res Model.Receiver Proofs.ReceiverBase.
From Coq Require Import ZArith Lia Bool List ZifyBool ZifyNat.
Open Scope Z_scope.

Definition chunk_p (p : nat) (data : bytes) (i : nat) : bytes := firstn p (skipn (p * i) data).

Lemma firstn_add {A} a b (l : list A) : firstn (a + b) l = firstn a l ++ firstn b (skipn a l).
Proof.
  revert l. induction a as [|a IH]; intros l; [reflexivity|].
  destruct l as [|x l]; [rewrite skipn_nil, !firstn_nil; reflexivity|].
  cbn [Nat.add firstn skipn app]. f_equal. apply IH.
Qed.

Lemma concat_chunks_from p data n : forall i,
  concat (map (chunk_p p data) (seq i n)) = firstn (p * n) (skipn (p * i) data).
Proof.
  induction n as [|n IH]; intros i.
  - rewrite Nat.mul_0_r. reflexivity.
  - cbn [seq map concat]. rewrite IH. unfold chunk_p.
    replace (p * S n)%nat with (p + p * n)%nat by lia.
    rewrite firstn_add. f_equal. rewrite skipn_skipn. do 2 f_equal. lia.
Qed.

Lemma concat_chunks p data n : (length data <= p * n)%nat ->
  concat (map (chunk_p p data) (seq 0 n)) = data.
Proof.
  intros H. rewrite concat_chunks_from. rewrite Nat.mul_0_r. cbn [skipn]. apply firstn_all2. exact H.
Qed.

Lemma chunk_p_length p data i : (length (chunk_p p data i) <= p)%nat.
Proof. unfold chunk_p. rewrite firstn_length. lia. Qed.

(* the slice DeltaChunks::next takes is that piece *)
Lemma chunk_sub_list p data i : (p * i <= length data)%nat ->
  sub_list data (Z.of_nat p * Z.of_nat i) (Z.min (Z.of_nat p * (Z.of_nat i + 1)) (lenZ data))
  = chunk_p p data i.
Proof.
  intros H. unfold sub_list, chunk_p. rewrite lenZ_spec.
  replace (Z.to_nat (Z.of_nat p * Z.of_nat i)) with (p * i)%nat by lia.
  set (l := skipn (p * i) data).
  assert (Hl : length l = (length data - p * i)%nat) by (unfold l; apply skipn_length).
  destruct (Z_le_gt_dec (Z.of_nat p * (Z.of_nat i + 1)) (Z.of_nat (length data))) as [Hle|Hgt].
  - rewrite Z.min_l by lia. f_equal. lia.
  - rewrite Z.min_r by lia.
    replace (Z.to_nat (Z.of_nat (length data) - Z.of_nat p * Z.of_nat i)) with (length l) by lia.
    rewrite firstn_all. symmetry. apply firstn_all2. lia.
Qed.

Definition PACK : nat := 900.
Lemma PACK_Z : MAX_SNAPSHOT_PACKSIZE = Z.of_nat PACK.
Proof. reflexivity. Qed.
Lemma PACK_eq : PACK = 900%nat.
Proof. reflexivity. Qed.
Lemma PACK_pos : (0 < PACK)%nat.
Proof. unfold PACK. lia. Qed.

Definition nparts (data : bytes) : nat := ((length data + (PACK - 1)) / PACK)%nat.
Definition chunks_of (data : bytes) : list bytes := map (chunk_p PACK data) (seq 0 (nparts data)).

Definition part_msg (tick dt crc : Z) (chunks : list bytes) (i : nat) : snapmsg :=
  MSnap tick dt (Z.of_nat (length chunks)) (Z.of_nat i) crc (nth i chunks []).
Definition multi_msgs (tick dt crc : Z) (chunks : list bytes) : list snapmsg :=
  map (part_msg tick dt crc chunks) (seq 0 (length chunks)).

Definition xfer_msgs (tick dt crc : Z) (data : bytes) : list snapmsg :=
  match nparts data with
  | O => [MSnapEmpty tick dt]
  | S O => [MSnapSingle tick dt crc data]
  | _ => multi_msgs tick dt crc (chunks_of data)
  end.

Local Opaque PACK.

Lemma nparts_bounds data : (PACK * (nparts data - 1) < length data \/ length data = 0)%nat
  /\ (length data <= PACK * nparts data)%nat.
Proof.
  unfold nparts. pose proof PACK_pos as Hp.
  pose proof (Nat.div_mod (length data + (PACK - 1)) PACK ltac:(lia)) as Hdm.
  pose proof (Nat.mod_upper_bound (length data + (PACK - 1)) PACK ltac:(lia)) as Hmod.
  set (q := ((length data + (PACK - 1)) / PACK)%nat) in *.
  set (r := ((length data + (PACK - 1)) mod PACK)%nat) in *.
  split.
  - destruct (length data) eqn:E; [right; reflexivity|left].
    destruct q as [|q']; [lia|]. replace (S q' - 1)%nat with q' by lia. nia.
  - nia.
Qed.

Lemma nparts_Z data :
  (lenZ data + MAX_SNAPSHOT_PACKSIZE - 1) / MAX_SNAPSHOT_PACKSIZE = Z.of_nat (nparts data).
Proof.
  rewrite lenZ_spec, PACK_Z. unfold nparts. pose proof PACK_pos.
  rewrite Nat2Z.inj_div. f_equal. lia.
Qed.

Lemma chunks_of_length data : length (chunks_of data) = nparts data.
Proof. unfold chunks_of. rewrite map_length, seq_length. reflexivity. Qed.

Lemma chunks_of_nth data i : (i < nparts data)%nat -> nth i (chunks_of data) [] = chunk_p PACK data i.
Proof.
  intros H. unfold chunks_of.
  rewrite nth_indep with (d' := chunk_p PACK data 0%nat) by (rewrite map_length, seq_length; exact H).
  rewrite map_nth. rewrite seq_nth by exact H. reflexivity.
Qed.

Lemma chunks_of_concat data : concat (chunks_of data) = data.
Proof. apply concat_chunks. apply nparts_bounds. Qed.

Lemma chunks_of_small data : Forall (fun c => (length c <= PACK)%nat) (chunks_of data).
Proof.
  unfold chunks_of. apply Forall_forall. intros c Hc. apply in_map_iff in Hc.
  destruct Hc as [i [<- _]]. apply chunk_p_length.
Qed.

Lemma nparts_le data k : (length data <= k * PACK)%nat -> (nparts data <= k)%nat.
Proof.
  intros H. unfold nparts. pose proof PACK_pos.
  apply Nat.lt_succ_r. apply Nat.div_lt_upper_bound; [lia|]. nia.
Qed.

Lemma nparts_zero data : nparts data = 0%nat <-> data = [].
Proof.
  pose proof (nparts_bounds data) as [H1 H2]. pose proof PACK_pos. split.
  - intros E. rewrite E in H2. destruct data; [reflexivity|cbn [length] in H2; lia].
  - intros ->. unfold nparts. cbn [length]. apply Nat.div_small. lia.
Qed.

Lemma multi_msgs_length tick dt crc chunks : length (multi_msgs tick dt crc chunks) = length chunks.
Proof. unfold multi_msgs. rewrite map_length. apply seq_length. Qed.

Lemma multi_msgs_nth tick dt crc chunks i d : (i < length chunks)%nat ->
  nth i (multi_msgs tick dt crc chunks) d = part_msg tick dt crc chunks i.
Proof.
  intros Hi. unfold multi_msgs.
  rewrite nth_indep with (d' := part_msg tick dt crc chunks 0%nat) by (rewrite map_length, seq_length; exact Hi).
  rewrite map_nth, seq_nth by exact Hi. reflexivity.
Qed.

Lemma multi_msgs_data tick dt crc chunks : map msg_data (multi_msgs tick dt crc chunks) = chunks.
Proof. unfold multi_msgs. rewrite map_map. apply map_nth_seq. Qed.

Lemma xfer_msgs_cases tick dt crc data :
  (data = [] /\ xfer_msgs tick dt crc data = [MSnapEmpty tick dt])
  \/ (data <> [] /\ (length data <= PACK)%nat /\ xfer_msgs tick dt crc data = [MSnapSingle tick dt crc data])
  \/ ((2 <= nparts data)%nat /\ xfer_msgs tick dt crc data = multi_msgs tick dt crc (chunks_of data)).
Proof.
  unfold xfer_msgs. destruct (nparts data) as [|[|k]] eqn:E.
  - left. split; [apply nparts_zero, E|reflexivity].
  - right. left. split; [intros H; apply nparts_zero in H; lia|]. split; [|reflexivity].
    pose proof (proj2 (nparts_bounds data)). lia.
  - right. right. split; [lia|reflexivity].
Qed.

Lemma xfer_msgs_facts tick dt crc data m : In m (xfer_msgs tick dt crc data) ->
  msg_tick m = tick /\ (length (msg_data m) <= PACK)%nat.
Proof.
  destruct (xfer_msgs_cases tick dt crc data) as [[_ ->]|[(_ & Hl & ->)|[_ ->]]].
  - intros [<-|[]]. split; [reflexivity|apply Nat.le_0_l].
  - intros [<-|[]]. split; [reflexivity|exact Hl].
  - unfold multi_msgs. rewrite in_map_iff. intros [i [<- Hi]]. split; [reflexivity|].
    apply in_seq in Hi. rewrite chunks_of_length in Hi. cbn [part_msg msg_data].
    rewrite chunks_of_nth by lia. apply chunk_p_length.
Qed.

Lemma chunks_from_spec tick dt crc data n k : forall idx,
  (forall i, idx <= i < idx + k -> PACK * i <= length data)%nat ->
  chunks_from tick dt n crc data (lenZ data) k (Z.of_nat idx)
  = Ok (map (fun i => MSnap tick dt n (Z.of_nat i) crc (chunk_p PACK data i)) (seq idx k)).
Proof.
  induction k as [|k IH]; intros idx H; [reflexivity|].
  cbn [chunks_from seq map]. unfold chunk_msg.
  assert (Hidx : (PACK * idx <= length data)%nat) by (apply H; lia).
  rewrite slice_spec.
  - rewrite PACK_Z. rewrite chunk_sub_list by exact Hidx. cbn [bind].
    replace (Z.of_nat idx + 1) with (Z.of_nat (S idx)) by lia.
    rewrite IH by (intros i Hi; apply H; lia). reflexivity.
  - rewrite PACK_Z. lia.
  - rewrite PACK_Z, lenZ_spec. apply Z.min_glb; lia.
  - apply Z.le_min_r.
Qed.

Theorem delta_chunks_spec tick base data crc : Z.of_nat (nparts data) <= i32_max ->
  delta_chunks tick base data crc = Ok (xfer_msgs tick (wrap32 (tick - base)) crc data).
Proof.
  intros Hn. unfold delta_chunks. rewrite nparts_Z.
  replace (i32_max <? Z.of_nat (nparts data)) with false by lia.
  unfold xfer_msgs.
  destruct (nparts data) as [|[|n]] eqn:E; [reflexivity|reflexivity|].
  replace (Z.of_nat (S (S n)) =? 0) with false by lia.
  replace (Z.of_nat (S (S n)) =? 1) with false by lia.
  rewrite Nat2Z.id. change 0 with (Z.of_nat 0).
  rewrite chunks_from_spec.
  - f_equal. unfold multi_msgs. rewrite chunks_of_length, E.
    apply map_ext_in. intros i Hi. apply in_seq in Hi. unfold part_msg.
    rewrite chunks_of_length, E. rewrite chunks_of_nth by lia. reflexivity.
  - intros i Hi. pose proof (nparts_bounds data) as [Hb _]. rewrite E in Hb. destruct Hb as [Hb|Hb].
    + replace (S (S n) - 1)%nat with (S n) in Hb by lia. nia.
    + apply length_zero_iff_nil in Hb. apply nparts_zero in Hb. lia.
Qed.
