(* Demo model, high-level layer: the tick refusal, and the transport theorem - what DemoReader is
   given is exactly what DemoWriter encoded (the raw layer between them is transparent). *)
From LibTw2 Require Import Base.Res Base.Bits Model.Demo Model.DemoHL
  Proofs.DemoBase Proofs.DemoChunk Proofs.DemoFile.
From LibTw2 Require Model.Snap.
From Coq Require Import ZArith Lia Bool List ZifyBool.
Open Scope Z_scope.

Theorem refuse_tick sz w t items : t <= hw_last_tick w ->
  write_snap sz w t items = (w, [], Err HTooLowTickNumber).
Proof.
  intros H. unfold write_snap, tick_refused. replace (t <=? hw_last_tick w) with true by lia. reflexivity.
Qed.

(* what the refused call would have run into: the raw writer asserts that ticks increase *)
Theorem raw_tick_not_increasing_panics p keyframe t : t <= p ->
  write_tick (Some p) keyframe t = Panic site_tick_order.
Proof.
  intros H. unfold write_tick, tick_marker_new. replace (p <? t) with false by lia. reflexivity.
Qed.

(* every int encodes to bytes, whatever its value (the ints of a snapshot are not known to be i32) *)
Lemma to_bit_byte b k : 0 <= k < 8 -> 0 <= to_bit b k < 256.
Proof.
  intros Hk. unfold to_bit. destruct b; [rewrite Z.shiftl_1_l|lia].
  split; [apply Z.pow_nonneg; lia|]. change 256 with (2 ^ 8). apply Z.pow_lt_mono_r; lia.
Qed.

Lemma land_mask_byte a n : 0 <= n <= 8 -> 0 <= Z.land a (2 ^ n - 1) < 256.
Proof.
  intros Hn. rewrite land_pow2_mask by lia. change 256 with (2 ^ 8).
  pose proof (Z.mod_pos_bound a (2 ^ n) ltac:(apply Z.pow_pos_nonneg; lia)).
  pose proof (Z.pow_le_mono_r 2 n 8 ltac:(lia) ltac:(lia)). lia.
Qed.

Lemma write_loop_bytes_ok : forall room p bs, write_loop room p = Ok bs -> bytes_ok bs = true.
Proof.
  induction room as [|room IH]; intros p bs H; cbn [write_loop] in H.
  - destruct (p =? 0); [|discriminate]. injection H as <-. reflexivity.
  - destruct (p =? 0); [injection H as <-; reflexivity|].
    destruct (write_loop room (Z.shiftr p 7)) as [tl| | |] eqn:E; try discriminate.
    injection H as <-. apply bytes_ok_cons. split; [|apply (IH _ _ E)].
    apply (lor_small _ _ 256); [reflexivity|apply to_bit_byte; lia|apply (land_mask_byte p 7); lia].
Qed.

Lemma write_int_bytes_ok_any v bs : write_int v = Ok bs -> bytes_ok bs = true.
Proof.
  unfold write_int. intros H.
  set (p := Z.lxor (u32_of v) (if v <? 0 then all_ones32 else 0)) in *.
  destruct (write_loop 4 (Z.shiftr p 6)) as [tl| | |] eqn:E; try discriminate.
  injection H as <-. apply bytes_ok_cons. split; [|apply (write_loop_bytes_ok _ _ _ E)].
  apply (lor_small _ _ 256); [reflexivity| |apply (land_mask_byte p 6); lia].
  apply (lor_small _ _ 256); [reflexivity|apply to_bit_byte; lia|apply to_bit_byte; lia].
Qed.

Lemma ints_to_bytes_ok : forall l bs, Snap.ints_to_bytes l = Ok bs -> bytes_ok bs = true.
Proof.
  induction l as [|v l IH]; intros bs H; cbn [Snap.ints_to_bytes] in H.
  - injection H as <-. reflexivity.
  - apply bind_ok_inv in H as (b & Ev & H). apply bind_ok_inv in H as (r & El & [= <-]).
    apply bytes_ok_app_iff. split; [apply (write_int_bytes_ok_any _ _ Ev)|apply (IH _ El)].
Qed.

Lemma snap_encoding_ok sn e ok : snap_encoding sn = Ok (e, ok) -> bytes_ok e = true.
Proof.
  unfold snap_encoding. destruct (Snap.snap_ints _) as [l| | |]; try discriminate.
  destruct (Snap.ints_to_bytes l) as [bs| | |] eqn:E; try discriminate.
  intros H. injection H as <- _. apply (ints_to_bytes_ok _ _ E).
Qed.
Lemma delta_encoding_ok sz d e ok : delta_encoding sz d = Ok (e, ok) -> bytes_ok e = true.
Proof.
  unfold delta_encoding. destruct (Snap.delta_ints _ _) as [l| | |]; try discriminate.
  destruct (Snap.ints_to_bytes l) as [bs| | |] eqn:E; try discriminate.
  intros H. injection H as <- _. apply (ints_to_bytes_ok _ _ E).
Qed.

Lemma buf_append_spec buf enc buf' fit : bytes_ok buf = true -> bytes_ok enc = true ->
  buf_append buf enc = (buf', fit) ->
  bytes_ok buf' = true /\ (fit = true -> buf' = buf ++ enc /\ zlen buf' <= 65536).
Proof.
  intros Hb He. assert (Hall : bytes_ok (buf ++ enc) = true) by (apply bytes_ok_app_iff; split; assumption).
  unfold buf_append, DEMO_MAX_SIZE. destruct (65536 <? zlen (buf ++ enc)) eqn:E; intros [= <- <-].
  - split; [|discriminate]. destruct (split_at 65536 (buf ++ enc)) as [[a b]|] eqn:Es; [|exact Hall].
    apply split_at_spec in Es as [Hab _]. rewrite Hab in Hall. apply bytes_ok_app_iff in Hall. tauto.
  - split; [exact Hall|]. intros _. split; [reflexivity|lia].
Qed.

Definition is_hl_failure {A} (r : res hwerr A) : bool :=
  match r with Panic _ | OutOfFuel => true | _ => false end.

Definition keyframe_rule (w : hwriter) (tick : Z) : bool :=
  match hw_last_keyframe w with None => true | Some lk => 250 <? tick - lk end.

Definition step_shape (sz : Snap.osize) (w : hwriter) (o : hop) (r : res hwerr unit) (w' : hwriter)
           (cs : list chunk) : Prop :=
  match o, r with
  | HSnap tick items, Ok _ =>
    exists b' e nb,
      add_items (hw_builder w) items = (b', Ok tt)
      /\ (if keyframe_rule w tick
          then snap_encoding (Snap.builder_finish b') = Ok (e, true)
          else exists d, Snap.create_raw (Snap.sn_raw (hw_snap w)) (Snap.sn_raw (Snap.builder_finish b')) = Ok d
                         /\ delta_encoding sz d = Ok (e, true))
      /\ cs = [CTick tick (keyframe_rule w tick);
               if keyframe_rule w tick then CSnapshot (hw_buf w ++ e) else CDelta (hw_buf w ++ e)]
      /\ Snap.snap_recycle (Snap.builder_finish b') = Ok nb
      /\ hw_snap w' = Snap.builder_finish b' /\ hw_builder w' = nb /\ hw_buf w' = []
      /\ hw_last_tick w' = tick
  | HSnap tick _, Err HTooLargeSnap => cs = [CTick tick (keyframe_rule w tick)]
  | HSnap _ _, Err HTooLowTickNumber => cs = [] /\ w' = w
  | HSnap _ _, Err _ => cs = []
  | HMsg enc, Ok _ =>
    cs = [CMessage (hw_buf w ++ enc)]
    /\ hw_snap w' = hw_snap w /\ hw_builder w' = hw_builder w /\ hw_buf w' = [] /\ hw_last_tick w' = hw_last_tick w
  | HMsg _, Err _ => cs = []
  | _, _ => True
  end.

Lemma kf_cases w tick :
  let kfr : res hwerr bool :=
    match hw_last_keyframe w with
    | None => Ok true
    | Some lk => if is_i32 (tick - lk) then Ok (250 <? tick - lk) else Panic site_keyframe_sub
    end in
  kfr = Ok (keyframe_rule w tick) \/ kfr = Panic site_keyframe_sub.
Proof.
  unfold keyframe_rule. destruct (hw_last_keyframe w) as [lk|]; [|left; reflexivity].
  destruct (is_i32 (tick - lk)); [left|right]; reflexivity.
Qed.

Theorem accept_tick sz w t items : hw_last_tick w < t ->
  snd (write_snap sz w t items) <> Err HTooLowTickNumber.
Proof.
  intros H. unfold write_snap, tick_refused. replace (t <=? hw_last_tick w) with false by lia.
  destruct (kf_cases w t) as [-> | ->]; [|cbn; discriminate].
  destruct (add_items (hw_builder w) items) as [b' [[]|e|s|]]; try (cbn; discriminate).
  destruct (write_tick (hw_prev w) _ t) as [[tb prev']|e|s|]; try (cbn; discriminate).
  destruct (if keyframe_rule w t then _ else _) as [[e ok]|?|?|]; try (cbn; discriminate).
  destruct (buf_append (hw_buf w) e) as [buf' [|]]; [|cbn; discriminate].
  destruct (negb ok); [cbn; discriminate|].
  destruct (write_chunk_impl _ buf') as [cb|?|?|]; try (cbn; discriminate).
  destruct (Snap.snap_recycle _) as [nb|?|?|]; cbn; discriminate.
Qed.

Definition hop_ok (o : hop) : bool :=
  match o with HSnap tick _ => is_i32 tick | HMsg enc => bytes_ok enc end.

(* a branch of write_snap / write_msg that ends in a panic is not what H and Hr speak of *)
Local Ltac failed H Hr := injection H as <- <- <-; discriminate Hr.

Theorem hstep_chunks sz w o w' b r :
  bytes_ok (hw_buf w) = true -> hop_ok o = true ->
  hstep sz w o = (w', b, r) -> is_hl_failure r = false ->
  exists cs,
    write_chunks (hw_prev w) cs = Ok b
    /\ forallb chunk_ok cs = true /\ existsb k15_chunk cs = false
    /\ hw_prev w' = next_prev (hw_prev w) cs
    /\ bytes_ok (hw_buf w') = true
    /\ step_shape sz w o r w' cs.
Proof.
  intros Hbuf Hop H Hr. destruct o as [tick items|enc]; cbn [hstep hop_ok] in *.
  - unfold write_snap in H. destruct (tick_refused w tick) eqn:Eref.
    { injection H as <- <- <-. exists []. repeat split; try reflexivity; assumption. }
    destruct (kf_cases w tick) as [Hkf|Hkf]; rewrite Hkf in H; [|failed H Hr].
    set (kf := keyframe_rule w tick) in *.
    destruct (add_items (hw_builder w) items) as [b' [[]|e|s|]] eqn:Eadd; try failed H Hr.
    2:{ injection H as <- <- <-. exists []. repeat split; try reflexivity; assumption. }
    destruct (write_tick (hw_prev w) kf tick) as [[tb prev']|e|s|] eqn:Etick; try failed H Hr.
    assert (Htick : write_chunk (hw_prev w) (CTick tick kf) = Ok (tb, prev')) by exact Etick.
    pose proof (write_chunk_prev _ _ _ _ Htick) as Hprev'.
    set (encr := if kf then snap_encoding (Snap.builder_finish b') else _) in *.
    destruct encr as [[e aok]|?|?|] eqn:Eenc; try failed H Hr.
    assert (He : bytes_ok e = true).
    { subst encr. destruct kf; [apply (snap_encoding_ok _ _ _ Eenc)|].
      destruct (Snap.create_raw _ _); try discriminate. apply (delta_encoding_ok _ _ _ _ Eenc). }
    destruct (buf_append (hw_buf w) e) as [buf' fit] eqn:Ebuf.
    destruct (buf_append_spec _ _ _ _ Hbuf He Ebuf) as [Hbok Hfit]. destruct fit.
    2:{ (* TooLargeSnap: the tick marker is in the file *)
      injection H as <- <- <-. exists [CTick tick kf]. cbn [write_chunks]. rewrite Htick, app_nil_r.
      repeat split; try assumption. cbn. rewrite Hop. reflexivity. }
    destruct (Hfit eq_refl) as [Hb' Hlen].
    destruct aok; cbn [negb] in H; [|failed H Hr].
    destruct (write_chunk_impl (if kf then KSnapshot else KSnapshotDelta) buf') as [cb|?|?|] eqn:Ecb;
      try failed H Hr.
    destruct (Snap.snap_recycle (Snap.builder_finish b')) as [nb|?|?|] eqn:Erec; try failed H Hr.
    injection H as <- <- <-.
    exists [CTick tick kf; if kf then CSnapshot buf' else CDelta buf'].
    split. { cbn [write_chunks]. rewrite Htick. destruct kf; cbn [write_chunk]; rewrite Ecb, app_nil_r; reflexivity. }
    split. { cbn [forallb chunk_ok]. rewrite Hop. destruct kf; cbn [chunk_ok]; rewrite Hbok; reflexivity. }
    split. { destruct kf; cbn [existsb k15_chunk orb]; rewrite orb_false_r; apply Z.ltb_ge, Hlen. }
    split; [rewrite Hprev'; destruct kf; reflexivity|]. split; [reflexivity|].
    cbn [step_shape]. exists b', e, nb. split; [exact Eadd|].
    fold kf. subst encr. split.
    + destruct kf; [exact Eenc|].
      destruct (Snap.create_raw _ _) as [d|?|?|]; try discriminate. exists d. split; [reflexivity|exact Eenc].
    + rewrite Hb'. repeat split; try reflexivity. exact Erec.
  - unfold write_msg in H.
    destruct (buf_append (hw_buf w) enc) as [buf' fit] eqn:Ebuf.
    destruct (buf_append_spec _ _ _ _ Hbuf Hop Ebuf) as [Hbok Hfit]. destruct fit.
    2:{ injection H as <- <- <-. exists []. repeat split; try reflexivity; assumption. }
    destruct (Hfit eq_refl) as [Hb' Hlen].
    destruct (write_message buf') as [mb|?|?|] eqn:Em; try failed H Hr.
    injection H as <- <- <-.
    exists [CMessage buf']. split; [cbn [write_chunks write_chunk]; rewrite Em, app_nil_r; reflexivity|].
    split; [cbn [forallb chunk_ok]; rewrite Hbok; reflexivity|].
    split; [cbn [existsb k15_chunk]; rewrite orb_false_r; apply Z.ltb_ge, Hlen|].
    split; [reflexivity|]. split; [reflexivity|]. cbn [step_shape]. rewrite Hb'. repeat split; reflexivity.
Qed.

Fixpoint hist_shape (sz : Snap.osize) (w : hwriter) (ops : list hop) (cs : list chunk) : Prop :=
  match ops with
  | [] => cs = []
  | o :: r =>
    exists c1 c2, cs = c1 ++ c2
      /\ step_shape sz w o (snd (hstep sz w o)) (fst (fst (hstep sz w o))) c1
      /\ hist_shape sz (fst (fst (hstep sz w o))) r c2
  end.

Definition no_failure (rs : list (res hwerr unit)) : bool := forallb (fun r => negb (is_hl_failure r)) rs.

Lemma hrun_cons sz w o ops w' b rs : hrun sz w (o :: ops) = (w', b, rs) -> no_failure rs = true ->
  exists w1 b1 r1 b2 rs2,
    hstep sz w o = (w1, b1, r1) /\ is_hl_failure r1 = false /\ hrun sz w1 ops = (w', b2, rs2)
    /\ b = b1 ++ b2 /\ rs = r1 :: rs2 /\ no_failure rs2 = true.
Proof.
  cbn [hrun]. destruct (hstep sz w o) as [[w1 b1] r1]. destruct (hrun sz w1 ops) as [[w2 b2] rs2] eqn:Er.
  destruct r1 as [[]|e|s|]; intros [= <- <- <-] Hnf; try discriminate Hnf;
    exists w1, b1; eexists; exists b2, rs2; repeat split; (exact Er || exact Hnf).
Qed.

Theorem hrun_chunks sz : forall ops w w' b rs,
  bytes_ok (hw_buf w) = true -> forallb hop_ok ops = true ->
  hrun sz w ops = (w', b, rs) -> no_failure rs = true ->
  exists cs,
    write_chunks (hw_prev w) cs = Ok b
    /\ forallb chunk_ok cs = true /\ existsb k15_chunk cs = false
    /\ hist_shape sz w ops cs.
Proof.
  induction ops as [|o ops IH]; intros w w' b rs Hbuf Hops H Hrs.
  - cbn [hrun] in H. injection H as <- <- <-. exists []. repeat split; reflexivity.
  - cbn [forallb] in Hops. apply andb_true_iff in Hops as [Ho Hops].
    destruct (hrun_cons _ _ _ _ _ _ _ H Hrs) as (w1 & b1 & r1 & b2 & rs2 & Es & Hr1 & Er & -> & -> & Hrs2).
    destruct (hstep_chunks sz w o w1 b1 r1 Hbuf Ho Es Hr1) as (cs1 & Hw1 & Hok1 & Hk1 & Hp1 & Hb1 & Hsh1).
    destruct (IH w1 w' b2 rs2 Hb1 Hops Er Hrs2) as (cs2 & Hw2 & Hok2 & Hk2 & Hsh2).
    exists (cs1 ++ cs2). split; [rewrite write_chunks_app, Hw1, <- Hp1, Hw2; reflexivity|].
    split; [rewrite forallb_app, Hok1, Hok2; reflexivity|]. split; [rewrite existsb_app, Hk1, Hk2; reflexivity|].
    cbn [hist_shape]. exists cs1, cs2. rewrite Es. cbn [fst snd]. repeat split; assumption.
Qed.

Fixpoint hdecode (sz : Snap.osize) (last : Snap.snap) (cs : list chunk) : list (hchunk * list hwarn) * hwres unit :=
  match cs with
  | [] => ([], (Ok tt, []))
  | c :: r =>
    match decode_chunk sz last c with
    | (Ok (hc, sn), ws) => let (l, e) := hdecode sz sn r in ((hc, ws) :: l, e)
    | (Err e, ws) => ([], (Err e, ws))
    | (Panic s, ws) => ([], (Panic s, ws))
    | (OutOfFuel, ws) => ([], (OutOfFuel, ws))
    end
  end.

Lemma next_chunks_decode sz v : forall fuel cs st last,
  read_chunks fuel v st = (map (fun c => (c, [])) cs, (Ok tt, [])) ->
  next_chunks fuel sz v {| hr_raw := st; hr_snap := last |} = hdecode sz last cs.
Proof.
  induction fuel as [|f fuel IH]; intros cs st last H; cbn [read_chunks] in H; [discriminate|].
  cbn [next_chunks]. unfold next_chunk. cbn [hr_raw hr_snap].
  destruct (read_chunk v st) as [[[[c st']|]|e|s|] ws] eqn:Er; try discriminate.
  - destruct (read_chunks fuel v st') as [cs' e'] eqn:Ers.
    destruct cs as [|c0 cs0]; cbn [map] in H; [discriminate|].
    injection H as -> -> -> ->. cbn [hdecode map app].
    destruct (decode_chunk sz last c0) as [[[hc sn]|e|s|] ws']; try reflexivity.
    rewrite (IH cs0 st' sn Ers). reflexivity.
  - injection H as H1 ->. destruct cs; [|discriminate]. reflexivity.
Qed.

Theorem hl_transport sz i ops w b rs hb :
  winput_ok i = true -> forallb hop_ok ops = true -> writer_new i = Ok hb ->
  hrun sz hwriter_new ops = (w, b, rs) -> no_failure rs = true ->
  exists h cs,
    hread_all sz (hb ++ b) = Ok (h, [], hdecode sz Snap.snap_empty (map pad4_chunk cs))
    /\ header_view h = expected_view i
    /\ hist_shape sz hwriter_new ops cs.
Proof.
  intros Hi Hops Hh Hrun Hrs.
  destruct (hrun_chunks sz ops hwriter_new w b rs eq_refl Hops Hrun Hrs) as [cs (Hw & Hok & Hk & Hsh)].
  cbn [hwriter_new hw_prev] in Hw.
  assert (Hall : write_all i cs = Ok (hb ++ b)) by (unfold write_all; rewrite Hh, Hw; reflexivity).
  destruct (raw_roundtrip i cs (hb ++ b) Hi Hok Hk Hall) as [h [Hr Hview]].
  exists h, cs. split; [|split; assumption].
  unfold read_all in Hr. unfold hread_all.
  destruct (reader_new (hb ++ b)) as [[[h' rest] ws]| | |]; try discriminate.
  (* taken apart by projections: `injection` would unfold read_chunks on its fuel 0 :: rest *)
  apply Ok_inj in Hr.
  pose proof (f_equal snd Hr) as Hrc. pose proof (f_equal (fun x => fst (fst x)) Hr) as Hh'.
  pose proof (f_equal (fun x => snd (fst x)) Hr) as Hws. cbn [fst snd] in Hrc, Hh', Hws. subst h' ws.
  rewrite (next_chunks_decode sz (rh_version h) (0 :: rest) (map pad4_chunk cs) _ Snap.snap_empty).
  - reflexivity.
  - rewrite Hrc. rewrite map_map. reflexivity.
Qed.
