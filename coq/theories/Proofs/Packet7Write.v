(* 0.7 writer: Packet::write in closed form (see Packet6Write.v for the 0.6 twin). *)
From LibTw2 Require Import Base.Res Base.Bits Model.PacketTypes Model.PacketBase Gen.Consts7 Gen.Bits7
  Model.Packet7 Proofs.PktSweep Proofs.PktBits6 Proofs.PktBits7.
From LibTw2 Require Export Proofs.PacketShared.
From Coq Require Import ZArith Lia Bool List.
Open Scope Z_scope.

Lemma wstep7_ok t bs k t' : wstep7 t bs k = (t', Ok tt) ->
  k (wb_ext t bs) = (t', Ok tt) /\ (length bs <= wb_cap t - length (wb_data t))%nat.
Proof.
  unfold wstep7. destruct (wb_write t bs) as [t1 ok] eqn:E. destruct ok; [|discriminate].
  apply wb_write_true in E as [-> Hl]. intros H. split; assumption.
Qed.

Lemma wstep7_fits t bs k : (length (wb_data t) + length bs <= wb_cap t)%nat ->
  wstep7 t bs k = k (wb_ext t bs).
Proof. intros H. unfold wstep7. rewrite wb_write_fits by exact H. reflexivity. Qed.

Lemma wstep7_app t a b k : wstep7 t a (fun t' => wstep7 t' b k) = wstep7 t (a ++ b) k.
Proof. unfold wstep7. rewrite wb_write_app. destruct (wb_write t a) as [t1 [|]]; reflexivity. Qed.

Definition hdr_bytes7 (h : PacketHeader7) : bytes :=
  match PacketHeader7_pack h with Ok hp => PacketHeaderPacked7_as_bytes hp | _ => [] end.
Definition hdrc_bytes7 (h : PacketHeaderConnless7) : bytes :=
  match PacketHeaderConnless7_pack h with Ok hp => PacketHeaderConnlessPacked7_as_bytes hp | _ => [] end.

Definition opt_bytes (o : option bytes) : bytes := match o with Some b => b | None => [] end.

Lemma ph7_packed h : ph7_in_range h = true ->
  exists hp, PacketHeader7_pack h = Ok hp /\ PacketHeaderPacked7_unpack_warn hp = (h, [])
    /\ php7_token hp = ph7_token h
    /\ length (PacketHeaderPacked7_as_bytes hp) = (3 + length (ph7_token h))%nat.
Proof.
  intros Hr. destruct (ph7_pack_unpack h Hr) as (hp & Ep & Eu & _ & _ & Et).
  exists hp. repeat split; try assumption. rewrite <- Et. destruct hp; reflexivity.
Qed.

Lemma hdr_bytes7_ok h : ph7_in_range h = true ->
  exists hp, PacketHeader7_pack h = Ok hp /\ hdr_bytes7 h = PacketHeaderPacked7_as_bytes hp
    /\ PacketHeaderPacked7_unpack_warn hp = (h, [])
    /\ length (hdr_bytes7 h) = (3 + length (ph7_token h))%nat.
Proof.
  intros Hr. destruct (ph7_packed h Hr) as (hp & Ep & Eu & _ & Hl).
  exists hp. unfold hdr_bytes7. rewrite Ep. repeat split; assumption.
Qed.

Lemma ph7_in_range_iff f a n t :
  ph7_in_range {| ph7_flags := f; ph7_ack := a; ph7_num_chunks := n; ph7_token := t |} = true
  <-> 0 <= f < 16 /\ 0 <= a < 1024 /\ 0 <= n < 256.
Proof. unfold ph7_in_range, byteb. cbn [ph7_flags ph7_ack ph7_num_chunks]. lia. Qed.

Lemma ph7_control_in_range ack tok : 0 <= ack < 1024 ->
  ph7_in_range {| ph7_flags := PACKETFLAG_CONTROL; ph7_ack := ack; ph7_num_chunks := 0; ph7_token := tok |} = true.
Proof. intros H. apply ph7_in_range_iff. unfold PACKETFLAG_CONTROL. lia. Qed.

(* header, then one body, then a final check that leaves the buffer alone: the shape of
   both connected writers *)
Lemma write_header7_ok t h k t' : write_header7 t h k = (t', Ok tt) ->
  k (wb_ext t (hdr_bytes7 h)) = (t', Ok tt)
  /\ (length (hdr_bytes7 h) <= wb_cap t - length (wb_data t))%nat.
Proof.
  unfold write_header7, hdr_bytes7. destruct (PacketHeader7_pack h) as [hp|e|s|]; try discriminate.
  - apply wstep7_ok.
  - destruct e.
Qed.

Lemma write_header7_ext t h k k' : (forall t1, k t1 = k' t1) -> write_header7 t h k = write_header7 t h k'.
Proof.
  intros H. unfold write_header7, wstep7. destruct (PacketHeader7_pack h); try reflexivity.
  destruct (wb_write t _) as [t1 [|]]; [apply H|reflexivity].
Qed.

Lemma write_hb7_ok cap h body fin t' :
  (forall t, fin t = (t', Ok tt) -> t' = t) ->
  write_header7 (wb_new cap) h (fun t => wstep7 t body fin) = (t', Ok tt) ->
  wb_data t' = hdr_bytes7 h ++ body /\ (length (hdr_bytes7 h ++ body) <= cap)%nat.
Proof.
  intros Hfin E. apply write_header7_ok in E as [E H1]. apply wstep7_ok in E as [E H2].
  apply Hfin in E. subst t'. cbn [wb_ext wb_data wb_new wb_cap app length] in *.
  split; [reflexivity|]. rewrite app_length. lia.
Qed.

Lemma write_hb7_fits h body fin : ph7_in_range h = true ->
  (forall cap, (length (hdr_bytes7 h ++ body) <= cap)%nat ->
     write_header7 (wb_new cap) h (fun t => wstep7 t body fin)
     = fin {| wb_data := hdr_bytes7 h ++ body; wb_cap := cap |})
  /\ length (hdr_bytes7 h ++ body) = (3 + length (ph7_token h) + length body)%nat.
Proof.
  intros Hr. destruct (hdr_bytes7_ok h Hr) as (hp & Ep & Eh & _ & Hl).
  rewrite app_length, Hl. split; [|reflexivity]. intros cap Hc. unfold write_header7. rewrite Ep, <- Eh.
  rewrite wstep7_fits by (cbn [wb_new wb_data wb_cap length]; lia).
  rewrite wstep7_fits by (cbn [wb_ext wb_new wb_data wb_cap app]; lia). reflexivity.
Qed.

Section Enc.
Variable comp : HuffC7.

Definition chunks_compressed7 (payload : bytes) : bool :=
  match comp payload ARRAYVEC_CAP7 with Some s => (length s <? length payload)%nat | None => false end.

Definition chunks_body7 (payload : bytes) : bytes :=
  if chunks_compressed7 payload then opt_bytes (comp payload ARRAYVEC_CAP7) else payload.

Definition chunks_flags7 (resend : bool) (payload : bytes) : Z :=
  Z.lor (bool_flag resend PACKETFLAG_REQUEST_RESEND) (bool_flag (chunks_compressed7 payload) PACKETFLAG_COMPRESSION).

Definition control_body7 (c : control7) (tok : token) : bytes :=
  [ctrl_magic7 c]
  ++ match c with
     | C7Connect rt => rt
     | C7Close m => m ++ [0]
     | C7Token rt => rt ++ (if bytes_eqb tok TOKEN_NONE then repeat 0 (Z.to_nat TOKEN_REQUEST_ADDITIONAL) else [])
     | _ => []
     end.

Definition encoding7 (p : packet7) : bytes :=
  match p with
  | P7Connless payload tok rtok =>
    hdrc_bytes7 {| phc7_flags := PACKETFLAG_CONNLESS; phc7_version := CONNLESS_VERSION;
                   phc7_token := tok; phc7_response_token := rtok |} ++ payload
  | P7Connected ack tok (P7Chunks resend nc payload) =>
    hdr_bytes7 {| ph7_flags := chunks_flags7 resend payload; ph7_ack := ack; ph7_num_chunks := nc; ph7_token := tok |}
    ++ chunks_body7 payload
  | P7Connected ack tok (P7Control c) =>
    hdr_bytes7 {| ph7_flags := PACKETFLAG_CONTROL; ph7_ack := ack; ph7_num_chunks := 0; ph7_token := tok |}
    ++ control_body7 c tok
  end.

Lemma write_chunks7_steps ack tok resend nc payload t :
  write_connected7 comp ack tok (P7Chunks resend nc payload) t
  = write_header7 t {| ph7_flags := chunks_flags7 resend payload; ph7_ack := ack; ph7_num_chunks := nc; ph7_token := tok |}
      (fun t => wstep7 t (chunks_body7 payload) wdone7).
Proof. reflexivity. Qed.

(* ControlPacket::write ends with assert!(result.len() <= MAX_PACKETSIZE) *)
Definition finish7 (t : wbuf) : wres7 :=
  if Z.of_nat (length (wb_data t)) >? MAX_PACKETSIZE then (t, Panic site7_control_too_long) else wdone7 t.

(* its other two asserts: a close reason without NUL, a response token other than NONE *)
Definition ctrl_panics7 (c : control7) : bool :=
  match c with
  | C7Connect rt | C7Token rt => bytes_eqb rt TOKEN_NONE
  | C7Close m => has_nul m
  | _ => false
  end.

Lemma write_control7_steps c tok ack t : ctrl_panics7 c = false ->
  write_control7 c tok ack t
  = write_header7 t {| ph7_flags := PACKETFLAG_CONTROL; ph7_ack := ack; ph7_num_chunks := 0; ph7_token := tok |}
      (fun t => wstep7 t (control_body7 c tok) finish7).
Proof.
  intros Hn. unfold write_control7, control_body7. apply write_header7_ext. intros t1.
  destruct c as [|rt| |m|rt]; cbn [ctrl_panics7] in Hn; rewrite ?Hn; try destruct (bytes_eqb tok TOKEN_NONE);
    rewrite ?wstep7_app, ?app_nil_r; reflexivity.
Qed.

Lemma write_control7_panics c tok ack t r : ctrl_panics7 c = true -> write_control7 c tok ack t <> (r, Ok tt).
Proof.
  intros Hn E. unfold write_control7 in E. apply write_header7_ok in E as [E _].
  apply wstep7_ok in E as [E _]. destruct c; cbn [ctrl_panics7] in Hn; try discriminate Hn; rewrite Hn in E; discriminate E.
Qed.

(* what Ok means: the output is the encoding and fits the buffer *)
Theorem write7_ok_encoding p cap out : write7 comp p cap = Ok out ->
  out = encoding7 p /\ (length out <= cap)%nat.
Proof.
  unfold write7, write7_full.
  destruct (match p with P7Connless _ _ _ => _ | P7Connected _ _ _ => _ end) as [t [[]| | |]] eqn:E; try discriminate.
  intros H. injection H as <-. destruct p as [payload tok rtok|ack tok [resend nc payload|c]].
  - unfold write_connless7 in E. destruct (Z.of_nat (length payload) >? MAX_PAYLOAD); [discriminate|].
    unfold encoding7, hdrc_bytes7.
    destruct (PacketHeaderConnless7_pack _) as [hp|e|s|]; try discriminate; [|destruct e].
    apply wstep7_ok in E as [E H1]. apply wstep7_ok in E as [E H2]. injection E as <-.
    cbn [wb_ext wb_data wb_new wb_cap app length] in *. split; [reflexivity|]. rewrite app_length. lia.
  - rewrite write_chunks7_steps in E. apply write_hb7_ok in E as [-> Hl]; [split; [reflexivity|exact Hl]|].
    intros t0 H. injection H as <-. reflexivity.
  - unfold write_connected7 in E. destruct (ctrl_panics7 c) eqn:Hn.
    + exfalso. exact (write_control7_panics _ _ _ _ _ Hn E).
    + rewrite write_control7_steps in E by exact Hn.
      apply write_hb7_ok in E as [-> Hl]; [split; [reflexivity|exact Hl]|].
      intros t0. unfold finish7. destruct (_ >? _); [discriminate|]. intros H. injection H as <-. reflexivity.
Qed.

Lemma chunks_flags7_range resend payload : 0 <= chunks_flags7 resend payload < 16.
Proof. unfold chunks_flags7. destruct resend, (chunks_compressed7 payload); vm_compute; split; congruence. Qed.

Lemma chunks_body7_len payload : (length (chunks_body7 payload) <= length payload)%nat.
Proof.
  unfold chunks_body7, chunks_compressed7. destruct (comp payload ARRAYVEC_CAP7) as [s|]; cbn [opt_bytes].
  - destruct (length s <? length payload)%nat eqn:E; [apply Nat.ltb_lt in E; lia|lia].
  - lia.
Qed.

Lemma expressible7_connected ack (tok : token) ty :
  expressible7 (P7Connected ack tok ty) = true
  <-> 0 <= ack < 1024 /\ length tok = 4%nat
      /\ match ty with
         | P7Chunks _ n payload =>
           (0 <=? n) && (n <? 256) && (Z.of_nat (length payload) <=? MAX_PACKETSIZE - HEADER_SIZE)
         | P7Control (C7Close reason) =>
           negb (has_nul reason) && (Z.of_nat (length reason) <=? CTRLMSG_CLOSE_REASON_LENGTH)
         | P7Control (C7Connect rt) => token_ok rt
         | P7Control (C7Token rt) => token_ok rt
         | P7Control _ => true
         end = true.
Proof. cbn [expressible7]. unfold token_ok at 1. rewrite !andb_true_iff, Z.leb_le, Z.ltb_lt, Nat.eqb_eq. tauto. Qed.

(* control byte, then a response token (and the padding of a token request), or a close
   reason with its NUL *)
Lemma control_body7_len ack tok c : expressible7 (P7Connected ack tok (P7Control c)) = true ->
  1 <= Z.of_nat (length (control_body7 c tok)) <= 1 + 4 + TOKEN_REQUEST_ADDITIONAL.
Proof.
  intros Hx. apply expressible7_connected in Hx as (_ & _ & Hty).
  unfold control_body7, token_ok, CTRLMSG_CLOSE_REASON_LENGTH, TOKEN_REQUEST_ADDITIONAL, TOKEN_REQUEST_PACKET_SIZE, PacketHeaderPacked7_size in *.
  destruct c as [|rt| |m|rt]; try apply Nat.eqb_eq in Hty; try (apply andb_true_iff in Hty as [_ Hml]);
    try destruct (bytes_eqb tok TOKEN_NONE); rewrite ?app_length, ?repeat_length; cbn [length]; lia.
Qed.

(* a value inside the size limits encodes to at most MAX_PACKETSIZE bytes, and is written as
   soon as the buffer holds the encoding *)
Lemma write7_fits p : expressible7 p = true -> K06_7 p = false -> K06T_7 p = false ->
  Z.of_nat (length (encoding7 p)) <= MAX_PACKETSIZE
  /\ forall cap, (length (encoding7 p) <= cap)%nat -> write7 comp p cap = Ok (encoding7 p).
Proof.
  intros Hx Hk Hkt. unfold write7, write7_full, MAX_PACKETSIZE. destruct p as [payload tok rtok|ack tok [resend nc payload|c]].
  - cbn [K06_7 expressible7] in *. apply andb_true_iff in Hx as [Hx Hrt]. apply andb_true_iff in Hx as [_ Ht].
    apply Nat.eqb_eq in Ht, Hrt.
    unfold write_connless7, encoding7, hdrc_bytes7, MAX_PAYLOAD in *. rewrite Hk.
    destruct (phc7_pack_unpack {| phc7_flags := PACKETFLAG_CONNLESS; phc7_version := CONNLESS_VERSION;
                                  phc7_token := tok; phc7_response_token := rtok |} eq_refl)
      as (hp & -> & _ & _ & _ & Et & Ert).
    assert (Hl9 : length (PacketHeaderConnlessPacked7_as_bytes hp) = 9%nat).
    { destruct hp as [a t r]. cbn [phcp7_token phcp7_response_token phc7_token phc7_response_token] in Et, Ert. subst.
      cbn [PacketHeaderConnlessPacked7_as_bytes phcp7_padding_flags_version phcp7_token phcp7_response_token app length].
      rewrite app_length, Ht, Hrt. reflexivity. }
    rewrite app_length, Hl9. split; [lia|]. intros cap Hcap.
    rewrite wstep7_fits by (cbn [wb_new wb_data wb_cap length]; lia).
    rewrite wstep7_fits by (cbn [wb_ext wb_new wb_data wb_cap app]; lia). reflexivity.
  - apply expressible7_connected in Hx as (Hack & Htok & Hty).
    apply andb_true_iff in Hty as [Hnc Hlen]. apply Z.leb_le in Hlen. unfold MAX_PACKETSIZE, HEADER_SIZE in Hlen.
    pose proof (chunks_flags7_range resend payload) as Hf. pose proof (chunks_body7_len payload) as Hb.
    assert (Hr : ph7_in_range {| ph7_flags := chunks_flags7 resend payload; ph7_ack := ack; ph7_num_chunks := nc; ph7_token := tok |} = true)
      by (apply ph7_in_range_iff; lia).
    pose proof (write_hb7_fits _ (chunks_body7 payload) wdone7 Hr) as [E Hle]. cbn [encoding7 ph7_token] in *.
    rewrite Hle. split; [lia|]. intros cap Hcap. rewrite write_chunks7_steps, E by lia. reflexivity.
  - pose proof (control_body7_len ack tok c Hx) as Hl. unfold TOKEN_REQUEST_ADDITIONAL, TOKEN_REQUEST_PACKET_SIZE, PacketHeaderPacked7_size in Hl.
    apply expressible7_connected in Hx as (Hack & Htok & Hty).
    assert (Hn : ctrl_panics7 c = false).
    { destruct c as [|rt| |m|rt]; try reflexivity; try exact Hkt. apply andb_true_iff in Hty as [Hn _]. apply negb_true_iff, Hn. }
    pose proof (write_hb7_fits _ (control_body7 c tok) finish7 (ph7_control_in_range ack tok Hack)) as [E Hle]. cbn [encoding7 ph7_token] in *.
    rewrite Hle. split; [lia|]. intros cap Hcap.
    unfold write_connected7. rewrite write_control7_steps, E by (assumption || lia).
    unfold finish7. cbn [wb_data]. rewrite Z.gtb_ltb, (proj2 (Z.ltb_ge _ _)) by (unfold MAX_PACKETSIZE; lia).
    reflexivity.
Qed.

Theorem write7_ok p cap : expressible7 p = true -> K06_7 p = false -> K06T_7 p = false -> (1400 <= cap)%nat ->
  write7 comp p cap = Ok (encoding7 p) /\ (length (encoding7 p) <= 1400)%nat.
Proof.
  intros Hx Hk Hkt Hcap. pose proof (write7_fits p Hx Hk Hkt) as [L W]. unfold MAX_PACKETSIZE in L.
  split; [apply W|]; lia.
Qed.

End Enc.
