(* The sender-side and receiver-side halves of the C01 invariant, proved for the functions
   of the shared online core (so for 0.6 and 0.7 at once). *)
From LibTw2 Require Import Base.Res Model.PacketTypes Model.ConnCore Model.LinkGhost
  Proofs.ConnCoreInv Proofs.LinkArith.
From Coq Require Import ZArith Lia Bool List.
Open Scope Z_scope.

Lemma chunk_is_mono c n n' sl sl' sub sub' nvs nvs' :
  chunk_is c n sl sub nvs -> n <= n' -> n' - n + sl <= sl' -> n <= zlen sub ->
  (forall i, 1 <= i <= zlen sub -> subn sub' i = subn sub i) -> incl nvs nvs' ->
  chunk_is c n' sl' sub' nvs'.
Proof.
  unfold chunk_is. intros H Hn Hs Hl Hsub Hnv. destruct (ch_vital c) as [[s r]|].
  - destruct H as [i [H1 [H2 [H3 H4]]]]. exists i. repeat split; try lia; try assumption.
    rewrite Hsub by lia. exact H4.
  - apply Hnv, H.
Qed.

Lemma pk_ok_snoc cs : forall c n n' sub sub' nvs nvs',
  pk_ok cs n sub nvs -> chunk_is c n' 512 sub' nvs' ->
  n <= n' <= n + 1 -> n <= zlen sub ->
  (forall i, 1 <= i <= zlen sub -> subn sub' i = subn sub i) -> incl nvs nvs' ->
  pk_ok (cs ++ [c]) n' sub' nvs'.
Proof.
  induction cs as [|x cs IH]; intros c n n' sub sub' nvs nvs' H Hc Hn Hl Hsub Hnv; cbn [app pk_ok] in *.
  - split; [|exact I]. unfold zlen. cbn. replace (512 + 0) with 512 by lia. exact Hc.
  - destruct H as [Hx Hr]. split.
    + apply (chunk_is_mono x n n' (512 + zlen cs) (512 + zlen (cs ++ [c])) sub sub' nvs nvs');
        try assumption; try lia.
      rewrite zlen_app. unfold zlen at 3. cbn [length]. lia.
    + eapply IH; eassumption.
Qed.

Lemma pk_ok_nonvital cs n sub nvs :
  nonvital_only cs -> Forall (fun c => In (ch_data c) nvs) cs -> pk_ok cs n sub nvs.
Proof.
  induction cs as [|c cs IH]; intros H1 H2; cbn [pk_ok]; [exact I|].
  inversion H1; subst. inversion H2; subst. split; [|apply IH; assumption].
  unfold chunk_is. rewrite H3. assumption.
Qed.

Lemma pk_ok_flight cs n sub nvs : pk_ok cs n sub nvs -> (length cs <= 255)%nat -> n <= zlen sub ->
  Forall (fun c => chunk_is c n 1024 sub nvs) cs.
Proof.
  induction cs as [|c cs IH]; intros H Hl Hn; [constructor|].
  cbn [pk_ok] in H. destruct H as [Hc Hr]. cbn [length] in Hl. constructor.
  - eapply chunk_is_mono; try eassumption; try lia; try (intros; reflexivity); try apply incl_refl.
    unfold zlen. lia.
  - apply IH; try assumption. lia.
Qed.

Lemma pk_ok_mono cs : forall n n' sub sub' nvs nvs',
  pk_ok cs n sub nvs -> n = n' -> n <= zlen sub ->
  (forall i, 1 <= i <= zlen sub -> subn sub' i = subn sub i) -> incl nvs nvs' ->
  pk_ok cs n' sub' nvs'.
Proof.
  induction cs as [|c cs IH]; intros n n' sub sub' nvs nvs' H Hn Hl Hsub Hnv; cbn [pk_ok] in *; [exact I|].
  destruct H as [Hc Hr]. split; [eapply chunk_is_mono; try eassumption; lia|eapply IH; eassumption].
Qed.

Record snd_inv (o : online) (sub nvs : list bytes) (a : Z) : Prop := {
  si_seq : o_seq o = seqof (zlen sub);
  si_queue : queue_is (o_queue o) a (zlen sub) sub;
  si_a : 0 <= a;
  si_win : zlen sub - a < 512;
  si_pk : pk_ok (pc_chunks (o_packet o)) (zlen sub) sub nvs;
  si_nv1 : nonvital_only (pc_chunks (o_packet_nv o));
  si_nv2 : Forall (fun c => In (ch_data c) nvs) (pc_chunks (o_packet_nv o));
}.

Definition mk_flight (n dc : Z) (d : dgram) : flight := {| f_d := d; f_n := n; f_c := dc |}.

Definition pk_count_ok (p : pcontents) : Prop := pc_num p = zlen (pc_chunks p) /\ pc_num p <= 255.
Lemma pc_ok_count pp p : pc_ok pp p -> pk_count_ok p.
Proof. intros [H1 [H2 _]]. split; assumption. Qed.

Lemma pc_write_count pp p data v p' : pc_write_chunk pp p data v = Ok p' -> pk_count_ok p -> pk_count_ok p'.
Proof.
  intros Hw [Hn _]. apply pc_write_shape in Hw as [-> Hlt]. unfold pk_count_ok. cbn.
  rewrite zlen_app. change (zlen [_]) with 1. lia.
Qed.

Lemma flush_count pp o o' ds : online_flush pp o = Ok (o', ds) -> pk_count_ok (o_packet o) -> pk_count_ok (o_packet o').
Proof.
  unfold online_flush. intros Hf Hc. destruct (negb (can_send o)); [injection Hf as <- _; exact Hc|].
  destruct (MAX_PACKETSIZE <? _) in Hf; [discriminate|]. injection Hf as <- _. split; [reflexivity|cbn; lia].
Qed.

Lemma flush_link pp o o' ds sub nvs a dc :
  online_flush pp o = Ok (o', ds) -> pk_count_ok (o_packet o) ->
  snd_inv o sub nvs a -> o_ack o = seqof dc -> 0 <= dc ->
  snd_inv o' sub nvs a /\ o_ack o' = o_ack o /\ pk_count_ok (o_packet o') /\ o_queue o' = o_queue o /\
  Forall (fun d => flight_ok (mk_flight (zlen sub) dc d) (zlen sub) dc sub nvs) ds.
Proof.
  intros Hf Hpc Hs Hack Hdc. unfold online_flush in Hf.
  destruct (can_send o); cbn [negb] in Hf.
  2:{ injection Hf as <- <-. split; [exact Hs|]. split; [reflexivity|]. split; [exact Hpc|]. split; [reflexivity|constructor]. }
  destruct (MAX_PACKETSIZE <? _) in Hf; [discriminate|]. injection Hf as <- <-.
  destruct Hs as [H1 H2 H3 H4 H5 H6 H7]. split; [|split; [reflexivity|split; [|split; [reflexivity|]]]].
  - constructor; cbn; try assumption; try constructor.
  - unfold pk_count_ok, o_clear, pc_empty, zlen. cbn. lia.
  - constructor; [|constructor]. unfold flight_ok, mk_flight. cbn.
    pose proof (zlen_nonneg sub). destruct Hpc as [Hn Hle].
    repeat split; try lia.
    + intros x Hx. injection Hx as <-. exact Hack.
    + unfold zlen in Hn. lia.
    + apply pk_ok_flight; try assumption; [unfold zlen in *; lia|lia].
Qed.

Lemma queue_link pp now o o' data vital sub nvs a :
  online_queue pp now o data vital = Ok o' -> snd_inv o sub nvs a ->
  (vital = true -> zlen (o_queue o) < 511) ->
  (if vital then snd_inv o' (sub ++ [data]) nvs a else snd_inv o' sub (data :: nvs) a) /\ o_ack o' = o_ack o.
Proof.
  intros Hq [H1 H2 H3 H4 H5 H6 H7] Hw. unfold online_queue in Hq.
  pose proof (queue_is_len _ _ _ _ H2) as Hlen. pose proof (zlen_nonneg sub) as Hnn.
  destruct vital.
  - destruct (2048 <? Z.of_nat (length data)); [discriminate|].
    destruct (pc_write_chunk pp (o_packet o) data _) as [p| | |] eqn:Ew; try discriminate.
    injection Hq as <-. split; [|reflexivity]. apply pc_write_shape in Ew as [-> _].
    rewrite H1, seq_next_seqof in *.
    assert (Hz : zlen (sub ++ [data]) = zlen sub + 1) by apply zlen_app.
    constructor; cbn [o_seq o_queue o_packet o_packet_nv pc_chunks]; rewrite ?Hz; try assumption.
    + reflexivity.
    + apply queue_is_push; assumption.
    + specialize (Hw eq_refl). lia.
    + eapply pk_ok_snoc; try eassumption; try lia; try apply incl_refl.
      * exists (zlen sub + 1). cbn. repeat split; try lia. symmetry. apply subn_app_new.
      * intros. apply subn_app_old. assumption.
  - destruct (pc_write_chunk pp (o_packet_nv o) data None) as [nv| | |] eqn:Ew1; try discriminate.
    destruct (pc_write_chunk pp (o_packet o) data None) as [p| | |] eqn:Ew2; try discriminate.
    injection Hq as <-. split; [|reflexivity].
    apply pc_write_shape in Ew1 as [-> _]. apply pc_write_shape in Ew2 as [-> _].
    constructor; cbn; try assumption.
    + eapply pk_ok_snoc; try eassumption; try lia; try (intros; reflexivity); [left; reflexivity|apply incl_tl, incl_refl].
    + apply Forall_app. split; [exact H6|]. constructor; [reflexivity|constructor].
    + apply Forall_app. split; [|constructor; [left; reflexivity|constructor]].
      eapply Forall_impl; [|exact H7]. intros c Hc. right. exact Hc.
Qed.

(* send = optional flush + queue *)
Lemma send_link pp now o o' ds r data vital sub nvs a dc :
  online_send pp now o data vital = Ok (o', ds, r) -> pk_count_ok (o_packet o) ->
  snd_inv o sub nvs a -> o_ack o = seqof dc -> 0 <= dc ->
  (vital = true -> zlen (o_queue o) < 511) ->
  o_ack o' = o_ack o /\
  Forall (fun d => flight_ok (mk_flight (zlen sub) dc d) (zlen sub) dc sub nvs) ds /\
  match r with
  | SendTooLong => o' = o /\ ds = []
  | SendOk => if vital then snd_inv o' (sub ++ [data]) nvs a else snd_inv o' sub (data :: nvs) a
  end.
Proof.
  intros Hs Hpc Hinv Hack Hdc Hw. unfold online_send in Hs.
  destruct ((MAX_PAYLOAD <? Z.of_nat (length data)) || _) in Hs.
  { injection Hs as <- <- <-. split; [reflexivity|]. split; [constructor|]. split; reflexivity. }
  destruct (negb (can_fit_chunk pp (o_packet o) (Z.of_nat (length data)) vital)).
  - destruct (online_flush pp o) as [[o1 d1]| | |] eqn:Ef; cbn [bind] in Hs; try discriminate.
    destruct (flush_link pp o o1 d1 sub nvs a dc Ef Hpc Hinv Hack Hdc) as [Hi1 [Ha1 [_ [Hq1 Hfl]]]].
    destruct (online_queue pp now o1 data vital) as [o2| | |] eqn:Eq; cbn [bind] in Hs; try discriminate.
    injection Hs as <- <- <-.
    destruct (queue_link pp now o1 o2 data vital sub nvs a Eq Hi1) as [Hi2 Ha2].
    { rewrite Hq1. exact Hw. }
    split; [congruence|]. split; [exact Hfl|exact Hi2].
  - cbn [bind] in Hs.
    destruct (online_queue pp now o data vital) as [o2| | |] eqn:Eq; cbn [bind] in Hs; try discriminate.
    injection Hs as <- <- <-.
    destruct (queue_link pp now o o2 data vital sub nvs a Eq Hinv Hw) as [Hi2 Ha2].
    split; [exact Ha2|]. split; [constructor|exact Hi2].
Qed.

Lemma queue_count pp now o o' data vital :
  online_queue pp now o data vital = Ok o' -> pk_count_ok (o_packet o) -> pk_count_ok (o_packet o').
Proof.
  unfold online_queue. intros Hq Hc. destruct vital.
  - destruct (2048 <? _); [discriminate|].
    destruct (pc_write_chunk pp (o_packet o) data _) as [p| | |] eqn:E; try discriminate.
    injection Hq as <-. eapply pc_write_count; eassumption.
  - destruct (pc_write_chunk pp (o_packet_nv o) data None) as [nv| | |]; try discriminate.
    destruct (pc_write_chunk pp (o_packet o) data None) as [p| | |] eqn:E; try discriminate.
    injection Hq as <-. eapply pc_write_count; eassumption.
Qed.

Lemma send_count pp now o o' ds r data vital :
  online_send pp now o data vital = Ok (o', ds, r) -> pk_count_ok (o_packet o) -> pk_count_ok (o_packet o').
Proof.
  intros Hs Hc. unfold online_send in Hs.
  destruct ((MAX_PAYLOAD <? Z.of_nat (length data)) || _) in Hs; [injection Hs as <- _ _; exact Hc|].
  apply bind_ok in Hs as [[o1 d1] [Hf Hs]]. apply bind_ok in Hs as [o2 [Hq Hs]]. injection Hs as <- _ _.
  apply (queue_count _ _ _ _ _ _ Hq). destruct (negb (can_fit_chunk _ _ _ _)); [|injection Hf as <- _; exact Hc].
  eapply flush_count; eassumption.
Qed.

(* todo = the not yet re-queued chunks k, k+1, ... of the history, all inside the window (a, n] *)
Definition todo_is (todo : list rchunk) (k a : Z) (sub : list bytes) : Prop :=
  forall j c, nth_error todo j = Some c ->
    rc_seq c = seqof (k + Z.of_nat j) /\ rc_data c = subn sub (k + Z.of_nat j) /\
    a < k + Z.of_nat j <= zlen sub.

Lemma todo_is_tail c rest k a sub : todo_is (c :: rest) k a sub -> todo_is rest (k + 1) a sub.
Proof.
  intros H j x Hj. specialize (H (S j) x Hj). replace (k + 1 + Z.of_nat j) with (k + Z.of_nat (S j)) by lia. exact H.
Qed.

Lemma resend_loop_link pp : forall todo fuel o out ts o' out' ts' sub nvs a dc k,
  resend_loop pp fuel o todo out ts = Ok (o', out', ts') ->
  todo_is todo k a sub -> pk_count_ok (o_packet o) ->
  snd_inv o sub nvs a -> o_ack o = seqof dc -> 0 <= dc ->
  Forall (fun d => flight_ok (mk_flight (zlen sub) dc d) (zlen sub) dc sub nvs) out ->
  snd_inv o' sub nvs a /\ o_ack o' = o_ack o /\ pk_count_ok (o_packet o') /\ o_queue o' = o_queue o /\
  Forall (fun d => flight_ok (mk_flight (zlen sub) dc d) (zlen sub) dc sub nvs) out'.
Proof.
  induction todo as [|c rest IH].
  - intros fuel o out ts o' out' ts' sub nvs a dc k H _ Hc Hinv Hack Hdc Hout.
    destruct fuel; cbn [resend_loop] in H; injection H as <- <- <-;
      (split; [exact Hinv|]; split; [reflexivity|]; split; [exact Hc|]; split; [reflexivity|exact Hout]).
  - induction fuel as [|fuel IHf]; intros o out ts o' out' ts' sub nvs a dc k H Htodo Hc Hinv Hack Hdc Hout;
      cbn [resend_loop] in H; [discriminate|].
    destruct (can_fit_chunk pp (o_packet o) (Z.of_nat (length (rc_data c))) true).
    + destruct (pc_write_chunk pp (o_packet o) (rc_data c) (Some (rc_seq c, true))) as [p| | |] eqn:Ew; try discriminate.
      destruct (Htodo 0%nat c eq_refl) as [Hs0 [Hd0 Hr0]]. replace (k + Z.of_nat 0) with k in * by lia.
      pose proof (pc_write_count _ _ _ _ _ Ew Hc) as Hc'. apply pc_write_shape in Ew as [-> _].
      destruct Hinv as [H1 H2 H3 H4 H5 H6 H7].
      apply (IH fuel _ out ts o' out' ts' sub nvs a dc (k + 1) H); try assumption.
      * eapply todo_is_tail, Htodo.
      * constructor; cbn; try assumption.
        eapply pk_ok_snoc; try eassumption; try lia; try (intros; reflexivity); try apply incl_refl.
        exists k. cbn. repeat split; try lia; assumption.
    + destruct (online_flush pp o) as [[o1 d1]| | |] eqn:Ef; try discriminate.
      destruct (flush_link pp o o1 d1 sub nvs a dc Ef Hc Hinv Hack Hdc) as [Hi1 [Ha1 [Hc1 [Hq1 Hfl]]]].
      destruct (IHf o1 (out ++ d1) true o' out' ts' sub nvs a dc k H Htodo Hc1 Hi1) as [A [B [C [D E]]]].
      * congruence.
      * exact Hdc.
      * apply Forall_app. split; assumption.
      * split; [exact A|]. split; [congruence|]. split; [exact C|]. split; [congruence|exact E].
Qed.

Lemma resend_link pp now o o' ds ts sub nvs a dc :
  online_resend pp now o = Ok (o', ds, ts) ->
  pk_count_ok (o_packet o) -> pk_count_ok (o_packet_nv o) ->
  snd_inv o sub nvs a -> o_ack o = seqof dc -> 0 <= dc ->
  snd_inv o' sub nvs a /\ o_ack o' = o_ack o /\ pk_count_ok (o_packet o') /\
  Forall (fun d => flight_ok (mk_flight (zlen sub) dc d) (zlen sub) dc sub nvs) ds.
Proof.
  intros Hr Hc Hcnv Hinv Hack Hdc. unfold online_resend in Hr.
  destruct (o_queue o) as [|c0 q0] eqn:Eq.
  { injection Hr as <- <- <-. split; [exact Hinv|]. split; [reflexivity|]. split; [exact Hc|constructor]. }
  rewrite <- Eq in Hr. destruct Hinv as [H1 H2 H3 H4 H5 H6 H7].
  set (q' := restart_timers now (o_queue o)) in *.
  set (o1 := {| o_own := o_own o; o_their := o_their o; o_ack := o_ack o; o_seq := o_seq o;
                o_rr := o_rr o; o_packet := o_packet_nv o; o_packet_nv := o_packet_nv o; o_queue := q' |}) in *.
  assert (Hq' : queue_is q' a (zlen sub) sub) by (apply queue_is_restart, H2).
  assert (Hinv1 : snd_inv o1 sub nvs a).
  { constructor; cbn; try assumption. apply pk_ok_nonvital; assumption. }
  assert (Htodo : todo_is (rev q') (a + 1) a sub).
  { intros j c Hj. destruct (queue_is_rev _ _ _ _ Hq' j c Hj) as [A [B C]]. repeat split; try assumption; lia. }
  destruct (resend_loop_link pp (rev q') (resend_fuel o) o1 [] false o' ds ts sub nvs a dc (a + 1) Hr Htodo
              Hcnv Hinv1 Hack Hdc (Forall_nil _)) as [A [B [C [D E]]]].
  split; [exact A|]. split; [exact B|]. split; [exact C|exact E].
Qed.

Lemma ack_link o sub nvs a c :
  snd_inv o sub nvs a -> 0 <= c <= zlen sub -> zlen sub - c < 1024 ->
  snd_inv (ack_chunks o (seqof c)) sub nvs (Z.max a c).
Proof.
  intros [H1 H2 H3 H4 H5 H6 H7] Hc Hd. unfold ack_chunks.
  destruct (take_until_ack _ _ _ _ c H2 H4 Hc Hd) as [T1 T2].
  destruct (Z_lt_le_dec a c) as [Hlt|Hge].
  - destruct (T1 Hlt) as [q' [Hq Hq']]. rewrite Hq. replace (Z.max a c) with c by lia.
    constructor; cbn; try assumption; lia.
  - rewrite (T2 Hge). replace (Z.max a c) with a by lia. constructor; assumption.
Qed.

Lemma o_set_ack_snd o a r sub nvs k : snd_inv o sub nvs k -> snd_inv (o_set_ack o a r) sub nvs k.
Proof. intros [H1 H2 H3 H4 H5 H6 H7]. constructor; assumption. Qed.

Lemma snd_inv_new own their : snd_inv (online_new own their) [] [] 0.
Proof. constructor; cbn; try reflexivity; try lia; constructor. Qed.

Lemma ack_chunks_same o ack :
  o_seq (ack_chunks o ack) = o_seq o /\ o_ack (ack_chunks o ack) = o_ack o /\
  o_packet (ack_chunks o ack) = o_packet o /\ o_packet_nv (ack_chunks o ack) = o_packet_nv o /\
  o_rr (ack_chunks o ack) = o_rr o.
Proof. unfold ack_chunks. destruct (take_until_seq (o_queue o) ack); repeat split. Qed.

(* cs: chunks of a datagram emitted when its sender had submitted fn chunks; d chunks delivered so far *)
Lemma recv_link cs : forall d rr fn sub nvs ack' rr' evs (k : Z),
  recv_chunks (seqof d) rr cs = Ok (ack', rr', evs) ->
  Forall (fun c => chunk_is c fn 1024 sub nvs) cs ->
  0 <= d <= zlen sub -> fn <= zlen sub -> zlen sub - d <= 511 ->
  zlen cs + k <= 255 -> 0 <= k ->
  (forall c s r, In c cs -> ch_vital c = Some (s, r) -> d - idx_of fn s < 768 + k) ->
  exists d', ack' = seqof d' /\ d <= d' <= zlen sub /\ d' <= d + zlen cs /\
    firstn (Z.to_nat d) sub ++ vital_payloads evs = firstn (Z.to_nat d') sub /\
    d' = d + zlen (vital_payloads evs) /\ incl (nonvital_payloads evs) nvs.
Proof.
  induction cs as [|c cs IH]; intros d rr fn sub nvs ack' rr' evs k H Hall Hd Hfn Hg Hlen Hk Hold.
  - cbn [recv_chunks] in H. injection H as <- <- <-. exists d.
    cbn [vital_payloads nonvital_payloads flat_map]. rewrite app_nil_r.
    unfold zlen in *. cbn [length] in *. repeat split; try lia; try reflexivity; try (intros x Hx; destruct Hx).
  - inversion Hall as [|c' cs' Hc Hrest]; subst. rewrite zlen_cons in Hlen. cbn [recv_chunks] in H.
    pose proof (zlen_nonneg cs) as Hcsnn.
    unfold chunk_is in Hc. destruct (ch_vital c) as [[s r]|] eqn:Ev.
    + destruct Hc as [i [Hi1 [Hi2 [Hi3 Hi4]]]].
      destruct ((s <? 0) || (SEQ_MOD <=? s)); [discriminate|].
      assert (Hidx : idx_of fn s = i) by (apply idx_of_spec; [lia|exact Hi3]).
      pose proof (Hold c s r (or_introl eq_refl) Ev) as Hold0. rewrite Hidx in Hold0.
      destruct (Z.eq_dec i (d + 1)) as [->|Hne].
      * (* the next chunk *)
        rewrite Hi3, seq_update_hit in H by reflexivity.
        destruct (recv_chunks (seqof (d + 1)) rr cs) as [[[a2 r2] e2]| | |] eqn:Er; try discriminate.
        injection H as <- <- <-.
        destruct (IH (d + 1) rr fn sub nvs a2 r2 e2 (k + 1) Er Hrest) as [d' [A [B [C [D [E F]]]]]]; try lia.
        { intros c0 s0 r0 Hin Hv0. specialize (Hold c0 s0 r0 (or_intror Hin) Hv0). lia. }
        exists d'. cbn [vital_payloads flat_map app]. fold (vital_payloads e2). rewrite !zlen_cons.
        split; [exact A|]. split; [lia|]. split; [lia|]. split.
        -- rewrite <- D. rewrite <- firstn_snoc by lia. rewrite <- app_assoc. rewrite Hi4. reflexivity.
        -- split; [lia|]. cbn [nonvital_payloads flat_map app]. exact F.
      * (* not the next chunk: its sequence number is not ack+1 either *)
        assert (Hs : s <> seqof (d + 1)).
        { rewrite Hi3. intros Heq. apply Hne. apply seqof_inj; [exact Heq|]. lia. }
        destruct (seq_update_miss d s Hs) as [o [Hu Ho]]. rewrite Hu in H.
        assert (H' : recv_chunks (seqof d) true cs = Ok (ack', rr', evs)) by (destruct o; try contradiction; exact H).
        destruct (IH d true fn sub nvs ack' rr' evs (k + 1) H' Hrest) as [d' [A [B [C [D [E F]]]]]]; try lia.
        { intros c0 s0 r0 Hin Hv0. specialize (Hold c0 s0 r0 (or_intror Hin) Hv0). lia. }
        exists d'. rewrite zlen_cons. repeat split; try assumption; lia.
    + destruct (recv_chunks (seqof d) rr cs) as [[[a2 r2] e2]| | |] eqn:Er; try discriminate.
      injection H as <- <- <-.
      destruct (IH d rr fn sub nvs a2 r2 e2 (k + 1) Er Hrest) as [d' [A [B [C [D [E F]]]]]]; try lia.
      { intros c0 s0 r0 Hin Hv0. specialize (Hold c0 s0 r0 (or_intror Hin) Hv0). lia. }
      exists d'. cbn [vital_payloads nonvital_payloads flat_map app]. fold (vital_payloads e2). fold (nonvital_payloads e2).
      rewrite zlen_cons. repeat split; try assumption; try lia.
      intros x [<-|Hx]; [exact Hc|apply F, Hx].
Qed.

Lemma recv_no_ready cs : forall ack rr ack' rr' evs,
  recv_chunks ack rr cs = Ok (ack', rr', evs) -> ready_events evs = 0.
Proof.
  induction cs as [|c cs IH]; intros ack rr ack' rr' evs H; cbn [recv_chunks] in H.
  - injection H as <- <- <-. reflexivity.
  - destruct (ch_vital c) as [[s r]|].
    + destruct ((s <? 0) || (SEQ_MOD <=? s)); [discriminate|].
      destruct (seq_update ack s) as [a' []]; try (eapply IH, H).
      destruct (recv_chunks a' rr cs) as [[[a2 r2] e2]| | |] eqn:E; try discriminate.
      injection H as <- <- <-. apply (IH _ _ _ _ _ E).
    + destruct (recv_chunks ack rr cs) as [[[a2 r2] e2]| | |] eqn:E; try discriminate.
      injection H as <- <- <-. apply (IH _ _ _ _ _ E).
Qed.
