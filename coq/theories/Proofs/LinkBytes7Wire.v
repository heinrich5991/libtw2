(* What a 0.7 endpoint holds and emits is made of bytes, as long as what it is given is: an
   invariant of Conn7.step7 used by the byte-level link (C01 over bytes, 0.7). That every 0.7
   datagram carries well-formed tokens is Proofs/Conn7Emit.v; this file only adds byte-ness.
   The lemmas about the shared online core are those of Proofs/LinkBytes6Wire.v. *)
From LibTw2 Require Import Base.Res Model.PacketTypes Model.ConnCore Model.Conn7
  Proofs.ConnCoreInv Proofs.Conn7Inv Proofs.LinkBytes6Wire.
From Coq Require Import ZArith Lia Bool List.
Open Scope Z_scope.

Definition obytes (t : option token) : Prop := match t with Some x => bytesP x | None => True end.

Definition wire_control7 (c : control) : Prop :=
  match c with Close r | TokenMsg r => bytesP r | Connect resp => obytes resp | _ => True end.

Definition wire_dgram7 (d : dgram) : Prop :=
  match d with
  | DConnless tok resp p => obytes tok /\ obytes resp /\ bytesP p
  | DControl tok _ c => obytes tok /\ wire_control7 c
  | DChunks tok _ _ _ cs => obytes tok /\ Forall chunk_bytes cs
  end.

Definition wire_state7 (st : state7) : Prop :=
  match st with
  | Token7 own | PendingConnect7 own => bytesP own
  | Connecting7 own their | Pending7 own their => bytesP own /\ bytesP their
  | Online7 o => wire_online o
  | _ => True
  end.

Definition wire_op7 (o : op7) : Prop :=
  match o with
  | Op7Send d _ | Op7SendConnless d | Op7Disconnect d => bytesP d
  | Op7Feed d => wire_dgram7 d
  | _ => True
  end.

Definition wire_out7 (out : outcome7) : Prop :=
  wire_state7 (c7_state (out7_conn out)) /\ Forall bytesP (e_rand (out7_env out)) /\ Forall wire_dgram7 (out7_sent out).

Lemma mk7_wire c e ds evs ws r : wire_state7 (c7_state c) -> Forall bytesP (e_rand e) -> Forall wire_dgram7 ds ->
  wire_out7 (mk7 c e ds evs ws r).
Proof. intros H1 H2 H3. split; [exact H1|split; [exact H2|exact H3]]. Qed.

Lemma tok_bytes_obytes t : tok_bytes t -> obytes t.
Proof. intros [x [-> H]]. exact H. Qed.

Lemma wire_chunks_dgram7 ds : Forall wire_chunks ds -> Forall wire_dgram7 ds.
Proof.
  apply Forall_impl. intros [| |]; [contradiction|contradiction|]. intros [Ht Hc].
  split; [apply tok_bytes_obytes, Ht|exact Hc].
Qed.

Lemma online_new_wire7 own their : bytesP own -> bytesP their -> wire_online (online_new (Some own) (Some their)).
Proof.
  intros H1 H2. unfold wire_online, online_new. cbn.
  split; [exists own; split; [reflexivity|exact H1]|]. split; [exists their; split; [reflexivity|exact H2]|].
  repeat split; constructor.
Qed.

Lemma send_control_with7_wire st c tok ds : send_control_with7 st c tok = Ok ds ->
  bytesP tok -> wire_control7 c -> Forall wire_dgram7 ds.
Proof.
  unfold send_control_with7. intros H Ht Hc.
  destruct (match c with Connect (Some r) | TokenMsg r => tokb r TOKEN_NONE | _ => false end); [discriminate|].
  destruct (MAX_PACKETSIZE <? _); [discriminate|]. injection H as <-.
  constructor; [|constructor]. split; [exact Ht|exact Hc].
Qed.

Lemma their_bytes st : wire_state7 st -> bytesP (match their_token st with Some t => t | None => TOKEN_NONE end).
Proof.
  destruct st as [|own|own|own their|own their|o|]; cbn [their_token wire_state7]; try (intros _; reflexivity).
  - intros [_ H]. exact H.
  - intros [_ H]. exact H.
  - intros (_ & [x [-> H]] & _). exact H.
Qed.

Lemma send_control7_wire st c ds : send_control7 st c = Ok ds -> wire_state7 st -> wire_control7 c ->
  Forall wire_dgram7 ds.
Proof. unfold send_control7. intros H Hw Hc. eapply send_control_with7_wire; [exact H|apply their_bytes, Hw|exact Hc]. Qed.

Lemma tick_action7_wire c e out : tick_action7 c e = Ok out -> wire_state7 (c7_state c) -> Forall bytesP (e_rand e) ->
  wire_out7 out.
Proof.
  unfold tick_action7. intros H Hw Hr.
  destruct (c7_state c) as [|own|own|own their|own their|o|] eqn:Es;
    try (injection H as <-; apply mk7_wire; [rewrite Es; exact Hw|exact Hr|constructor]).
  - apply bind_ok in H as [d [H1 H2]]. injection H2 as <-.
    apply mk7_wire; [cbn; rewrite Es; exact Hw|exact Hr|]. eapply send_control7_wire; [exact H1|exact Hw|exact Hw].
  - apply bind_ok in H as [d [H1 H2]]. injection H2 as <-.
    apply mk7_wire; [cbn; rewrite Es; exact Hw|exact Hr|]. eapply send_control7_wire; [exact H1|exact Hw|apply Hw].
  - apply bind_ok in H as [d [H1 H2]]. injection H2 as <-.
    apply mk7_wire; [cbn; rewrite Es; exact Hw|exact Hr|]. eapply send_control7_wire; [exact H1|exact Hw|exact I].
  - destruct (can_send o).
    + apply bind_ok in H as [[o' d] [H1 H2]]. injection H2 as <-.
      destruct (flush_wire _ _ _ _ H1 Hw) as [Hw' Hd].
      apply mk7_wire; [exact Hw'|exact Hr|exact (wire_chunks_dgram7 _ Hd)].
    + apply bind_ok in H as [d [H1 H2]]. injection H2 as <-.
      apply mk7_wire; [cbn; rewrite Es; exact Hw|exact Hr|]. eapply send_control7_wire; [exact H1|exact Hw|exact I].
Qed.

Lemma do_resend7_wire c e o c' ds : do_resend7 c e o = Ok (c', ds) -> wire_online o ->
  (exists o', c7_state c' = Online7 o' /\ wire_online o') /\ Forall wire_dgram7 ds.
Proof.
  unfold do_resend7. intros H Hw. apply bind_ok in H as [[[o' d] timer] [H1 H2]]. injection H2 as <- <-.
  destruct (resend_wire _ _ _ _ _ _ H1 Hw) as [Hw' Hd].
  split; [exists o'; split; [reflexivity|exact Hw']|exact (wire_chunks_dgram7 _ Hd)].
Qed.

Lemma token_random7_wire rnd : forall t r, token_random7 rnd = Ok (t, r) -> Forall bytesP rnd ->
  bytesP t /\ Forall bytesP r.
Proof.
  induction rnd as [|x rnd IH]; intros t r H Hr; cbn [token_random7] in H; [discriminate|].
  inversion Hr as [|x0 r0 Hx Hrest]; subst.
  destruct (tokb x TOKEN_NONE); [apply IH; assumption|]. injection H as <- <-. split; assumption.
Qed.

Lemma feed_online7_wire s e o rr cs out :
  wire_online o -> Forall bytesP (e_rand e) -> feed_online7 s e o rr cs = Ok out -> wire_out7 out.
Proof.
  intros Hw Hr H. apply bind_ok in H as [[c3 sent] [H1 H2]].
  assert (Hs : (exists o3, c7_state c3 = Online7 o3 /\ wire_online o3) /\ Forall wire_dgram7 sent).
  { destruct rr; [eapply do_resend7_wire; eassumption|].
    injection H1 as <- <-. split; [exists o; split; [reflexivity|exact Hw]|constructor]. }
  destruct Hs as [[o3 [Eo3 Hw3]] Hsent]. rewrite Eo3 in H2.
  apply bind_ok in H2 as [[[a r] evs] [_ H2]]. injection H2 as <-. apply mk7_wire; [exact Hw3|exact Hr|exact Hsent].
Qed.

Theorem feed7_wire c e d out : feed7 c e d = Ok out ->
  wire_state7 (c7_state c) -> Forall bytesP (e_rand e) -> wire_dgram7 d -> wire_out7 out.
Proof.
  intros Hf Hw Hr Hd.
  destruct d as [tk rs pl|tk ack ctl|tk ack rr n cs]; unfold feed7 in Hf.
  { destruct (negb (otokb tk (own_token (c7_state c)))); [injection Hf as <-; apply mk7_wire; [exact Hw|exact Hr|constructor]|].
    destruct (negb (otokb rs (their_token (c7_state c)))); injection Hf as <-; (apply mk7_wire; [exact Hw|exact Hr|constructor]). }
  (* a connection-oriented datagram: token check, then ack range *)
  all: match type of Hf with context [if negb (tokb ?a ?b) then _ else _] => destruct (negb (tokb a b)) end;
    [injection Hf as <-; apply mk7_wire; [exact Hw|exact Hr|constructor]|].
  all: destruct ((ack <? 0) || (SEQ_MOD <=? ack)); [discriminate|].
  - destruct Hd as [Htk Hctl].
    set (st1 := match c7_state c with Online7 o => Online7 (ack_chunks o ack) | _ => c7_state c end) in Hf.
    assert (Hw1 : wire_state7 st1).
    { unfold st1. destruct (c7_state c); try exact Hw. cbn. apply ack_wire, Hw. }
    clearbody st1.
    assert (Hsame : forall snd evs ws, wire_out7 (mk7 {| c7_state := st1; c7_send := snd |} e [] evs ws R7Ok)).
    { intros. apply mk7_wire; [exact Hw1|exact Hr|constructor]. }
    destruct ctl as [|resp| | |reason|resp]; try (injection Hf as <-; apply Hsame).
    + destruct st1 as [|own|own|own their|own their|o|]; try (injection Hf as <-; apply Hsame).
      destruct resp as [t|]; [|injection Hf as <-; apply Hsame].
      eapply tick_action7_wire; [exact Hf| |exact Hr]. cbn. split; [exact Hw1|exact Hctl].
    + destruct st1 as [|own|own|own their|own their|o|]; try (injection Hf as <-; apply Hsame).
      injection Hf as <-. apply mk7_wire; [|exact Hr|constructor]. cbn. apply online_new_wire7; apply Hw1.
    + injection Hf as <-. apply mk7_wire; [exact I|exact Hr|constructor].
    + destruct st1 as [|own|own|own their|own their|o|]; try (injection Hf as <-; apply Hsame).
      * apply bind_ok in Hf as [[nt rnd'] [H1 H2]]. apply bind_ok in H2 as [s [H2 H3]]. injection H3 as <-.
        destruct (token_random7_wire _ _ _ H1 Hr) as [Hnt Hrnd].
        apply mk7_wire; [exact Hnt|exact Hrnd|]. eapply send_control_with7_wire; [exact H2|exact Hctl|exact Hnt].
      * eapply tick_action7_wire; [exact Hf| |exact Hr]. cbn. split; [exact Hw1|exact Hctl].
      * apply bind_ok in Hf as [s [H2 H3]]. injection H3 as <-.
        apply mk7_wire; [exact Hw1|exact Hr|]. eapply send_control_with7_wire; [exact H2|exact Hctl|exact Hw1].
  - destruct Hd as [Htk Hcs].
    destruct (c7_state c) as [|own|own|own their|own their|o|] eqn:Es;
      try (injection Hf as <-; apply mk7_wire; [exact Hw|exact Hr|constructor]).
    + eapply feed_online7_wire; [|exact Hr|exact Hf]. apply online_new_wire7; apply Hw.
    + eapply feed_online7_wire; [|exact Hr|exact Hf]. apply ack_wire, Hw.
Qed.

Theorem step7_wire c e o out : step7 c e o = Ok out ->
  wire_state7 (c7_state c) -> Forall bytesP (e_rand e) -> wire_op7 o -> wire_out7 out.
Proof.
  intros Hs Hw Hr Ho. destruct o as [|data vital| | |reason|data|d| |]; unfold step7 in Hs.
  - destruct (c7_state c); try discriminate. apply bind_ok in Hs as [[t rnd'] [H1 H2]].
    destruct (token_random7_wire _ _ _ H1 Hr) as [Ht Hrnd].
    eapply tick_action7_wire; [exact H2|exact Ht|exact Hrnd].
  - destruct (c7_state c) as [|own|own|own their|own their|on|]; try discriminate.
    apply bind_ok in Hs as [[[o' d] r] [H1 H2]]. injection H2 as <-.
    destruct (send_wire _ _ _ _ _ _ _ _ H1 Hw Ho) as [Hw' Hd].
    apply mk7_wire; [exact Hw'|exact Hr|exact (wire_chunks_dgram7 _ Hd)].
  - destruct (c7_state c) as [|own|own|own their|own their|on|]; try discriminate.
    apply bind_ok in Hs as [[o' d] [H1 H2]]. injection H2 as <-.
    destruct (flush_wire _ _ _ _ H1 Hw) as [Hw' Hd].
    apply mk7_wire; [exact Hw'|exact Hr|exact (wire_chunks_dgram7 _ Hd)].
  - destruct (match c7_state c with
              | Online7 o => match queue_back (o_queue o) with Some rc => triggered (rc_next rc) (e_now e) | None => false end
              | _ => false end).
    + destruct (c7_state c) as [|own|own|own their|own their|on|] eqn:Es;
        try (injection Hs as <-; apply mk7_wire; [rewrite Es; exact Hw|exact Hr|constructor]).
      apply bind_ok in Hs as [[c' d] [H1 H2]]. injection H2 as <-.
      destruct (do_resend7_wire _ _ _ _ _ H1 Hw) as [[o3 [Eo3 Hw3]] Hsent].
      apply mk7_wire; [rewrite Eo3; exact Hw3|exact Hr|exact Hsent].
    + destruct (triggered (c7_send c) (e_now e)); [|injection Hs as <-; apply mk7_wire; [exact Hw|exact Hr|constructor]].
      eapply tick_action7_wire; [exact Hs|exact Hw|exact Hr].
  - destruct (c7_state c) as [|own|own|own their|own their|on|] eqn:Es; try discriminate.
    all: destruct (existsb (fun b => b =? 0) reason); try discriminate.
    all: apply bind_ok in Hs as [d [H1 H2]]; injection H2 as <-; apply mk7_wire; [exact I|exact Hr|].
    all: eapply send_control7_wire; [exact H1|exact Hw|exact Ho].
  - destruct (c7_state c) as [|own|own|own their|own their|on|] eqn:Es; try discriminate.
    destruct (MAX_PAYLOAD <? _); injection Hs as <-; (apply mk7_wire; [cbn; rewrite Es; exact Hw|exact Hr|]).
    + constructor.
    + constructor; [|constructor]. destruct Hw as (H1 & H2 & _).
      split; [apply tok_bytes_obytes, H2|]. split; [apply tok_bytes_obytes, H1|exact Ho].
  - eapply feed7_wire; eassumption.
  - injection Hs as <-. apply mk7_wire; [exact Hw|exact Hr|constructor].
  - destruct (c7_state c); try discriminate. injection Hs as <-. apply mk7_wire; [exact I|exact Hr|constructor].
Qed.
