(* 0.6 reader. First the reader of a connected packet in closed form (where its payload
   lives, with the decompression step spelled out); then the reader applied to what the
   writer produces: read (encoding p) = p, no warnings (except the deliberate ChunksNoChunks
   of class K05), in both compression branches. The Huffman coder is a Section parameter
   with the round-trip property as hypothesis. *)
From LibTw2 Require Import Base.Res Base.Bits Model.PacketTypes Model.PacketBase Gen.Consts6 Gen.Bits6
  Model.Packet6 Proofs.PktSweep Proofs.PktBits6 Proofs.Packet6Write.
From Coq Require Import ZArith Lia Bool List.
Open Scope Z_scope.

Lemma header_of6_enc hp body :
  header_of6 (PacketHeaderPacked6_as_bytes hp ++ body)
  = (let (h, ws) := PacketHeaderPacked6_unpack_warn hp in Some (h, ws, body)).
Proof. destruct hp; reflexivity. Qed.

Lemma of_bytes6_enc hp body :
  PacketHeaderPacked6_of_bytes (PacketHeaderPacked6_as_bytes hp ++ body) = Some (hp, body).
Proof. destruct hp; reflexivity. Qed.

Section Slice.
Variable decomp : HuffC.

(* Packet::decompress on a compressed, connected datagram: a three-byte header, then
   whatever the Huffman decoder makes of the payload *)
Lemma decompress6_eq bs h ws payload cap :
  header_of6 bs = Some (h, ws, payload) -> ph6_in_range h = true ->
  land_ne0 (ph6_flags h) PACKETFLAG_CONNLESS = false ->
  land_ne0 (ph6_flags h) PACKETFLAG_COMPRESSION = true ->
  Z.of_nat (length bs) >? MAX_PACKETSIZE = false -> MAX_PACKETSIZE <= Z.of_nat cap ->
  exists fp, decompress6 decomp bs cap
    = match decomp payload (cap - 3)%nat with
      | None => Err tt
      | Some d => Ok (PacketHeaderPacked6_as_bytes fp ++ d)
      end.
Proof.
  intros Eh Hr Fc Fz Hlen Hcap. unfold decompress6, needs_decompression6.
  rewrite (proj2 (Z.ltb_ge _ _)), Hlen, Eh, Fc, Fz by exact Hcap. cbn [negb andb].
  destruct h as [f a n]. apply ph6_in_range_iff in Hr as (R1 & R2 & R3). cbn [ph6_flags ph6_ack ph6_num_chunks].
  (* the flags of the fake header that decompress writes in front of the decompressed payload *)
  pose proof (land_small f (Z.lxor PACKETFLAG_COMPRESSION 255) 16 eq_refl R1) as Rf.
  destruct (ph6_pack_unpack {| ph6_flags := Z.land f (Z.lxor PACKETFLAG_COMPRESSION 255); ph6_ack := a; ph6_num_chunks := n |})
    as (fp & -> & _); [apply ph6_in_range_iff; lia|].
  replace (length (PacketHeaderPacked6_as_bytes fp)) with 3%nat by (destruct fp; reflexivity).
  rewrite (proj2 (Nat.ltb_ge _ _)) by (unfold MAX_PACKETSIZE in Hcap; lia). exists fp. reflexivity.
Qed.

(* read_impl: where the payload of a connected packet lives *)
Definition payload_at6 (flags : Z) (payload : bytes) (cap : nat) : res rderr6 slice :=
  if land_ne0 flags PACKETFLAG_COMPRESSION then
    match decomp payload (cap - 3)%nat with
    | Some d => Ok {| s_src := Scratch; s_off := 3; s_data := d |}
    | None => Err E6Compression
    end
  else Ok {| s_src := Input; s_off := 3; s_data := payload |}.

Lemma payload_slice6_eq bs h ws payload cap :
  header_of6 bs = Some (h, ws, payload) -> ph6_in_range h = true ->
  land_ne0 (ph6_flags h) PACKETFLAG_CONNLESS = false ->
  Z.of_nat (length bs) >? MAX_PACKETSIZE = false -> MAX_PACKETSIZE <= Z.of_nat cap ->
  payload_slice6 decomp bs (Some cap) (ph6_flags h) payload
  = payload_at6 (ph6_flags h) payload cap.
Proof.
  intros Eh Hr Fc Hlen Hcap. unfold payload_slice6, payload_at6.
  destruct (land_ne0 (ph6_flags h) PACKETFLAG_COMPRESSION) eqn:Fz; [|reflexivity].
  destruct (decompress6_eq bs h ws payload cap Eh Hr Fc Fz Hlen Hcap) as [fp ->].
  destruct (decomp payload (cap - 3)%nat); [|reflexivity]. rewrite of_bytes6_enc. reflexivity.
Qed.

Lemma read6_enc h body hint cap : ph6_in_range h = true ->
  land_ne0 (ph6_flags h) PACKETFLAG_CONNLESS = false ->
  Z.of_nat (length body) <= MAX_PACKETSIZE - HEADER_SIZE -> MAX_PACKETSIZE <= Z.of_nat cap ->
  read6 decomp (hdr_bytes6 h ++ body) hint cap
  = match payload_at6 (ph6_flags h) body cap with
    | Ok p => read_payload6 [] h hint p
    | Err e => ([], Err e)
    | Panic s => ([], Panic s)
    | OutOfFuel => ([], OutOfFuel)
    end.
Proof.
  intros Hr Fc Hb Hcap. destruct (hdr_bytes6_ok h Hr) as (hp & _ & Eh & Eu & Hl3).
  assert (Hlen : Z.of_nat (length (hdr_bytes6 h ++ body)) >? MAX_PACKETSIZE = false).
  { rewrite Z.gtb_ltb. apply Z.ltb_ge. rewrite app_length, Hl3. unfold HEADER_SIZE in Hb. lia. }
  assert (Ehd : header_of6 (hdr_bytes6 h ++ body) = Some (h, [], body)) by (rewrite Eh, header_of6_enc, Eu; reflexivity).
  unfold read6, read_impl6. rewrite (proj2 (Z.ltb_ge _ _)), Hlen, Ehd, Fc by exact Hcap.
  rewrite (payload_slice6_eq _ _ _ _ _ Ehd Hr Fc Hlen Hcap). reflexivity.
Qed.

End Slice.

Section Read.
Variables comp decomp : HuffC.
(* C07's round trip, as a hypothesis about the coder handed to the packet layer *)
Hypothesis huff_rt : forall x c y, bytes_ok x = true -> comp x c = Some y ->
  forall c', (length x <= c')%nat -> decomp y c' = Some x.

Definition views_of6 (p : packet6) (compressed : bool) : list view :=
  match p with
  | P6Connless payload => [{| v_src := Input; v_off := 6; v_len := length payload |}]
  | P6Connected _ _ (P6Chunks _ _ payload) =>
    [{| v_src := if compressed then Scratch else Input; v_off := 3; v_len := length payload |}]
  | P6Connected _ _ (P6Control (C6Close reason)) => [{| v_src := Input; v_off := 4; v_len := length reason |}]
  | P6Connected _ _ (P6Control _) => []
  end.

Definition enc_compressed6 (p : packet6) : bool :=
  match p with
  | P6Connected _ tok (P6Chunks _ _ payload) => chunks_compressed6 comp (chunks_payload6 tok payload)
  | _ => false
  end.

Definition k05_warnings6 (p : packet6) : list warning6 := if K05_6 p then [W6ChunksNoChunks] else [].

Lemma packet_flags_facts6 resend c :
  let f := Z.lor (bool_flag resend PACKETFLAG_REQUEST_RESEND) (bool_flag c PACKETFLAG_COMPRESSION) in
  land_ne0 f PACKETFLAG_CONNLESS = false /\ land_ne0 f PACKETFLAG_COMPRESSION = c
  /\ land_ne0 f PACKETFLAG_CONTROL = false /\ land_ne0 f PACKETFLAG_REQUEST_RESEND = resend.
Proof. destruct resend, c; vm_compute; repeat split. Qed.

Lemma read_payload6_hint ws h src off d pre tok :
  d = pre ++ opt_bytes tok -> Z.of_nat (length d) <= MAX_PACKETSIZE - HEADER_SIZE ->
  match tok with Some t => token_ok t | None => true end = true ->
  read_payload6 ws h (Some (is_some tok)) {| s_src := src; s_off := off; s_data := d |}
  = let p' := {| s_src := src; s_off := off; s_data := pre |} in
    if land_ne0 (ph6_flags h) PACKETFLAG_CONTROL then read_control6 ws h tok (ph6_ack h) p'
    else
      let rr := land_ne0 (ph6_flags h) PACKETFLAG_REQUEST_RESEND in
      (ws ++ (if (ph6_num_chunks h =? 0) && negb rr then [W6ChunksNoChunks] else []),
       Ok (P6Connected (ph6_ack h) tok (P6Chunks rr (ph6_num_chunks h) pre), [view_of p'])).
Proof.
  intros -> Hl Ht. unfold read_payload6. cbn [s_data].
  rewrite Z.gtb_ltb, (proj2 (Z.ltb_ge _ _)) by exact Hl.
  destruct tok as [tk|]; cbn [is_some opt_bytes andb].
  - apply Nat.eqb_eq in Ht. rewrite app_length, Ht, (proj2 (Z.ltb_ge _ _)) by (unfold TOKEN_SIZE; lia).
    change (Z.to_nat TOKEN_SIZE) with 4%nat. rewrite Nat.add_sub.
    unfold slice_take. cbn [s_data s_src s_off]. rewrite firstn_app_exact, skipn_app_exact. reflexivity.
  - rewrite app_nil_r. reflexivity.
Qed.

Lemma read_chunks_enc6 ack tok resend nc payload cap :
  expressible6 (P6Connected ack tok (P6Chunks resend nc payload)) = true ->
  packet_bytes_ok6 (P6Connected ack tok (P6Chunks resend nc payload)) = true -> (1400 <= cap)%nat ->
  let p := P6Connected ack tok (P6Chunks resend nc payload) in
  read6 decomp (encoding6 comp p) (true_hint6 p) cap
  = (k05_warnings6 p, Ok (p, views_of6 p (enc_compressed6 p))).
Proof.
  intros Hx Hbok Hcap p. apply Nat2Z.inj_le in Hcap. change (Z.of_nat 1400) with MAX_PACKETSIZE in Hcap.
  apply expressible6_connected in Hx as (Hack & Htok & Hty).
  apply andb_true_iff in Hty as [Hnc Hlen]. apply Z.leb_le in Hlen.
  destruct (chunks_payload6_expr tok payload Hlen Htok) as [Epl Hpl].
  change (true_hint6 p) with (Some (is_some tok)).
  unfold p, encoding6, enc_compressed6. set (pl' := chunks_payload6 tok payload) in *. cbv zeta.
  assert (Hplok : bytes_ok pl' = true).
  { rewrite Epl. cbn [packet_bytes_ok6] in Hbok. apply andb_true_iff in Hbok as [Ht Hp].
    rewrite bytes_ok_app, Hp. destruct tok; [exact Ht|reflexivity]. }
  pose proof (packet_flags_facts6 resend (chunks_compressed6 comp pl')) as (F1 & F2 & F3 & F4).
  pose proof (chunks_flags6_range comp resend pl') as Hf. pose proof (chunks_body6_len comp pl') as Hbody.
  fold (chunks_flags6 comp resend pl') in F1, F2, F3, F4. set (f := chunks_flags6 comp resend pl') in *. clearbody f.
  assert (Hr : ph6_in_range {| ph6_flags := f; ph6_ack := ack; ph6_num_chunks := nc |} = true) by (apply ph6_in_range_iff; lia).
  (* wherever the payload ends up, the rest of the reader returns the value *)
  assert (Hread : forall src,
            read_payload6 [] {| ph6_flags := f; ph6_ack := ack; ph6_num_chunks := nc |}
              (Some (is_some tok)) {| s_src := src; s_off := 3; s_data := pl' |}
            = (k05_warnings6 p, Ok (p, [{| v_src := src; v_off := 3; v_len := length payload |}]))).
  { intros src. rewrite (read_payload6_hint _ _ _ _ _ _ _ Epl) by assumption.
    cbn [ph6_flags ph6_ack ph6_num_chunks]. rewrite F3, F4.
    unfold p, k05_warnings6, K05_6, view_of. cbn [s_data s_src s_off app]. destruct resend, (nc =? 0); reflexivity. }
  rewrite (read6_enc decomp _ _ _ cap Hr F1) by (exact Hcap || lia). unfold payload_at6. cbn [ph6_flags views_of6]. rewrite F2.
  unfold chunks_body6. destruct (chunks_compressed6 comp pl') eqn:Ec; [|apply Hread].
  unfold chunks_compressed6 in Ec. destruct (comp pl' ARRAYVEC_CAP) as [s|] eqn:Es; [|discriminate]. cbn [opt_bytes].
  rewrite (huff_rt pl' ARRAYVEC_CAP s Hplok Es) by (unfold MAX_PACKETSIZE, HEADER_SIZE in *; lia). apply Hread.
Qed.

Lemma read_control6_enc ack tok c :
  close_nul6 c = false -> match c with C6Close m => (length m <= 127)%nat | _ => True end ->
  read_control6 [] {| ph6_flags := PACKETFLAG_CONTROL; ph6_ack := ack; ph6_num_chunks := 0 |} tok ack
    {| s_src := Input; s_off := 3;
       s_data := ([ctrl_magic6 c] ++ (if is_connect6 c && is_some tok then CTRLMSG_TOKEN_MAGIC else []))
                 ++ match c with C6Close m => m ++ [0] | _ => [] end |}
  = ([], Ok (P6Connected ack tok (P6Control c), views_of6 (P6Connected ack tok (P6Control c)) false)).
Proof.
  intros Hn Hl. destruct c as [| | | |m]; try (destruct tok; reflexivity).
  destruct (close_reason_cut m Hn Hl) as (E1 & E2 & E3).
  unfold read_control6. cbn [ctrl_magic6 is_connect6 andb app s_data ph6_flags ph6_num_chunks].
  change (Z.to_nat CTRLMSG_CLOSE_REASON_LENGTH) with 127%nat. rewrite E1, E2.
  unfold slice_take, slice_skip, view_of. cbn [s_data s_src s_off skipn]. rewrite E3, andb_false_r. reflexivity.
Qed.

Lemma control_body6_split c tok :
  control_body6 c tok
  = (([ctrl_magic6 c] ++ (if is_connect6 c && is_some tok then CTRLMSG_TOKEN_MAGIC else []))
     ++ match c with C6Close m => m ++ [0] | _ => [] end) ++ opt_bytes tok.
Proof. unfold control_body6. rewrite !app_assoc. reflexivity. Qed.

Lemma read_control_enc6 ack tok c cap :
  expressible6 (P6Connected ack tok (P6Control c)) = true -> (1400 <= cap)%nat ->
  let p := P6Connected ack tok (P6Control c) in
  read6 decomp (encoding6 comp p) (true_hint6 p) cap = ([], Ok (p, views_of6 p false)).
Proof.
  intros Hx Hcap p. apply Nat2Z.inj_le in Hcap. change (Z.of_nat 1400) with MAX_PACKETSIZE in Hcap.
  destruct (control_body6_len ack tok c Hx) as [Hn Hbl].
  apply expressible6_connected in Hx as (Hack & Htok & Hty).
  pose proof (ph6_control_in_range ack Hack) as Hr.
  assert (Hb : Z.of_nat (length (control_body6 c tok)) <= MAX_PACKETSIZE - HEADER_SIZE) by (unfold MAX_PACKETSIZE, HEADER_SIZE; lia).
  change (true_hint6 p) with (Some (is_some tok)). unfold p, encoding6.
  rewrite (read6_enc decomp _ _ _ cap Hr eq_refl Hb Hcap). unfold payload_at6. cbn [ph6_flags].
  change (land_ne0 PACKETFLAG_CONTROL PACKETFLAG_COMPRESSION) with false. cbv iota.
  rewrite (read_payload6_hint _ _ _ _ _ _ tok (control_body6_split c tok)) by assumption. cbn [ph6_flags ph6_ack]. apply read_control6_enc; [exact Hn|].
  destruct c; try exact I. apply andb_true_iff in Hty as [_ Hml]. unfold CTRLMSG_CLOSE_REASON_LENGTH in Hml. lia.
Qed.

Lemma read_connless_enc6 payload hint cap :
  expressible6 (P6Connless payload) = true -> (1400 <= cap)%nat ->
  read6 decomp (encoding6 comp (P6Connless payload)) hint cap
  = ([], Ok (P6Connless payload, views_of6 (P6Connless payload) false)).
Proof.
  intros Hx Hcap. cbn [expressible6] in Hx. apply Z.leb_le in Hx.
  unfold MAX_PACKETSIZE, HEADER_SIZE, PADDING_SIZE_CONNLESS in Hx.
  unfold encoding6, read6, read_impl6.
  rewrite (proj2 (Z.ltb_ge _ _)) by (unfold MAX_PACKETSIZE; lia).
  rewrite Z.gtb_ltb, (proj2 (Z.ltb_ge _ _)) by (rewrite app_length; cbn [repeat length]; unfold MAX_PACKETSIZE; lia).
  cbn [repeat app]. unfold header_of6. cbn [PacketHeaderPacked6_of_bytes].
  change (PacketHeaderPacked6_unpack_warn {| php6_flags_padding_ack := 255; php6_ack := 255; php6_num_chunks := 255 |})
    with ({| ph6_flags := 15; ph6_ack := 1023; ph6_num_chunks := 255 |}, @nil warning6).
  cbn [ph6_flags]. change (land_ne0 15 PACKETFLAG_CONNLESS) with true. cbv iota.
  unfold read_connless6. cbn [length].
  rewrite (proj2 (Z.ltb_ge _ _)) by (unfold PADDING_SIZE_CONNLESS; lia).
  reflexivity.
Qed.

Theorem read_encoding6 p cap : expressible6 p = true -> packet_bytes_ok6 p = true -> (1400 <= cap)%nat ->
  read6 decomp (encoding6 comp p) (true_hint6 p) cap
  = (k05_warnings6 p, Ok (p, views_of6 p (enc_compressed6 p))).
Proof.
  intros Hx Hbok Hcap. destruct p as [payload|ack tok [resend nc payload|c]].
  - apply read_connless_enc6; assumption.
  - apply read_chunks_enc6; assumption.
  - apply (read_control_enc6 ack tok c cap Hx Hcap).
Qed.

Theorem read_write6 p cap out cap2 : expressible6 p = true -> packet_bytes_ok6 p = true ->
  write6 comp p cap = Ok out -> (1400 <= cap2)%nat ->
  (length out <= cap)%nat
  /\ read6 decomp out (true_hint6 p) cap2 = (k05_warnings6 p, Ok (p, views_of6 p (enc_compressed6 p))).
Proof.
  intros Hx Hb Hw Hcap. destruct (write6_ok_encoding comp p cap out Hw) as [-> Hl].
  split; [exact Hl|apply read_encoding6; assumption].
Qed.

End Read.
