(* Facts about the notions of Model/PacketBase.v that the 0.6 and the 0.7 packet proofs
   share: the bounded write buffer, NUL search, slices that stay inside their buffer. *)
From LibTw2 Require Import Base.Res Model.PacketTypes Model.PacketBase Proofs.PktSweep.
From Coq Require Import ZArith Lia Bool List.
Import ListNotations.
Open Scope Z_scope.

Definition wb_ext (t : wbuf) (bs : bytes) : wbuf := {| wb_data := wb_data t ++ bs; wb_cap := wb_cap t |}.

Lemma wb_write_fits t bs : (length (wb_data t) + length bs <= wb_cap t)%nat ->
  wb_write t bs = (wb_ext t bs, true).
Proof.
  intros H. unfold wb_write. rewrite (proj2 (Nat.leb_le _ _)) by lia. reflexivity.
Qed.

Lemma wb_write_true t bs t' : wb_write t bs = (t', true) ->
  t' = wb_ext t bs /\ (length bs <= wb_cap t - length (wb_data t))%nat.
Proof.
  unfold wb_write. destruct (Nat.leb_spec (length bs) (wb_cap t - length (wb_data t))) as [E|E]; intros H.
  - injection H as <-. split; [reflexivity|exact E].
  - discriminate.
Qed.

Lemma wb_write_app t a b :
  wb_write t (a ++ b) = let (t1, ok) := wb_write t a in if ok then wb_write t1 b else (t1, false).
Proof.
  unfold wb_write. set (room := (wb_cap t - length (wb_data t))%nat).
  rewrite app_length.
  destruct (Nat.leb_spec (length a) room) as [Ha|Ha]; cbn [wb_data wb_cap].
  - rewrite app_length. replace (wb_cap t - (length (wb_data t) + length a))%nat with (room - length a)%nat by lia.
    destruct (Nat.leb_spec (length b) (room - length a)) as [Hb|Hb].
    + rewrite (proj2 (Nat.leb_le _ _)) by lia. rewrite app_assoc. reflexivity.
    + rewrite (proj2 (Nat.leb_gt _ _)) by lia.
      rewrite firstn_app, (firstn_all2 a), <- app_assoc by lia. reflexivity.
  - rewrite (proj2 (Nat.leb_gt _ _)) by lia.
    rewrite firstn_app. replace (room - length a)%nat with 0%nat by lia. rewrite app_nil_r. reflexivity.
Qed.

Lemma skipn_skipn {A} (a b : nat) (l : list A) : skipn a (skipn b l) = skipn (b + a) l.
Proof.
  revert l. induction b as [|b IH]; intros l; [reflexivity|].
  destruct l; [destruct a; reflexivity|]. cbn [skipn Nat.add]. apply IH.
Qed.

Lemma bytes_ok_cons b bs : bytes_ok (b :: bs) = true -> byte_ok b = true /\ bytes_ok bs = true.
Proof. unfold bytes_ok. cbn [forallb]. apply andb_true_iff. Qed.

Lemma token_quad (t : bytes) : length t = 4%nat -> exists a b c d, t = [a; b; c; d].
Proof.
  destruct t as [|a [|b [|c [|d [|e t]]]]]; try discriminate. intros _. exists a, b, c, d. reflexivity.
Qed.

Lemma find_nul_app_nul m rest : has_nul m = false -> find_nul (m ++ 0 :: rest) = length m.
Proof.
  induction m as [|b m IH]; cbn [has_nul existsb app find_nul length]; intros H.
  - reflexivity.
  - apply orb_false_iff in H as [Hb Hm]. rewrite Hb. f_equal. apply IH. exact Hm.
Qed.

Lemma has_nul_firstn rest : forall n, (n <= find_nul rest)%nat -> has_nul (firstn n rest) = false.
Proof.
  induction rest as [|b r IH]; intros n Hn; [destruct n; reflexivity|].
  cbn [find_nul] in Hn. destruct n as [|n]; [reflexivity|].
  destruct (b =? 0) eqn:Eb; [lia|].
  cbn [firstn has_nul existsb]. rewrite Eb. apply IH. lia.
Qed.

(* a close reason as the writers emit it (NUL-free, then one NUL) is cut out again by the
   readers' `min(position of the first NUL, CTRLMSG_CLOSE_REASON_LENGTH)` *)
Lemma close_reason_cut m : has_nul m = false -> (length m <= 127)%nat ->
  Nat.min (find_nul (m ++ [0])) 127 = length m
  /\ (length m + 1 =? length (m ++ [0%Z]))%nat = true
  /\ firstn (length m) (m ++ [0]) = m.
Proof.
  intros Hn Hl. rewrite find_nul_app_nul, app_length, Nat.eqb_refl, firstn_app_exact by exact Hn.
  repeat split. lia.
Qed.

(* n bytes from the start of a buffer: of the input (nbytes long), or of the scratch buffer
   (cap = Some c: c bytes long; None: no claim) *)
Definition in_buffer (nbytes : nat) (cap : option nat) (src : source) (n : nat) : Prop :=
  match src with
  | Input => (n <= nbytes)%nat
  | Scratch => match cap with Some c => (n <= c)%nat | None => True end
  end.

(* with a claim about the scratch buffer (cap = Some _) comes the claim that slices hold bytes *)
Definition slice_ok (nbytes : nat) (cap : option nat) (s : slice) : Prop :=
  in_buffer nbytes cap (s_src s) (s_off s + length (s_data s))
  /\ (cap = None \/ bytes_ok (s_data s) = true).

Lemma in_buffer_le nb cap src n m : in_buffer nb cap src n -> (m <= n)%nat -> in_buffer nb cap src m.
Proof. unfold in_buffer. destruct src; [|destruct cap]; intros; try exact I; lia. Qed.

Lemma slice_take_ok nb cap n s : slice_ok nb cap s -> slice_ok nb cap (slice_take n s).
Proof.
  unfold slice_ok, slice_take. cbn [s_src s_off s_data]. intros [H Hb]. split.
  - apply (in_buffer_le _ _ _ _ _ H). rewrite firstn_length. lia.
  - destruct Hb as [Hb|Hb]; [left; exact Hb|right; apply bytes_ok_firstn, Hb].
Qed.

Lemma slice_skip_ok nb cap n s : slice_ok nb cap s -> (n <= length (s_data s))%nat ->
  slice_ok nb cap (slice_skip n s).
Proof.
  unfold slice_ok, slice_skip. cbn [s_src s_off s_data]. intros [H Hb] Hn. split.
  - apply (in_buffer_le _ _ _ _ _ H). rewrite skipn_length. lia.
  - destruct Hb as [Hb|Hb]; [left; exact Hb|right; apply bytes_ok_skipn, Hb].
Qed.

Lemma slice_input_ok nb cap off d : (off + length d <= nb)%nat -> bytes_ok d = true ->
  slice_ok nb cap {| s_src := Input; s_off := off; s_data := d |}.
Proof. intros Hl Hb. split; [exact Hl|right; exact Hb]. Qed.

Lemma close_reason_ok nb cap p control rest n : slice_ok nb cap p -> s_data p = control :: rest ->
  let reason := slice_take (Nat.min (find_nul rest) n) (slice_skip 1 p) in
  slice_ok nb cap reason /\ has_nul (s_data reason) = false /\ (length (s_data reason) <= n)%nat.
Proof.
  intros Hs Ed reason.
  assert (Hskip : s_data (slice_skip 1 p) = rest) by (unfold slice_skip; cbn [s_data]; rewrite Ed; reflexivity).
  split; [apply slice_take_ok, slice_skip_ok; [exact Hs|rewrite Ed; cbn [length]; lia]|].
  unfold reason, slice_take. cbn [s_data]. rewrite Hskip, firstn_length. split; [apply has_nul_firstn|]; lia.
Qed.

Lemma half_step a b : (a + 2 <= b)%nat -> (a / 2 + 1 <= b / 2)%nat.
Proof.
  intros H. replace (a / 2 + 1)%nat with ((a + 1 * 2) / 2)%nat by (rewrite Nat.div_add by lia; reflexivity).
  apply Nat.div_le_mono; lia.
Qed.

(* `while let Some(c) = it.next_warn(warn)` over an abstract chunk iterator: [next] is one call,
   [data] what is left of the payload, [remaining] the i32 counter that every chunk decrements.
   chunks_all6_loop and chunks_all7_loop are [all_loop] of their next functions. *)
Section ChunkLoop.
Context {I W : Type} (next : I -> res Empty_set (option (chunk * view) * I * list W))
        (data : I -> bytes) (remaining : I -> Z).

Fixpoint all_loop (k : nat) (it : I) : res Empty_set (list (chunk * view) * list W * I) :=
  match k with
  | O => OutOfFuel
  | S k' =>
    match next it with
    | Ok (None, it', ws) => Ok ([], ws, it')
    | Ok (Some c, it', ws) =>
      match all_loop k' it' with
      | Ok (cs, ws', it'') => Ok (c :: cs, ws ++ ws', it'')
      | r => r
      end
    | Err e => Err e
    | Panic s => Panic s
    | OutOfFuel => OutOfFuel
    end
  end.

(* one call from it: the invariant is kept; a chunk has the property P, uses up at least two
   bytes and one unit of the counter; None leaves nothing to iterate *)
Definition next_ok (inv : I -> Prop) (P : chunk * view -> Prop) (it : I) (o : option (chunk * view)) (it' : I) : Prop :=
  inv it'
  /\ match o with
     | Some cv => P cv /\ (length (data it') + 2 <= length (data it))%nat /\ remaining it' = remaining it - 1
     | None => data it' = [] /\ remaining it' = remaining it
     end.

Definition counter_suffices (it : I) : Prop := i32_min <= remaining it - Z.of_nat (length (data it)).

Section Total.
Variables (inv : I -> Prop) (P : chunk * view -> Prop).
Hypothesis next_spec : forall it, inv it -> counter_suffices it ->
  exists o it' ws, next it = Ok (o, it', ws) /\ next_ok inv P it o it'.

Lemma all_loop_spec : forall k it, inv it -> (length (data it) / 2 < k)%nat -> counter_suffices it ->
  exists cs ws it', all_loop k it = Ok (cs, ws, it')
    /\ (length cs <= length (data it) / 2)%nat /\ Forall P cs /\ data it' = [].
Proof.
  unfold counter_suffices in *.
  induction k as [|k IH]; intros it Hinv Hk Hrem; [exfalso; exact (Nat.nlt_0_r _ Hk)|].
  cbn [all_loop].
  destruct (next_spec it Hinv Hrem) as (o & it1 & ws1 & -> & Hinv1 & Ho).
  destruct o as [cv|].
  - destruct Ho as (Hin & Hl & Hr). pose proof (half_step _ _ Hl) as Hh.
    destruct (IH it1 Hinv1 ltac:(lia) ltac:(lia)) as (cs & ws & it' & -> & Hc & Hf & Hd').
    exists (cv :: cs), (ws1 ++ ws), it'. split; [reflexivity|].
    split; [cbn [length]; lia|]. split; [constructor|]; assumption.
  - destruct Ho as [Hd _]. exists [], ws1, it1. split; [reflexivity|].
    split; [cbn [length]; lia|]. split; [constructor|assumption].
Qed.
End Total.

(* iterating the concatenated encodings of cs, announced as length cs chunks, gives cs back
   without a warning *)
Section Enc.
Variables (wf : chunk -> bool) (enc : chunk -> bytes).
Hypothesis next_nil : forall it, data it = [] -> remaining it = 0 -> exists it', next it = Ok (None, it', []).
Hypothesis next_enc : forall c rest it, wf c = true -> data it = enc c ++ rest -> i32_min <= remaining it - 1 ->
  exists v it', next it = Ok (Some (c, v), it', []) /\ data it' = rest /\ remaining it' = remaining it - 1.

Lemma all_loop_enc : forall cs k it, forallb wf cs = true ->
  data it = flat_map enc cs -> remaining it = Z.of_nat (length cs) -> (length cs < k)%nat ->
  exists cvs it', all_loop k it = Ok (cvs, [], it') /\ map fst cvs = cs.
Proof.
  induction cs as [|c cs IH]; intros k it Hwf Ed Hr Hk; (destruct k as [|k]; [lia|]); cbn [all_loop].
  - destruct (next_nil it Ed Hr) as [it' ->]. exists [], it'. split; reflexivity.
  - cbn [forallb] in Hwf. apply andb_true_iff in Hwf as [Hc Hcs]. cbn [flat_map length] in Ed, Hr, Hk.
    destruct (next_enc c _ it Hc Ed) as (v & it1 & -> & Ed1 & Hr1); [unfold i32_min; lia|].
    destruct (IH k it1 Hcs Ed1 ltac:(lia) ltac:(lia)) as (cvs & it' & -> & Hm).
    exists ((c, v) :: cvs), it'. split; [reflexivity|]. cbn [map fst]. f_equal. exact Hm.
Qed.
End Enc.
End ChunkLoop.

Lemma write_chunk_fits cap hb data : (length (hb ++ data) <= cap)%nat ->
  (let (t1, ok1) := wb_write (wb_new cap) hb in
   if negb ok1 then (wb_data t1, Err tt) else
   let (t2, ok2) := wb_write t1 data in
   (wb_data t2, if ok2 then @Ok unit unit tt else Err tt))
  = (hb ++ data, Ok tt).
Proof.
  rewrite app_length. intros H. rewrite wb_write_fits by (cbn [wb_new wb_data wb_cap length]; lia). cbn [negb].
  rewrite wb_write_fits by (cbn [wb_ext wb_new wb_data wb_cap app]; lia). reflexivity.
Qed.

Lemma chunk_eta c :
  {| ch_data := ch_data c;
     ch_vital := match option_map fst (ch_vital c) with
                 | Some s => Some (s, match ch_vital c with Some (_, r) => r | None => false end)
                 | None => None
                 end |} = c.
Proof. destruct c as [d [[s r]|]]; reflexivity. Qed.
