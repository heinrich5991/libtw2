(* C18: what the three partial parsers (Info664Response, Info6ExResponse, Info6ExMoreResponse)
   hand to merge meets the per-part conditions of same_info, whatever the datagram:
   multi-part version, a part with an empty mask has no client, the main part of an extended
   info has mask 1, a `more` part has the single bit of its packet number (1..63), is not a
   main part and has the default header with its token. *)
From LibTw2 Require Import Base.Res Model.Varint Model.Packer Model.ServerBrowse
  Proofs.ServerBrowseMerge.
From Coq Require Import ZArith Lia Bool List Arith.
Open Scope Z_scope.

Lemma bind_ok {A B} (m : res unit A) (f : A -> res unit B) y :
  bind m f = Ok y -> exists x, m = Ok x /\ f x = Ok y.
Proof. destruct m; try discriminate. eauto. Qed.

(* take a `let*` chain that ended in Ok apart: every step returned Ok *)
Ltac split_pairs x :=
  lazymatch type of x with
  | prod _ _ => let a := fresh "v" in let b := fresh "v" in destruct x as [a b]; split_pairs a
  | _ => idtac
  end.
Ltac inv_bind H :=
  repeat match type of H with
  | bind _ _ = Ok _ => let x := fresh "x" in apply bind_ok in H as (x & ? & H); split_pairs x
  end.

Lemma shl1_inv site n b : shl1_u64 site n = Ok b -> 0 <= n < 64 /\ b = Z.shiftl 1 n.
Proof.
  unfold shl1_u64. destruct ((0 <=? n) && (n <? 64)) eqn:E; [|discriminate].
  intros H. injection H as <-. split; [lia|reflexivity].
Qed.

Lemma shiftl1_nonzero n : 0 <= n -> Z.shiftl 1 n <> 0.
Proof. intros Hn H. apply Z.shiftl_eq_0_iff in H; [discriminate|exact Hn]. Qed.

(* the mask bits of the client loop: none unless 64-player legacy, and then one per client kept *)
Lemma clients_loop_bits version ri : forall fuel j rest cs rv,
  clients_loop fuel version ri j rest = Ok (cs, rv) ->
  if siv_eqb version V664 then cs <> [] -> rv <> 0 else rv = 0.
Proof.
  induction fuel as [|fuel IH]; intros j rest cs rv H; [discriminate|].
  cbn [clients_loop] in H.
  destruct (u32_max <=? j); [discriminate|].
  destruct (read_str rest) as [[n r]|].
  2:{ injection H as <- <-. destruct (siv_eqb version V664); [intros K; contradiction K|]; reflexivity. }
  inv_bind H. specialize (IH (j + 1)).
  destruct (siv_eqb version V664).
  - destruct (MAX_CLIENTS_6_64 <=? j); [exact (IH _ _ _ H)|].
    inv_bind H. injection H as <- <-. intros _ Hz. apply Z.lor_eq_0_iff in Hz as [Hz _].
    match goal with E : shl1_u64 _ _ = Ok _ |- _ => apply shl1_inv in E as [Hr ->] end.
    exact (shiftl1_nonzero _ (proj1 Hr) Hz).
  - inv_bind H. injection H as <- <-. eapply IH. eassumption.
Qed.

Lemma parse_header_inv version ri token bs info off r :
  parse_header version ri token bs = Ok (info, off, r) ->
  i_version info = version /\ i_token info = token /\ i_clients info = [].
Proof.
  unfold parse_header. intros H. inv_bind H.
  destruct (_ || _); [discriminate|]. destruct (_ <? 0); [discriminate|].
  injection H as <- _ _. cbn. auto.
Qed.

Definition more_hdr (token : Z) : sinfo :=
  {| i_version := V6Ex; i_token := token; i_ver := []; i_name := []; i_hostname := None; i_map := [];
     i_map_crc := None; i_map_size := None; i_game_type := []; i_flags := 0; i_progression := None;
     i_skill_level := None; i_num_players := 0; i_max_players := 0; i_num_clients := 0; i_max_clients := 0;
     i_clients := [] |}.

Lemma shiftl1_bit0 n : 1 <= n -> Z.land (Z.shiftl 1 n) 1 = 0.
Proof.
  intros Hn. apply Z.bits_inj'. intros i Hi. rewrite Z.land_spec, Z.bits_0.
  destruct (Z.eq_dec i 0) as [->|Hi0].
  - rewrite Z.shiftl_spec_low by lia. reflexivity.
  - rewrite (Z.bits_above_log2 1 i) by (cbn; lia). apply andb_false_r.
Qed.

(* every PartialServerInfo that parse_server_info returns: the mask is the bit of the packet (an
   extended info: bit 0 for the main part) or-ed with the bits of the client loop; a `more` part
   has the default header *)
Lemma parse_server_info_inv ri rv bs p : parse_server_info ri rv bs = Ok p ->
  ver p = rsiv_version rv
  /\ exists pre bits, p_received p = Z.lor pre bits
     /\ (if siv_eqb (rsiv_version rv) V664 then cl p <> [] -> bits <> 0 else bits = 0)
     /\ match rv with
        | RNormal v => pre = if siv_eqb v V6Ex then 1 else 0
        | RV6ExMore => hdr p = more_hdr (tok p) /\ exists n, 1 <= n < 64 /\ pre = Z.shiftl 1 n
        end.
Proof.
  unfold parse_server_info. intros H. inv_bind H. injection H as <-.
  match goal with E : clients_loop _ _ _ _ _ = Ok _ |- _ => apply clients_loop_bits in E as Hb end.
  unfold ver, cl, hdr, tok. cbn [p_info p_received i_version i_clients set_clients].
  destruct rv as [w|]; cbn [rsiv_version siv_eqb] in *.
  - match goal with E : bind _ _ = Ok _ |- _ => inv_bind E; injection E as <- <- _ _ end.
    match goal with E : parse_header _ _ _ _ = Ok _ |- _ => apply parse_header_inv in E as (Hv & _ & _) end.
    split; [exact Hv|]. eexists _, _. split; [reflexivity|]. split; [exact Hb|].
    destruct (siv_eqb w V6Ex).
    + match goal with E : shl1_u64 _ _ = Ok _ |- _ => apply shl1_inv in E as [_ ->] end. reflexivity.
    + congruence.
  - match goal with E : bind _ _ = Ok _ |- _ => inv_bind E end.
    match goal with E : (if ?c then _ else _) = Ok _ |- _ => destruct c eqn:Ec; [discriminate E|]; injection E as <- <- _ _ end.
    match goal with E : shl1_u64 _ _ = Ok _ |- _ => apply shl1_inv in E as [_ ->] end.
    split; [reflexivity|]. eexists _, _. split; [reflexivity|]. split; [exact Hb|].
    split; [reflexivity|]. eexists. split; [|reflexivity]. lia.
Qed.

Theorem parsed_part_wf k bs p : is_partial_kind k = true -> parse_info k bs = Ok p ->
  is_multipart (ver p) = true /\ part_wf p = true
  /\ match k with
     | K664 => ver p = V664 /\ is_main p = false
     | K6Ex => ver p = V6Ex /\ p_received p = 1 /\ is_main p = true
     | K6ExMore => ver p = V6Ex /\ is_main p = false /\ hdr p = more_hdr (tok p)
                   /\ exists n, 1 <= n < 64 /\ p_received p = Z.shiftl 1 n
     | _ => True
     end.
Proof.
  intros Hk H. unfold parse_info in H. rewrite Hk in H. inv_bind H. injection H as ->.
  match goal with E : parse_server_info _ _ _ = Ok _ |- _ =>
    apply parse_server_info_inv in E as (Hv & pre & bits & Hr & Hb & Hpre) end.
  unfold part_wf, is_main, bit0. rewrite Hr, Hv.
  destruct k; try discriminate Hk; cbn [ikind_rsiv rsiv_version siv_eqb is_multipart andb] in *.
  - (* 64-player legacy: one bit per client *)
    subst pre. rewrite Z.lor_0_l. split; [reflexivity|]. split; [|split; reflexivity].
    destruct (cl p) as [|c l]; [apply orb_true_r|].
    specialize (Hb ltac:(discriminate)). apply Z.eqb_neq in Hb. rewrite Hb. reflexivity.
  - subst pre bits. cbn. auto.
  - destruct Hpre as (Hh & n & Hn & ->). subst bits. rewrite Z.lor_0_r, shiftl1_bit0 by lia.
    pose proof (shiftl1_nonzero n ltac:(lia)) as Hz. apply Z.eqb_neq in Hz. rewrite Hz.
    repeat split; try assumption. exists n. split; [exact Hn|reflexivity].
Qed.
