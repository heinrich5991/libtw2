(* C13, the snapshot layer: what the sender's Storage holds (`built` snapshots), what the receiving
   Storage holds (`like` copies), and the one step that matters - the delta the sender takes between
   two of its snapshots, written to bytes, read back and applied to a copy of the base, gives a copy
   of the target (C09_end_to_end / C10_after_delta re-derived from the invariants `good` / `bgood`
   instead of the boolean raw_ok, and for a base that is only `like` the sender's). *)
From LibTw2 Require Import Base.Res Model.Varint Model.Packer Model.Snap Proofs.SnapBase Proofs.SnapRep Proofs.SnapDelta
  Proofs.SnapApply Proofs.SnapOk Proofs.SnapTotal Proofs.SnapTotal2 Proofs.SnapWire Proofs.SnapWireInst Proofs.SnapC09
  Proofs.SnapSer Proofs.SnapReg Proofs.SnapObs Proofs.SnapBuilder Proofs.SnapBuilder2 Proofs.SnapBuilder3 Proofs.SnapC10
  Proofs.SnapC11.
From LibTw2 Require Import Model.Storage.
From Coq Require Import ZArith List Lia Bool Permutation.
Import ListNotations.
Open Scope Z_scope.

Definition built (X : snap) : Prop := exists b, bgood b /\ b_snap b = X.

Lemma built_empty : built snap_empty.
Proof. exists builder_new. split; [apply bgood_new|reflexivity]. Qed.

Lemma built_facts X : built X ->
  good (sn_raw X) /\ sgood X /\ build_from_raw (sn_raw X) = (Ok X, []).
Proof.
  intros (b & G & <-). destruct (builder_consistent b G) as [E GS].
  split; [apply (bg_raw _ G)|]. split; assumption.
Qed.

Lemma built_recycle X : built X -> exists b, snap_recycle X = Ok b /\ bgood b.
Proof.
  intros (b0 & G & <-). destruct (bg_st _ G) as (ch & R & B).
  destruct (recycle_builder_state (b_snap b0) ch (b_next b0) (bg_raw _ G) R B (bg_next _ G)) as (b & E & Gb & _).
  exists b. split; assumption.
Qed.

Lemma item_okb_op_ok t id data : item_okb (t, id, data) = true -> op_ok t id data.
Proof.
  unfold item_okb, op_ok. cbn [fst snd]. intros H.
  apply andb_true_iff in H. destruct H as [H Hd]. apply andb_true_iff in H. destruct H as [Ht Hid].
  split; [|split; [unfold is_u16 in Hid; lia|exact Hd]].
  destruct t as [o|u]; [lia|exact Ht].
Qed.

(* the builder loop of the sender: on API-conforming items it never panics and keeps the invariant *)
Lemma build_world_bgood w : forall b, bgood b -> forallb item_okb w = true ->
  match build_world b w with
  | Ok b' => bgood b'
  | Err _ => True
  | _ => False
  end.
Proof.
  induction w as [|[[t id] data] w IH]; intros b G Hok; [exact G|].
  cbn [forallb] in Hok. apply andb_true_iff in Hok. destruct Hok as [Hit Hok].
  cbn [build_world]. pose proof (builder_add_bgood b t id data G (item_okb_op_ok _ _ _ Hit)) as [G' F].
  destruct (builder_add b t id data) as [b' x]. cbn [fst snd] in G', F.
  destruct x as [u|e|s|]; try contradiction; [|exact I].
  apply IH; assumption.
Qed.

Lemma like_refl X : good (sn_raw X) -> like X X.
Proof.
  intros G. split; [reflexivity|]. split; [exact G|]. destruct (g_rep _ G) as [ch R].
  exists ch, ch. split; [exact R|]. split; [exact R|reflexivity].
Qed.

Lemma like_good H X : like H X -> good (sn_raw X).
Proof. intros (_ & G & _). exact G. Qed.

(* what an observer can see of a copy: C10's three clauses and the registry *)
Lemma like_same H X : like H X ->
  (forall E, @snap_items E X = @snap_items E H)
  /\ (forall E t id, @snap_item E X t id = @snap_item E H t id)
  /\ Snap.crc (sn_raw X) = Snap.crc (sn_raw H)
  /\ sn_ext X = sn_ext H.
Proof.
  intros L. destruct (like_observables _ _ L) as (O1 & O2 & O3).
  split; [exact O1|]. split; [exact O2|]. split; [exact O3|apply L].
Qed.

(* THE STEP: sender diffs H against its base A; every receiver applies the bytes to its copy A' of A *)
Theorem send_recv_core sz A H :
  good (sn_raw A) -> good (sn_raw H) -> build_from_raw (sn_raw H) = (Ok H, []) ->
  k09 (sn_raw A) (sn_raw H) = false -> sizes_respected sz (sn_raw H) = true ->
  exists d l,
    create_raw (sn_raw A) (sn_raw H) = Ok d
    /\ delta_ints sz d = Ok l /\ forallb is_i32 l = true /\ (3 <= length l)%nat
    /\ ints_to_bytes l = Ok (enc l)
    /\ delta_read_bytes sz (enc l) = (Ok d, [])
    /\ forall A', like A A' -> exists X, snap_read_with_delta A' d = (Ok X, []) /\ like H X.
Proof.
  intros GRA GRB Ec Hk Hsz.
  destruct (consistent_after_delta (sn_raw A) H [] GRA GRB Ec Hk) as (d & _ & Ecr & _).
  destruct (created_wire sz _ _ d GRA GRB Ecr) as (del & dch & -> & Hs & W). specialize (W (Hs Hsz)).
  pose proof (wire_ints_i32 sz _ _ W) as Hli.
  exists (delta_of del dch), (wire_ints sz del dch).
  split; [exact Ecr|]. split; [apply delta_ints_spec, W|]. split; [exact Hli|].
  split; [unfold wire_ints; cbn [length]; lia|].
  split; [apply ints_to_bytes_enc, Hli|].
  split; [apply wire_bytes_roundtrip, W|].
  intros A' L. exact (delta_to_copy A A' H _ GRA L GRB Ec Ecr).
Qed.

Lemma delta_write_bytes_enc sz d l cap :
  delta_ints sz d = Ok l -> ints_to_bytes l = Ok (enc l) ->
  delta_write_bytes sz d cap = if (cap <? length (enc l))%nat then Err CapacityErr else Ok (enc l).
Proof. intros E1 E2. unfold delta_write_bytes. rewrite E1, E2. reflexivity. Qed.
