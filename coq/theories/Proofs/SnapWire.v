(* The delta wire form: Delta::read_impl (over any ReadInt) inverts Delta::write_impl. *)
From LibTw2 Require Import Base.Res Model.Varint Model.Snap Proofs.SnapBase Proofs.SnapRep Proofs.SnapDelta
  Proofs.SnapOk Proofs.VarintArith Proofs.VarintProofs Proofs.PackerProofs.
From LibTw2 Require Import Model.Packer.
From Coq Require Import ZArith List Lia Bool Permutation.
Import ListNotations.
Open Scope Z_scope.

Definition size_field (sz : osize) (k : Z) (d : list Z) : list Z :=
  match sz (key_to_raw_type_id k) with Some _ => [] | None => [Z.of_nat (length d)] end.
Definition upd_enc (sz : osize) (kd : Z * list Z) : list Z :=
  key_to_raw_type_id (fst kd) :: key_to_id (fst kd) :: size_field sz (fst kd) (snd kd) ++ snd kd.

Definition size_ok (sz : osize) (kd : Z * list Z) : Prop :=
  match sz (key_to_raw_type_id (fst kd)) with
  | Some s => s = Z.of_nat (length (snd kd))
  | None => Z.of_nat (length (snd kd)) <= i32_max
  end.

Record wire_pre (sz : osize) (del : list Z) (dch : items) : Prop := {
  wp_del_sorted : sortedb del = true;
  wp_del_i32 : forallb is_i32 del = true;
  wp_keys_sorted : sortedb (map fst dch) = true;
  wp_keys_i32 : forallb is_i32 (map fst dch) = true;
  wp_data_i32 : forallb is_i32 (flat dch) = true;
  wp_sizes : Forall (size_ok sz) dch;
  wp_disjoint : forall k, In k (map fst dch) -> ~ In k del;
  wp_nd : Z.of_nat (length del) <= i32_max;
  wp_nu : Z.of_nat (length dch) <= i32_max;
  wp_nb : Z.of_nat (length (flat dch)) <= i32_max
}.

Definition wire_ints (sz : osize) (del : list Z) (dch : items) : list Z :=
  Z.of_nat (length del) :: Z.of_nat (length dch) :: 0 :: del ++ flat_map (upd_enc sz) dch.

Lemma delta_upd_ints_spec sz : forall todo done, Forall (size_ok sz) todo ->
  delta_upd_ints sz (flat (done ++ todo)) (ranges_of (length (flat done)) todo)
  = Ok (flat_map (upd_enc sz) todo).
Proof.
  induction todo as [|[k d] todo IH]; intros done Hs; [reflexivity|].
  inversion Hs as [|? ? Hk Hs']; subst. cbn [ranges_of delta_upd_ints].
  specialize (IH (done ++ [(k, d)]) Hs'). rewrite <- app_cons_snoc, flat_snoc, app_length in IH.
  rewrite flat_app in *. cbn [flat flat_map snd] in *. fold (flat todo) in *. rewrite slice_mid, IH. cbn [bind].
  unfold size_ok in Hk. cbn [fst snd] in Hk. unfold upd_enc, size_field. cbn [fst snd].
  destruct (sz (key_to_raw_type_id k)) as [s|].
  - subst s. rewrite Z.eqb_refl. reflexivity.
  - rewrite (proj2 (Z.ltb_ge _ _) Hk). reflexivity.
Qed.

Lemma delta_ints_spec sz del dch : wire_pre sz del dch ->
  delta_ints sz (delta_of del dch) = Ok (wire_ints sz del dch).
Proof.
  intros W. unfold delta_ints, delta_of. cbn [d_del d_upd d_buf]. rewrite ranges_of_length.
  rewrite (proj2 (Z.ltb_ge _ _) (wp_nd _ _ _ W)), (proj2 (Z.ltb_ge _ _) (wp_nu _ _ _ W)).
  pose proof (delta_upd_ints_spec sz dch [] (wp_sizes _ _ _ W)) as H.
  cbn [app] in H. change (length (flat [])) with 0%nat in H. rewrite H. reflexivity.
Qed.

Lemma upd_enc_i32 sz kd : is_i32 (fst kd) = true -> forallb is_i32 (snd kd) = true -> size_ok sz kd ->
  forallb is_i32 (upd_enc sz kd) = true.
Proof.
  intros Hk Hd Hs. unfold upd_enc. cbn [forallb].
  pose proof (key_to_ty_range (fst kd)). pose proof (key_to_id_range (fst kd)).
  rewrite (proj2 (is_i32_iff _)) by lia. rewrite (proj2 (is_i32_iff _)) by lia. cbn [andb].
  rewrite forallb_app, Hd, andb_true_r. unfold size_field, size_ok in *.
  destruct (sz (key_to_raw_type_id (fst kd))); [reflexivity|]. cbn [forallb]. rewrite andb_true_r.
  apply is_i32_iff. unfold i32_max in Hs. lia.
Qed.

Lemma flat_cons_i32 k d t : forallb is_i32 (flat ((k, d) :: t)) = true ->
  forallb is_i32 d = true /\ forallb is_i32 (flat t) = true.
Proof. cbn [flat flat_map snd]. rewrite forallb_app. apply andb_true_iff. Qed.

Lemma upds_i32 sz : forall dch, forallb is_i32 (map fst dch) = true -> forallb is_i32 (flat dch) = true ->
  Forall (size_ok sz) dch -> forallb is_i32 (flat_map (upd_enc sz) dch) = true.
Proof.
  induction dch as [|[k d] t IH]; intros Hk Hd Hs; [reflexivity|].
  apply forallb_cons in Hk. destruct Hk as [Hk Hk'].
  apply flat_cons_i32 in Hd. destruct Hd as [Hd Hd']. inversion Hs; subst.
  cbn [flat_map]. rewrite forallb_app. apply andb_true_iff. split; [apply upd_enc_i32; assumption|apply IH; assumption].
Qed.

Lemma wire_ints_i32 sz del dch : wire_pre sz del dch -> forallb is_i32 (wire_ints sz del dch) = true.
Proof.
  intros W. unfold wire_ints. cbn [forallb].
  pose proof (wp_nd _ _ _ W). pose proof (wp_nu _ _ _ W). unfold i32_max in *.
  rewrite (proj2 (is_i32_iff _)) by lia. rewrite (proj2 (is_i32_iff _)) by lia. cbn [andb].
  rewrite forallb_app, (wp_del_i32 _ _ _ W). cbn [andb].
  apply upds_i32; [apply (wp_keys_i32 _ _ _ W)|apply (wp_data_i32 _ _ _ W)|apply (wp_sizes _ _ _ W)].
Qed.

Lemma upds_length sz dch : (length dch <= length (flat_map (upd_enc sz) dch))%nat.
Proof.
  induction dch as [|x l IH]; [cbn; lia|]. cbn [flat_map length]. rewrite app_length. unfold upd_enc at 1. cbn [length]. lia.
Qed.

Section Reader.
  Variable St : Type.
  Variable rd_empty : St -> bool.
  Variable rd_int : St -> res unit (Z * list pwarn * St).
  Variable rd_size : St -> nat.
  Variable present : list Z -> St.
  Hypothesis P1 : forall l, forallb is_i32 l = true ->
    rd_empty (present l) = match l with [] => true | _ => false end.
  Hypothesis P2 : forall v l, is_i32 v = true -> forallb is_i32 l = true ->
    rd_int (present (v :: l)) = Ok (v, [], present l).
  Hypothesis P4 : forall l, forallb is_i32 l = true -> (length l < rd_size (present l))%nat.

  Notation rie := (read_int_err St rd_int).

  Lemma rie_ok v l e : forallb is_i32 (v :: l) = true -> rie (present (v :: l)) e = (Ok (v, present l), []).
  Proof.
    intros H. apply forallb_cons in H. destruct H as [Hv Hl].
    unfold read_int_err. rewrite P2 by assumption. reflexivity.
  Qed.

  Lemma read_deleted_ok : forall del acc rest fuel,
    forallb is_i32 (del ++ rest) = true -> sortedb (acc ++ del) = true -> (length del <= fuel)%nat ->
    read_deleted St rd_int fuel (Z.of_nat (length del)) (present (del ++ rest)) acc
    = (Ok (present rest, acc ++ del), []).
  Proof.
    induction del as [|v del IH]; intros acc rest fuel Hi Hs Hf.
    - destruct fuel; cbn [read_deleted length Z.of_nat Z.leb Z.compare app]; rewrite app_nil_r; reflexivity.
    - destruct fuel as [|fuel]; [cbn in Hf; lia|]. cbn [read_deleted length app] in *.
      rewrite (proj2 (Z.leb_gt _ _)) by lia. rewrite rie_ok, wbind_ok by exact Hi.
      replace (Z.of_nat (Datatypes.S (length del)) - 1) with (Z.of_nat (length del)) by lia.
      destruct (sortedb_mid _ _ _ Hs) as [Hlt _]. apply forallb_cons in Hi.
      rewrite (sins_last _ _ Hlt), IH, <- app_assoc by (rewrite <- ?app_assoc; tauto || lia). reflexivity.
  Qed.

  Lemma read_data_ok : forall data acc rest fuel,
    forallb is_i32 (data ++ rest) = true -> (length data <= fuel)%nat ->
    read_data St rd_int fuel (Z.of_nat (length data)) (present (data ++ rest)) acc
    = (Ok (present rest, rev acc ++ data), []).
  Proof.
    induction data as [|v data IH]; intros acc rest fuel Hi Hf.
    - destruct fuel; cbn [read_data length Z.of_nat Z.leb Z.compare app]; rewrite app_nil_r; reflexivity.
    - destruct fuel as [|fuel]; [cbn in Hf; lia|]. cbn [read_data length app] in *.
      rewrite (proj2 (Z.leb_gt _ _)) by lia. rewrite rie_ok, wbind_ok by exact Hi.
      replace (Z.of_nat (Datatypes.S (length data)) - 1) with (Z.of_nat (length data)) by lia.
      apply forallb_cons in Hi. rewrite IH by (tauto || lia). cbn [rev]. rewrite <- app_assoc. reflexivity.
  Qed.

  Lemma read_size_ok sz k d rest : size_ok sz (k, d) -> forallb is_i32 (size_field sz k d ++ rest) = true ->
    match sz (key_to_raw_type_id k) with
    | Some s => wret (s, present (size_field sz k d ++ rest))
    | None => let+ (s, p3) := rie (present (size_field sz k d ++ rest)) ItemDiffsUnpacking in
              if s <? 0 then werr NegativeSize else wret (s, p3)
    end = (Ok (Z.of_nat (length d), present rest), []).
  Proof.
    unfold size_ok, size_field. cbn [fst snd]. destruct (sz (key_to_raw_type_id k)) as [s|].
    - intros -> _. reflexivity.
    - intros _ Hi. cbn [app] in *. rewrite rie_ok, wbind_ok by exact Hi.
      rewrite (proj2 (Z.ltb_ge _ _)) by lia. reflexivity.
  Qed.

  (* the loop keeps the precondition of the whole: the updates read so far and those still to come *)
  Lemma read_updates_ok sz del : forall todo done fuel,
    wire_pre sz del (done ++ todo) -> (length todo <= fuel)%nat ->
    read_updates St rd_empty rd_int rd_size fuel sz (present (flat_map (upd_enc sz) todo)) (delta_of del done)
                 (Z.of_nat (length done))
    = (Ok (delta_of del (done ++ todo), Z.of_nat (length (done ++ todo))), []).
  Proof.
    induction todo as [|[k d] todo IH]; intros done fuel W Hf.
    - cbn [flat_map]. rewrite app_nil_r.
      destruct fuel; cbn [read_updates]; rewrite (P1 []) by reflexivity; reflexivity.
    - destruct fuel as [|fuel]; [cbn in Hf; lia|].
      pose proof W as [_ _ Hs Hki Hdi Hsz Hdj _ Hnu Hnb].
      rewrite map_app in Hs, Hki. rewrite flat_app in Hdi, Hnb. rewrite forallb_app in Hki, Hdi.
      apply andb_true_iff in Hki, Hdi. destruct Hki as [_ Hki], Hdi as [_ Hdi].
      apply Forall_app in Hsz. destruct Hsz as [_ Hsz].
      assert (Hall : forallb is_i32 (flat_map (upd_enc sz) ((k, d) :: todo)) = true) by (apply upds_i32; assumption).
      cbn [map fst] in Hs, Hki. apply forallb_cons in Hki. destruct Hki as [Hk _].
      apply flat_cons_i32 in Hdi. destruct Hdi as [Hd _]. inversion Hsz as [|? ? Hsk _]; subst.
      destruct (sortedb_mid _ _ _ Hs) as [Hlt _].
      cbn [flat flat_map snd] in Hnb. rewrite !app_length in Hnb. rewrite app_length in Hnu. cbn [length] in Hnu, Hf.
      pose proof (key_to_ty_range k) as Rt. pose proof (key_to_id_range k) as Ri.
      cbn [read_updates flat_map] in *.
      change (upd_enc sz (k, d)) with (key_to_raw_type_id k :: key_to_id k :: size_field sz k d ++ d) in *.
      cbn [app] in *. rewrite <- app_assoc in *.
      rewrite (P1 _ Hall), rie_ok, wbind_ok by exact Hall. apply forallb_cons in Hall. destruct Hall as [_ Hall].
      rewrite rie_ok, wbind_ok by exact Hall. apply forallb_cons in Hall. destruct Hall as [_ Hall].
      rewrite (proj2 (is_u16_iff _) Rt), (proj2 (is_u16_iff _) Ri). cbn [negb].
      rewrite (read_size_ok sz k d _ Hsk Hall), wbind_ok. rewrite forallb_app in Hall. apply andb_true_iff in Hall. destruct Hall as [_ Hall].
      cbn [delta_of d_buf d_upd d_del]. unfold u32_max, i32_max in *.
      rewrite (proj2 (Z.ltb_ge _ _)), (proj2 (Z.ltb_ge _ _)) by lia.
      rewrite read_data_ok, wbind_ok; [|exact Hall|pose proof (P4 _ Hall) as Hp; rewrite app_length in Hp; lia].
      cbn [rev app]. rewrite (key_split k Hk).
      rewrite (proj2 (aget_none k (ranges_of 0 done))) by (rewrite ranges_of_keys; intros Hin; apply Hlt in Hin; lia).
      unfold wret at 1. rewrite wbind_ok.
      destruct (smem k del) eqn:Hm.
      { apply smem_in in Hm. exfalso. apply (Hdj k); [rewrite map_app; apply in_or_app; right; left; reflexivity|exact Hm]. }
      unfold wret at 1. rewrite wbind_ok, (proj2 (Z.eqb_neq _ _)) by lia.
      rewrite app_length, (delta_of_snoc del done k d) by auto.
      replace (Z.of_nat (length done) + 1) with (Z.of_nat (length (done ++ [(k, d)]))) by (rewrite app_length; cbn [length]; lia).
      rewrite IH, <- app_cons_snoc by (rewrite <- ?app_cons_snoc; assumption || lia). reflexivity.
  Qed.

  Theorem read_wire sz del dch : wire_pre sz del dch ->
    read_delta St rd_empty rd_int rd_size sz (present (wire_ints sz del dch)) = (Ok (delta_of del dch), []).
  Proof.
    intros W. pose proof (wire_ints_i32 _ _ _ W) as Hall. unfold wire_ints in *. unfold read_delta, read_delta_header.
    pose proof (wp_nd _ _ _ W) as Hnd. pose proof (wp_nu _ _ _ W) as Hnu.
    rewrite rie_ok, wbind_ok by exact Hall. apply forallb_cons in Hall. destruct Hall as [_ Hall].
    rewrite (proj2 (Z.ltb_ge _ _)) by lia.
    rewrite rie_ok, wbind_ok by exact Hall. apply forallb_cons in Hall. destruct Hall as [_ Hall].
    rewrite (proj2 (Z.ltb_ge _ _)) by lia.
    rewrite rie_ok, wbind_ok by exact Hall. apply forallb_cons in Hall. destruct Hall as [_ Hall].
    cbn [Z.eqb negb]. unfold wret at 1. rewrite wbind_ok. unfold wret at 1. rewrite wbind_ok.
    rewrite read_deleted_ok, wbind_ok;
      [|exact Hall|apply (wp_del_sorted _ _ _ W)|pose proof (P4 _ Hall) as Hp; rewrite app_length in Hp; lia].
    cbn [app]. rewrite Z.eqb_refl. cbn [negb]. unfold wret at 1. rewrite wbind_ok.
    rewrite forallb_app in Hall. apply andb_true_iff in Hall. destruct Hall as [_ Hall].
    change {| d_del := del; d_upd := []; d_buf := [] |} with (delta_of del []).
    pose proof (read_updates_ok sz del dch [] (rd_size (present (flat_map (upd_enc sz) dch))) W) as E.
    cbn [length Z.of_nat app] in E. rewrite E by (pose proof (P4 _ Hall); pose proof (upds_length sz dch); lia).
    rewrite wbind_ok, Z.eqb_refl. cbn [negb]. unfold wret at 1. rewrite wbind_ok. reflexivity.
  Qed.
End Reader.
