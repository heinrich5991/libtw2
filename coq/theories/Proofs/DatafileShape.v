(* Layout facts about the writer specification: the flat tagged item list, the word image
   of the item area, offsets of consecutive things. *)
From LibTw2 Require Import Base.Res Model.Datafile Proofs.DatafileBase Proofs.DatafileCodec.
From Coq Require Import ZArith List Lia Bool.
Import ListNotations.
Open Scope Z_scope.

(* items tagged with their type id, in file order *)
Definition titem := (Z * ditem)%type.
Definition titems (gs : list dgroup) : list titem := flat_map (fun g => map (pair (fst g)) (snd g)) gs.
Definition tw (ti : titem) : list Z := item_words (fst ti) (snd ti).
Definition W (l : list titem) : list Z := flat_map tw l.
Definition tsize (ti : titem) : Z := item_size_bytes (snd ti).
Definition titem_wf (ti : titem) : Prop :=
  0 <= fst ti < 65536 /\ 0 <= fst (snd ti) < 65536 /\ all_i32 (snd (snd ti)).

Lemma W_app a b : W (a ++ b) = W a ++ W b.
Proof. apply flat_map_app. Qed.

Lemma titems_app a b : titems (a ++ b) = titems a ++ titems b.
Proof. apply flat_map_app. Qed.

Lemma raw_eq gs : flat_map group_words gs = W (titems gs).
Proof.
  induction gs as [|g gs IH]; [reflexivity|]. cbn [flat_map titems]. fold (titems gs).
  rewrite W_app, IH. f_equal. unfold group_words, W.
  induction (snd g) as [|it l IHl]; [reflexivity|]. cbn [flat_map map]. rewrite IHl. reflexivity.
Qed.

Lemma all_ditems_eq gs : all_ditems gs = map snd (titems gs).
Proof.
  induction gs as [|g gs IH]; [reflexivity|]. unfold all_ditems, titems in *. cbn [flat_map].
  rewrite map_app, IH, map_map. cbn [snd]. rewrite map_id. reflexivity.
Qed.

Lemma sizes_eq gs : map item_size_bytes (all_ditems gs) = map tsize (titems gs).
Proof. rewrite all_ditems_eq, map_map. reflexivity. Qed.

Lemma zlen_titems gs : zlen (titems gs) = zlen (all_ditems gs).
Proof. rewrite all_ditems_eq, zlen_map. reflexivity. Qed.

Lemma zlen_titems_cons g gs : zlen (titems (g :: gs)) = zlen (snd g) + zlen (titems gs).
Proof. unfold titems. cbn [flat_map]. rewrite zlen_app, zlen_map. reflexivity. Qed.

Lemma sum_z_cons x l : sum_z (x :: l) = x + sum_z l.
Proof. reflexivity. Qed.

Lemma sum_z_app a b : sum_z (a ++ b) = sum_z a + sum_z b.
Proof. induction a; cbn [app]; rewrite ?sum_z_cons; [reflexivity|lia]. Qed.

Lemma sum_z_nonneg l : Forall (fun x => 0 <= x) l -> 0 <= sum_z l.
Proof. induction 1; rewrite ?sum_z_cons; [reflexivity|lia]. Qed.

Lemma tsize_eq ti : tsize ti = 8 + 4 * zlen (snd (snd ti)).
Proof. reflexivity. Qed.

Lemma tsize_pos ti : 8 <= tsize ti.
Proof. rewrite tsize_eq. pose proof (zlen_nonneg (snd (snd ti))). lia. Qed.

Lemma zlen_W l : 4 * zlen (W l) = sum_z (map tsize l).
Proof.
  induction l as [|ti l IH]; [reflexivity|]. unfold W in *. cbn [flat_map map].
  rewrite zlen_app, sum_z_cons, tsize_eq, <- IH. unfold tw, item_words. rewrite !zlen_cons. lia.
Qed.

Lemma sum_tsize_nonneg l : 0 <= sum_z (map tsize l).
Proof. rewrite <- zlen_W. pose proof (zlen_nonneg (W l)). lia. Qed.

Lemma zlen_offsets_from l : forall s, zlen (offsets_from l s) = zlen l.
Proof. induction l; intros s; cbn [offsets_from]; rewrite ?zlen_cons, ?IHl; reflexivity. Qed.

Lemma offsets_from_app a b : forall s, offsets_from (a ++ b) s = offsets_from a s ++ offsets_from b (s + sum_z a).
Proof.
  induction a as [|x a IH]; intros s; cbn [app offsets_from]; [rewrite Z.add_0_r; reflexivity|].
  rewrite IH, sum_z_cons, Z.add_assoc. reflexivity.
Qed.

Lemma znth_offsets_from pre x post s :
  znth (offsets_from (pre ++ x :: post) s) (zlen pre) = Some (s + sum_z pre).
Proof. rewrite offsets_from_app, <- (zlen_offsets_from pre s). apply znth_app_r. Qed.

Lemma offsets_split {B} (sz : B -> Z) pre x post :
  znth (offsets_from (map sz (pre ++ x :: post)) 0) (zlen pre) = Some (sum_z (map sz pre))
  /\ sum_z (map sz (pre ++ x :: post)) = sum_z (map sz pre) + sz x + sum_z (map sz post).
Proof.
  rewrite map_app, sum_z_app. cbn [map]. rewrite <- (zlen_map sz pre), znth_offsets_from, sum_z_cons.
  split; [reflexivity|lia].
Qed.

Lemma sum_map_snoc {B} (sz : B -> Z) pre x : sum_z (map sz (pre ++ [x])) = sum_z (map sz pre) + sz x.
Proof. rewrite map_app, sum_z_app. cbn [map]. rewrite sum_z_cons. cbn. lia. Qed.

Lemma all_i32_offsets_from l : forall s, Forall (fun x => 0 <= x) l -> 0 <= s -> s + sum_z l <= 2147483647 ->
  all_i32 (offsets_from l s).
Proof.
  induction l as [|x l IH]; intros s Hl Hs Hsum; cbn [offsets_from]; [constructor|].
  inversion Hl as [|? ? Hx Hl']; subst. rewrite sum_z_cons in Hsum. pose proof (sum_z_nonneg l Hl').
  constructor; [apply is_i32_iff; lia|]. apply IH; auto; lia.
Qed.

(* the item type table as the reader decodes it *)
Fixpoint tt_records (gs : list dgroup) (start : Z) : list itype :=
  match gs with
  | [] => []
  | g :: rest => {| t_type_id := fst g; t_start := start; t_num := zlen (snd g) |}
                 :: tt_records rest (start + zlen (snd g))
  end.

Lemma item_types_of_table gs : forall s, item_types_of (type_table gs s) = tt_records gs s.
Proof. induction gs as [|g gs IH]; intros s; cbn [type_table item_types_of tt_records]; [reflexivity|]. rewrite IH. reflexivity. Qed.

Lemma zlen_type_table gs : forall s, zlen (type_table gs s) = 3 * zlen gs.
Proof. induction gs as [|g gs IH]; intros s; cbn [type_table]; [reflexivity|]. rewrite !zlen_cons, IH. lia. Qed.

Lemma zlen_tt_records l : forall s, zlen (tt_records l s) = zlen l.
Proof. induction l as [|g l IH]; intros s; cbn [tt_records]; [reflexivity|]. rewrite !zlen_cons, IH. reflexivity. Qed.

Lemma tt_records_app a : forall b s, tt_records (a ++ b) s = tt_records a s ++ tt_records b (s + zlen (titems a)).
Proof.
  induction a as [|g a IH]; intros b s; cbn [app tt_records]; [rewrite Z.add_0_r; reflexivity|].
  rewrite IH, zlen_titems_cons, Z.add_assoc. reflexivity.
Qed.

Lemma type_table_i32 : forall l s, 0 <= s -> s + zlen (titems l) <= 2147483647 ->
  Forall (fun g : dgroup => 0 <= fst g < 65536) l -> all_i32 (type_table l s).
Proof.
  induction l as [|g l IH]; intros s Hs Hb Hl; cbn [type_table]; [constructor|].
  inversion Hl; subst. rewrite zlen_titems_cons in Hb.
  pose proof (zlen_nonneg (snd g)). pose proof (zlen_nonneg (titems l)).
  repeat constructor; try (apply is_i32_iff; lia). apply IH; auto; lia.
Qed.

Lemma ih_type_id_enc t i : 0 <= t < 65536 -> 0 <= i < 65536 -> ih_type_id (i32_of (t * 65536 + i)) = t.
Proof.
  intros Ht Hi. unfold ih_type_id. rewrite u32_of_i32_of by (rewrite two32_eq; lia).
  Z.div_mod_to_equations. lia.
Qed.

Lemma ih_id_enc t i : 0 <= t < 65536 -> 0 <= i < 65536 -> ih_id (i32_of (t * 65536 + i)) = i.
Proof.
  intros Ht Hi. unfold ih_id. rewrite u32_of_i32_of by (rewrite two32_eq; lia).
  Z.div_mod_to_equations. lia.
Qed.

Lemma W_i32 l : Forall titem_wf l -> sum_z (map tsize l) <= 2147483647 -> all_i32 (W l).
Proof.
  induction 1 as [|ti l (Ht & Hi & Hd) _ IH]; cbn [map]; rewrite ?sum_z_cons; intros Hs; [constructor|].
  pose proof (sum_tsize_nonneg l). pose proof (tsize_pos ti).
  unfold W. cbn [flat_map]. apply Forall_app. split; [|apply IH; lia].
  rewrite tsize_eq in *. unfold tw, item_words. constructor; [|constructor; [|exact Hd]].
  - apply i32_of_range. rewrite two32_eq. lia.
  - apply is_i32_iff. lia.
Qed.
