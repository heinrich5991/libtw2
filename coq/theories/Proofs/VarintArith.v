(* Arithmetic characterisation of the bit-level varint model:
   read_int = read_int_a on byte strings, write_int = Ok (write_int_a) on i32.
   Behind the first byte both go one 7-bit group at a time; read_groups and write_groups
   are that recursion, and the proofs here and in VarintProofs.v follow it. *)
From LibTw2 Require Import Base.Res Base.Bits Model.Varint.
From Coq Require Import ZArith Lia Bool List ZifyBool.
Open Scope Z_scope.

(* `as u32` and `as i32` are inverse to each other on the two ranges *)
Lemma u32_of_small u : 0 <= u < two32 -> u32_of u = u.
Proof. apply Z.mod_small. Qed.

Lemma i32_of_is_i32 u : 0 <= u < two32 -> is_i32 (i32_of u) = true.
Proof. unfold is_i32, i32_min, i32_max, i32_of, two31, two32. intros H. destruct (u <? 2147483648) eqn:E; lia. Qed.

Lemma u32_of_i32_of u : 0 <= u < two32 -> u32_of (i32_of u) = u.
Proof. unfold i32_of, u32_of, two31, two32. intros H. destruct (u <? 2147483648); Z.div_mod_to_equations; lia. Qed.

Lemma i32_of_u32_of t : is_i32 t = true -> i32_of (u32_of t) = t.
Proof.
  unfold is_i32, i32_min, i32_max, i32_of, u32_of, two31, two32. intros H.
  destruct (Z.ltb_spec (t mod 4294967296) 2147483648); Z.div_mod_to_equations; lia.
Qed.

Lemma land127 b : Z.land b 127 = b mod 128.
Proof. exact (land_pow2_mask b 7 ltac:(lia)). Qed.
Lemma land63 b : Z.land b 63 = b mod 64.
Proof. exact (land_pow2_mask b 6 ltac:(lia)). Qed.

Lemma land128_sweep : forallb (fun b => Bool.eqb (Z.land b 128 =? 0) (b <? 128)) all_bytes = true.
Proof. vm_compute. reflexivity. Qed.
Lemma land128 b : 0 <= b < 256 -> (Z.land b 128 =? 0) = (b <? 128).
Proof. intros H. apply eqb_prop. exact (byte_sweep _ land128_sweep b H). Qed.

Lemma land240_sweep : forallb (fun b => Bool.eqb (Z.land b 240 =? 0) (b <? 16)) all_bytes = true.
Proof. vm_compute. reflexivity. Qed.
Lemma land240 b : 0 <= b < 256 -> (Z.land b 240 =? 0) = (b <? 16).
Proof. intros H. apply eqb_prop. exact (byte_sweep _ land240_sweep b H). Qed.

Lemma signbit_sweep : forallb (fun b => Z.land (Z.shiftr b 6) 1 =? (b / 64) mod 2) all_bytes = true.
Proof. vm_compute. reflexivity. Qed.
Lemma signbit b : 0 <= b < 256 -> Z.land (Z.shiftr b 6) 1 = (b / 64) mod 2.
Proof. intros H. apply Z.eqb_eq. exact (byte_sweep _ signbit_sweep b H). Qed.

Definition fin (sign : Z) (m : Z) : Z :=
  i32_of (if sign =? 1 then all_ones32 - m else m).

Definition ovl (last : Z) (ws : list pwarn) : list pwarn :=
  if last =? 0 then ws ++ [OverlongIntEncoding] else ws.

Lemma ovl_nonzero last ws : last <> 0 -> ovl last ws = ws.
Proof. intros H. unfold ovl. replace (last =? 0) with false by lia. reflexivity. Qed.

Lemma ovl_nil last ws : ovl last ws = [] -> last <> 0 /\ ws = [].
Proof. unfold ovl. destruct (last =? 0) eqn:E; [destruct ws; discriminate|]. intros ->. split; [lia|reflexivity]. Qed.

Definition read_int_a (bs : bytes) : res unit (Z * list pwarn * bytes) :=
  match bs with
  | [] => Err tt
  | b0 :: r0 =>
    let s := (b0 / 64) mod 2 in
    let m1 := b0 mod 64 in
    if b0 <? 128 then Ok (fin s m1, [], r0) else
    match r0 with [] => Err tt | b1 :: r1 =>
    let m2 := m1 + (b1 mod 128) * 64 in
    if b1 <? 128 then Ok (fin s m2, ovl b1 [], r1) else
    match r1 with [] => Err tt | b2 :: r2 =>
    let m3 := m2 + (b2 mod 128) * 8192 in
    if b2 <? 128 then Ok (fin s m3, ovl b2 [], r2) else
    match r2 with [] => Err tt | b3 :: r3 =>
    let m4 := m3 + (b3 mod 128) * 1048576 in
    if b3 <? 128 then Ok (fin s m4, ovl b3 [], r3) else
    match r3 with [] => Err tt | b4 :: r4 =>
    let m5 := m4 + (b4 mod 32) * 134217728 in
    Ok (fin s m5, ovl b4 (if b4 <? 16 then [] else [NonZeroIntPadding]), r4)
    end end end end
  end.

Fixpoint read_groups (n : nat) (w s m : Z) (bs : bytes) : res unit (Z * list pwarn * bytes) :=
  match bs with
  | [] => Err tt
  | b :: r =>
    match n with
    | O => Ok (fin s (m + (b mod 32) * w), ovl b (if b <? 16 then [] else [NonZeroIntPadding]), r)
    | S n' => if b <? 128 then Ok (fin s (m + (b mod 128) * w), ovl b [], r)
              else read_groups n' (w * 128) s (m + (b mod 128) * w) r
    end
  end.

Lemma read_int_a_groups b0 r0 : read_int_a (b0 :: r0) =
  if b0 <? 128 then Ok (fin ((b0 / 64) mod 2) (b0 mod 64), [], r0)
  else read_groups 3 64 ((b0 / 64) mod 2) (b0 mod 64) r0.
Proof. reflexivity. Qed.

Lemma bytes_ok_cons b bs : bytes_ok (b :: bs) = true -> 0 <= b < 256 /\ bytes_ok bs = true.
Proof.
  unfold bytes_ok. cbn [forallb]. intros H. apply andb_true_iff in H. destruct H as [Hb Hr].
  split; [unfold byte_ok in Hb; lia|exact Hr].
Qed.

Lemma lxor_mask s m : 0 <= m < two32 ->
  i32_of (Z.lxor m (if s =? 1 then all_ones32 else 0)) = fin s m.
Proof.
  intros Hm. unfold fin. destruct (s =? 1).
  - change all_ones32 with (2 ^ 32 - 1). rewrite lxor_ones_compl; [reflexivity|lia|exact Hm].
  - rewrite Z.lxor_0_r. reflexivity.
Qed.

(* the shifted piece of the continuation byte read in turn i of the loop; in the last turn
   bits 5 and 6 of the byte are shifted out of the 32-bit word *)
Lemma piece b i w : 0 <= b < 256 -> 0 <= i <= 3 -> w = 2 ^ (6 + 7 * i) ->
  u32_of (Z.shiftl (Z.land b 127) (6 + 7 * i)) = (b mod (if i =? 3 then 32 else 128)) * w.
Proof.
  intros Hb Hi ->. rewrite land127, shiftl_mul by lia. unfold u32_of, two32.
  assert (Hc : i = 0 \/ i = 1 \/ i = 2 \/ i = 3) by lia.
  destruct Hc as [-> | [-> | [-> | ->]]]; cbn [Z.eqb Pos.eqb];
    [change (2 ^ (6 + 7 * 0)) with 64|change (2 ^ (6 + 7 * 1)) with 8192
    |change (2 ^ (6 + 7 * 2)) with 1048576|change (2 ^ (6 + 7 * 3)) with 134217728];
    Z.div_mod_to_equations; lia.
Qed.

Definition read_finish (sign : Z) (r : res unit rstate) : res unit (Z * list pwarn * bytes) :=
  match r with
  | Ok st =>
    Ok (i32_of (Z.lxor (r_acc st) (if sign =? 1 then all_ones32 else 0)),
        (if (1 <? r_len st) && (r_src st =? 0) then r_ws st ++ [OverlongIntEncoding] else r_ws st),
        r_rest st)
  | Err e => Err e
  | Panic s => Panic s
  | OutOfFuel => OutOfFuel
  end.

Lemma read_loop_stop k i st : 0 <= r_src st < 256 -> k = O \/ r_src st < 128 -> read_loop k i st = Ok st.
Proof.
  intros Hs [-> | H]; [reflexivity|]. destruct k; [reflexivity|].
  cbn [read_loop]. rewrite land128 by exact Hs. replace (r_src st <? 128) with true by lia. reflexivity.
Qed.

Lemma read_loop_turn k i w src acc len b r :
  0 <= i <= 3 -> w = 2 ^ (6 + 7 * i) -> 128 <= src < 256 -> 0 <= b < 256 -> 0 <= acc < w ->
  read_loop (S k) i {| r_src := src; r_acc := acc; r_len := len; r_ws := []; r_rest := b :: r |}
  = read_loop k (i + 1)
      {| r_src := b; r_acc := acc + b mod (if i =? 3 then 32 else 128) * w; r_len := len + 1;
         r_ws := if (i =? 3) && negb (b <? 16) then [NonZeroIntPadding] else []; r_rest := r |}.
Proof.
  intros Hi Hw Hsrc Hb Hacc. cbn [read_loop r_src r_acc r_len r_ws r_rest app].
  rewrite land128, land240, (piece b i w) by (lia || exact Hw). replace (src <? 128) with false by lia.
  subst w. rewrite lor_low_high by (exact Hacc || lia). reflexivity.
Qed.

Lemma read_loop_groups sign n : forall i w src acc len bs,
  Z.of_nat n + i = 3 -> 0 <= i -> w = 2 ^ (6 + 7 * i) -> 128 <= src < 256 -> bytes_ok bs = true ->
  0 <= acc < w -> 1 <= len ->
  read_finish sign (read_loop (S n) i {| r_src := src; r_acc := acc; r_len := len; r_ws := []; r_rest := bs |})
  = read_groups n w sign acc bs.
Proof.
  induction n as [|n IH]; intros i w src acc len bs Hi Hi0 Hw Hsrc Hok Hacc Hlen;
    (destruct bs as [|b r];
     [cbn [read_loop r_src r_rest]; rewrite land128 by lia; replace (src <? 128) with false by lia; reflexivity|]);
    apply bytes_ok_cons in Hok as [Hb Hok]; rewrite (read_loop_turn _ i w) by (lia || exact Hw).
  - assert (i = 3) by lia. subst i. change (2 ^ (6 + 7 * 3)) with 134217728 in Hw. subst w.
    pose proof (Z.mod_pos_bound b 32 eq_refl) as Hd.
    cbn [read_loop read_finish read_groups r_src r_acc r_len r_ws r_rest Z.eqb Pos.eqb andb].
    rewrite lxor_mask by (unfold two32; lia). replace (1 <? len + 1) with true by lia.
    unfold ovl. destruct (b <? 16), (b =? 0); reflexivity.
  - pose proof (Z.mod_pos_bound b 128 eq_refl) as Hd.
    assert (Hw20 : w <= 2 ^ 20) by (subst w; apply Z.pow_le_mono_r; lia).
    replace (i =? 3) with false by lia. cbn [andb read_groups]. destruct (b <? 128) eqn:E.
    + rewrite read_loop_stop by (cbn [r_src]; lia). cbn [read_finish r_src r_acc r_len r_ws r_rest].
      rewrite lxor_mask by (unfold two32; nia). replace (1 <? len + 1) with true by lia. reflexivity.
    + apply (IH (i + 1)); try lia; [|nia].
      subst w. rewrite <- (Z.pow_add_r 2 _ 7) by lia. f_equal. lia.
Qed.

Theorem read_int_arith bs : bytes_ok bs = true -> read_int bs = read_int_a bs.
Proof.
  intros Hok. destruct bs as [|b0 r0]; [reflexivity|]. apply bytes_ok_cons in Hok as [H0 Hok].
  rewrite read_int_a_groups. pose proof (Z.mod_pos_bound b0 64 eq_refl) as Hd.
  change (read_int (b0 :: r0)) with (read_finish (Z.land (Z.shiftr b0 6) 1)
    (read_loop 4 0 {| r_src := b0; r_acc := Z.land b0 63; r_len := 1; r_ws := []; r_rest := r0 |})).
  rewrite signbit, land63 by exact H0. destruct (b0 <? 128) eqn:E.
  - rewrite read_loop_stop by (cbn [r_src]; lia). cbn [read_finish r_src r_acc r_len r_ws r_rest].
    rewrite lxor_mask by (unfold two32; lia). reflexivity.
  - apply (read_loop_groups _ 3 0); (lia || reflexivity || exact Hok).
Qed.

Definition mag (v : Z) : Z := if v <? 0 then - v - 1 else v.
Definition sgn (v : Z) : Z := if v <? 0 then 1 else 0.

Definition write_int_a (v : Z) : bytes :=
  let p := mag v in let s := sgn v in
  if p <? 64 then [64 * s + p]
  else if p <? 8192 then [128 + 64 * s + p mod 64; p / 64]
  else if p <? 1048576 then [128 + 64 * s + p mod 64; 128 + (p / 64) mod 128; p / 8192]
  else if p <? 134217728 then
    [128 + 64 * s + p mod 64; 128 + (p / 64) mod 128; 128 + (p / 8192) mod 128; p / 1048576]
  else [128 + 64 * s + p mod 64; 128 + (p / 64) mod 128; 128 + (p / 8192) mod 128;
        128 + (p / 1048576) mod 128; p / 134217728].

(* the bytes behind the first, for what is left of the magnitude: a 7-bit group with the
   extend flag while more than one group is left and room for n more bytes *)
Fixpoint write_groups (n : nat) (q : Z) : bytes :=
  match n with
  | O => [q]
  | S n' => if q <? 128 then [q] else 128 + q mod 128 :: write_groups n' (q / 128)
  end.

Lemma sgn_range v : 0 <= sgn v <= 1.
Proof. unfold sgn. destruct (v <? 0); lia. Qed.

Lemma ltb_div p a b : 0 < a -> (p / a <? b) = (p <? a * b).
Proof.
  intros Ha. destruct (p <? a * b) eqn:E.
  - apply Z.ltb_lt, Z.div_lt_upper_bound; lia.
  - apply Z.ltb_ge. apply Z.div_le_lower_bound; lia.
Qed.

Lemma write_int_a_groups v : write_int_a v =
  if mag v <? 64 then [64 * sgn v + mag v]
  else 128 + 64 * sgn v + mag v mod 64 :: write_groups 3 (mag v / 64).
Proof.
  unfold write_int_a, write_groups. rewrite !Z.div_div, !ltb_div by lia. cbn [Z.mul Pos.mul Pos.add].
  destruct (mag v <? 64); [reflexivity|]. destruct (mag v <? 8192); [reflexivity|].
  destruct (mag v <? 1048576); [reflexivity|]. destruct (mag v <? 134217728); reflexivity.
Qed.

Lemma mag_range v : is_i32 v = true -> 0 <= mag v < 2147483648.
Proof. unfold is_i32, i32_min, i32_max, mag. destruct (v <? 0) eqn:E; lia. Qed.

Lemma pattern_mag v : is_i32 v = true ->
  Z.lxor (u32_of v) (if v <? 0 then all_ones32 else 0) = mag v.
Proof.
  unfold is_i32, i32_min, i32_max, mag, u32_of, two32. intros H.
  destruct (v <? 0) eqn:E.
  - change all_ones32 with (2 ^ 32 - 1). rewrite lxor_ones_compl by (Z.div_mod_to_equations; lia).
    change (2 ^ 32) with 4294967296. Z.div_mod_to_equations; lia.
  - rewrite Z.lxor_0_r. apply Z.mod_small. lia.
Qed.

Lemma lor_flag7 (e : bool) next : 0 <= next < 128 ->
  Z.lor (to_bit e 7) next = (if e then 128 else 0) + next.
Proof.
  intros H. destruct e; unfold to_bit; [|reflexivity].
  change (Z.shiftl 1 7) with (1 * 2 ^ 7). rewrite Z.lor_comm. rewrite lor_low_high by lia. lia.
Qed.

Lemma lor_flags76 (e s : bool) next : 0 <= next < 64 ->
  Z.lor (Z.lor (to_bit e 7) (to_bit s 6)) next
  = (if e then 128 else 0) + (if s then 64 else 0) + next.
Proof.
  intros H. rewrite <- Z.lor_assoc, (Z.lor_comm _ next).
  replace (Z.lor next (to_bit s 6)) with ((if s then 64 else 0) + next).
  - rewrite lor_flag7 by (destruct s; lia). lia.
  - destruct s; unfold to_bit; [|rewrite Z.lor_0_r; reflexivity].
    change (Z.shiftl 1 6) with (1 * 2 ^ 6). rewrite lor_low_high by lia. lia.
Qed.

Lemma write_loop_step room p : 0 < p ->
  write_loop (S room) p =
  match write_loop room (p / 128) with
  | Ok tl => Ok ((if p / 128 =? 0 then 0 else 128) + p mod 128 :: tl)
  | r => r
  end.
Proof.
  intros Hp. cbn [write_loop]. replace (p =? 0) with false by lia.
  rewrite land127, shiftr_div by lia. change (2 ^ 7) with 128.
  destruct (write_loop room (p / 128)); try reflexivity.
  rewrite lor_flag7 by (apply Z.mod_pos_bound; lia). destruct (p / 128 =? 0); reflexivity.
Qed.
Lemma write_loop_zero room : write_loop room 0 = Ok [].
Proof. destruct room; reflexivity. Qed.

Lemma write_loop_groups n : forall q, 0 < q < 128 ^ Z.of_nat (S n) -> write_loop (S n) q = Ok (write_groups n q).
Proof.
  induction n as [|n IH]; intros q Hq; rewrite write_loop_step by lia; cbn [write_groups].
  - change (128 ^ Z.of_nat 1) with 128 in Hq. rewrite Z.div_small, Z.mod_small by lia. reflexivity.
  - rewrite Nat2Z.inj_succ, Z.pow_succ_r in Hq by lia. destruct (q <? 128) eqn:E.
    + rewrite Z.div_small, Z.mod_small, write_loop_zero by lia. reflexivity.
    + assert (0 < q / 128 < 128 ^ Z.of_nat (S n)) by (Z.div_mod_to_equations; lia).
      rewrite IH by assumption. replace (q / 128 =? 0) with false by lia. reflexivity.
Qed.

Theorem write_int_arith v : is_i32 v = true -> write_int v = Ok (write_int_a v).
Proof.
  intros Hv. pose proof (mag_range v Hv) as Hm. pose proof (Z.mod_pos_bound (mag v) 64 eq_refl) as Hd.
  unfold write_int. rewrite pattern_mag, land63, shiftr_div, write_int_a_groups by (exact Hv || lia).
  change (2 ^ 6) with 64. rewrite lor_flags76 by exact Hd. unfold sgn.
  destruct (mag v <? 64) eqn:E.
  - rewrite Z.div_small, Z.mod_small by lia. cbn [write_loop Z.eqb negb]. destruct (v <? 0); f_equal; f_equal; lia.
  - assert (0 < mag v / 64 < 128 ^ Z.of_nat 4) by (change (128 ^ Z.of_nat 4) with 268435456; Z.div_mod_to_equations; lia).
    rewrite write_loop_groups by assumption. replace (mag v / 64 =? 0) with false by lia.
    cbn [negb]. destruct (v <? 0); f_equal; f_equal; lia.
Qed.
