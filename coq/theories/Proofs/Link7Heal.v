(* C02 for 0.7 at the level of the link (the twin of Link6Heal.v over Model/Link7.v): from every state
   of the two-endpoint 0.7 link in which both ends are online and each end puts the other end's
   token on its datagrams there is a finite "healing schedule" -- the applications only flush and
   tick, the network loses what was in flight and from then on delivers every datagram exactly once
   and in order -- that ends in the quiescent state: everything submitted is delivered, every resend
   queue and every packet under construction is empty, nothing is in flight; three ticks. *)
From LibTw2 Require Import Base.Res Model.PacketTypes Model.ConnCore Model.Conn6 Model.Conn7 Model.LinkGhost Model.Link7
  Proofs.ConnCoreInv Proofs.Conn7Inv Proofs.LinkArith Proofs.LinkCore Proofs.Link7Inv Proofs.ConnProgress.
From LibTw2 Require Export Proofs.LinkHealCore.
From Coq Require Import ZArith Lia Bool List.
Open Scope Z_scope.

(* the time by which both the send timer and the oldest resend timer have run out *)
Definition due7 (c : conn7) : Z :=
  match c7_state c with
  | Online7 o => Z.max (tval (c7_send c))
                      (match queue_back (o_queue o) with Some rc => tval (rc_next rc) | None => 0 end)
  | _ => 0
  end.

Definition mkf7 (x : lside7) (d : dgram) : flight := {| f_d := d; f_n := zlen (l7_sub x); f_c := zlen (l7_del x) |}.

Lemma side_step_inv7 now x op x' fl : side_step7 now x op = Ok (x', fl) ->
  exists out, step7 (l7_conn x) {| e_now := now; e_rand := l7_rand x |} op = Ok out /\
              x' = after7 x op out /\ fl = map (mkf7 x) (out7_sent out).
Proof.
  unfold side_step7. destruct (step7 _ _ _) as [out| | |]; try discriminate.
  intros H. injection H as <- <-. exists out. repeat split.
Qed.

Lemma tokb_refl t : tokb t t = true.
Proof. unfold tokb. destruct (list_eq_dec Z.eq_dec t t); [reflexivity|contradiction]. Qed.

Lemma no_resend7 (c : conn7) e o rr : c7_state c = Online7 o -> rr = false \/ o_queue o = [] ->
  (if rr then do_resend7 c e o else Ok (c, [])) = Ok (c, []).
Proof.
  destruct c as [st sd]. cbn [c7_state]. intros -> [->|Hq]; [reflexivity|]. destruct rr; [|reflexivity].
  unfold do_resend7. rewrite (resend_empty _ _ _ Hq). reflexivity.
Qed.

(* a datagram arrives at an online endpoint and provokes no answer: either it does not ask for a
   resend, or its acknowledgement empties the queue first. 0.7: the token in the datagram's header
   is the receiver's own token *)
Lemma feed_side7 now y oy d y' fl :
  c7_state (l7_conn y) = Online7 oy -> benign d -> dgram_tok d = o_own oy ->
  (dgram_rr d = false \/ o_queue (ack_chunks oy (dgram_ack d)) = []) ->
  side_step7 now y (Op7Feed d) = Ok (y', fl) ->
  fl = [] /\ exists oy', c7_state (l7_conn y') = Online7 oy' /\ c7_send (l7_conn y') = c7_send (l7_conn y) /\
    l7_sub y' = l7_sub y /\ l7_rand y' = l7_rand y /\
    o_own oy' = o_own oy /\ o_their oy' = o_their oy /\ o_packet oy' = o_packet oy /\
    o_queue oy' = o_queue (ack_chunks oy (dgram_ack d)) /\
    o_ack oy' = ack_after (o_ack oy) (dgram_chunks d) /\
    (dgram_chunks d = [] -> o_rr oy' = o_rr oy).
Proof.
  intros Hon Hb Htok Hnr H. apply side_step_inv7 in H as [out [Hs [-> ->]]].
  destruct (ack_chunks_toks oy (dgram_ack d)) as [T1 T2].
  destruct (ack_chunks_same oy (dgram_ack d)) as [_ [S2 [S3 [_ S5]]]].
  (* a keep-alive or a chunk packet with the right token: the token check passes *)
  unfold step7, feed7 in Hs. rewrite Hon in Hs.
  destruct d as [t1 t2 pl|tok ack [| | | | |]|tok ack rr n cs]; try contradiction;
    cbn [dgram_tok dgram_ack dgram_chunks dgram_rr own_token andb c7_state] in *;
    rewrite Htok, tokb_refl in Hs; cbn [negb] in Hs;
    (destruct ((ack <? 0) || (SEQ_MOD <=? ack)); [discriminate|]).
  - injection Hs as <-. split; [reflexivity|]. exists (ack_chunks oy ack).
    cbn. repeat split; try assumption. intros _. exact S5.
  - rewrite no_resend7 in Hs; [|reflexivity|exact Hnr]. cbn [bind c7_state c7_send] in Hs.
    destruct (recv_chunks _ _ cs) as [[[ack' rr'] evs]| | |] eqn:Erc; cbn [bind] in Hs; try discriminate.
    injection Hs as <-. split; [reflexivity|]. exists (o_set_ack (ack_chunks oy ack) ack' rr').
    cbn. repeat split; try assumption.
    + rewrite <- S2. eapply recv_ack_after, Erc.
    + intros ->. cbn in Erc. injection Erc as _ <- _. exact S5.
Qed.

Lemma flush_side7 now x o x' fl :
  c7_state (l7_conn x) = Online7 o -> side_step7 now x Op7Flush = Ok (x', fl) ->
  exists o' ds, online_flush params7 o = Ok (o', ds) /\
    l7_conn x' = {| c7_state := Online7 o'; c7_send := Some (now + ms 500) |} /\ fl = map (mkf7 x) ds /\
    l7_sub x' = l7_sub x /\ l7_del x' = l7_del x /\ l7_nvs x' = l7_nvs x /\ l7_rand x' = l7_rand x.
Proof.
  intros Hon H. apply side_step_inv7 in H as [out [Hs [-> ->]]].
  unfold step7 in Hs. rewrite Hon in Hs.
  destruct (online_flush params7 o) as [[o' ds]| | |]; cbn [bind] in Hs; try discriminate.
  injection Hs as <-. exists o', ds. cbn. rewrite app_nil_r. repeat split.
Qed.

Lemma tick_side7 now x o x' fl :
  c7_state (l7_conn x) = Online7 o -> conn_ok7 (l7_conn x) -> due7 (l7_conn x) <= now ->
  side_step7 now x Op7Tick = Ok (x', fl) ->
  l7_sub x' = l7_sub x /\ l7_del x' = l7_del x /\ l7_nvs x' = l7_nvs x /\ l7_rand x' = l7_rand x /\
  exists o' ds, c7_state (l7_conn x') = Online7 o' /\ fl = map (mkf7 x) ds /\
   tick_emits params7 now o o' ds.
Proof.
  intros Hon Hc Hd H. apply side_step_inv7 in H as [out [Hs [-> ->]]]. unfold tick_emits.
  unfold conn_ok7 in Hc. rewrite Hon in Hc. destruct Hc as [[_ [_ [_ [_ [Hqk _]]]]] [_ [[b [Hb _]] Hsend]]].
  unfold due7 in Hd. rewrite Hon in Hd.
  unfold step7 in Hs. rewrite Hon in Hs. cbn [e_now] in Hs.
  destruct (o_queue o) as [|c0 q0] eqn:Eq.
  - (* the send timer has run out: tick_action7 *)
    cbn [queue_back map last] in Hs, Hd. rewrite (tval_triggered _ _ Hsend) in Hs by lia.
    unfold tick_action7 in Hs. cbn [c7_state c7_send e_now] in Hs. destruct (can_send o) eqn:Ecs.
    + destruct (online_flush params7 o) as [[o' ds]| | |] eqn:Ef; cbn [bind] in Hs; try discriminate.
      injection Hs as <-. cbn. rewrite app_nil_r. do 4 (split; [reflexivity|]).
      exists o', ds. split; [reflexivity|]. split; [reflexivity|]. right. left. repeat split.
    + unfold send_control7, send_control_with7, set_send7 in Hs. cbn [their_token c7_state c7_send] in Hs. rewrite Hb in Hs.
      assert (Hsz : (MAX_PACKETSIZE <? control_size params7 (Some b) KeepAlive) = false) by reflexivity.
      rewrite Hsz in Hs. injection Hs as <-. cbn. rewrite app_nil_r. do 4 (split; [reflexivity|]).
      exists o, [DControl (o_their o) (o_ack o) KeepAlive]. split; [reflexivity|]. split; [rewrite Hb; reflexivity|].
      right. right. repeat split.
  - (* the oldest entry of the queue is due: resend *)
    rewrite <- Eq in Hs, Hd, Hqk. assert (Hq : o_queue o <> []) by (rewrite Eq; discriminate).
    rewrite (resend_due pp7 o now Hqk Hq) in Hs by lia. unfold do_resend7 in Hs. cbn [e_now] in Hs.
    destruct (online_resend params7 now o) as [[[o' ds] ts]| | |] eqn:Er; cbn [bind] in Hs; try discriminate.
    injection Hs as <-. cbn. rewrite app_nil_r. do 4 (split; [reflexivity|]).
    exists o', ds. split; [reflexivity|]. split; [reflexivity|]. left. split; [discriminate|]. exists ts. reflexivity.
Qed.

Lemma speak_side7 now x o a x1 fl1 x2 fl2 :
  c7_state (l7_conn x) = Online7 o -> conn_ok7 (l7_conn x) -> snd_inv o (l7_sub x) (l7_nvs x) a ->
  o_ack o = seqof (zlen (l7_del x)) -> due7 (l7_conn x) <= now ->
  side_step7 now x Op7Tick = Ok (x1, fl1) -> side_step7 now x1 Op7Flush = Ok (x2, fl2) ->
  exists o2 ds,
    l7_conn x2 = {| c7_state := Online7 o2; c7_send := Some (now + ms 500) |} /\ fl1 ++ fl2 = map (mkf7 x) ds /\
    l7_sub x2 = l7_sub x /\ l7_del x2 = l7_del x /\ l7_rand x2 = l7_rand x /\
    o_own o2 = o_own o /\ o_their o2 = o_their o /\
    spoken (o_their o) (zlen (l7_sub x)) a o o2 ds.
Proof.
  intros Hon Hc Hsnd Hack Hdue H1 H2.
  assert (Hok : online_ok pp7 o) by (unfold conn_ok7 in Hc; rewrite Hon in Hc; apply Hc).
  destruct (tick_side7 now x o x1 fl1 Hon Hc Hdue H1) as [Es1 [Ed1 [_ [Er1 [o1 [ds1 [Hon1 [-> Htick]]]]]]]].
  destruct (flush_side7 now x1 o1 x2 fl2 Hon1 H2) as [o2 [ds2 [Ef [Hconn2 [-> [Es2 [Ed2 [_ Er2]]]]]]]].
  exists o2, (ds1 ++ ds2). split; [exact Hconn2|].
  split; [rewrite map_app; unfold mkf7; rewrite Es1, Ed1; reflexivity|].
  split; [congruence|]. split; [congruence|]. split; [congruence|].
  exact (speak_online params7 now o o1 ds1 o2 ds2 _ _ a _ (pc_ok_count _ _ (proj1 Hok))
           (pc_ok_count _ _ (proj1 (proj2 Hok))) Hsnd Hack (zlen_nonneg _) Htick Ef).
Qed.

Definition sched7 (w : link7) (ls : list llabel7) (w' : link7) : Prop :=
  admissible_run7 w ls /\ link_run7 w ls = Ok w'.

Lemma sched_nil7 w : sched7 w [] w.
Proof. split; [exact I|reflexivity]. Qed.

Lemma sched_cons7 w l w1 ls w' : admissible7 w l -> link_step7 w l = Ok w1 -> sched7 w1 ls w' -> sched7 w (l :: ls) w'.
Proof. intros Ha Hs [H1 H2]. split; cbn [admissible_run7 link_run7]; rewrite Hs; [split; assumption|exact H2]. Qed.

Lemma sched_app7 l1 : forall w w1 l2 w2, sched7 w l1 w1 -> sched7 w1 l2 w2 -> sched7 w (l1 ++ l2) w2.
Proof.
  induction l1 as [|l l1 IH]; intros w w1 l2 w2 [A1 R1] H2; cbn [app].
  - cbn in R1. injection R1 as <-. exact H2.
  - cbn [admissible_run7 link_run7] in A1, R1. destruct A1 as [Al A1].
    destruct (link_step7 w l) as [wm| | |] eqn:E; try discriminate.
    eapply sched_cons7; [exact Al|exact E|]. eapply IH; [split; eassumption|exact H2].
Qed.

Lemma other_other7 s : other7 (other7 s) = s.
Proof. destruct s; reflexivity. Qed.

Lemma linv_side7 w s : link_inv7 w ->
  side_inv7 (get7 w s) (l7_sub (get7 w (other7 s))) (l7_del (get7 w (other7 s))) (l7_nvs (get7 w (other7 s)))
           (l7_answered (get7 w (other7 s))).
Proof. intros [A [B _]]. destruct s; assumption. Qed.

Lemma linv_bag7 w s : link_inv7 w -> bag_inv7 (bag7 w s) (get7 w s).
Proof. intros [_ [_ [A B]]]. destruct s; assumption. Qed.

(* 0.7: each end has its own token (expected on what it receives) and puts the peer's token on
   what it sends: toks s is the token of end s *)
Definition side_good7 (x : lside7) (own their : option token) (sub : list bytes) (rnd : list token) : Prop :=
  exists o, c7_state (l7_conn x) = Online7 o /\ o_own o = own /\ o_their o = their /\ l7_sub x = sub /\ l7_rand x = rnd.

Definition good7 (w : link7) (toks : side7 -> option token) (subs : side7 -> list bytes) (rnds : side7 -> list token) : Prop :=
  link_inv7 w /\ forall s, side_good7 (get7 w s) (toks s) (toks (other7 s)) (subs s) (rnds s).

Lemma good_update7 w w' toks subs rnds s :
  good7 w toks subs rnds -> link_inv7 w' -> side_good7 (get7 w' s) (toks s) (toks (other7 s)) (subs s) (rnds s) ->
  get7 w' (other7 s) = get7 w (other7 s) -> good7 w' toks subs rnds.
Proof.
  intros [_ G] Hi Hs Ho. split; [exact Hi|]. intros t.
  destruct s, t; cbn [other7] in *; try exact Hs; rewrite Ho.
  - exact (G SB7).
  - exact (G SA7).
Qed.

Lemma good_sub7 w toks subs rnds t : good7 w toks subs rnds -> l7_sub (get7 w t) = subs t.
Proof. intros [_ G]. destruct (G t) as [o [_ [_ [_ [H _]]]]]. exact H. Qed.

Lemma lapp_step7 w s op : link_inv7 w -> admissible7 w (L7App s op) ->
  exists x' fl, side_step7 (k7_now w) (get7 w s) op = Ok (x', fl) /\
    link_step7 w (L7App s op) = Ok (set_side7 w s x' fl) /\ link_inv7 (set_side7 w s x' fl).
Proof.
  intros Hi Ha. destruct (link_step_inv7 w _ Hi Ha) as [w' [Hs Hi']]. cbn [link_step7] in Hs.
  destruct (side_step7 (k7_now w) (get7 w s) op) as [[x' fl]| | |] eqn:E; try discriminate.
  injection Hs as <-. exists x', fl. split; [reflexivity|]. split; [|exact Hi'].
  cbn [link_step7]. rewrite E. reflexivity.
Qed.

Lemma ldeliver_step7 w s f rest : link_inv7 w -> bag7 w s = f :: rest ->
  fresh7 f (get7 w (other7 s)) -> rand_ok7 {| e_now := k7_now w; e_rand := l7_rand (get7 w (other7 s)) |} ->
  admissible7 w (L7Deliver s 0) /\
  exists y' fl, side_step7 (k7_now w) (get7 w (other7 s)) (Op7Feed (f_d f)) = Ok (y', fl) /\
    link_step7 w (L7Deliver s 0) = Ok (set_side7 w (other7 s) y' fl) /\ link_inv7 (set_side7 w (other7 s) y' fl).
Proof.
  intros Hi Hb Hf Hr.
  assert (Ha : admissible7 w (L7Deliver s 0)).
  { cbn [admissible7]. rewrite Hb. cbn [nth_error]. split; assumption. }
  split; [exact Ha|].
  destruct (link_step_inv7 w _ Hi Ha) as [w' [Hs Hi']]. cbn [link_step7] in Hs. rewrite Hb in Hs. cbn [nth_error] in Hs.
  destruct (side_step7 (k7_now w) (get7 w (other7 s)) (Op7Feed (f_d f))) as [[y' fl]| | |] eqn:E; try discriminate.
  injection Hs as <-. exists y', fl. split; [reflexivity|]. split; [|exact Hi'].
  cbn [link_step7]. rewrite Hb. cbn [nth_error]. rewrite E. reflexivity.
Qed.

Lemma ldrop_step7 w s : exists w1, link_step7 w (L7Drop s 0) = Ok w1 /\ (forall t, get7 w1 t = get7 w t) /\
  bag7 w1 s = tl (bag7 w s) /\ bag7 w1 (other7 s) = bag7 w (other7 s) /\ k7_now w1 = k7_now w /\
  (link_inv7 w -> link_inv7 w1).
Proof.
  destruct s; (eexists; split; [reflexivity|]); cbn [get7 bag7 other7 k7_now k7_a k7_b k7_ab k7_ba].
  - split; [intros []; reflexivity|]. split; [destruct (k7_ab w); reflexivity|]. split; [reflexivity|]. split; [reflexivity|].
    intros [A [B [C D]]]. unfold link_inv7. cbn [k7_a k7_b k7_ab k7_ba].
    split; [exact A|]. split; [exact B|]. split; [apply remove_nth7_forall, C|exact D].
  - split; [intros []; reflexivity|]. split; [destruct (k7_ba w); reflexivity|]. split; [reflexivity|]. split; [reflexivity|].
    intros [A [B [C D]]]. unfold link_inv7. cbn [k7_a k7_b k7_ab k7_ba].
    split; [exact A|]. split; [exact B|]. split; [exact C|apply remove_nth7_forall, D].
Qed.

Lemma ltime_step7 w dt : exists w1, link_step7 w (L7Time dt) = Ok w1 /\ (forall t, get7 w1 t = get7 w t) /\
  (forall t, bag7 w1 t = bag7 w t) /\ k7_now w1 = k7_now w + dt /\ (link_inv7 w -> link_inv7 w1).
Proof.
  eexists. split; [reflexivity|]. cbn. split; [intros []; reflexivity|]. split; [intros []; reflexivity|].
  split; [reflexivity|]. intros H. exact H.
Qed.

Lemma get_set_same7 w s x fl : get7 (set_side7 w s x fl) s = x.
Proof. destruct s; reflexivity. Qed.
Lemma get_set_other7 w s x fl : get7 (set_side7 w s x fl) (other7 s) = get7 w (other7 s).
Proof. destruct s; reflexivity. Qed.
Lemma bag_set_same7 w s x fl : bag7 (set_side7 w s x fl) s = bag7 w s ++ fl.
Proof. destruct s; reflexivity. Qed.
Lemma bag_set_other7 w s x fl : bag7 (set_side7 w s x fl) (other7 s) = bag7 w (other7 s).
Proof. destruct s; reflexivity. Qed.
Lemma now_set7 w s x fl : k7_now (set_side7 w s x fl) = k7_now w.
Proof. destruct s; reflexivity. Qed.

Definition speak7 (s : side7) (dt : Z) : list llabel7 := [L7Time dt; L7App s Op7Tick; L7App s Op7Flush].
Fixpoint drain7 (s : side7) (n : nat) : list llabel7 :=
  match n with O => [] | S k => L7Deliver s 0 :: L7Drop s 0 :: drain7 s k end.
Definition drops7 (s : side7) (n : nat) : list llabel7 := repeat (L7Drop s 0) n.

Lemma drop_all7 s : forall n w, length (bag7 w s) = n -> link_inv7 w ->
  exists w', sched7 w (drops7 s n) w' /\ link_inv7 w' /\ (forall t, get7 w' t = get7 w t) /\
    bag7 w' s = [] /\ bag7 w' (other7 s) = bag7 w (other7 s) /\ k7_now w' = k7_now w.
Proof.
  induction n as [|n IH]; intros w Hl Hi.
  - exists w. split; [apply sched_nil7|]. split; [exact Hi|]. split; [reflexivity|].
    split; [apply length_zero_iff_nil, Hl|]. split; reflexivity.
  - destruct (ldrop_step7 w s) as [w1 [S1 [G1 [B1 [O1 [N1 I1]]]]]].
    destruct (IH w1) as [w' [Hs [Hi' [G' [B' [O' N']]]]]].
    { rewrite B1. destruct (bag7 w s); [discriminate|]. cbn in *. lia. }
    { apply I1, Hi. }
    exists w'. split; [eapply sched_cons7; [exact I|exact S1|exact Hs]|]. split; [exact Hi'|].
    split; [intros t; rewrite G', G1; reflexivity|]. split; [exact B'|]. split; congruence.
Qed.

Lemma get_set_other7' w s x fl : get7 (set_side7 w (other7 s) x fl) s = get7 w s.
Proof. destruct s; reflexivity. Qed.
Lemma bag_set_other7' w s x fl : bag7 (set_side7 w (other7 s) x fl) s = bag7 w s.
Proof. destruct s; reflexivity. Qed.

Lemma speak_link7 w s toks subs rnds o :
  good7 w toks subs rnds -> c7_state (l7_conn (get7 w s)) = Online7 o ->
  exists w' ds o2,
    sched7 w (speak7 s (Z.max 0 (due7 (l7_conn (get7 w s)) - k7_now w))) w' /\ good7 w' toks subs rnds /\
    bag7 w' s = bag7 w s ++ map (mkf7 (get7 w s)) ds /\ bag7 w' (other7 s) = bag7 w (other7 s) /\
    get7 w' (other7 s) = get7 w (other7 s) /\ l7_del (get7 w' s) = l7_del (get7 w s) /\
    c7_state (l7_conn (get7 w' s)) = Online7 o2 /\
    exists a, a <= zlen (l7_del (get7 w (other7 s))) <= zlen (subs s) /\ spoken (toks (other7 s)) (zlen (subs s)) a o o2 ds.
Proof.
  intros [Hi G] Hon. remember (get7 w s) as x eqn:Ex.
  set (dt := Z.max 0 (due7 (l7_conn x) - k7_now w)).
  destruct (G s) as [o' [Hon' [Town [Ttheir [Hsub Hrnd]]]]]. rewrite <- Ex in Hon', Hsub, Hrnd.
  rewrite Hon in Hon'. injection Hon' as <-.
  pose proof (linv_side7 w s Hi) as Hsx. rewrite <- Ex in Hsx.
  pose proof (sv7_conn _ _ _ _ _ Hsx) as Hc.
  destruct (sv7_online _ _ _ _ _ Hsx o Hon) as [a [Hsnd [Ha Hack]]].
  pose proof (sv7_dle _ _ _ _ _ (linv_side7 w (other7 s) Hi)) as Hdle. rewrite other_other7, <- Ex in Hdle.
  destruct (ltime_step7 w dt) as [w1 [S1 [G1 [B1 [N1 I1]]]]]. specialize (I1 Hi).
  assert (A2 : admissible7 w1 (L7App s Op7Tick)) by (cbn; repeat split).
  destruct (lapp_step7 w1 s Op7Tick I1 A2) as [x1 [fl1 [T1 [L1 I2]]]]. rewrite G1, <- Ex in T1.
  assert (Hdue : due7 (l7_conn x) <= k7_now w1) by (rewrite N1; unfold dt; lia).
  destruct (tick_side7 _ x o x1 fl1 Hon Hc Hdue T1) as [_ [_ [_ [_ [o1 [ds1 [Hon1 _]]]]]]].
  assert (A3 : admissible7 (set_side7 w1 s x1 fl1) (L7App s Op7Flush)).
  { cbn [admissible7]. rewrite get_set_same7. split; [exact I|]. split; [exists o1; exact Hon1|exact I]. }
  destruct (lapp_step7 _ s Op7Flush I2 A3) as [x2 [fl2 [T2 [L2 I3]]]].
  rewrite get_set_same7, now_set7 in T2.
  destruct (speak_side7 _ x o a x1 fl1 x2 fl2 Hon Hc Hsnd Hack Hdue T1 T2)
    as [o2 [ds [Hconn2 [Hfl [Es [Ed [Er [To [Tt P]]]]]]]]].
  exists (set_side7 (set_side7 w1 s x1 fl1) s x2 fl2), ds, o2.
  split.
  { eapply sched_cons7; [exact I|exact S1|]. eapply sched_cons7; [exact A2|exact L1|].
    eapply sched_cons7; [exact A3|exact L2|apply sched_nil7]. }
  split.
  { eapply (good_update7 w _ toks subs rnds s); [split; assumption|exact I3| |].
    - rewrite get_set_same7. exists o2. rewrite Hconn2. cbn [c7_state].
      split; [reflexivity|]. split; [congruence|]. split; [congruence|]. split; congruence.
    - rewrite !get_set_other7. apply G1. }
  split. { rewrite !bag_set_same7, B1, <- app_assoc, Hfl. reflexivity. }
  split. { rewrite !bag_set_other7. apply B1. }
  split. { rewrite !get_set_other7. apply G1. }
  rewrite get_set_same7. split; [exact Ed|]. split; [rewrite Hconn2; reflexivity|].
  exists a. rewrite <- Ttheir, <- Hsub. split; [split; assumption|exact P].
Qed.

Lemma deliver_one7 w s toks subs rnds f rest oy :
  good7 w toks subs rnds -> (forall now, rand_ok7 {| e_now := now; e_rand := rnds (other7 s) |}) ->
  bag7 w s = f :: rest -> fl_ok (toks (other7 s)) (zlen (subs s)) (zlen (subs (other7 s))) f ->
  c7_state (l7_conn (get7 w (other7 s))) = Online7 oy ->
  exists w' oy', sched7 w (drain7 s 1) w' /\ good7 w' toks subs rnds /\
    bag7 w' s = rest /\ bag7 w' (other7 s) = bag7 w (other7 s) /\ get7 w' s = get7 w s /\ k7_now w' = k7_now w /\
    c7_state (l7_conn (get7 w' (other7 s))) = Online7 oy' /\
    c7_send (l7_conn (get7 w' (other7 s))) = c7_send (l7_conn (get7 w (other7 s))) /\
    heard (zlen (subs (other7 s))) oy [f] oy'.
Proof.
  intros [Hi G] Hrnd Hb Hf Hony.
  remember (get7 w (other7 s)) as y eqn:Ey.
  destruct (G (other7 s)) as [oy0 [Hon0 [Town [Ttheir [Hsuby Hrndy]]]]]. rewrite <- Ey in Hon0, Hsuby, Hrndy.
  rewrite Hony in Hon0. injection Hon0 as <-.
  destruct (G s) as [ox [_ [_ [_ [Hsubx _]]]]].
  pose proof (linv_side7 w (other7 s) Hi) as Hsy. rewrite other_other7, <- Ey in Hsy.
  destruct (sv7_online _ _ _ _ _ Hsy oy Hony) as [a [Hsnd _]].
  pose proof (sv7_dle _ _ _ _ _ Hsy) as Hdle. rewrite Hsubx in Hdle.
  pose proof (linv_bag7 w s Hi) as Hbag. rewrite Hb in Hbag. apply Forall_inv in Hbag as [Hfl _].
  assert (Hall : f_c f = zlen (subs (other7 s)) -> o_queue (ack_chunks oy (dgram_ack (f_d f))) = []).
  { rewrite <- Hsuby in *. intros E. eapply fl_ok_acks_all; eassumption. }
  destruct (ldeliver_step7 w s f rest Hi Hb) as [A1 [y' [fl [T1 [L1 I1]]]]].
  { rewrite <- Ey. unfold fresh7. rewrite Hsuby. exact (fl_ok_fresh _ _ _ _ _ Hf Hdle). }
  { rewrite <- Ey, Hrndy. apply Hrnd. }
  rewrite <- Ey in T1. destruct Hf as [_ [_ [_ [F4 [F5 F6]]]]].
  assert (Hnr : dgram_rr (f_d f) = false \/ o_queue (ack_chunks oy (dgram_ack (f_d f))) = [])
    by (destruct F6 as [E|E]; [left; exact E|right; exact (Hall E)]).
  destruct (feed_side7 _ y oy (f_d f) y' fl Hony F4 (eq_trans F5 (eq_sym Town)) Hnr T1)
    as [-> [oy' [Hon' [Hcs [Hs' [Hr' [To' [Tt' [Hp' [Hq' [Hak' Hrr']]]]]]]]]]].
  destruct (ldrop_step7 (set_side7 w (other7 s) y' []) s) as [w2 [S2 [G2 [B2 [O2 [N2 I2]]]]]].
  specialize (I2 I1).
  exists w2, oy'.
  split. { eapply sched_cons7; [exact A1|exact L1|]. eapply sched_cons7; [exact I|exact S2|apply sched_nil7]. }
  split.
  { eapply (good_update7 w _ toks subs rnds (other7 s)); [split; assumption|exact I2| |].
    - rewrite G2, get_set_same7. exists oy'. split; [exact Hon'|]. split; [congruence|]. split; [congruence|].
      split; congruence.
    - rewrite other_other7, G2, get_set_other7'. reflexivity. }
  split. { rewrite B2, bag_set_other7', Hb. reflexivity. }
  split. { rewrite O2, bag_set_same7, app_nil_r. reflexivity. }
  split. { rewrite G2, get_set_other7'. reflexivity. }
  split. { rewrite N2, now_set7. reflexivity. }
  rewrite G2, get_set_same7. split; [exact Hon'|]. split; [exact Hcs|]. apply heard_one; assumption.
Qed.

Lemma drain_all7 s toks subs rnds :
  (forall now, rand_ok7 {| e_now := now; e_rand := rnds (other7 s) |}) ->
  forall F w oy, good7 w toks subs rnds -> bag7 w s = F ->
  Forall (fl_ok (toks (other7 s)) (zlen (subs s)) (zlen (subs (other7 s)))) F ->
  c7_state (l7_conn (get7 w (other7 s))) = Online7 oy ->
  exists w' oy', sched7 w (drain7 s (length F)) w' /\ good7 w' toks subs rnds /\
    bag7 w' s = [] /\ bag7 w' (other7 s) = bag7 w (other7 s) /\ get7 w' s = get7 w s /\ k7_now w' = k7_now w /\
    c7_state (l7_conn (get7 w' (other7 s))) = Online7 oy' /\
    c7_send (l7_conn (get7 w' (other7 s))) = c7_send (l7_conn (get7 w (other7 s))) /\
    heard (zlen (subs (other7 s))) oy F oy'.
Proof.
  intros Hrnd. induction F as [|f rest IH]; intros w oy Hg Hb Hall Hony.
  - exists w, oy. split; [apply sched_nil7|]. split; [exact Hg|]. split; [exact Hb|].
    do 3 (split; [reflexivity|]). split; [exact Hony|]. split; [reflexivity|apply heard_nil].
  - inversion Hall as [|f' r' Hf Hrest]; subst f' r'.
    destruct (deliver_one7 w s toks subs rnds f rest oy Hg Hrnd Hb Hf Hony)
      as [w1 [oy1 [S1 [G1 [B1 [O1 [X1 [N1 [On1 [Cs1 H1]]]]]]]]]].
    destruct (IH w1 oy1 G1 B1 Hrest On1) as [w2 [oy2 [S2 [G2 [B2 [O2 [X2 [N2 [On2 [Cs2 H2]]]]]]]]]].
    exists w2, oy2.
    split; [exact (sched_app7 (drain7 s 1) w w1 (drain7 s (length rest)) w2 S1 S2)|].
    split; [exact G2|]. split; [exact B2|]. split; [congruence|]. split; [congruence|]. split; [congruence|].
    split; [exact On2|]. split; [congruence|exact (heard_cons _ _ _ _ _ _ H1 H2)].
Qed.

(* everything s has submitted is delivered once the other side has been given as much as there is:
   when s's queue is empty, or when the other side's acknowledgement number says so *)
Lemma all_delivered7 w s : link_inv7 w -> zlen (l7_sub (get7 w s)) <= zlen (l7_del (get7 w (other7 s))) ->
  l7_del (get7 w (other7 s)) = l7_sub (get7 w s).
Proof.
  intros Hi H. pose proof (linv_side7 w (other7 s) Hi) as Hy. rewrite other_other7 in Hy.
  apply prefix_all; [exact (sv7_prefix _ _ _ _ _ Hy)|]. pose proof (sv7_dle _ _ _ _ _ Hy). lia.
Qed.

Lemma queue_empty_del7 w s o : link_inv7 w -> c7_state (l7_conn (get7 w s)) = Online7 o -> o_queue o = [] ->
  l7_del (get7 w (other7 s)) = l7_sub (get7 w s).
Proof.
  intros Hi Hon Hq. destruct (sv7_online _ _ _ _ _ (linv_side7 w s Hi) o Hon) as [a [Hs [Ha _]]].
  pose proof (si_queue _ _ _ _ Hs) as Hqi. rewrite Hq in Hqi. cbn in Hqi.
  apply all_delivered7; [exact Hi|lia].
Qed.

Lemma ack_del7 w s oy : link_inv7 w -> c7_state (l7_conn (get7 w (other7 s))) = Online7 oy ->
  o_ack oy = seqof (zlen (l7_sub (get7 w s))) -> l7_del (get7 w (other7 s)) = l7_sub (get7 w s).
Proof.
  intros Hi Hon Hak. pose proof (linv_side7 w (other7 s) Hi) as Hy. rewrite other_other7 in Hy.
  destruct (sv7_online _ _ _ _ _ Hy oy Hon) as [a [_ [_ Hack]]].
  pose proof (sv7_dle _ _ _ _ _ Hy) as Hdle. pose proof (sv7_gap _ _ _ _ _ (linv_side7 w s Hi)) as Hgap.
  apply all_delivered7; [exact Hi|]. apply Z.eq_le_incl, seqof_inj; [congruence|lia].
Qed.

Lemma fl_ok_map7 tok x nX nY rr0 ds :
  zlen (l7_sub x) = nX -> nY - zlen (l7_del x) <= 511 ->
  Forall (dg_ok tok rr0) ds -> Forall (fun d => tight nX (dgram_chunks d)) ds ->
  (rr0 = false \/ zlen (l7_del x) = nY) ->
  Forall (fl_ok tok nX nY) (map (mkf7 x) ds).
Proof. intros <-. apply fl_ok_flights. Qed.

Lemma map_fd_mkf7 x ds : map f_d (map (mkf7 x) ds) = ds.
Proof. rewrite map_map. cbn. apply map_id. Qed.

(* one round of the healing: nothing from s is in flight; s speaks (speak_link7) and what it says
   arrives (drain_all7). The other7 side then has been given everything s has submitted. The receiver
   must not answer, so a datagram may ask for a resend only if it acknowledges everything: the resend
   then finds an empty queue. That is the last hypothesis: s has no request pending, or has been
   given everything *)
Lemma round_link7 w s toks subs rnds o oy :
  good7 w toks subs rnds -> (forall now, rand_ok7 {| e_now := now; e_rand := rnds (other7 s) |}) ->
  bag7 w s = [] ->
  c7_state (l7_conn (get7 w s)) = Online7 o -> c7_state (l7_conn (get7 w (other7 s))) = Online7 oy ->
  (o_rr o = false \/ l7_del (get7 w s) = subs (other7 s)) ->
  exists dt n w' o' oy', 0 <= dt /\ sched7 w (speak7 s dt ++ drain7 s n) w' /\ good7 w' toks subs rnds /\
    bag7 w' s = [] /\ bag7 w' (other7 s) = bag7 w (other7 s) /\
    c7_state (l7_conn (get7 w' s)) = Online7 o' /\ c7_state (l7_conn (get7 w' (other7 s))) = Online7 oy' /\
    l7_del (get7 w' (other7 s)) = subs s /\ l7_del (get7 w' s) = l7_del (get7 w s) /\
    round_end (l7_del (get7 w s) = subs (other7 s)) o o' oy oy'.
Proof.
  intros G Hrnd Hb Hon Hony Hrr. pose proof (proj1 G) as Hi.
  pose proof (good_sub7 _ _ _ _ s G) as Hsub. pose proof (good_sub7 _ _ _ _ (other7 s) G) as Hsuby.
  destruct (speak_link7 w s toks subs rnds o G Hon) as [w1 [ds [o1 [S1 [G1 [B1 [O1 [X1 [D1 [Hon1 [a [Ha Sp]]]]]]]]]]]].
  pose proof Sp as [_ [_ [Q1 [_ [Dg [Ti _]]]]]].
  rewrite Hb in B1. cbn [app] in B1.
  assert (F : Forall (fl_ok (toks (other7 s)) (zlen (subs s)) (zlen (subs (other7 s)))) (map (mkf7 (get7 w s)) ds)).
  { eapply fl_ok_map7; [rewrite Hsub; reflexivity| |exact Dg|exact Ti|].
    - pose proof (sv7_gap _ _ _ _ _ (linv_side7 w (other7 s) Hi)) as Hg. rewrite other_other7, Hsuby in Hg. exact Hg.
    - destruct Hrr as [E|E]; [left; exact E|right; rewrite E; reflexivity]. }
  destruct (drain_all7 s toks subs rnds Hrnd _ w1 oy G1 B1 F) as [w2 [oy2 [S2 [G2 [B2 [O2 [X2 [N2 [Hony2 [_ Hd]]]]]]]]]].
  { rewrite X1. exact Hony. }
  destruct (spoken_heard (l7_del (get7 w s) = subs (other7 s)) _ _ _ _ (zlen (l7_del (get7 w s))) _ _ _ _ _ _ Sp Hd) as [Re Ak].
  { intros E. rewrite E. reflexivity. }
  pose proof (proj1 G2) as Hi2. pose proof (good_sub7 _ _ _ _ s G2) as Hsub2.
  assert (Hon2 : c7_state (l7_conn (get7 w2 s)) = Online7 o1) by (rewrite X2; exact Hon1).
  exists (Z.max 0 (due7 (l7_conn (get7 w s)) - k7_now w)), (length (map (mkf7 (get7 w s)) ds)), w2, o1, oy2.
  split; [lia|]. split; [exact (sched_app7 _ _ _ _ _ S1 S2)|]. split; [exact G2|]. split; [exact B2|].
  split; [congruence|]. split; [exact Hon2|]. split; [exact Hony2|].
  split; [|split; [rewrite X2; exact D1|exact Re]].
  rewrite <- Hsub2. destruct (o_queue o) as [|c0 q0] eqn:Eq.
  - apply (queue_empty_del7 w2 s o1 Hi2 Hon2), Q1. reflexivity.
  - (* catch_up: the datagrams take the acknowledgement number from |del| to |sub| *)
    apply (ack_del7 w2 s oy2 Hi2 Hony2). rewrite Hsub2.
    destruct (sv7_online _ _ _ _ _ (linv_side7 w (other7 s) Hi) oy Hony) as [a' [_ [_ Hak]]].
    eapply Ak; [discriminate|exact Ha|exact Hak].
Qed.

(* why three rounds heal a link with nothing in flight and no request pending at s *)
Lemma rounds_link7 w s toks subs rnds o oy :
  good7 w toks subs rnds -> (forall t now, rand_ok7 {| e_now := now; e_rand := rnds t |}) ->
  bag7 w s = [] -> bag7 w (other7 s) = [] ->
  c7_state (l7_conn (get7 w s)) = Online7 o -> c7_state (l7_conn (get7 w (other7 s))) = Online7 oy -> o_rr o = false ->
  exists dt1 n1 dt2 n2 dt3 n3 w' o' oy', 0 <= dt1 /\ 0 <= dt2 /\ 0 <= dt3 /\
    sched7 w (speak7 s dt1 ++ drain7 s n1 ++ speak7 (other7 s) dt2 ++ drain7 (other7 s) n2 ++ speak7 s dt3 ++ drain7 s n3) w' /\
    link_inv7 w' /\ l7_sub (get7 w' s) = subs s /\ l7_sub (get7 w' (other7 s)) = subs (other7 s) /\
    l7_del (get7 w' (other7 s)) = l7_sub (get7 w' s) /\ l7_del (get7 w' s) = l7_sub (get7 w' (other7 s)) /\
    c7_state (l7_conn (get7 w' s)) = Online7 o' /\ c7_state (l7_conn (get7 w' (other7 s))) = Online7 oy' /\
    o_queue o' = [] /\ o_queue oy' = [] /\ pc_chunks (o_packet o') = [] /\ pc_chunks (o_packet oy') = [] /\
    o_rr o' = false /\ o_rr oy' = false /\ bag7 w' s = [] /\ bag7 w' (other7 s) = [].
Proof.
  intros G Hrnd Hb Hby Hon Hony Hrr.
  (* s speaks: the other7 side has everything s has submitted *)
  destruct (round_link7 w s toks subs rnds o oy G (Hrnd (other7 s)) Hb Hon Hony (or_introl Hrr)) as
    [dt1 [n1 [w1 [o1 [oy1 [D1 [S1 [G1 [B1 [O1 [Hon1 [Hony1 [Del1 [_ Rd1]]]]]]]]]]]]]].
  rewrite Hby in O1.
  (* the other7 side speaks, acknowledging all of it: s has everything the other7 side has submitted,
     and the queue of s is empty *)
  destruct (round_link7 w1 (other7 s) toks subs rnds oy1 o1 G1) as
    [dt2 [n2 [w2 [oy2 [o2 [D2 [S2 [G2 [B2 [O2 [Hony2 [Hon2 [Del2 [_ Rd2]]]]]]]]]]]]]];
    rewrite ?other_other7; [apply Hrnd|exact O1|exact Hony1|exact Hon1|right; exact Del1|].
  rewrite other_other7 in *. rewrite B1 in O2.
  (* s speaks once more: only its acknowledgement, which empties the other7 side's queue *)
  destruct (round_link7 w2 s toks subs rnds o2 oy2 G2 (Hrnd (other7 s)) O2 Hon2 Hony2 (or_intror Del2)) as
    [dt3 [n3 [w3 [o3 [oy3 [D3 [S3 [G3 [B3 [O3 [Hon3 [Hony3 [Del3 [Dels3 Rd3]]]]]]]]]]]]]].
  rewrite B2 in O3.
  exists dt1, n1, dt2, n2, dt3, n3, w3, o3, oy3. do 3 (split; [assumption|]).
  split; [rewrite app_assoc; eapply sched_app7; [exact S1|]; rewrite app_assoc; eapply sched_app7; [exact S2|exact S3]|].
  pose proof (good_sub7 _ _ _ _ s G3) as Hs. pose proof (good_sub7 _ _ _ _ (other7 s) G3) as Hsy.
  split; [exact (proj1 G3)|]. do 2 (split; [assumption|]). do 2 (split; [congruence|]). do 2 (split; [assumption|]).
  destruct (rounds_quiet _ _ _ _ _ _ _ _ _ _ _ Rd1 Rd2 Rd3 Del1 Del2) as [Qa [Qb [Pa [Pb [Ra Rb]]]]].
  do 6 (split; [assumption|]). split; assumption.
Qed.

(* both ends are online and each puts the other's token on its datagrams: A flushes, and then has
   no resend request pending *)
Lemma flush_link7 w oa ob :
  link_inv7 w -> c7_state (l7_conn (k7_a w)) = Online7 oa -> c7_state (l7_conn (k7_b w)) = Online7 ob ->
  o_their oa = o_own ob -> o_their ob = o_own oa ->
  exists xa oa1 ds, online_flush params7 oa = Ok (oa1, ds) /\ c7_state (l7_conn xa) = Online7 oa1 /\ o_rr oa1 = false /\
    sched7 w [L7App SA7 Op7Flush] (set_side7 w SA7 xa (map (mkf7 (k7_a w)) ds)) /\
    good7 (set_side7 w SA7 xa (map (mkf7 (k7_a w)) ds)) (fun s => match s with SA7 => o_own oa | SB7 => o_own ob end)
      (fun s => l7_sub (get7 w s)) (fun s => l7_rand (get7 w s)).
Proof.
  intros Hi Hoa Hob HtAB HtBA.
  set (toks := fun s => match s with SA7 => o_own oa | SB7 => o_own ob end).
  assert (G0 : good7 w toks (fun s => l7_sub (get7 w s)) (fun s => l7_rand (get7 w s))).
  { split; [exact Hi|]. intros [|]; cbn [get7].
    - exists oa. split; [exact Hoa|]. split; [reflexivity|]. split; [exact HtAB|]. split; reflexivity.
    - exists ob. split; [exact Hob|]. split; [reflexivity|]. split; [exact HtBA|]. split; reflexivity. }
  assert (A0 : admissible7 w (L7App SA7 Op7Flush)).
  { cbn [admissible7 get7]. split; [exact I|]. split; [exists oa; exact Hoa|exact I]. }
  destruct (lapp_step7 w SA7 Op7Flush Hi A0) as [xa1 [fl0 [T0 [L0 I1]]]]. cbn [get7] in T0.
  destruct (flush_side7 _ _ oa xa1 fl0 Hoa T0) as [oa1 [ds0 [Ef0 [Hconn1 [-> [Es1 [_ [_ Er1]]]]]]]].
  destruct (flush_emits params7 oa oa1 ds0 Ef0) as [To1 [Tt1 [_ R1]]].
  assert (Hoa1 : c7_state (l7_conn xa1) = Online7 oa1) by (rewrite Hconn1; reflexivity).
  exists xa1, oa1, ds0. split; [exact Ef0|]. split; [exact Hoa1|]. split; [exact R1|].
  split; [eapply sched_cons7; [exact A0|exact L0|apply sched_nil7]|].
  eapply (good_update7 w _ _ _ _ SA7); [exact G0|exact I1| |reflexivity].
  exists oa1. unfold toks. cbn [get7 set_side7 k7_a other7]. split; [exact Hoa1|]. split; [congruence|]. split; [congruence|]. split; congruence.
Qed.

(* the healing schedule: A flushes; everything in flight is lost; A speaks, its datagrams arrive;
   B speaks, its datagrams arrive; A speaks once more, its datagrams arrive *)
Definition heal_schedule7 (na nb : nat) (dt1 : Z) (n1 : nat) (dt2 : Z) (n2 : nat) (dt3 : Z) (n3 : nat) : list llabel7 :=
  [L7App SA7 Op7Flush] ++ drops7 SA7 na ++ drops7 SB7 nb ++
  speak7 SA7 dt1 ++ drain7 SA7 n1 ++ speak7 SB7 dt2 ++ drain7 SB7 n2 ++ speak7 SA7 dt3 ++ drain7 SA7 n3.

Theorem heal_link7 w oa ob :
  link_inv7 w -> c7_state (l7_conn (k7_a w)) = Online7 oa -> c7_state (l7_conn (k7_b w)) = Online7 ob ->
  o_their oa = o_own ob -> o_their ob = o_own oa ->
  rand_ok7 {| e_now := k7_now w; e_rand := l7_rand (k7_a w) |} ->
  rand_ok7 {| e_now := k7_now w; e_rand := l7_rand (k7_b w) |} ->
  exists na nb dt1 n1 dt2 n2 dt3 n3 w' oa' ob',
    0 <= dt1 /\ 0 <= dt2 /\ 0 <= dt3 /\
    admissible_run7 w (heal_schedule7 na nb dt1 n1 dt2 n2 dt3 n3) /\
    link_run7 w (heal_schedule7 na nb dt1 n1 dt2 n2 dt3 n3) = Ok w' /\ link_inv7 w' /\
    l7_sub (k7_a w') = l7_sub (k7_a w) /\ l7_sub (k7_b w') = l7_sub (k7_b w) /\
    l7_del (k7_b w') = l7_sub (k7_a w') /\ l7_del (k7_a w') = l7_sub (k7_b w') /\
    c7_state (l7_conn (k7_a w')) = Online7 oa' /\ c7_state (l7_conn (k7_b w')) = Online7 ob' /\
    o_queue oa' = [] /\ o_queue ob' = [] /\
    pc_chunks (o_packet oa') = [] /\ pc_chunks (o_packet ob') = [] /\
    o_rr oa' = false /\ o_rr ob' = false /\ k7_ab w' = [] /\ k7_ba w' = [].
Proof.
  intros Hi Hoa Hob HtAB HtBA HrA HrB.
  destruct (flush_link7 w oa ob Hi Hoa Hob HtAB HtBA) as [xa1 [oa1 [ds0 [_ [Hoa1 [R1 [S1 G1]]]]]]].
  set (w1 := set_side7 w SA7 xa1 _) in *.
  destruct (drop_all7 SA7 _ w1 eq_refl (proj1 G1)) as [w2 [S2 [I2 [E2 [B2 [O2 _]]]]]].
  destruct (drop_all7 SB7 _ w2 eq_refl I2) as [w3 [S3 [I3 [E3 [B3 [O3 _]]]]]]. cbn [other7] in O2, O3.
  assert (E31 : forall t, get7 w3 t = get7 w1 t) by (intros t; rewrite E3, E2; reflexivity).
  pose proof (good_update7 w1 w3 _ _ _ SA7 G1 I3) as G3. rewrite !E31 in G3. specialize (G3 (proj2 G1 SA7) eq_refl).
  rewrite B2 in O3.
  destruct (rounds_link7 w3 SA7 _ _ _ oa1 ob G3) as
    [dt1 [n1 [dt2 [n2 [dt3 [n3 [w' [oa' [ob' [D1 [D2 [D3 [S4 Q]]]]]]]]]]]]];
    [intros [] now; [exact HrA|exact HrB]|exact O3|exact B3|rewrite E31; exact Hoa1|rewrite E31; exact Hob|exact R1|].
  exists (length (bag7 w1 SA7)), (length (bag7 w2 SB7)), dt1, n1, dt2, n2, dt3, n3, w', oa', ob'.
  do 3 (split; [assumption|]).
  destruct (sched_app7 _ _ _ _ _ S1 (sched_app7 _ _ _ _ _ S2 (sched_app7 _ _ _ _ _ S3 S4))) as [Sa Sr].
  split; [exact Sa|]. split; [exact Sr|exact Q].
Qed.

Definition is_tick7 (l : llabel7) : bool := match l with L7App _ Op7Tick => true | _ => false end.
Definition ticks7 (ls : list llabel7) : nat := length (filter is_tick7 ls).

Lemma ticks_app7 a b : ticks7 (a ++ b) = (ticks7 a + ticks7 b)%nat.
Proof. unfold ticks7. rewrite filter_app, app_length. reflexivity. Qed.
Lemma ticks_drops7 s n : ticks7 (drops7 s n) = 0%nat.
Proof. induction n as [|n IH]; [reflexivity|exact IH]. Qed.
Lemma ticks_drain7 s n : ticks7 (drain7 s n) = 0%nat.
Proof. induction n as [|n IH]; [reflexivity|exact IH]. Qed.

Lemma ticks_heal7 na nb dt1 n1 dt2 n2 dt3 n3 : ticks7 (heal_schedule7 na nb dt1 n1 dt2 n2 dt3 n3) = 3%nat.
Proof.
  unfold heal_schedule7. rewrite !ticks_app7, !ticks_drops7, !ticks_drain7. reflexivity.
Qed.

Definition heal_label7 (l : llabel7) : Prop :=
  match l with
  | L7App _ Op7Tick | L7App _ Op7Flush => True
  | L7App _ _ => False
  | L7Time dt => 0 <= dt
  | L7Deliver _ _ | L7Drop _ _ => True
  end.

Lemma heal_labels7 na nb dt1 n1 dt2 n2 dt3 n3 : 0 <= dt1 -> 0 <= dt2 -> 0 <= dt3 ->
  Forall heal_label7 (heal_schedule7 na nb dt1 n1 dt2 n2 dt3 n3).
Proof.
  intros H1 H2 H3.
  assert (Hd : forall s n, Forall heal_label7 (drops7 s n)).
  { intros s n. induction n as [|n IH]; [constructor|]. constructor; [exact I|exact IH]. }
  assert (Hr : forall s n, Forall heal_label7 (drain7 s n)).
  { intros s n. induction n as [|n IH]; [constructor|]. constructor; [exact I|]. constructor; [exact I|exact IH]. }
  assert (Hs : forall s dt, 0 <= dt -> Forall heal_label7 (speak7 s dt)).
  { intros s dt H. repeat constructor. exact H. }
  unfold heal_schedule7. repeat (apply Forall_app; split); auto. repeat constructor.
Qed.

(* network losses happen only in the prefix; afterwards a datagram leaves the network only by being
   delivered: every L7Drop of the second part directly follows the L7Deliver of the same datagram *)
Fixpoint orderly7 (ls : list llabel7) : Prop :=
  match ls with
  | [] => True
  | L7Deliver s O :: L7Drop s' O :: r => s = s' /\ orderly7 r
  | L7Deliver _ _ :: _ => False
  | L7Drop _ _ :: _ => False
  | _ :: r => orderly7 r
  end.

Lemma orderly_app_aux7 n : forall a b, (length a <= n)%nat -> orderly7 a -> orderly7 b -> orderly7 (a ++ b).
Proof.
  induction n as [|n IH]; intros a b Hl Ha Hb; (destruct a as [|l a]; [exact Hb|]); cbn [length] in Hl; [lia|].
  destruct l as [s o|dt|s k|s k]; cbn [app orderly7] in *.
  - apply IH; [lia|exact Ha|exact Hb].
  - apply IH; [lia|exact Ha|exact Hb].
  - destruct k; [|contradiction]. destruct a as [|l2 a]; [contradiction|].
    destruct l2 as [s2 o2|dt2|s2 k2|s2 k2]; try contradiction. destruct k2; [|contradiction].
    destruct Ha as [E Ha]. cbn [app length] in *. split; [exact E|]. apply IH; [lia|exact Ha|exact Hb].
  - contradiction.
Qed.

Lemma orderly_app7 a b : orderly7 a -> orderly7 b -> orderly7 (a ++ b).
Proof. apply (orderly_app_aux7 (length a)). lia. Qed.

Lemma orderly_drain7 s n : orderly7 (drain7 s n).
Proof. induction n as [|n IH]; [exact I|]. cbn. split; [reflexivity|exact IH]. Qed.

Lemma heal_schedule_shape7 na nb dt1 n1 dt2 n2 dt3 n3 :
  exists post, heal_schedule7 na nb dt1 n1 dt2 n2 dt3 n3 = [L7App SA7 Op7Flush] ++ drops7 SA7 na ++ drops7 SB7 nb ++ post /\
               orderly7 post.
Proof.
  eexists. split; [reflexivity|].
  repeat (apply orderly_app7; [first [apply orderly_drain7 | exact I]|]). apply orderly_drain7.
Qed.
