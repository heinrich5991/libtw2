(* What the handshake proofs for the 0.6 and the 0.7 link (Link6Handshake.v, Link7Handshake.v) share:
   invariants of the runs of a labelled transition system, and what the online core of
   Model/ConnCore.v does with the first chunk of a connection and emits when it has something to
   send or resend. *)
From LibTw2 Require Import Base.Res Model.PacketTypes Model.ConnCore Model.Conn6 Model.LinkGhost Proofs.ConnCoreInv Proofs.LinkArith
  Proofs.LinkHealCore.
From Coq Require Import ZArith Lia Bool List.
Open Scope Z_scope.

(* link_run / admissible_run of Link6.v and Link7.v are grun / gadm of their step functions, by
   conversion *)
Section Run.
  Variables (W L : Type) (step : W -> L -> res unit W) (adm : W -> L -> Prop).

  Fixpoint grun (w : W) (ls : list L) : res unit W :=
    match ls with
    | [] => Ok w
    | l :: r => match step w l with Ok w' => grun w' r | e => e end
    end.

  Fixpoint gadm (w : W) (ls : list L) : Prop :=
    match ls with
    | [] => True
    | l :: r => adm w l /\ match step w l with Ok w' => gadm w' r | _ => True end
    end.

  Lemma grun_inv (P : W -> Prop) (Q : L -> Prop) :
    (forall w l w', P w -> Q l -> step w l = Ok w' -> P w') ->
    forall ls w w', P w -> Forall Q ls -> grun w ls = Ok w' -> P w'.
  Proof.
    intros Hstep. induction ls as [|l ls IH]; intros w w' Hp Hq H; cbn [grun] in H.
    - injection H as <-. exact Hp.
    - inversion Hq as [|l0 ls0 Hl Hls]; subst. destruct (step w l) as [w1| | |] eqn:E; try discriminate.
      exact (IH w1 w' (Hstep w l w1 Hp Hl E) Hls H).
  Qed.

  Lemma gadm_labels (Q : L -> Prop) : (forall w l, adm w l -> Q l) ->
    forall ls w w', gadm w ls -> grun w ls = Ok w' -> Forall Q ls.
  Proof.
    intros Hq. induction ls as [|l ls IH]; intros w w' Ha H; cbn [grun gadm] in *; [constructor|].
    destruct Ha as [Hl Ha]. destruct (step w l) as [w1| | |]; try discriminate.
    constructor; [exact (Hq w l Hl)|exact (IH w1 w' Ha H)].
  Qed.
End Run.

(* a fact read off a transition table: T is the table's entry for the case at hand, a combination of
   conjunctions, disjunctions and existentials over equations *)
Ltac read_off T := decompose [and or ex] T; try discriminate; subst; try contradiction.

Definition hs_ctl (d : dgram) : Prop :=
  match d with DControl _ _ (Close _) => False | DControl _ _ _ => True | _ => False end.
Definition is_chunks (d : dgram) : Prop := match d with DChunks _ _ _ _ _ => True | _ => False end.

Lemma triggered_some t now : t <= now -> triggered (Some t) now = true.
Proof. intros H. cbn. apply Z.leb_le, H. Qed.

Lemma ready_events_nonneg evs : 0 <= ready_events evs.
Proof. unfold ready_events. apply zlen_nonneg. Qed.

Definition idle (o : online) : Prop := pc_num (o_packet o) = 0 /\ o_rr o = false /\ o_queue o = [].

Lemma idle_can_send o : pc_num (o_packet o) = 0 -> o_rr o = false -> can_send o = false.
Proof. intros H1 H2. unfold can_send. rewrite H1, H2. reflexivity. Qed.

Lemma flush_idle pp o : can_send o = false -> online_flush pp o = Ok (o, []).
Proof. intros H. unfold online_flush. rewrite H. reflexivity. Qed.

Lemma flush_chunks pp o o' ds : online_flush pp o = Ok (o', ds) -> Forall is_chunks ds.
Proof.
  unfold online_flush. destruct (negb (can_send o)); [intros H; injection H as <- <-; constructor|].
  destruct (MAX_PACKETSIZE <? _); [discriminate|]. intros H; injection H as <- <-. constructor; [exact I|constructor].
Qed.

Lemma resend_loop_chunks pp : forall todo fuel o out ts o' out' ts',
  resend_loop pp fuel o todo out ts = Ok (o', out', ts') -> Forall is_chunks out -> Forall is_chunks out'.
Proof.
  induction todo as [|c rest IH].
  - intros fuel o out ts o' out' ts' H Ho. destruct fuel; cbn in H; injection H as <- <- <-; exact Ho.
  - induction fuel as [|fuel IHf]; intros o out ts o' out' ts' H Ho; cbn [resend_loop] in H; [discriminate|].
    destruct (can_fit_chunk _ _ _ _).
    + destruct (pc_write_chunk _ _ _ _) as [p| | |]; try discriminate. eapply IH; eassumption.
    + destruct (online_flush pp o) as [[o1 d1]| | |] eqn:Ef; try discriminate.
      eapply IHf; [eassumption|]. apply Forall_app. split; [exact Ho|eapply flush_chunks, Ef].
Qed.

Lemma resend_chunks pp now o o' ds ts : online_resend pp now o = Ok (o', ds, ts) -> Forall is_chunks ds.
Proof.
  unfold online_resend. destruct (o_queue o); [intros H; injection H as <- <- <-; constructor|].
  intros H. eapply resend_loop_chunks; [exact H|constructor].
Qed.

(* an online endpoint whose timers have run out ticks and flushes: if it has something to send or
   resend, all it emits are chunk datagrams *)
Lemma busy_speaks_chunks pp now o o1 ds1 o2 ds2 :
  tick_emits pp now o o1 ds1 -> online_flush pp o1 = Ok (o2, ds2) -> o_queue o <> [] \/ can_send o = true -> Forall is_chunks (ds1 ++ ds2).
Proof.
  intros Htick Ef Hbusy. apply Forall_app. split; [|eapply flush_chunks, Ef].
  destruct Htick as [[_ [ts Er]]|[[_ [_ Ef1]]|[Hq [Ecs _]]]].
  - eapply resend_chunks, Er.
  - eapply flush_chunks, Ef1.
  - destruct Hbusy as [Hb|Hb]; [contradiction|congruence].
Qed.

Lemma first_is_chunks tok rr0 n ds :
  ds <> [] -> Forall is_chunks ds -> Forall (dg_ok tok rr0) ds -> Forall (fun d => tight n (dgram_chunks d)) ds ->
  exists ak rr k cs rest, ds = DChunks tok ak rr k cs :: rest /\
    Forall (dg_ok tok rr0) rest /\ Forall (fun d => tight n (dgram_chunks d)) rest.
Proof.
  intros Hne Hch Hdg Hti. destruct ds as [|d rest]; [contradiction|].
  inversion Hch as [|d' r' Hd _]; subst d' r'. inversion Hdg as [|d' r' [_ [Htk _]] Hdgr]; subst d' r'.
  inversion Hti as [|d' r' _ Htir]; subst d' r'.
  destruct d as [t1 t2 pl|tk ak ctl|tk ak rr k cs]; try contradiction. cbn [dgram_tok] in Htk. subst tk.
  exists ak, rr, k, cs, rest. split; [reflexivity|]. split; assumption.
Qed.

Lemma zlen_le0_nil {A} (l : list A) : zlen l <= 0 -> l = [].
Proof. destruct l; [reflexivity|]. unfold zlen. cbn [length]. lia. Qed.

(* nothing in flight is too old for a receiver that has never been online *)
Lemma flight_ok_fresh f n dc sub nvs : flight_ok f n dc sub nvs ->
  0 - f_c f < 1024 /\
  forall c s r, In c (dgram_chunks (f_d f)) -> ch_vital c = Some (s, r) -> 0 - idx_of (f_n f) s < 768.
Proof.
  intros [_ [[Hc _] [_ [_ Hcs]]]]. rewrite Forall_forall in Hcs. split; [lia|].
  intros c s r Hin Hv. specialize (Hcs c Hin). unfold chunk_is in Hcs. rewrite Hv in Hcs.
  destruct Hcs as [i [Hi1 [Hi2 [-> _]]]]. rewrite (idx_of_spec (f_n f) (seqof i) i); [lia|lia|reflexivity].
Qed.

Definition first_chunk (d : bytes) (v : bool) : chunk :=
  {| ch_data := d; ch_vital := if v then Some (1, false) else None |}.

Lemma flush_some pp o : can_send o = true ->
  chunks_dgram_size pp (o_their o) (pc_len (o_packet o)) <= MAX_PACKETSIZE ->
  online_flush pp o = Ok (o_clear o, [DChunks (o_their o) (o_ack o) (o_rr o) (pc_num (o_packet o)) (pc_chunks (o_packet o))]).
Proof. intros H1 H2. unfold online_flush. rewrite H1. replace (_ <? _) with false by lia. reflexivity. Qed.

(* a fresh online record takes one chunk of any size the protocol allows without flushing; the
   flush that follows emits it in one datagram *)
Lemma first_send_flush pp now own their d v : pp_ok pp -> data_ok pp d ->
  exists o1, online_send pp now (online_new own their) d v = Ok (o1, [], SendOk) /\
    online_flush pp o1 = Ok (o_clear o1, [DChunks their 0 false 1 [first_chunk d v]]) /\
    o_own o1 = own /\ o_their o1 = their.
Proof.
  intros Hpp [Hd1 Hd2]. pose proof (Nat2Z.is_nonneg (length d)) as Hd0.
  pose proof (data_fits_empty pp d Hpp (conj Hd1 Hd2)) as Hfit. unfold MAX_PAYLOAD in Hd1.
  assert (Hw : forall vt, pc_write_chunk pp pc_empty d vt
                 = Ok {| pc_num := 1; pc_chunks := [{| ch_data := d; ch_vital := vt |}] |}).
  { intros vt. unfold pc_write_chunk, chunk_size, chunk_hdr. cbn [pc_empty pc_len pc_chunks pc_num chunks_size ch_data].
    replace (2 ^ p_size_bits pp <=? Z.of_nat (length d)) with false by lia.
    replace (2048 <? _) with false by (destruct (is_vital _); lia). reflexivity. }
  unfold online_send, can_fit_chunk, online_queue, MAX_PAYLOAD.
  cbn [online_new o_packet o_packet_nv o_seq pc_empty pc_num pc_len pc_chunks chunks_size].
  replace (2 ^ p_size_bits pp <=? Z.of_nat (length d)) with false by lia. rewrite andb_false_r, orb_false_r.
  replace (1390 <? _) with false by lia.
  replace (_ <=? fit_limit pp) with true by (unfold chunk_hdr; destruct v; lia).
  change (0 <? 255) with true. cbn [andb negb bind online_new o_packet o_packet_nv o_seq]. rewrite !Hw.
  replace (2048 <? _) with false by lia.
  destruct v; cbn [bind]; (eexists; split; [reflexivity|]); (split; [|split; reflexivity]);
    (rewrite flush_some; [reflexivity|reflexivity|]);
    destruct Hpp as [-> | ->], their;
    cbv beta iota delta [chunks_dgram_size pc_len chunks_size chunk_size chunk_hdr is_vital tok_size6 MAX_PACKETSIZE
      o_packet o_their o_set_packets online_new pc_chunks ch_vital ch_data p_header p_v7 params6 params7]; lia.
Qed.
