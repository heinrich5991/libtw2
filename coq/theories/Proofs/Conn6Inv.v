(* 0.6: every valid API call and every datagram the reader can produce keeps the
   connection inside its invariant; no call panics or fails to return; every emitted
   datagram is well-formed; while the endpoint is mid-handshake or online a deadline
   is reported. *)
From LibTw2 Require Import Base.Res Model.PacketTypes Model.ConnCore Model.Conn6 Proofs.ConnCoreInv.
From Coq Require Import ZArith Lia Bool List.
Open Scope Z_scope.

Notation pp6 := params6.
Lemma pp6_ok : pp_ok pp6. Proof. left; reflexivity. Qed.

Definition conn_ok6 (c : conn6) : Prop :=
  match c_state c with
  | Online o => online_ok pp6 o /\ o_own o = o_their o /\ tok_ok (o_their o) /\ c_send c <> None
  | Pending t => tok_ok t /\ c_send c <> None
  | Connecting => c_send c <> None
  | Unconnected | Disconnected => True
  end.

(* what Packet::read can hand to feed *)
Definition dgram_in_ok (d : dgram) : Prop :=
  match d with
  | DConnless _ _ _ => True
  | DControl tok ack _ => tok_ok tok /\ 0 <= ack < SEQ_MOD
  | DChunks tok ack _ _ cs => tok_ok tok /\ 0 <= ack < SEQ_MOD /\ Forall chunk_in_ok cs
  end.

Definition rand_ok (e : env) : Prop :=
  Forall (fun t => length t = 4%nat) (e_rand e) /\ exists t r, token_random (e_rand e) = Ok (t, r).

(* the API contract read off the code's own asserts *)
Definition valid_op6 (c : conn6) (e : env) (o : op) : Prop :=
  match o with
  | OpConnect => c_state c = Unconnected
  | OpSend _ _ | OpFlush | OpSendConnless _ => exists on, c_state c = Online on
  | OpDisconnect r =>
    c_state c <> Unconnected /\ c_state c <> Disconnected /\
    existsb (fun b => b =? 0) r = false /\ (length r <= 127)%nat
  | OpTick | OpFeedGarbage => True
  | OpFeed d => dgram_in_ok d /\ rand_ok e
  | OpReset => c_state c = Disconnected
  end.

Lemma token_random_len rnd t r : Forall (fun t => length t = 4%nat) rnd ->
  token_random rnd = Ok (t, r) -> length t = 4%nat.
Proof.
  induction rnd as [|x rnd IH]; cbn [token_random]; intros Hall H; [discriminate|].
  inversion Hall; subst.
  destruct (list_eq_dec Z.eq_dec x TOKEN_NONE); [apply IH; assumption|].
  destruct (list_eq_dec Z.eq_dec x TOKEN_RESERVED); [apply IH; assumption|].
  injection H as <- <-. assumption.
Qed.

Lemma control_small tok c : tok_ok tok ->
  match c with Close r => (length r <= 127)%nat | _ => True end ->
  control_size pp6 tok c <= MAX_PACKETSIZE.
Proof.
  intros _ Hc. unfold control_size, pp6, params6, MAX_PACKETSIZE, tok_size6. cbn [p_v7].
  destruct c; destruct tok; lia.
Qed.

Definition state_ok6 (st : state6) : Prop :=
  match st with
  | Online o => online_ok pp6 o /\ o_own o = o_their o /\ tok_ok (o_their o)
  | Pending t => tok_ok t
  | _ => True
  end.

Lemma conn_ok6_state c : conn_ok6 c -> state_ok6 (c_state c).
Proof. unfold conn_ok6, state_ok6. destruct (c_state c); tauto. Qed.

Lemma state_ok6_conn st s : state_ok6 st -> s <> None -> conn_ok6 {| c_state := st; c_send := s |}.
Proof. unfold conn_ok6, state_ok6. cbn. destruct st; tauto. Qed.

(* the functions of the online core leave the tokens alone *)
Lemma state_ok6_online o o' : state_ok6 (Online o) -> online_ok pp6 o' ->
  o_own o' = o_own o -> o_their o' = o_their o -> state_ok6 (Online o').
Proof. intros [_ [H1 H2]] Hok E1 E2. cbn. rewrite E1, E2. tauto. Qed.

Definition ok_out6 (r : res unit outcome) : Prop :=
  exists out, r = Ok out /\ conn_ok6 (out_conn out) /\ Forall (dgram_ok pp6) (out_sent out).

Lemma ok_mk6 c e ds evs ws r : conn_ok6 c -> Forall (dgram_ok pp6) ds -> ok_out6 (Ok (mk c e ds evs ws r)).
Proof. intros H1 H2. eexists. split; [reflexivity|split; assumption]. Qed.

Lemma send_control_ok st c :
  st <> Unconnected -> st <> Disconnected -> state_ok6 st ->
  match c with Close r => (length r <= 127)%nat /\ existsb (fun b => b =? 0) r = false | _ => True end ->
  exists ds, send_control st c = Ok ds /\ Forall (dgram_ok pp6) ds.
Proof.
  intros H1 H2 Hst Hc. unfold send_control.
  set (tok := match st with Connecting => Some TOKEN_NONE | Pending t => t | Online o => o_their o | _ => None end).
  assert (Htok : tok_ok tok) by (destruct st; try reflexivity; apply Hst).
  assert (Hsz : control_size pp6 tok c <= MAX_PACKETSIZE) by (apply control_small; [exact Htok|destruct c; try exact I; apply Hc]).
  assert (Hack : 0 <= match st with Online o => o_ack o | _ => 0 end < SEQ_MOD).
  { destruct st; try (unfold SEQ_MOD; lia). apply (online_ok_ack pp6), Hst. }
  destruct st; try contradiction; (replace (MAX_PACKETSIZE <? _) with false by (fold tok; lia));
    (eexists; split; [reflexivity|]); (constructor; [|constructor]); apply control_dgram_ok; assumption.
Qed.

Lemma tick_action_ok c e : state_ok6 (c_state c) -> ok_out6 (tick_action c e).
Proof.
  intros Hst. unfold tick_action.
  assert (Hctl : forall ctl, match ctl with Close _ => False | _ => True end ->
            c_state c <> Unconnected -> c_state c <> Disconnected ->
            ok_out6 (let* d := send_control (c_state c) ctl in
                     Ok (mk {| c_state := c_state c; c_send := Some (e_now e + ms 500) |} e d [] [] ROk))).
  { intros ctl Hctl H1 H2. destruct (send_control_ok (c_state c) ctl H1 H2 Hst) as [ds [Hs Hds]]; [destruct ctl; tauto|].
    rewrite Hs. apply ok_mk6; [apply state_ok6_conn; [exact Hst|discriminate]|exact Hds]. }
  destruct (c_state c) as [| |t|o|] eqn:Es; try (apply Hctl; [exact I|discriminate|discriminate]).
  - apply ok_mk6; [unfold conn_ok6; rewrite Es; exact I|constructor].
  - destruct (can_send o); [|apply Hctl; [exact I|discriminate|discriminate]].
    destruct (online_flush_ok pp6 o pp6_ok (proj1 Hst) (proj2 (proj2 Hst))) as [o' [ds [Hf [Hok' [Hds [Ho [Hth _]]]]]]].
    rewrite Hf. apply ok_mk6; [|exact Hds]. apply state_ok6_conn; [|discriminate]. eapply state_ok6_online; eassumption.
  - apply ok_mk6; [unfold conn_ok6; rewrite Es; exact I|constructor].
Qed.

Lemma do_resend_ok c e o :
  state_ok6 (Online o) -> c_send c <> None ->
  exists c' ds, do_resend c e o = Ok (c', ds) /\ conn_ok6 c' /\ Forall (dgram_ok pp6) ds /\
    exists o', c_state c' = Online o'.
Proof.
  intros Hst Hs. unfold do_resend.
  destruct (online_resend_ok pp6 (e_now e) o pp6_ok (proj1 Hst) (proj2 (proj2 Hst))) as [o' [ds [ts [Hr [Hok' [Hds [Ho Hth]]]]]]].
  rewrite Hr. eexists _, _. split; [reflexivity|]. split; [|split; [exact Hds|eexists; reflexivity]].
  apply state_ok6_conn; [eapply state_ok6_online; eassumption|]. destruct ts; [discriminate|exact Hs].
Qed.

(* the part of feed after the state became Online: an optional resend, then the chunks *)
Definition feed_online s e o (rr : bool) cs : res unit outcome :=
  let* (c3, sent) := (if rr then do_resend {| c_state := Online o; c_send := s |} e o
                      else Ok ({| c_state := Online o; c_send := s |}, [])) in
  match c_state c3 with
  | Online o3 =>
    let* (ack', rr', evs) := recv_chunks (o_ack o3) (o_rr o3) cs in
    Ok (mk {| c_state := Online (o_set_ack o3 ack' rr'); c_send := c_send c3 |} e sent evs [] ROk)
  | _ => Ok (mk c3 e sent [] [] ROk)
  end.

Lemma feed_online_ok s e o rr cs :
  state_ok6 (Online o) -> s <> None -> Forall chunk_in_ok cs -> ok_out6 (feed_online s e o rr cs).
Proof.
  intros Hst Hs Hcs. unfold feed_online.
  assert (Hrs : exists c3 sent, (if rr then do_resend {| c_state := Online o; c_send := s |} e o
                                 else Ok ({| c_state := Online o; c_send := s |}, [])) = Ok (c3, sent)
                 /\ conn_ok6 c3 /\ Forall (dgram_ok pp6) sent /\ exists o3, c_state c3 = Online o3).
  { destruct rr; [apply do_resend_ok; assumption|].
    eexists _, _. split; [reflexivity|]. split; [apply state_ok6_conn; assumption|]. split; [constructor|eexists; reflexivity]. }
  destruct Hrs as [c3 [sent [Hr [Hc3 [Hsent [o3 Ho3]]]]]]. rewrite Hr. cbn [bind]. rewrite Ho3.
  unfold conn_ok6 in Hc3. rewrite Ho3 in Hc3. destruct Hc3 as [Hon3 [Heq3 [Ht3 Hs3]]].
  destruct (recv_chunks_ok cs (o_ack o3) (o_rr o3)) as [a' [r' [evs [Hrc Ha']]]];
    [exact (online_ok_ack _ _ Hon3)|exact Hcs|].
  rewrite Hrc. apply ok_mk6; [|exact Hsent]. apply state_ok6_conn; [|exact Hs3].
  split; [apply o_set_ack_ok; assumption|]. split; assumption.
Qed.

Lemma feed_ok6 c e d : conn_ok6 c -> dgram_in_ok d -> rand_ok e -> ok_out6 (feed c e d).
Proof.
  intros Hc Hd [Hrl [rt [rr' Hrnd]]]. pose proof (conn_ok6_state c Hc) as Hst.
  assert (Hsame : forall evs ws, ok_out6 (Ok (mk c e [] evs ws ROk))) by (intros; apply ok_mk6; [exact Hc|constructor]).
  destruct d as [tk rs pl|tk ack ctl|tk ack rr n cs]; [apply Hsame| |];
    unfold feed; cbn [dgram_tok dgram_ack];
    (destruct (match state_token (c_state c) with Some expected => negb (tok_eqb tk expected) | None => false end);
     [apply Hsame|]).
  - (* control *)
    destruct Hd as [Htk Hack]. replace ((ack <? 0) || (SEQ_MOD <=? ack)) with false by lia.
    set (st1 := match c_state c with Online o => Online (ack_chunks o ack) | s => s end).
    assert (Hc1 : conn_ok6 {| c_state := st1; c_send := c_send c |}).
    { unfold conn_ok6, st1 in *. cbn. destruct (c_state c) as [| |t|o|]; try exact Hc.
      destruct Hc as [Hon [Heq [Ht Hs]]]. destruct (ack_chunks_toks o ack) as [E1 E2].
      split; [apply ack_chunks_ok, Hon|]. split; [congruence|]. split; [congruence|exact Hs]. }
    assert (H1 : ok_out6 (Ok (mk {| c_state := st1; c_send := c_send c |} e [] [] [] ROk))) by (apply ok_mk6; [exact Hc1|constructor]).
    destruct ctl as [|resp| | |reason|resp]; try exact H1.
    + (* Connect *)
      destruct st1; try exact H1. destruct tk as [tk|]; [|apply tick_action_ok; exact I].
      destruct (list_eq_dec Z.eq_dec tk TOKEN_NONE); [|exact H1].
      rewrite Hrnd. apply tick_action_ok. eapply token_random_len; eassumption.
    + (* ConnectAccept *)
      destruct st1 eqn:Est; try exact H1.
      assert (Hon : state_ok6 (Online (online_new tk tk))) by (split; [apply online_new_ok, pp6_ok|split; [reflexivity|exact Htk]]).
      destruct (send_control_ok (Online (online_new tk tk)) Accept) as [ds [Hs Hds]]; try discriminate; try assumption; [exact I|].
      rewrite Hs. apply ok_mk6; [|exact Hds]. apply state_ok6_conn; [exact Hon|exact Hc1].
    + apply ok_mk6; [exact I|constructor].
  - (* chunks *)
    destruct Hd as [Htk [Hack Hcs]]. replace ((ack <? 0) || (SEQ_MOD <=? ack)) with false by lia.
    destruct (c_state c) as [| |t|o|] eqn:Es; cbn [c_state];
      try (apply ok_mk6; [unfold conn_ok6 in *; rewrite Es in Hc; exact Hc|constructor]).
    + (* Pending -> Online *)
      apply feed_online_ok; [|unfold conn_ok6 in Hc; rewrite Es in Hc; apply Hc|exact Hcs].
      split; [apply online_new_ok, pp6_ok|split; [reflexivity|exact Hst]].
    + (* Online *)
      destruct (ack_chunks_toks o ack) as [E1 E2].
      apply feed_online_ok; [|unfold conn_ok6 in Hc; rewrite Es in Hc; apply Hc|exact Hcs].
      apply (state_ok6_online o); [exact Hst|apply ack_chunks_ok, Hst|exact E1|exact E2].
Qed.

Theorem step_ok6 c e o :
  conn_ok6 c -> valid_op6 c e o ->
  exists out, step c e o = Ok out /\ conn_ok6 (out_conn out) /\ Forall (dgram_ok pp6) (out_sent out).
Proof.
  intros Hc Hv. change (ok_out6 (step c e o)). pose proof (conn_ok6_state c Hc) as Hst.
  assert (Hsend : c_state c <> Unconnected -> c_state c <> Disconnected -> c_send c <> None).
  { unfold conn_ok6 in Hc. destruct (c_state c); tauto. }
  destruct o as [|data vital| | |reason|data|d| |]; cbn [valid_op6] in Hv; unfold step.
  - (* connect *)
    rewrite Hv. apply tick_action_ok. exact I.
  - (* send *)
    destruct Hv as [on Hon]. rewrite Hon in *.
    destruct (online_send_ok pp6 (e_now e) on data vital pp6_ok (proj1 Hst) (proj2 (proj2 Hst)))
      as [o' [ds [r [Hsd [Hok' [Hds [Ho Hth]]]]]]].
    rewrite Hsd. apply ok_mk6; [|exact Hds].
    apply state_ok6_conn; [eapply state_ok6_online; eassumption|apply Hsend; discriminate].
  - (* flush *)
    destruct Hv as [on Hon]. rewrite Hon in *.
    destruct (online_flush_ok pp6 on pp6_ok (proj1 Hst) (proj2 (proj2 Hst))) as [o' [ds [Hf [Hok' [Hds [Ho [Hth _]]]]]]].
    rewrite Hf. apply ok_mk6; [|exact Hds]. apply state_ok6_conn; [eapply state_ok6_online; eassumption|discriminate].
  - (* tick *)
    destruct (match c_state c with
              | Online o => match queue_back (o_queue o) with Some rc => triggered (rc_next rc) (e_now e) | None => false end
              | _ => false end) eqn:Ers.
    + destruct (c_state c) as [| |t|on|] eqn:Es; try discriminate Ers.
      destruct (do_resend_ok c e on Hst) as [c' [ds [Hr [Hc' [Hds _]]]]]; [apply Hsend; discriminate|].
      rewrite Hr. apply ok_mk6; assumption.
    + destruct (triggered (c_send c) (e_now e)); [apply tick_action_ok, Hst|apply ok_mk6; [exact Hc|constructor]].
  - (* disconnect *)
    destruct Hv as [H1 [H2 [Hn Hl]]]. rewrite Hn.
    destruct (send_control_ok (c_state c) (Close reason) H1 H2 Hst (conj Hl Hn)) as [ds [Hsc Hds]].
    destruct (c_state c); try contradiction; rewrite Hsc; (apply ok_mk6; [exact I|exact Hds]).
  - (* connless *)
    destruct Hv as [on Hon]. rewrite Hon in *.
    assert (Hc2 : conn_ok6 {| c_state := Online on; c_send := Some (e_now e + ms 500) |})
      by (apply state_ok6_conn; [exact Hst|discriminate]).
    destruct (MAX_PAYLOAD <? Z.of_nat (length data)) eqn:El; (apply ok_mk6; [exact Hc2|]);
      [constructor|constructor; [unfold dgram_ok; lia|constructor]].
  - (* feed *)
    destruct Hv as [Hd Hr]. apply feed_ok6; assumption.
  - apply ok_mk6; [exact Hc|constructor].
  - rewrite Hv. apply ok_mk6; [exact I|constructor].
Qed.

(* C04: a refused send leaves the connection untouched *)
Theorem refusal6 c e on data vital :
  c_state c = Online on ->
  MAX_PAYLOAD < Z.of_nat (length data) \/ 1024 <= Z.of_nat (length data) ->
  step c e (OpSend data vital) = Ok (mk c e [] [] [] RTooLongData).
Proof.
  intros Hon Hl. unfold step. rewrite Hon. unfold online_send.
  replace ((MAX_PAYLOAD <? Z.of_nat (length data))
           || negb (p_v7 params6) && (2 ^ p_size_bits params6 <=? Z.of_nat (length data))) with true.
  - cbn [bind]. destruct c as [st sd]. cbn in Hon. subst st. reflexivity.
  - symmetry. unfold params6. cbn [p_v7 p_size_bits negb andb]. change (2 ^ 10) with 1024. lia.
Qed.

(* C02: a deadline is reported while the endpoint is active *)
Definition active6 (c : conn6) : Prop :=
  match c_state c with Connecting | Pending _ | Online _ => True | _ => False end.

Theorem deadline6 c : conn_ok6 c -> active6 c -> needs_tick c <> None.
Proof.
  unfold conn_ok6, active6, needs_tick. destruct (c_state c) as [| |t|on|]; intros Hc Ha; try contradiction.
  - destruct (c_send c); [discriminate|contradiction].
  - destruct Hc as [_ Hs]. destruct (c_send c); [discriminate|contradiction].
  - destruct Hc as [_ [_ [_ Hs]]]. destruct (c_send c) as [x|]; [|contradiction].
    destruct (match queue_back (o_queue on) with Some rc => rc_next rc | None => None end); discriminate.
Qed.

Inductive label6 := LOp (o : op) | LClock (dt : Z).

Fixpoint run6 (c : conn6) (e : env) (ls : list label6) : res unit (conn6 * env * list dgram) :=
  match ls with
  | [] => Ok (c, e, [])
  | LClock dt :: r => run6 c {| e_now := e_now e + dt; e_rand := e_rand e |} r
  | LOp o :: r =>
    match step c e o with
    | Ok out =>
      match run6 (out_conn out) (out_env out) r with
      | Ok (c', e', ds) => Ok (c', e', out_sent out ++ ds)
      | x => x
      end
    | Err x => Err x | Panic s => Panic s | OutOfFuel => OutOfFuel
    end
  end.

(* validity of a history is checked along the run (it depends on the states passed through) *)
Fixpoint valid_run6 (c : conn6) (e : env) (ls : list label6) : Prop :=
  match ls with
  | [] => True
  | LClock dt :: r => valid_run6 c {| e_now := e_now e + dt; e_rand := e_rand e |} r
  | LOp o :: r =>
    valid_op6 c e o /\
    match step c e o with
    | Ok out => valid_run6 (out_conn out) (out_env out) r
    | _ => True
    end
  end.

Theorem run_ok6 ls : forall c e, conn_ok6 c -> valid_run6 c e ls ->
  exists c' e' ds, run6 c e ls = Ok (c', e', ds) /\ conn_ok6 c' /\ Forall (dgram_ok pp6) ds.
Proof.
  induction ls as [|l ls IH]; intros c e Hc Hv.
  - eexists _, _, _. split; [reflexivity|]. split; [exact Hc|constructor].
  - destruct l as [o|dt]; cbn [run6 valid_run6] in *.
    + destruct Hv as [Hvo Hvr].
      destruct (step_ok6 c e o Hc Hvo) as [out [Hs [Hc' Hds]]]. rewrite Hs in *.
      destruct (IH _ _ Hc' Hvr) as [c2 [e2 [ds2 [Hr [Hc2 Hds2]]]]]. rewrite Hr.
      eexists _, _, _. split; [reflexivity|]. split; [exact Hc2|]. apply Forall_app. split; assumption.
    + apply IH; assumption.
Qed.

Lemma conn6_new_ok : conn_ok6 conn6_new.
Proof. exact I. Qed.
