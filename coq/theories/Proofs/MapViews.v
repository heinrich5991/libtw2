(* The generic item views of the map reader: from_slice_rest over the translated table
   never panics and hands out exactly mi_len words; get_index* stay inside their range. *)
From LibTw2 Require Import Base.Res Model.Datafile Model.MapReader
  Proofs.DatafileBase Proofs.DatafileCheck.
From Coq Require Import ZArith List Lia Bool.
Import ListNotations.
Open Scope Z_scope.

Definition mi_ok (mi : map_item) : Prop := 0 <= mi_offset mi /\ 0 <= mi_len mi.

Lemma all_map_items_ok : Forall mi_ok all_map_items.
Proof. repeat constructor; cbn; lia. Qed.

Section Views.
Context {E : Type}.

Definition view_ok (mi : map_item) (item : list Z) : Prop := zlen item = mi_len mi /\ all_i32 item.

Lemma from_slice_rest_spec mi s : mi_ok mi -> all_i32 s ->
  ok_with (@from_slice_rest E mi s)
    (fun f => match f with
              | FsSome item rest => view_ok mi item /\ all_i32 rest
              | FsNone => mi_ignore_version mi = false /\ 0 < zlen s
              | FsTooShort => True
              end).
Proof.
  intros [Ho Hl] Hs. unfold from_slice_rest. pose proof (zlen_nonneg s) as Hn.
  eapply (ok_with_bind _ _ (fun e => e = 2 -> mi_ignore_version mi = false /\ 0 < zlen s)).
  { destruct (mi_ignore_version mi); [cbn; discriminate|].
    destruct (zlen s =? 0) eqn:E0; [cbn; discriminate|].
    destruct (index_ok (EE := E) s 0 site_map_index0) as (v0 & -> & _); [lia|]. cbn. intros _. lia. }
  intros e He.
  destruct (e =? 1); [exact I|]. destruct (e =? 2) eqn:E2; [apply He; lia|].
  destruct (zlen s <? mi_offset mi + mi_len mi) eqn:E3; [exact I|].
  rewrite slice_from_ok by lia. cbn [bind].
  pose proof (zlen_skipn s (mi_offset mi) ltac:(lia)) as Hlen.
  destruct (zlen (skipn (Z.to_nat (mi_offset mi)) s) <? mi_len mi) eqn:E4; [lia|].
  pose proof (zlen_firstn (skipn (Z.to_nat (mi_offset mi)) s) (mi_len mi) ltac:(lia)) as Hitem.
  rewrite Hitem, Z.eqb_refl. cbn [negb ok_with]. split; [split; [exact Hitem|]|].
  - apply all_i32_firstn, all_i32_skipn, Hs.
  - apply all_i32_skipn, all_i32_skipn, Hs.
Qed.

Lemma optional_spec mi s ts : mi_ok mi -> all_i32 s ->
  ok_with (@optional E mi s ts)
    (fun o => match o with Some item => view_ok mi item | None => mi_ignore_version mi = false /\ 0 < zlen s end).
Proof.
  intros Hmi Hs. unfold optional. eapply ok_with_bind; [apply from_slice_rest_spec; assumption|].
  intros f Hf. destruct f; cbn; auto. tauto.
Qed.

Lemma mandatory_spec mi s ts iv : mi_ok mi -> all_i32 s -> ok_with (@mandatory E mi s ts iv) (view_ok mi).
Proof.
  intros Hmi Hs. unfold mandatory. eapply ok_with_bind; [apply optional_spec; assumption|].
  intros o Ho. destruct o; [exact Ho|]. destruct Ho as [_ Hn].
  destruct (index_ok (EE := E) s 0 site_map_index0) as (v0 & -> & _); [lia|]. exact I.
Qed.

Lemma mandatory_rest_unreachable_spec mi s ts : mi_ok mi -> all_i32 s -> mi_ignore_version mi = true ->
  ok_with (@mandatory_rest_unreachable E mi s ts) (fun p => view_ok mi (fst p) /\ all_i32 (snd p)).
Proof.
  intros Hmi Hs Hig. unfold mandatory_rest_unreachable. eapply ok_with_bind; [apply from_slice_rest_spec; assumption|].
  intros f Hf. destruct f; cbn; auto. destruct Hf as [Hf _]. congruence.
Qed.

(* a field of a view: the field offsets of the translated table lie below the struct's length *)
Lemma fld_spec mi item k : view_ok mi item -> (0 <=? k) && (k <? mi_len mi) = true ->
  ok_with (@fld E item k) (fun x => -2147483648 <= x <= 2147483647).
Proof.
  intros [Hlen Hi] Hk. unfold fld.
  destruct (index_ok (EE := E) item k site_map_field) as (x & -> & Hz); [lia|].
  cbn. eapply all_i32_znth; eauto.
Qed.

Lemma name_spec mi (o : option (list Z)) k (Q : Prop) :
  match o with Some v => view_ok mi v | None => Q end -> (0 <=? k) && (k + 2 <? mi_len mi) = true ->
  ok_with (match o with
           | Some v => let* a := fld v k in let* b := fld v (k + 1) in let* c := fld v (k + 2) in Ok (name12 a b c)
           | None => Ok name12_zero
           end : res E bytes) (fun _ => True).
Proof.
  intros Ho Hk. destruct o as [v|]; [|exact I].
  do 3 (eapply ok_with_bind; [apply (fld_spec mi v); [exact Ho|lia]|]; intros ? _). exact I.
Qed.

(* ranges handed to get_index: item type ranges and 0..num_data *)
Definition range_ok (rg : Z * Z) : Prop := 0 <= fst rg <= snd rg /\ snd rg <= 2147483647.

Lemma musize_add_spec a b : a + b < 2 ^ 64 -> @musize_add E a b = Ok (a + b).
Proof. rewrite <- two64_eq. intros H. apply guard_ok. lia. Qed.

Lemma get_index_impl_spec idx rg : -2147483648 <= idx <= 2147483647 -> range_ok rg ->
  ok_with (@get_index_impl E idx rg) (fun o => match o with Some i => fst rg <= i < snd rg | None => True end).
Proof.
  intros Hi [Hr1 Hr2]. unfold get_index_impl. destruct (idx <? 0) eqn:E0; [exact I|].
  rewrite musize_add_spec by lia. cbn [bind].
  destruct (idx + fst rg <? snd rg) eqn:E2; cbn; [lia|exact I].
Qed.

Lemma get_index_spec idx rg inv : -2147483648 <= idx <= 2147483647 -> range_ok rg ->
  ok_with (@get_index E idx rg inv) (fun i => fst rg <= i < snd rg).
Proof.
  intros Hi Hr. unfold get_index. eapply ok_with_bind; [apply get_index_impl_spec; assumption|].
  intros o Ho. destruct o; cbn; auto.
Qed.

Lemma get_index_opt_spec idx rg inv : -2147483648 <= idx <= 2147483647 -> range_ok rg ->
  ok_with (@get_index_opt E idx rg inv) (fun o => match o with Some i => fst rg <= i < snd rg | None => True end).
Proof.
  intros Hi Hr. unfold get_index_opt. destruct (idx =? -1); [exact I|].
  eapply ok_with_bind; [apply get_index_impl_spec; assumption|].
  intros o Ho. destruct o; cbn; auto.
Qed.
End Views.
