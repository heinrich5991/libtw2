(* C12 assembled: the messages of delta_chunks, fed in any order with any
   duplication and interleaved with older ticks, are handed out exactly once,
   at the first position where all parts have been seen; a tick is never
   handed out twice whatever is fed. *)
From LibTw2 Require Import Base.Res Model.Receiver Proofs.ReceiverBase Proofs.ReceiverChunks
  Proofs.ReceiverSteps Proofs.ReceiverXfer.
From Coq Require Import ZArith Lia Bool List ZifyBool ZifyNat.
Open Scope Z_scope.

(* what the receiver hands out for delta_chunks(tick, base, data, crc) *)
Definition delivered (tick base : Z) (data : bytes) (crc : Z) : received :=
  {| rd_delta_tick := base; rd_tick := tick;
     rd_data_and_crc := match data with [] => None | _ => Some (data, crc) end |}.

Local Opaque PACK.

Lemma xfer_msgs_length tick dt crc data :
  length (xfer_msgs tick dt crc data) = Nat.max 1 (nparts data).
Proof.
  unfold xfer_msgs. destruct (nparts data) as [|[|k]] eqn:E; [reflexivity|reflexivity|].
  rewrite multi_msgs_length, chunks_of_length, E. lia.
Qed.

Lemma pack_small (d : bytes) : (length d <= PACK)%nat -> lenZ d <= max_data.
Proof. intros H. rewrite lenZ_spec. unfold max_data. assert (Z.of_nat PACK = 900) by reflexivity. lia. Qed.

Lemma chunks_max_data data : Forall (fun c : bytes => lenZ c <= max_data) (chunks_of data).
Proof. apply (Forall_impl _ pack_small), chunks_of_small. Qed.

Lemma xfer_msgs_small tick dt crc data m : In m (xfer_msgs tick dt crc data) -> msg_small m = true.
Proof. intros Hin. apply Z.leb_le, pack_small, (xfer_msgs_facts _ _ _ _ _ Hin). Qed.

Theorem xfer_answers tick base crc data s0 items :
  (length data <= 32 * PACK)%nat -> is_i32 base = true ->
  wf s0 = true -> before s0 tick = true ->
  let ms := xfer_msgs tick (wrap32 (tick - base)) crc data in
  forallb (item_ok tick (length ms)) items = true ->
  answers_ok tick (length ms) (delivered tick base data crc) [] items (snd (run s0 (map (item_msg ms) items))).
Proof.
  intros Hlen Hbase Hwf Hb ms. subst ms. unfold delivered.
  set (dt := wrap32 (tick - base)). rewrite <- (wrap32_sub_sub tick base Hbase). fold dt.
  destruct (xfer_msgs_cases tick dt crc data) as [[-> ->]|[(Hne & _ & ->)|[Hn ->]]].
  - apply empty_answers; assumption.
  - destruct data; [contradiction|]. apply single_answers; assumption.
  - rewrite multi_msgs_length.
    destruct data as [|z l]; [rewrite (proj2 (nparts_zero [])) in Hn by reflexivity; lia|].
    rewrite <- (chunks_of_concat (z :: l)) at 3.
    apply multi_answers; try assumption; rewrite ?chunks_of_length; [lia|apply nparts_le, Hlen|apply chunks_max_data].
Qed.

(* an answer that hands out nothing of the transfer: a part is stored or refused as a
   duplicate without a warning; a message of an older tick does not panic and hands out
   at most its own tick *)
Definition quiet (it : item) (o : outcome) : Prop :=
  match it with
  | Part _ => o = (Ok None, []) \/ o = (Err DuplicatePart, [])
  | Other m => outcome_ok m o
  end.

Lemma answers_prefix T n rd a : forall pre0 b outs,
  answers_ok T n rd pre0 (a ++ b) outs -> covers n (pre0 ++ a) = false ->
  exists oa ob, outs = oa ++ ob /\ Forall2 quiet a oa /\ answers_ok T n rd (pre0 ++ a) b ob.
Proof.
  induction a as [|it a IH]; intros pre0 b outs Hans Hcov.
  - exists [], outs. rewrite app_nil_r. split; [reflexivity|]. split; [constructor|exact Hans].
  - cbn [app] in Hans. destruct outs as [|o outs]; [destruct Hans|].
    cbn [answers_ok] in Hans. destruct Hans as [Ho Hans].
    replace (pre0 ++ it :: a) with ((pre0 ++ [it]) ++ a) in Hcov by (rewrite <- app_assoc; reflexivity).
    destruct (IH (pre0 ++ [it]) b outs Hans Hcov) as [oa [ob [-> [Hq Hrest]]]].
    exists (o :: oa), ob. split; [reflexivity|]. split.
    + constructor; [|exact Hq]. destruct it as [i|m]; cbn [quiet].
      * pose proof (covers_prefix _ _ _ Hcov) as Hc1. pose proof (covers_prefix _ _ _ Hc1) as Hc0.
        subst o. unfold expect. rewrite Hc0, Hc1. destruct (seen pre0 i); [right|left]; reflexivity.
      * apply Ho.
    + rewrite <- app_assoc in Hrest. exact Hrest.
Qed.

Lemma answers_after T n rd b : forall pre outs, (1 <= n)%nat ->
  answers_ok T n rd pre b outs -> covers n pre = true ->
  Forall (fun o => o = (Err OldDelta, [])) outs.
Proof.
  induction b as [|it b IH]; intros pre outs Hn Hans Hcov.
  - destruct outs; [constructor|destruct Hans].
  - destruct outs as [|o outs]; [destruct Hans|]. cbn [answers_ok] in Hans. destruct Hans as [Ho Hans].
    constructor.
    + destruct it as [i|m].
      * subst o. unfold expect. rewrite Hcov. reflexivity.
      * apply Ho. destruct (any_part pre) eqn:E; [reflexivity|]. rewrite (no_part_covers n pre Hn E) in Hcov. discriminate.
    + apply (IH (pre ++ [it])); [exact Hn|exact Hans|apply covers_mono, Hcov].
Qed.

Lemma first_cover n items : (1 <= n)%nat -> covers n items = true ->
  exists pre i post, items = pre ++ Part i :: post
    /\ covers n pre = false /\ seen pre i = false /\ covers n (pre ++ [Part i]) = true.
Proof.
  intros Hn. induction items as [|x l IH] using rev_ind; intros Hcov.
  - rewrite covers_spec in Hcov. specialize (Hcov 0%nat ltac:(lia)). discriminate.
  - destruct (covers n l) eqn:El.
    + destruct (IH eq_refl) as [pre [i [post [-> H]]]].
      exists pre, i, (post ++ [x]). split; [|exact H]. rewrite <- app_assoc. reflexivity.
    + destruct x as [i|m]; [|rewrite covers_other, El in Hcov; discriminate].
      exists l, i, []. split; [reflexivity|]. split; [exact El|]. split; [|exact Hcov].
      destruct (seen l i) eqn:Es; [|reflexivity]. rewrite covers_dup, El in Hcov by exact Es. discriminate.
Qed.

Theorem exactly_once_of_answers T n rd items outs : (1 <= n)%nat ->
  answers_ok T n rd [] items outs -> covers n items = true ->
  exists pre i post opre opost,
    items = pre ++ Part i :: post
    /\ covers n pre = false /\ covers n (pre ++ [Part i]) = true
    /\ outs = opre ++ (Ok (Some rd), []) :: opost
    /\ Forall2 quiet pre opre
    /\ Forall (fun o => o = (Err OldDelta, [])) opost.
Proof.
  intros Hn Hans Hcov.
  destruct (first_cover n items Hn Hcov) as [pre [i [post [-> [Hc0 [Hs Hc1]]]]]].
  destruct (answers_prefix T n rd pre [] (Part i :: post) outs Hans Hc0) as [opre [ob [-> [Hq Hrest]]]].
  cbn [app] in Hrest. destruct ob as [|o opost]; [destruct Hrest|].
  cbn [answers_ok] in Hrest. destruct Hrest as [Ho Hrest].
  exists pre, i, post, opre, opost.
  split; [reflexivity|]. split; [exact Hc0|]. split; [exact Hc1|]. split.
  - subst o. unfold expect. rewrite Hc0, Hs, Hc1. reflexivity.
  - split; [exact Hq|]. apply (answers_after T n rd post (pre ++ [Part i])); assumption.
Qed.

Theorem incomplete_of_answers T n rd items outs :
  answers_ok T n rd [] items outs -> covers n items = false -> Forall2 quiet items outs.
Proof.
  intros Hans Hcov. rewrite <- (app_nil_r items) in Hans.
  destruct (answers_prefix T n rd items [] [] outs Hans Hcov) as [oa [ob [-> [Hq Hrest]]]].
  destruct ob; [|destruct Hrest]. rewrite app_nil_r. exact Hq.
Qed.

(* the answers are determined as soon as no message of an older tick comes before the first part *)
Fixpoint expected (n : nat) (rd : received) (pre items : list item) : list outcome :=
  match items with
  | [] => []
  | it :: items' =>
    match it with Part i => expect n rd pre i | Other _ => (Err OldDelta, []) end
    :: expected n rd (pre ++ [it]) items'
  end.

Lemma answers_expected T n rd items : forall pre outs,
  answers_ok T n rd pre items outs -> any_part (pre ++ firstn 1 items) = true -> outs = expected n rd pre items.
Proof.
  induction items as [|it items IH]; intros pre [|o outs] Hans Hany; try contradiction; [reflexivity|].
  destruct Hans as [Ho Hans]. cbn [expected]. f_equal.
  - destruct it as [i|m]; [exact Ho|]. apply Ho. rewrite any_part_app in Hany. cbn in Hany.
    rewrite orb_false_r in Hany. exact Hany.
  - apply IH; [exact Hans|]. rewrite any_part_app. cbn [firstn] in Hany. rewrite Hany. reflexivity.
Qed.

Lemma length_bound data : (length data <= 32 * 900)%nat -> (length data <= 32 * PACK)%nat /\ Z.of_nat (nparts data) <= i32_max.
Proof.
  intros H. rewrite PACK_eq. split; [exact H|].
  assert (nparts data <= 32)%nat by (apply nparts_le; rewrite PACK_eq; exact H). unfold i32_max. lia.
Qed.

Theorem every_answer data tick base crc ms s0 items :
  (length data <= 32 * 900)%nat -> is_i32 base = true ->
  delta_chunks tick base data crc = Ok ms ->
  wf s0 = true -> before s0 tick = true ->
  forallb (item_ok tick (length ms)) items = true ->
  answers_ok tick (length ms) (delivered tick base data crc) [] items (snd (run s0 (map (item_msg ms) items))).
Proof.
  intros Hlen Hbase Hdc Hwf Hb Hok. apply length_bound in Hlen. destruct Hlen as [HlenP Hn].
  rewrite delta_chunks_spec in Hdc by exact Hn. injection Hdc as <-.
  apply xfer_answers; assumption.
Qed.

Theorem chunks_total data tick base crc : (length data <= 32 * 900)%nat ->
  exists ms, delta_chunks tick base data crc = Ok ms
    /\ length ms = Nat.max 1 ((length data + 899) / 900)
    /\ (length ms <= 32)%nat
    /\ concat (map msg_data ms) = data
    /\ Forall (fun m => msg_tick m = tick /\ (length (msg_data m) <= 900)%nat) ms.
Proof.
  intros Hlen. apply length_bound in Hlen. destruct Hlen as [HlenP Hn].
  exists (xfer_msgs tick (wrap32 (tick - base)) crc data).
  split; [apply delta_chunks_spec, Hn|]. rewrite xfer_msgs_length.
  split; [unfold nparts; rewrite PACK_eq; reflexivity|].
  assert (Hn32 : (nparts data <= 32)%nat) by (apply nparts_le, HlenP).
  split; [lia|].
  split; [|apply Forall_forall; intros m Hm; rewrite <- PACK_eq; apply (xfer_msgs_facts _ _ _ _ _ Hm)].
  destruct (xfer_msgs_cases tick (wrap32 (tick - base)) crc data) as [[-> ->]|[(_ & _ & ->)|[_ ->]]].
  - reflexivity.
  - apply app_nil_r.
  - rewrite multi_msgs_data. apply chunks_of_concat.
Qed.

Definition delivers (T : Z) (o : outcome) : bool :=
  match fst o with Ok (Some rd) => rd_tick rd =? T | _ => false end.

Lemma passed_no_delivery T ms : forall s, passed s T = true -> filter (delivers T) (snd (run s ms)) = [].
Proof.
  induction ms as [|m ms IH]; intros s Hp; [reflexivity|].
  rewrite run_cons. cbn [filter]. rewrite IH by (apply step_passed, Hp).
  replace (delivers T (snd (recv_step s m))) with false; [reflexivity|].
  symmetry. unfold delivers. destruct (fst (snd (recv_step s m))) as [[rd|]| | |] eqn:E; try reflexivity.
  destruct (delivered_passed s m rd E) as [Ht _].
  destruct (Z_le_gt_dec (msg_tick m) T) as [Hle|Hgt]; [|lia].
  rewrite (passed_refused s m T Hp Hle) in E. discriminate.
Qed.

Theorem at_most_once T ms s : (length (filter (delivers T) (snd (run s ms))) <= 1)%nat.
Proof.
  revert s. induction ms as [|m ms IH]; intros s; [cbn; lia|].
  rewrite run_cons. cbn [filter]. destruct (delivers T (snd (recv_step s m))) eqn:Ed; [|apply IH].
  unfold delivers in Ed. destruct (fst (snd (recv_step s m))) as [[rd|]| | |] eqn:E; try discriminate.
  destruct (delivered_passed s m rd E) as [Ht Hp].
  replace (msg_tick m) with T in Hp by lia.
  rewrite passed_no_delivery by exact Hp. cbn. lia.
Qed.

Theorem newer_replaces s1 s2 c1 m :
  msg_wellformed m = true -> r_cur s1 = Some c1 -> c_tick c1 < msg_tick m ->
  r_prev s2 = r_prev s1 -> takes_fresh s2 (msg_tick m) = true ->
  recv_step s1 m = recv_step s2 m
  /\ newest_seen (fst (recv_step s1 m)) = Some (msg_tick m)
  /\ forall m', msg_tick m' <= c_tick c1 ->
       recv_step (fst (recv_step s1 m)) m' = (fst (recv_step s1 m), (Err OldDelta, [])).
Proof.
  intros Hw Hc Hlt Hprev Hf2.
  assert (Hc1 : can_receive s1 (msg_tick m) = true) by (unfold can_receive; rewrite Hc; lia).
  assert (Hf1 : takes_fresh s1 (msg_tick m) = true) by (rewrite takes_fresh_before; unfold before; rewrite Hc; lia).
  pose proof (accepted_newest s1 m Hw Hc1) as Hnew.
  split; [apply fresh_step_indep; [exact Hw|symmetry; exact Hprev|exact Hf1|exact Hf2]|].
  split; [exact Hnew|]. intros m' Hm'. apply old_tick_refused with (t := msg_tick m); [exact Hnew|lia].
Qed.
