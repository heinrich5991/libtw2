(* C14: the generated `encode` of a well-formed codec writes exactly the canonical
   bytes of a described value (or the fitting prefix and CapacityError) *)
From LibTw2 Require Import Base.Res Model.Varint Model.Packer Model.Codec
  Proofs.VarintArith Proofs.VarintProofs Proofs.PackerProofs Proofs.CodecStr Proofs.CodecDecode.
From Coq Require Import ZArith Lia Bool List ZifyBool.
Open Scope Z_scope.

Lemma check_assert_fits m a v : typed m v = true -> assert_fits m a = true -> check_assert a v = Ok tt.
Proof.
  intros Ht Ha. destruct a, m; cbn [assert_fits] in Ha; try discriminate.
  - destruct i; try discriminate. cbn [typed typed_int] in Ht. destruct v; try discriminate.
    apply andb_true_iff in Ht as [_ Hc]. cbn [check_int] in Hc. cbn [check_assert].
    destruct ((a0 <=? v) && (v <=? b0)) eqn:E; [|discriminate].
    replace ((a <=? v) && (v <=? b)) with true by lia. reflexivity.
  - destruct i; try discriminate; cbn [typed typed_int] in Ht; destruct v; try discriminate;
      apply andb_true_iff in Ht as [_ Hc]; cbn [check_int] in Hc; cbn [check_assert].
    + destruct (0 <=? v) eqn:E; [|discriminate]. replace (a <=? v) with true by lia. reflexivity.
    + destruct (a0 <=? v) eqn:E; [|discriminate]. replace (a <=? v) with true by lia. reflexivity.
  - cbn [typed] in Ht. destruct v; try discriminate. apply andb_true_iff in Ht as [Hc _].
    apply negb_true_iff in Hc. cbn [check_assert]. rewrite Hc. reflexivity.
  - cbn [typed] in Ht. destruct v; try discriminate. reflexivity.
  - cbn [typed] in Ht. destruct v; try discriminate. reflexivity.
Qed.

Lemma well_typed_nth ms : forall vs i m, well_typed ms vs = true -> nth_error ms i = Some m ->
  exists v, nth_error vs i = Some v /\ typed m v = true.
Proof.
  induction ms as [|m0 ms IH]; intros [|v0 vs] i m Ht Hn; cbn [well_typed] in Ht; try discriminate.
  - destruct i; discriminate.
  - apply andb_true_iff in Ht as [H0 Ht]. destruct i as [|i]; cbn [nth_error] in *.
    + injection Hn as <-. exists v0. split; [reflexivity|exact H0].
    + exact (IH vs i m Ht Hn).
Qed.

Fixpoint wbytes (ms : list mop) (vs : list value) (ws : list (nat * wop)) : bytes :=
  match ws with
  | [] => []
  | (i, _) :: ws' =>
    match nth_error ms i, nth_error vs i with
    | Some m, Some v => enc_value m v ++ wbytes ms vs ws'
    | _, _ => wbytes ms vs ws'
    end
  end.

(* a write of member i with the method its kind prescribes *)
Definition write_good (ms : list mop) (iw : nat * wop) : Prop :=
  exists m, nth_error ms (fst iw) = Some m /\ wop_of m = Some (snd iw).

Definition op_good (ms : list mop) (o : eop) : Prop :=
  match o with
  | EAssert i a => exists m, nth_error ms i = Some m /\ assert_fits m a = true
  | EWrite i w => write_good ms (i, w)
  end.

Lemma lift_bw t bs : lift_pack (bw t bs) =
  (fst (bw t bs), match snd (bw t bs) with Ok u => Ok u | Err _ => Err CapacityErr | Panic s => Panic s | OutOfFuel => OutOfFuel end).
Proof. destruct (bw t bs) as [t' [u|e|s|]]; reflexivity. Qed.

Definition lbw (t : target) (bs : bytes) : target * res eerr unit := lift_pack (bw t bs).

Lemma lbw_app t a b : tgt_ok t ->
  lbw t (a ++ b) = match lbw t a with (t1, Ok _) => lbw t1 b | r => r end.
Proof.
  intros Hok. unfold lbw. rewrite bw_app by exact Hok.
  destruct (bw t a) as [t1 [[]|e|s|]]; reflexivity.
Qed.

Lemma lbw_nil t : tgt_ok t -> lbw t [] = (t, Ok tt).
Proof.
  intros Hok. unfold lbw. rewrite bw_nil by exact Hok. reflexivity.
Qed.

Lemma lbw_tgt_ok t bs : tgt_ok t -> tgt_ok (fst (lbw t bs)).
Proof.
  intros H. unfold lbw. pose proof (bw_tgt_ok t bs H). destruct (bw t bs) as [t' [u|e|s|]]; exact H0.
Qed.

Theorem encode_ops_spec ms vs : forallb mop_ok ms = true -> well_typed ms vs = true ->
  forall ops t, Forall (op_good ms) ops -> tgt_ok t ->
  encode_ops ms vs ops t = lbw t (wbytes ms vs (writes_of ops)).
Proof.
  intros Hm Ht. induction ops as [|o ops IH]; intros t Hg Hok.
  - cbn [encode_ops writes_of wbytes]. symmetry. apply lbw_nil, Hok.
  - inversion Hg as [|? ? Ho Hg']; subst. destruct o as [i a|i w]; cbn [op_good] in Ho.
    + destruct Ho as [m [Hn Ha]]. destruct (well_typed_nth _ _ _ _ Ht Hn) as [v [Hv Htv]].
      cbn [encode_ops writes_of]. rewrite Hv. rewrite (check_assert_fits m a v Htv Ha). apply IH; assumption.
    + destruct Ho as [m [Hn Hw]]. cbn [fst snd] in Hn, Hw. destruct (well_typed_nth _ _ _ _ Ht Hn) as [v [Hv Htv]].
      assert (Hmo : mop_ok m = true).
      { rewrite forallb_forall in Hm. apply Hm. eapply nth_error_In; eassumption. }
      destruct (write_field_canon m w v Hmo Htv Hw) as [f [Hf [Hwf Hb]]].
      cbn [encode_ops writes_of wbytes]. rewrite Hn, Hv, Hf.
      rewrite pack_field_bw by assumption. rewrite Hb.
      rewrite lbw_app by exact Hok. fold (lbw t (enc_value m v)).
      pose proof (lbw_tgt_ok t (enc_value m v) Hok) as Hok'.
      destruct (lbw t (enc_value m v)) as [t1 [[]|e|s|]]; try reflexivity.
      apply IH; assumption.
Qed.

Lemma skipn_nth {A} : forall i (l : list A) x tl, skipn i l = x :: tl ->
  nth_error l i = Some x /\ skipn (S i) l = tl.
Proof.
  induction i as [|i IH]; intros [|y l] x tl H; try discriminate.
  - injection H as -> ->. split; reflexivity.
  - exact (IH l x tl H).
Qed.

Lemma wbytes_writes_from MS VS : forall ms vs i,
  skipn i MS = ms -> skipn i VS = vs -> well_typed ms vs = true ->
  wbytes MS VS (writes_from ms i) = enc_values ms vs.
Proof.
  induction ms as [|m ms IH]; intros [|v vs] i HM HV Ht; cbn [well_typed] in Ht; try discriminate; [reflexivity|].
  apply andb_true_iff in Ht as [Ht1 Ht2]. apply skipn_nth in HM as [H1 HM]. apply skipn_nth in HV as [H2 HV].
  cbn [writes_from enc_values]. specialize (IH vs (S i) HM HV Ht2).
  destruct (wop_of m) as [w|] eqn:Ew.
  - cbn [wbytes]. rewrite H1, H2, IH. reflexivity.
  - rewrite IH. destruct m as [j| | | | | | | | | | | | | |]; try destruct j; try discriminate.
    destruct v; try discriminate. reflexivity.
Qed.

Lemma writes_from_good MS : forall ms i, skipn i MS = ms ->
  Forall (write_good MS) (writes_from ms i).
Proof.
  induction ms as [|m ms IH]; intros i HM; cbn [writes_from]; [constructor|].
  apply skipn_nth in HM as [H1 HM]. specialize (IH (S i) HM).
  destruct (wop_of m) as [w|] eqn:Ew; [|exact IH].
  constructor; [|exact IH]. exists m. split; [exact H1|exact Ew].
Qed.

Lemma wop_eqb_eq a b : wop_eqb a b = true -> a = b.
Proof. destruct a, b; cbn; intros H; try reflexivity; discriminate. Qed.

Lemma nw_eqb_eq a : forall b, nw_eqb a b = true -> a = b.
Proof.
  induction a as [|[i w] a IH]; intros [|[j x] b] H; cbn [nw_eqb] in H; try reflexivity; try discriminate.
  apply andb_true_iff in H as [H Hr]. apply andb_true_iff in H as [Hi Hw].
  apply Nat.eqb_eq in Hi. apply wop_eqb_eq in Hw. subst. f_equal. apply IH, Hr.
Qed.

Lemma ops_good ms ops : asserts_fit ms ops = true ->
  Forall (write_good ms) (writes_of ops) ->
  Forall (op_good ms) ops.
Proof.
  unfold asserts_fit. induction ops as [|o ops IH]; intros Ha Hw; [constructor|].
  cbn [forallb] in Ha. apply andb_true_iff in Ha as [Ha1 Ha2].
  destruct o as [i a|i w]; cbn [writes_of] in Hw.
  - constructor; [|apply IH; assumption]. cbn [op_good].
    destruct (nth_error ms i) as [m|]; [|discriminate]. exists m. split; [reflexivity|exact Ha1].
  - inversion Hw as [|? ? H1 H2]; subst. constructor; [|apply IH; assumption]. exact H1.
Qed.

Definition wf_enc (c : codec) : bool :=
  forallb mop_ok (c_dec c)
  && nw_eqb (writes_of (c_enc c)) (writes_from (c_dec c) 0)
  && asserts_fit (c_dec c) (c_enc c).

Lemma wf_codec_enc c : wf_codec c = true -> wf_enc c = true.
Proof.
  unfold wf_codec, wf_enc. intros H. repeat (apply andb_true_iff in H as [H ?]).
  repeat (apply andb_true_iff; split); assumption.
Qed.

Theorem encode_ops_canonical c vs t : wf_enc c = true -> well_typed (c_dec c) vs = true -> tgt_ok t ->
  encode_ops (c_dec c) vs (c_enc c) t = lbw t (canonical c vs).
Proof.
  unfold wf_enc. intros H Ht Hok. apply andb_true_iff in H as [H Ha]. apply andb_true_iff in H as [Hm Hw].
  apply nw_eqb_eq in Hw.
  rewrite encode_ops_spec; try assumption.
  - rewrite Hw. unfold canonical. f_equal.
    apply wbytes_writes_from; try reflexivity. exact Ht.
  - apply ops_good; [exact Ha|]. rewrite Hw. apply writes_from_good. reflexivity.
Qed.

Lemma empty_ok cap : tgt_ok (empty_target cap).
Proof. unfold tgt_ok, empty_target. cbn. lia. Qed.

Lemma finish_lbw_empty cap bs :
  finish_target (lbw (empty_target cap) bs) =
  if (length bs <=? cap)%nat then Ok bs else Err CapacityErr.
Proof.
  unfold lbw. rewrite bw_spec by apply empty_ok. cbn [empty_target t_data t_cap app].
  destruct (length bs <=? cap)%nat eqn:E; cbn [cap_res lift_pack finish_target t_data]; [|reflexivity].
  apply Nat.leb_le in E. rewrite firstn_all2 by lia. reflexivity.
Qed.

(* S::encode: the canonical bytes, or CapacityError when they do not fit *)
Theorem encode_canonical c vs cap : wf_enc c = true -> well_typed (c_dec c) vs = true ->
  encode c vs cap = if (length (canonical c vs) <=? cap)%nat then Ok (canonical c vs) else Err CapacityErr.
Proof.
  intros Hwf Ht. unfold encode. rewrite encode_ops_canonical by (try assumption; apply empty_ok).
  apply finish_lbw_empty.
Qed.
