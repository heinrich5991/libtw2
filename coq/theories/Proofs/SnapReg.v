(* Snap::build_from_raw (the UUID registry) in terms of the stored items. *)
From LibTw2 Require Import Base.Res Model.Varint Model.Packer Model.Snap Proofs.SnapBase Proofs.SnapRep Proofs.SnapDelta
  Proofs.SnapApply Proofs.SnapOk Proofs.SnapTotal Proofs.SnapTotal2 Proofs.SnapC09.
From Coq Require Import ZArith List Lia Bool Permutation.
Import ListNotations.
Open Scope Z_scope.

Definition reg_ok (t : Z) : bool := (OFFSET_EXTENDED_TYPE_ID <=? t) && (t <? MAX_EXTENDED_TYPE_ID).

(* bfr_loop over (key, data) pairs; `has` tells whether a key is in the snapshot *)
Fixpoint bfr_abs (has : Z -> bool) (v : items) (ext : list (Z * Z)) (prev : option Z) : wres (list (Z * Z)) :=
  match v with
  | [] => wret ext
  | (k, data) :: t =>
    let ty := key_to_raw_type_id k in
    if ty =? TYPE_ID_EX then
      let (ou, ws) := item_data_to_uuid data in
      let+ _ := ((Ok tt, ws) : wres unit) in
      match ou with
      | None => werr InvalidUuidType
      | Some u =>
        if negb (reg_ok (key_to_id k)) then werr InvalidUuidType else
        match aget u ext with
        | Some _ => werr DuplicateUuidType
        | None => bfr_abs has t (ains u (key_to_id k) ext) prev
        end
      end
    else if OFFSET_EXTENDED_TYPE_ID <=? ty then
      if match prev with Some p => p =? ty | None => false end then bfr_abs has t ext prev
      else if has (key TYPE_ID_EX ty) then bfr_abs has t ext (Some ty) else werr MissingUuidType
    else bfr_abs has t ext prev
  end.

Definition has_key (S : rawsnap) (k : Z) : bool :=
  match aget k (rs_offs S) with Some _ => true | None => false end.

Lemma bfr_loop_abs S ch : rep S ch -> forall l ext prev, incl l (rs_offs S) ->
  bfr_loop S l ext prev = bfr_abs (has_key S) (map (fun kr => (fst kr, data_of ch (fst kr))) l) ext prev.
Proof.
  intros R. induction l as [|[k r] l IH]; intros ext prev Hincl; [reflexivity|].
  apply incl_cons_inv in Hincl. destruct Hincl as [Hin Hincl].
  cbn [bfr_loop map fst bfr_abs]. destruct (key_to_raw_type_id k =? TYPE_ID_EX).
  - destruct (rep_in _ _ _ _ R Hin) as (d & Hd & _ & Hs).
    rewrite Hs. unfold wlift. rewrite wbind_ok, (data_of_some _ _ _ Hd).
    unfold registered_type_id, reg_ok.
    destruct (item_data_to_uuid d) as [[u|] ws]; [|reflexivity].
    destruct ((OFFSET_EXTENDED_TYPE_ID <=? key_to_id k) && (key_to_id k <? MAX_EXTENDED_TYPE_ID)); cbn [negb]; [|reflexivity].
    destruct (aget u ext); [reflexivity|]. rewrite IH by exact Hincl. reflexivity.
  - destruct (OFFSET_EXTENDED_TYPE_ID <=? key_to_raw_type_id k); [|apply IH, Hincl].
    destruct (match prev with Some p => p =? key_to_raw_type_id k | None => false end); [apply IH, Hincl|].
    unfold has_key. destruct (aget (key TYPE_ID_EX (key_to_raw_type_id k)) (rs_offs S)); [apply IH, Hincl|reflexivity].
Qed.

Lemma build_from_raw_abs S ch : rep S ch ->
  build_from_raw S = (let+ ext := bfr_abs (has_key S) (view S ch) [] None in wret {| sn_raw := S; sn_ext := ext |}).
Proof. intros R. unfold build_from_raw. rewrite (bfr_loop_abs S ch R) by apply incl_refl. reflexivity. Qed.

Lemma has_key_lookup S ch k : rep S ch -> has_key S k = match aget k ch with Some _ => true | None => false end.
Proof.
  intros R. unfold has_key. destruct (aget k (rs_offs S)) eqn:E.
  - destruct (rep_in _ _ _ _ R (aget_in _ _ _ E)) as (d & Hd & _). rewrite Hd. reflexivity.
  - apply (rep_get_none _ _ _ R) in E. rewrite E. reflexivity.
Qed.

Lemma bfr_abs_ext has has' : (forall k, has k = has' k) ->
  forall v ext prev, bfr_abs has v ext prev = bfr_abs has' v ext prev.
Proof.
  intros Hh. induction v as [|[k d] v IH]; intros ext prev; [reflexivity|]. cbn [bfr_abs]. rewrite Hh.
  destruct (key_to_raw_type_id k =? TYPE_ID_EX).
  - destruct (item_data_to_uuid d) as [[u|] ws]; [|reflexivity]. destruct (negb (reg_ok (key_to_id k))); [reflexivity|].
    destruct (aget u ext); [reflexivity|]. rewrite IH. reflexivity.
  - destruct (OFFSET_EXTENDED_TYPE_ID <=? key_to_raw_type_id k); [|apply IH].
    destruct (match prev with Some p => p =? key_to_raw_type_id k | None => false end); [apply IH|].
    destruct (has' (key TYPE_ID_EX (key_to_raw_type_id k))); [apply IH|reflexivity].
Qed.

Lemma bfr_abs_fine has : forall v ext prev, fine (fst (bfr_abs has v ext prev)).
Proof.
  induction v as [|[k d] v IH]; intros ext prev; [exact I|]. cbn [bfr_abs].
  destruct (key_to_raw_type_id k =? TYPE_ID_EX).
  - destruct (item_data_to_uuid d) as [[u|] ws]; [|exact I]. unfold wbind at 1.
    destruct (negb (reg_ok (key_to_id k))); [exact I|]. destruct (aget u ext); [exact I|].
    specialize (IH (ains u (key_to_id k) ext) prev). destruct (bfr_abs _ v _ prev) as [r w]. exact IH.
  - destruct (OFFSET_EXTENDED_TYPE_ID <=? key_to_raw_type_id k); [|apply IH].
    destruct (match prev with Some p => p =? key_to_raw_type_id k | None => false end); [apply IH|].
    destruct (has (key TYPE_ID_EX (key_to_raw_type_id k))); [apply IH|exact I].
Qed.

(* `prev` only saves lookups: a type whose registry item has been seen need not be looked up again *)
Lemma bfr_abs_prev has : forall v ext prev, (forall p, prev = Some p -> has (key TYPE_ID_EX p) = true) ->
  bfr_abs has v ext prev = bfr_abs has v ext None.
Proof.
  induction v as [|[k d] v IH]; intros ext prev Hp; [reflexivity|]. cbn [bfr_abs].
  destruct (key_to_raw_type_id k =? TYPE_ID_EX).
  - destruct (item_data_to_uuid d) as [[u|] ws]; [|reflexivity]. destruct (negb (reg_ok (key_to_id k))); [reflexivity|].
    destruct (aget u ext); [reflexivity|]. rewrite (IH _ prev Hp). reflexivity.
  - destruct (OFFSET_EXTENDED_TYPE_ID <=? key_to_raw_type_id k); [|apply IH, Hp].
    destruct prev as [p|]; [|reflexivity]. destruct (Z.eqb_spec p (key_to_raw_type_id k)) as [<-|]; [|reflexivity].
    rewrite (Hp p eq_refl). reflexivity.
Qed.

(* the registry only depends on what the snapshot holds: two snapshots with the same lookups get
   the same registry, warnings and errors from one computation `m` *)
Lemma build_from_raw_lookups S ch S' ch' : rep S ch -> rep S' ch' -> (forall k, aget k ch = aget k ch') ->
  exists m : wres (list (Z * Z)), fine (fst m)
    /\ build_from_raw S = (let+ ext := m in wret {| sn_raw := S; sn_ext := ext |})
    /\ build_from_raw S' = (let+ ext := m in wret {| sn_raw := S'; sn_ext := ext |}).
Proof.
  intros R R' Heq. exists (bfr_abs (has_key S) (view S ch) [] None). split; [apply bfr_abs_fine|].
  rewrite (build_from_raw_abs S ch R), (build_from_raw_abs S' ch' R').
  destruct (same_lookups _ _ _ _ R R' Heq) as (<- & _ & _). split; [reflexivity|].
  rewrite (bfr_abs_ext (has_key S') (has_key S)); [reflexivity|].
  intros k. rewrite (has_key_lookup S ch _ R), (has_key_lookup S' ch' _ R'), Heq. reflexivity.
Qed.

Theorem build_from_raw_congr S ch S' ch' : rep S ch -> rep S' ch' -> (forall k, aget k ch = aget k ch') ->
  match build_from_raw S, build_from_raw S' with
  | (Ok X, ws), (Ok X', ws') => sn_ext X = sn_ext X' /\ ws = ws' /\ sn_raw X = S /\ sn_raw X' = S'
  | (Err e, ws), (Err e', ws') => e = e' /\ ws = ws'
  | (Panic _, _), _ | (OutOfFuel, _), _ => False
  | _, _ => False
  end.
Proof.
  intros R R' Heq. destruct (build_from_raw_lookups S ch S' ch' R R' Heq) as ([[ext|e|s|] ws] & F & -> & ->);
    cbn in *; auto.
Qed.

Lemma build_from_raw_like S ch R' ch' ws : rep (sn_raw S) ch -> rep R' ch' -> (forall k, aget k ch' = aget k ch) ->
  build_from_raw (sn_raw S) = (Ok S, ws) -> build_from_raw R' = (Ok {| sn_raw := R'; sn_ext := sn_ext S |}, ws).
Proof.
  intros R HR' Heq. destruct (build_from_raw_lookups R' ch' (sn_raw S) ch HR' R Heq) as ([[ext|e|s|] w] & _ & -> & ->);
    cbn; try discriminate. rewrite !app_nil_r. intros [= <- <-]. reflexivity.
Qed.

Definition uuid_of (d : list Z) : option Z := fst (item_data_to_uuid d).

Record ext_ok (ch : items) (ext : list (Z * Z)) : Prop := {
  eo_sorted : sortedb (map fst ext) = true;
  (* every entry is the registry item of its number *)
  eo_entry : forall u t, aget u ext = Some t ->
    reg_ok t = true /\ exists d, aget (key TYPE_ID_EX t) ch = Some d /\ uuid_of d = Some u /\ (4 <= length d)%nat;
  eo_inj : forall u u' t, aget u ext = Some t -> aget u' ext = Some t -> u = u'
}.

Definition item_ok (ch : items) (ext : list (Z * Z)) (k : Z) (d : list Z) : Prop :=
  (key_to_raw_type_id k = TYPE_ID_EX -> exists u, uuid_of d = Some u /\ aget u ext = Some (key_to_id k))
  /\ (OFFSET_EXTENDED_TYPE_ID <= key_to_raw_type_id k -> aget (key TYPE_ID_EX (key_to_raw_type_id k)) ch <> None).

Definition is_reg (kd : Z * list Z) : bool := key_to_raw_type_id (fst kd) =? TYPE_ID_EX.
Definition count0 (v : items) : nat := length (filter is_reg v).

Lemma uuid_of_len d u : uuid_of d = Some u -> (4 <= length d)%nat.
Proof.
  unfold uuid_of, item_data_to_uuid. destruct d as [|a [|b [|c [|e r]]]]; cbn; try discriminate. intros _. lia.
Qed.

Lemma count0_cons kd v : count0 (kd :: v) = if is_reg kd then Datatypes.S (count0 v) else count0 v.
Proof. unfold count0. cbn [filter]. destruct (is_reg kd); reflexivity. Qed.

Lemma ext_ok_ains ch ext u t d : ext_ok ch ext -> reg_ok t = true ->
  aget (key TYPE_ID_EX t) ch = Some d -> uuid_of d = Some u -> (forall u', aget u' ext <> Some t) ->
  ext_ok ch (ains u t ext).
Proof.
  intros Hext Hreg Hd Hud Hnew. split.
  - apply ains_sorted, (eo_sorted _ _ Hext).
  - intros u' t' Hu'. destruct (Z.eq_dec u' u) as [->|Hne].
    + rewrite aget_ains_same in Hu'. injection Hu' as <-. split; [exact Hreg|].
      exists d. split; [exact Hd|split; [exact Hud|apply (uuid_of_len d u Hud)]].
    + rewrite aget_ains_other in Hu' by exact Hne. apply (eo_entry _ _ Hext u' t' Hu').
  - apply ains_inj; [apply (eo_inj _ _ Hext)|exact Hnew].
Qed.

(* what a successful run over the items `v`, started with the registry `ext`, ends with *)
Definition reg_post (ch : items) (ext : list (Z * Z)) (v : items) (ext' : list (Z * Z)) : Prop :=
  ext_ok ch ext'
  /\ (forall u t, aget u ext = Some t -> aget u ext' = Some t)
  /\ (forall k d, In (k, d) v -> item_ok ch ext' k d)
  /\ length ext' = (length ext + count0 v)%nat.

Lemma reg_post_other ch ext k d v ext' : key_to_raw_type_id k <> TYPE_ID_EX ->
  (OFFSET_EXTENDED_TYPE_ID <= key_to_raw_type_id k -> aget (key TYPE_ID_EX (key_to_raw_type_id k)) ch <> None) ->
  reg_post ch ext v ext' -> reg_post ch ext ((k, d) :: v) ext'.
Proof.
  intros Ht Hreg (E1 & E2 & E3 & E4). split; [exact E1|]. split; [exact E2|]. split.
  - intros k' d' [E|Hin]; [|apply E3, Hin]. injection E as <- <-. split; [intros H0; contradiction|exact Hreg].
  - rewrite E4, count0_cons. unfold is_reg. cbn [fst]. rewrite (proj2 (Z.eqb_neq _ _) Ht). reflexivity.
Qed.

Lemma reg_post_reg ch ext k d v u ext' : key_to_raw_type_id k = TYPE_ID_EX -> uuid_of d = Some u ->
  aget u ext = None -> reg_post ch (ains u (key_to_id k) ext) v ext' -> reg_post ch ext ((k, d) :: v) ext'.
Proof.
  intros Ht Hud Hu (E1 & E2 & E3 & E4). split; [exact E1|]. split; [|split].
  - intros u' t' Hu'. apply E2. destruct (Z.eq_dec u' u) as [->|Hne]; [congruence|].
    rewrite aget_ains_other by exact Hne. exact Hu'.
  - intros k' d' [E|Hin]; [|apply E3, Hin]. injection E as <- <-. split.
    + intros _. exists u. split; [exact Hud|]. apply E2, aget_ains_same.
    + intros Hge. unfold TYPE_ID_EX, OFFSET_EXTENDED_TYPE_ID in *. lia.
  - rewrite E4, ains_length_new, count0_cons by exact Hu. unfold is_reg. cbn [fst]. rewrite Ht, Z.eqb_refl. lia.
Qed.

Lemma bfr_abs_post ch has : (forall k, has k = match aget k ch with Some _ => true | None => false end) ->
  forall v ext,
  (forall k d, In (k, d) v -> aget k ch = Some d /\ is_i32 k = true) -> NoDup (map fst v) ->
  ext_ok ch ext ->
  (forall u t, aget u ext = Some t -> ~ In (key TYPE_ID_EX t) (map fst v)) ->
  wpost (reg_post ch ext v) (bfr_abs has v ext None).
Proof.
  intros Hhas. induction v as [|[k d] v IH]; intros ext Hv Hnd Hext Hfresh.
  - apply wpost_ret. split; [exact Hext|]. split; [auto|]. split; [intros ? ? []|]. cbn. lia.
  - inversion Hnd as [|? ? Hk Hnd']; subst.
    assert (Hv' : forall k0 d0, In (k0, d0) v -> aget k0 ch = Some d0 /\ is_i32 k0 = true) by (intros; apply Hv; right; assumption).
    assert (Hfresh' : forall u t, aget u ext = Some t -> ~ In (key TYPE_ID_EX t) (map fst v))
      by (intros u t Hu Hin; apply (Hfresh u t Hu); right; exact Hin).
    destruct (Hv k d (or_introl eq_refl)) as [Hkd Hki]. cbn [bfr_abs].
    destruct (Z.eqb_spec (key_to_raw_type_id k) TYPE_ID_EX) as [Ht|Ht].
    + assert (Hk0 : key TYPE_ID_EX (key_to_id k) = k) by (rewrite <- Ht; apply key_split, Hki).
      destruct (item_data_to_uuid d) as [ou ws] eqn:Eu.
      eapply (wpost_bind (fun _ : unit => True)); [exact I|]. intros _ _.
      destruct ou as [u|]; [|apply wpost_err].
      destruct (reg_ok (key_to_id k)) eqn:Hreg; cbn [negb]; [|apply wpost_err].
      destruct (aget u ext) as [t0|] eqn:Hu; [apply wpost_err|].
      assert (Hud : uuid_of d = Some u) by (unfold uuid_of; rewrite Eu; reflexivity).
      eapply wpost_weaken; [intros ext'; apply (reg_post_reg ch ext k d v u ext' Ht Hud Hu)|].
      apply (IH (ains u (key_to_id k) ext) Hv' Hnd').
      * apply (ext_ok_ains ch ext u _ d Hext Hreg); [rewrite Hk0; exact Hkd|exact Hud|].
        intros u' Hu'. apply (Hfresh u' _ Hu'). left. cbn [fst]. symmetry. exact Hk0.
      * intros u' t' Hu' Hin. destruct (Z.eq_dec u' u) as [->|Hne].
        -- rewrite aget_ains_same in Hu'. injection Hu' as <-. apply Hk. rewrite Hk0 in Hin. exact Hin.
        -- rewrite aget_ains_other in Hu' by exact Hne. apply (Hfresh' u' t' Hu' Hin).
    + (* any other item: the registry does not change *)
      assert (Hrest : (OFFSET_EXTENDED_TYPE_ID <= key_to_raw_type_id k -> aget (key TYPE_ID_EX (key_to_raw_type_id k)) ch <> None) ->
                wpost (reg_post ch ext ((k, d) :: v)) (bfr_abs has v ext None)).
      { intros Hreg. eapply wpost_weaken; [intros ext'; apply (reg_post_other ch ext k d v ext' Ht Hreg)|].
        apply (IH ext Hv' Hnd' Hext Hfresh'). }
      destruct (Z.leb_spec OFFSET_EXTENDED_TYPE_ID (key_to_raw_type_id k)) as [Hge|Hlt]; [|apply Hrest; lia].
      destruct (has (key TYPE_ID_EX (key_to_raw_type_id k))) eqn:Hh; [|apply wpost_err].
      rewrite bfr_abs_prev by (intros p [= <-]; exact Hh). apply Hrest. intros _.
      rewrite Hhas in Hh. intros E. rewrite E in Hh. discriminate Hh.
Qed.

Record sgood (S : snap) : Prop := {
  sg_raw : good (sn_raw S);
  sg_ext : exists ch, rep (sn_raw S) ch /\ ext_ok ch (sn_ext S)
             /\ (forall k d, aget k ch = Some d -> item_ok ch (sn_ext S) k d)
             /\ length (sn_ext S) = count0 ch
}.

Lemma count0_perm a b : Permutation a b -> count0 a = count0 b.
Proof.
  unfold count0. induction 1 as [|x a b _ IH|x y a|a b c _ IH1 _ IH2]; [reflexivity| | |congruence].
  - cbn [filter]. destruct (is_reg x); cbn [length]; lia.
  - cbn [filter]. destruct (is_reg x); destruct (is_reg y); reflexivity.
Qed.

Lemma ext_ok_nil ch : ext_ok ch [].
Proof. split; [reflexivity|intros ? ? H; discriminate|intros ? ? ? H; discriminate]. Qed.

Theorem build_from_raw_good R : good R -> wpost sgood (build_from_raw R).
Proof.
  intros G. destruct (g_rep _ G) as [ch HR]. rewrite (build_from_raw_abs R ch HR).
  eapply wpost_bind.
  - apply (bfr_abs_post ch (has_key R) (fun k => has_key_lookup R ch k HR) (view R ch) []).
    + intros k d Hin. split; [apply (in_view R ch k d HR Hin)|apply (view_i32 R ch (g_keys _ G) (k, d) Hin)].
    + rewrite view_keys. apply rep_nodup_offs with ch, HR.
    + apply ext_ok_nil.
    + intros ? ? H; discriminate.
  - intros ext (E1 & _ & E3 & E4). apply wpost_ret. split; cbn [sn_raw sn_ext]; [exact G|].
    exists ch. split; [exact HR|]. split; [exact E1|]. split.
    + intros k d Hd. apply E3. rewrite <- (aget_view R ch k HR) in Hd. apply aget_in, Hd.
    + rewrite E4. cbn [length Nat.add]. apply count0_perm, view_perm, HR.
Qed.

Theorem snap_read_from_ints_good ints : forallb is_i32 ints = true -> wpost sgood (snap_read_from_ints ints).
Proof.
  intros Hi. unfold snap_read_from_ints. eapply (wpost_bind good).
  - pose proof (read_from_ints_good ints Hi) as H. unfold wpost. destruct (raw_read_from_ints ints) as [[R| | |] ws]; exact H.
  - intros R G. apply build_from_raw_good, G.
Qed.

Theorem snap_read_bytes_good bs : bytes_ok bs = true -> wpost sgood (snap_read_bytes bs).
Proof.
  intros Hok. unfold snap_read_bytes. eapply (wpost_bind good).
  - pose proof (read_bytes_good bs Hok) as H. unfold wpost. destruct (raw_read_bytes bs) as [[R| | |] ws]; exact H.
  - intros R G. apply build_from_raw_good, G.
Qed.

Theorem snap_read_with_delta_good S d : sgood S -> dgood d -> wpost sgood (snap_read_with_delta S d).
Proof.
  intros G D. unfold snap_read_with_delta. eapply (wpost_bind good).
  - apply read_with_delta_good; [apply (sg_raw _ G)|exact D].
  - intros R GR. apply build_from_raw_good, GR.
Qed.

Lemma sgood_empty : sgood snap_empty.
Proof.
  split; [apply good_empty|]. exists []. split; [apply rep_empty|]. split; [apply ext_ok_nil|].
  split; [intros ? ? H; discriminate|reflexivity].
Qed.

Lemma snap_type_id_good {E} S ch k d : rep (sn_raw S) ch -> ext_ok ch (sn_ext S) ->
  (forall k d, aget k ch = Some d -> item_ok ch (sn_ext S) k d) -> aget k ch = Some d ->
  exists ot, @snap_type_id E S (key_to_raw_type_id k) = Ok ot
    /\ (ot = None <-> key_to_raw_type_id k = TYPE_ID_EX).
Proof.
  intros R Hext Hitems Hk. unfold snap_type_id. pose proof (key_to_ty_range k) as Rt.
  destruct (Z.eqb_spec (key_to_raw_type_id k) TYPE_ID_EX) as [Ht|Ht]; [exists None; split; [reflexivity|tauto]|].
  destruct (Z.ltb_spec (key_to_raw_type_id k) OFFSET_EXTENDED_TYPE_ID) as [Hlt|Hge].
  - eexists. split; [reflexivity|]. split; [discriminate|contradiction].
  - rewrite (raw_item_rep (sn_raw S) ch _ _ R). cbn [bind].
    destruct (Hitems k d Hk) as [_ Hreg]. specialize (Hreg Hge).
    destruct (aget (key TYPE_ID_EX (key_to_raw_type_id k)) ch) as [rd|] eqn:Hrd; [|contradiction].
    destruct (Hitems _ rd Hrd) as [Hu _].
    destruct Hu as (u & Hu & _); [apply key_to_ty_key; [unfold TYPE_ID_EX; lia|exact Rt]|].
    unfold uuid_of in Hu. rewrite Hu. eexists. split; [reflexivity|]. split; [discriminate|contradiction].
Qed.

Theorem snap_items_fine {E} S : sgood S -> exists r, @snap_items E S = Ok r.
Proof.
  intros G. destruct (sg_ext _ G) as (ch & R & Hext & Hitems & Hlen).
  unfold snap_items. destruct (rep_lengths _ _ R) as [L1 _].
  assert (Hc : (count0 ch <= length ch)%nat) by (unfold count0; apply filter_length_le').
  replace (Z.of_nat (length (rs_offs (sn_raw S))) <? Z.of_nat (length (sn_ext S))) with false
    by (symmetry; apply Z.ltb_ge; lia).
  rewrite (raw_items_rep (sn_raw S) ch R). cbn [bind].
  assert (Gl : forall l rem, (forall k d, In (k, d) l -> aget k ch = Some d) ->
             Z.of_nat (length l) - Z.of_nat (count0 l) <= rem ->
             exists r, @items_loop E S l rem = Ok r).
  { induction l as [|[k d] l IH]; intros rem Hl Hrem; [eexists; reflexivity|].
    cbn [items_loop].
    destruct (@snap_type_id_good E S ch k d R Hext Hitems (Hl k d (or_introl eq_refl))) as (ot & Eo & Hot).
    rewrite Eo. cbn [bind]. rewrite count0_cons in Hrem. unfold is_reg in Hrem. cbn [fst length] in Hrem.
    destruct ot as [ty|].
    - assert (Hne : key_to_raw_type_id k <> TYPE_ID_EX) by (intros H0; apply Hot in H0; discriminate).
      apply Z.eqb_neq in Hne. rewrite Hne in Hrem.
      assert (Hcl : (count0 l <= length l)%nat) by (unfold count0; apply filter_length_le').
      replace (rem <=? 0) with false by (symmetry; apply Z.leb_gt; lia).
      destruct (IH (rem - 1)) as [r Er]; [intros; apply Hl; right; assumption|lia|].
      rewrite Er. eexists. reflexivity.
    - assert (He : key_to_raw_type_id k = TYPE_ID_EX) by (apply Hot; reflexivity).
      apply Z.eqb_eq in He. rewrite He in Hrem.
      apply IH; [intros; apply Hl; right; assumption|lia]. }
  destruct (Gl (view (sn_raw S) ch) (Z.of_nat (length (rs_offs (sn_raw S))) - Z.of_nat (length (sn_ext S)))) as [r Er].
  - intros k d Hin. apply (in_view _ ch k d R Hin).
  - rewrite (count0_perm _ _ (view_perm _ ch R)), (Permutation_length (view_perm _ ch R)). lia.
  - rewrite Er. eexists. reflexivity.
Qed.

Theorem snap_item_fine {E} S t id : sgood S ->
  (forall o, t = Ordinal o -> 0 < o < OFFSET_EXTENDED_TYPE_ID) -> exists r, @snap_item E S t id = Ok r.
Proof.
  intros G Ho. destruct (sg_ext _ G) as (ch & R & _). unfold snap_item, snap_raw_type_id. destruct t as [o|u].
  - specialize (Ho o eq_refl). replace ((0 <? o) && (o <? OFFSET_EXTENDED_TYPE_ID)) with true
      by (symmetry; apply andb_true_iff; split; apply Z.ltb_lt; lia).
    cbn [bind]. rewrite (raw_item_rep _ ch _ _ R). eexists. reflexivity.
  - cbn [bind]. destruct (aget u (sn_ext S)); [rewrite (raw_item_rep _ ch _ _ R)|]; eexists; reflexivity.
Qed.
