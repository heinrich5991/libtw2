(* The retry loop of the teehistorian Buffer does not see how the stream is cut:
   for prefix-stable parsers, everything a client of the buffer computes is a
   function of the logical stream (pending bytes ++ what the callback still delivers). *)
From LibTw2 Require Import Base.Res Model.Teehistorian.
From Coq Require Import List Lia Arith.
Import ListNotations.

Definition buf_ok (b : buffer) : Prop := (b_off b <= length (b_data b))%nat.

(* the bytes the reader has not consumed yet, in stream order *)
Definition frags (s : sched) : bytes := concat (map snd s).
Definition logical (b : buffer) (s : sched) : bytes := pending b ++ frags s.

(* the buffer after a successful attempt that read n bytes *)
Definition adv (b : buffer) (n : nat) : buffer := {| b_off := b_off b + n; b_data := b_data b |}.

Lemma buf_ok_empty : buf_ok empty_buffer.
Proof. unfold buf_ok; cbn; lia. Qed.

Lemma logical_empty s : logical empty_buffer s = frags s.
Proof. reflexivity. Qed.

Lemma logical_nil b : logical b [] = pending b.
Proof. apply app_nil_r. Qed.

Lemma pending_compact b : pending (compact b) = pending b.
Proof. reflexivity. Qed.

Lemma skipn_app_le {A} n (l1 l2 : list A) : (n <= length l1)%nat -> skipn n (l1 ++ l2) = skipn n l1 ++ l2.
Proof.
  intros H. rewrite skipn_app. replace (n - length l1)%nat with 0%nat by lia. reflexivity.
Qed.

Lemma pending_read_more b c f : buf_ok b -> pending (read_more b c f) = pending b ++ f.
Proof.
  intros Hok. destruct c; [reflexivity|]. apply skipn_app_le. exact Hok.
Qed.

Lemma buf_ok_read_more b c f : buf_ok b -> buf_ok (read_more b c f).
Proof.
  unfold buf_ok, read_more. intros H. destruct c; cbn [compact b_off b_data]; rewrite app_length; lia.
Qed.

Lemma logical_read_more b c f s : buf_ok b -> logical (read_more b c f) s = logical b ((c, f) :: s).
Proof.
  intros H. unfold logical. rewrite pending_read_more by exact H. symmetry. apply app_assoc.
Qed.

Lemma skipn_add {A} n m (l : list A) : skipn (m + n) l = skipn n (skipn m l).
Proof.
  revert l. induction m as [|m IH]; intros l; [reflexivity|].
  destruct l; cbn [Nat.add skipn]; [destruct n; reflexivity|apply IH].
Qed.

Lemma pending_adv b n : pending (adv b n) = skipn n (pending b).
Proof. apply skipn_add. Qed.

Lemma pending_length b : length (pending b) = (length (b_data b) - b_off b)%nat.
Proof. apply skipn_length. Qed.

Lemma buf_ok_adv b n : buf_ok b -> (n <= length (pending b))%nat -> buf_ok (adv b n).
Proof. unfold buf_ok. rewrite pending_length. cbn [adv b_off b_data]. lia. Qed.

(* one turn of the loop; with [buf_ok] the slice never panics *)
Lemma retry_eq {E A} (eof : E) (parse : bytes -> outcome A E) b s : buf_ok b ->
  retry E eof parse b s =
  match parse (pending b) with
  | POk a n => (Ok a, adv b n, s)
  | PFail e => (Err e, b, s)
  | PNeedMore => match s with
                 | [] => (Err eof, b, s)
                 | (c, f) :: s' => retry E eof parse (read_more b c f) s'
                 end
  end.
Proof.
  intros H. apply Nat.ltb_ge in H. destruct s; cbn [retry]; rewrite H; reflexivity.
Qed.

Section Generic.
  Variables (E : Type) (eof : E).
  Variables (P : Type) (X : P -> Type).
  Variable parse : forall p : P, bytes -> outcome (X p) E.

  (* an Ok answer is not changed by more input and does not claim more than it was given *)
  Hypothesis ok_stable : forall p bs a n q,
    parse p bs = POk a n -> (n <= length bs)%nat /\ parse p (bs ++ q) = POk a n.
  (* neither is a definite failure *)
  Hypothesis fail_stable : forall p bs e q,
    parse p bs = PFail e -> parse p (bs ++ q) = PFail e.

  (* what the caller of a retry loop sees of an attempt; "need more" at the end is EOF *)
  Definition verdict {A} (o : outcome A E) : res E A :=
    match o with POk a _ => Ok a | PNeedMore => Err eof | PFail e => Err e end.

  (* the retry loop gives the answer of one attempt over the whole logical stream
     and leaves what that attempt did not read *)
  Definition reads_whole p (b : buffer) (s : sched) : Prop :=
    exists b' s', retry E eof (parse p) b s = (verdict (parse p (logical b s)), b', s')
      /\ forall a n, parse p (logical b s) = POk a n ->
           buf_ok b' /\ logical b' s' = skipn n (logical b s).

  Lemma retry_settled p b s : buf_ok b -> parse p (pending b) <> PNeedMore -> reads_whole p b s.
  Proof.
    intros Hok Hs. unfold reads_whole. rewrite retry_eq by exact Hok. unfold logical.
    destruct (parse p (pending b)) as [a n| |e] eqn:Ep; [|contradiction|].
    - destruct (ok_stable _ _ _ _ (frags s) Ep) as [Hn ->]. eexists _, _. split; [reflexivity|].
      intros a' n' H. injection H as _ <-. split; [apply buf_ok_adv; assumption|].
      rewrite pending_adv. symmetry. apply skipn_app_le. exact Hn.
    - rewrite (fail_stable _ _ _ (frags s) Ep). eexists _, _. split; [reflexivity|discriminate].
  Qed.

  Lemma retry_whole p : forall s b, buf_ok b -> reads_whole p b s.
  Proof.
    induction s as [|[c f] s IH]; intros b Hok.
    all: destruct (parse p (pending b)) eqn:Ep;
      try (apply retry_settled; [exact Hok|rewrite Ep; discriminate]).
    - unfold reads_whole. rewrite retry_eq by exact Hok. rewrite logical_nil, Ep.
      eexists _, _. split; [reflexivity|discriminate].
    - unfold reads_whole. rewrite retry_eq, <- logical_read_more by exact Hok. rewrite Ep.
      apply IH, buf_ok_read_more, Hok.
  Qed.

  Lemma retry_ok_inv p b s a b' s' : buf_ok b -> retry E eof (parse p) b s = (Ok a, b', s') ->
    exists n, parse p (logical b s) = POk a n /\ buf_ok b' /\ logical b' s' = skipn n (logical b s).
  Proof.
    intros H Hr. destruct (retry_whole p s b H) as [b1 [s1 [Hw Hn]]]. rewrite Hw in Hr.
    destruct (parse p (logical b s)) as [a0 n| |e]; try discriminate.
    injection Hr as <- <- <-. exists n. split; [reflexivity|]. exact (Hn _ _ eq_refl).
  Qed.

  (* two buffer/schedule states with the same logical stream are indistinguishable *)
  Definition same_io {R} (x y : res E R * buffer * sched) : Prop :=
    fst (fst x) = fst (fst y)
    /\ (is_ok (fst (fst x)) = true ->
        buf_ok (snd (fst x)) /\ buf_ok (snd (fst y))
        /\ logical (snd (fst x)) (snd x) = logical (snd (fst y)) (snd y)).

  Lemma same_io_stop {R} (x : res E R) b1 s1 b2 s2 : is_ok x = false -> same_io (x, b1, s1) (x, b2, s2).
  Proof. intros H. split; [reflexivity|]. cbn [fst]. rewrite H. discriminate. Qed.

  Lemma retry_same p b1 s1 b2 s2 : buf_ok b1 -> buf_ok b2 -> logical b1 s1 = logical b2 s2 ->
    same_io (retry E eof (parse p) b1 s1) (retry E eof (parse p) b2 s2).
  Proof.
    intros H1 H2 HL. destruct (retry_whole p s1 b1 H1) as [b1' [s1' [-> R1]]].
    destruct (retry_whole p s2 b2 H2) as [b2' [s2' [-> R2]]]. rewrite HL in *.
    destruct (parse p (logical b2 s2)) as [a n| |e]; try (apply same_io_stop; reflexivity).
    destruct (R1 a n eq_refl) as [O1 L1]. destruct (R2 a n eq_refl) as [O2 L2].
    split; [reflexivity|]. intros _. cbn [fst snd]. rewrite L1, L2. auto.
  Qed.

  Lemma retry_no_panic p b s : buf_ok b ->
    match fst (fst (retry E eof (parse p) b s)) with Ok _ | Err _ => True | _ => False end.
  Proof.
    intros H. destruct (retry_whole p s b H) as [b' [s' [-> _]]].
    destruct (parse p (logical b s)); exact I.
  Qed.

  Lemma run_same {R} (m : prog E P X R) : forall b1 s1 b2 s2,
    buf_ok b1 -> buf_ok b2 -> logical b1 s1 = logical b2 s2 ->
    same_io (run E eof P X parse m b1 s1) (run E eof P X parse m b2 s2).
  Proof.
    induction m as [r|e|p k IH]; intros b1 s1 b2 s2 H1 H2 HL; cbn [run].
    - split; [reflexivity|]. intros _. cbn [fst snd]. auto.
    - apply same_io_stop. reflexivity.
    - destruct (retry_same p b1 s1 b2 s2 H1 H2 HL) as [Hr Hio].
      destruct (retry E eof (parse p) b1 s1) as [[r1 b1'] s1'].
      destruct (retry E eof (parse p) b2 s2) as [[r2 b2'] s2'].
      cbn [fst snd] in Hr, Hio. subst r2.
      destruct r1 as [x|e|z|]; try (apply same_io_stop; reflexivity).
      destruct (Hio eq_refl) as [O1 [O2 L]]. apply IH; assumption.
  Qed.

  Variables (St Item : Type).
  Variable body : St -> prog E P X (option Item * St).

  Notation loop' := (loop E eof P X parse St Item body).

  (* the items (and the final outcome) of the caller's loop are the same for every two
     ways of delivering the same logical stream *)
  Theorem frag_independent_io : forall fuel st b1 s1 b2 s2,
    buf_ok b1 -> buf_ok b2 -> logical b1 s1 = logical b2 s2 ->
    loop' fuel st b1 s1 = loop' fuel st b2 s2.
  Proof.
    induction fuel as [|fuel IH]; intros st b1 s1 b2 s2 H1 H2 HL; [reflexivity|].
    cbn [loop]. destruct (run_same (body st) b1 s1 b2 s2 H1 H2 HL) as [Hr Hio].
    destruct (run E eof P X parse (body st) b1 s1) as [[r1 b1'] s1'].
    destruct (run E eof P X parse (body st) b2 s2) as [[r2 b2'] s2'].
    cbn [fst snd] in Hr, Hio. subst r2.
    destruct r1 as [[[it|] st']|e|z|]; try reflexivity.
    destruct (Hio eq_refl) as [O1 [O2 L]]. rewrite (IH st' b1' s1' b2' s2' O1 O2 L). reflexivity.
  Qed.

  Theorem frag_independent : forall fuel st (stream : bytes) (f1 f2 : sched),
    frags f1 = stream -> frags f2 = stream ->
    loop' fuel st empty_buffer f1 = loop' fuel st empty_buffer f2.
  Proof.
    intros fuel st stream f1 f2 E1 E2. apply frag_independent_io; try apply buf_ok_empty.
    change (frags f1 = frags f2). congruence.
  Qed.
End Generic.

(* Where a run can end.  A slice panic needs an offset past the data, which no
   successful attempt produces; an error value is EOF, a parser's failure, or the
   client program's own. *)
Section Ends.
  Variables (E : Type) (eof : E).
  Variables (P : Type) (X : P -> Type).
  Variable parse : forall p : P, bytes -> outcome (X p) E.
  Variable good : E -> Prop.
  Hypothesis ok_bound : forall p bs a n, parse p bs = POk a n -> (n <= length bs)%nat.
  Hypothesis good_eof : good eof.
  Hypothesis good_parse : forall p bs e, parse p bs = PFail e -> good e.

  Definition lands {R} (x : res E R * buffer * sched) : Prop :=
    match x with
    | (Ok _, b, _) => buf_ok b
    | (Err e, _, _) => good e
    | _ => False
    end.

  Lemma retry_lands p : forall s b, buf_ok b -> lands (retry E eof (parse p) b s).
  Proof.
    induction s as [|[c f] s IH]; intros b H; rewrite retry_eq by exact H;
      destruct (parse p (pending b)) eqn:Ep; cbn [lands];
      eauto using buf_ok_adv, buf_ok_read_more.
  Qed.

  Fixpoint prog_good {R} (m : prog E P X R) : Prop :=
    match m with
    | Ret _ => True
    | Bad e => good e
    | Read p k => forall x, prog_good (k x)
    end.

  Lemma run_lands {R} (m : prog E P X R) : prog_good m -> forall b s, buf_ok b ->
    lands (run E eof P X parse m b s).
  Proof.
    induction m as [r|e|p k IH]; intros Hg b s H; cbn [run lands]; try assumption.
    pose proof (retry_lands p s b H) as L.
    destruct (retry E eof (parse p) b s) as [[[x|e|z|] b'] s']; try exact L.
    apply IH; [apply Hg|exact L].
  Qed.

  Variables (St Item : Type).
  Variable body : St -> prog E P X (option Item * St).
  Hypothesis body_good : forall st, prog_good (body st).

  (* the loop can stop for lack of fuel, but not in a panic *)
  Lemma loop_lands : forall fuel st b s, buf_ok b ->
    match snd (loop E eof P X parse St Item body fuel st b s) with
    | Err e => good e
    | Panic _ => False
    | _ => True
    end.
  Proof.
    induction fuel as [|fuel IH]; intros st b s H; [exact I|].
    cbn [loop]. pose proof (run_lands (body st) (body_good st) b s H) as L.
    destruct (run E eof P X parse (body st) b s) as [[[[[it|] st']|e|z|] b'] s']; try exact L; try exact I.
    specialize (IH st' b' s' L). destruct (loop E eof P X parse St Item body fuel st' b' s'). exact IH.
  Qed.
End Ends.
