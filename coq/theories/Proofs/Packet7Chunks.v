(* 0.7 chunk iterator: ChunksIter::next_warn never panics, every chunk it yields is a
   slice of the payload, it yields at most length/2 chunks; and the chunks written by
   write_chunk come back unchanged and warning-free. *)
From LibTw2 Require Import Base.Res Base.Bits Model.PacketTypes Model.PacketBase Gen.Consts7 Gen.Bits7
  Model.Packet7 Proofs.PktSweep Proofs.PktBits6 Proofs.PktBits7 Proofs.PacketShared.
From Coq Require Import ZArith Lia Bool List.
Open Scope Z_scope.

Ltac Zify.zify_post_hook ::= Z.div_mod_to_equations.

Lemma rch7_some data h seq hlen rest ws :
  read_chunk_header7 data = (Some (h, seq, hlen, rest), ws) ->
  (2 <= hlen <= 3)%nat /\ length data = (hlen + length rest)%nat /\ rest = skipn hlen data.
Proof.
  unfold read_chunk_header7.
  destruct data as [|b0 [|b1 r]]; cbn [ChunkHeaderPacked7_of_bytes]; try discriminate.
  destruct (ChunkHeaderPacked7_unpack_warn _) as [hd w0].
  destruct (land_ne0 (ch7_flags hd) CHUNKFLAG_VITAL).
  - destruct r as [|b2 r]; cbn [ChunkHeaderVitalPacked7_of_bytes]; try discriminate.
    destruct (ChunkHeaderVitalPacked7_unpack_warn _) as [hv wv]. intros H. injection H as <- <- <- <- <-.
    cbn [length skipn]. repeat split; lia.
  - intros H. injection H as <- <- <- <- <-. cbn [length skipn]. repeat split; lia.
Qed.

Definition citer7_inv (payload : bytes) (it : citer7) : Prop :=
  ci7_data it = skipn (ci7_pos it) payload /\ (ci7_pos it <= length payload)%nat.

Definition chunk_in (payload : bytes) (cv : chunk * view) : Prop :=
  (v_off (snd cv) + v_len (snd cv) <= length payload)%nat
  /\ ch_data (fst cv) = firstn (v_len (snd cv)) (skipn (v_off (snd cv)) payload).

Definition next7_ok (payload : bytes) : citer7 -> option (chunk * view) -> citer7 -> Prop :=
  next_ok ci7_data ci7_remaining (citer7_inv payload) (chunk_in payload).

Lemma chunks_next7_spec payload it : citer7_inv payload it ->
  i32_min <= ci7_remaining it - Z.of_nat (length (ci7_data it)) ->
  exists o it' ws, chunks_next7 it = Ok (o, it', ws) /\ next7_ok payload it o it'.
Proof.
  intros [Ed Hp] Hrem.
  assert (Hlen : (ci7_pos it + length (ci7_data it) = length payload)%nat) by (rewrite Ed, skipn_length; lia).
  (* every way of returning None leaves the iterator at the end of the payload *)
  assert (Hnone : forall it', ci7_data it' = [] -> ci7_pos it' = length payload ->
            ci7_remaining it' = ci7_remaining it -> next7_ok payload it None it').
  { intros it' Hd Hpos Hr. split; [|split; assumption]. split; [rewrite Hd, Hpos, skipn_all; reflexivity|lia]. }
  unfold chunks_next7. destruct (ci7_data it) as [|d0 dr] eqn:Edata.
  - cbn [length] in Hlen.
    destruct (negb (ci7_checked it)); eexists; eexists; eexists; (split; [reflexivity|]);
      apply Hnone; cbn [ci7_data ci7_pos ci7_remaining]; auto; lia.
  - rewrite <- Edata in *. clear Edata d0 dr.
    assert (Hex : next7_ok payload it None (excess7 it)) by (apply Hnone; cbn [excess7 ci7_data ci7_pos ci7_remaining]; auto).
    destruct (read_chunk_header7 (ci7_data it)) as [[[[[h seq] hlen] rest]|] ws] eqn:Eh;
      [|eexists; eexists; eexists; split; [reflexivity|exact Hex]].
    apply rch7_some in Eh as (Hh & Hl & Er).
    destruct (Z.ltb_spec (Z.of_nat (length rest)) (ch7_size h)) as [Es|Es];
      [eexists; eexists; eexists; split; [reflexivity|exact Hex]|].
    rewrite (proj2 (Z.ltb_ge _ _)) by lia.
    set (n := Z.to_nat (ch7_size h)). assert (Hn : (n <= length rest)%nat) by (unfold n; lia).
    eexists; eexists; eexists. split; [reflexivity|].
    unfold next7_ok, next_ok, citer7_inv, chunk_in. cbn [ci7_data ci7_pos ci7_remaining fst snd v_off v_len ch_data].
    rewrite Er, Ed, !skipn_skipn, !skipn_length. repeat split; try lia. f_equal. lia.
Qed.

Lemma chunks_all7_loop_eq k it : chunks_all7_loop k it = all_loop chunks_next7 k it.
Proof. reflexivity. Qed.

(* the iterator as chunks_iter_all7 starts it: fuel and counter suffice *)
Lemma chunks_new7_ok payload n : 0 <= n -> Z.of_nat (length payload) <= 2147483648 ->
  let it := chunks_new7 payload n in
  citer7_inv payload it /\ (length (ci7_data it) / 2 < S (Nat.div2 (length payload)))%nat
  /\ i32_min <= ci7_remaining it - Z.of_nat (length (ci7_data it)).
Proof.
  intros Hn Hl. unfold citer7_inv, chunks_new7, i32_min. cbn [ci7_data ci7_pos ci7_remaining skipn].
  rewrite Nat.div2_div. repeat split; lia.
Qed.

(* ChunksIter is total on every payload; at most length/2 chunks; all inside the payload.
   The side condition excludes only payloads of more than 2^31 bytes (num_remaining_chunks
   is an i32 that is decremented once per chunk). *)
Theorem chunks_total7 payload n : 0 <= n -> Z.of_nat (length payload) <= 2147483648 ->
  exists cs ws it', chunks_iter_all7 payload n = Ok (cs, ws, it')
    /\ (length cs <= length payload / 2)%nat /\ Forall (chunk_in payload) cs
    /\ ci7_data it' = [].
Proof.
  intros Hn Hl. destruct (chunks_new7_ok payload n Hn Hl) as (Hi & Hk & Hr).
  unfold chunks_iter_all7. rewrite chunks_all7_loop_eq.
  exact (all_loop_spec _ ci7_data ci7_remaining _ _ (chunks_next7_spec payload) _ _ Hi Hk Hr).
Qed.

Definition vital_wf (v : option (Z * bool)) : bool :=
  match v with Some (s, _) => (0 <=? s) && (s <? 1024) | None => true end.
Definition chunk_wf7 (c : chunk) : bool :=
  (Z.of_nat (length (ch_data c)) <? 4096) && vital_wf (ch_vital c).

Definition chunk_flags (v : option (Z * bool)) : Z :=
  Z.lor (bool_flag (match v with Some _ => true | None => false end) CHUNKFLAG_VITAL)
        (bool_flag (match v with Some (_, r) => r | None => false end) CHUNKFLAG_RESEND).

Definition chunk_hdr7 (c : chunk) : bytes :=
  let h := {| ch7_flags := chunk_flags (ch_vital c); ch7_size := Z.of_nat (length (ch_data c)) |} in
  match ch_vital c with
  | Some (s, _) =>
    match ChunkHeaderVital7_pack {| chv7_h := h; chv7_sequence := s |} with
    | Ok p => ChunkHeaderVitalPacked7_as_bytes p | _ => [] end
  | None => match ChunkHeader7_pack h with Ok p => ChunkHeaderPacked7_as_bytes p | _ => [] end
  end.

Definition chunk_enc7 (c : chunk) : bytes := chunk_hdr7 c ++ ch_data c.

Lemma chunk_flags_facts7 v :
  0 <= chunk_flags v < 4
  /\ land_ne0 (chunk_flags v) CHUNKFLAG_VITAL = (match v with Some _ => true | None => false end)
  /\ land_ne0 (chunk_flags v) CHUNKFLAG_RESEND = (match v with Some (_, r) => r | None => false end).
Proof. destruct v as [[s []]|]; vm_compute; repeat split; congruence. Qed.

(* read_chunk_header looks at the flags through the two-byte header first: they are the
   flags of the three-byte header *)
Lemma ch7_flags_vital a b c :
  ch7_flags (fst (ChunkHeaderPacked7_unpack_warn {| chp7_flags_size := a; chp7_padding_size := b |}))
  = ch7_flags (chv7_h (fst (ChunkHeaderVitalPacked7_unpack_warn
                             {| chvp7_flags_size := a; chvp7_sequence_size := b; chvp7_sequence := c |}))).
Proof. reflexivity. Qed.

Lemma chunk_hdr7_spec c : chunk_wf7 c = true ->
  let h := {| ch7_flags := chunk_flags (ch_vital c); ch7_size := Z.of_nat (length (ch_data c)) |} in
  length (chunk_hdr7 c) = (match ch_vital c with Some _ => 3 | None => 2 end)%nat
  /\ (forall cap, (length (chunk_enc7 c) <= cap)%nat ->
        write_chunk7 (ch_data c) (ch_vital c) cap = Ok (chunk_enc7 c))
  /\ (forall tail, read_chunk_header7 (chunk_hdr7 c ++ tail)
        = (Some (h, option_map fst (ch_vital c), length (chunk_hdr7 c), tail), [])).
Proof.
  destruct c as [d v]. unfold chunk_wf7, chunk_enc7, chunk_hdr7, write_chunk7, write_chunk7_full. cbn [ch_data ch_vital].
  intros Hwf. apply andb_true_iff in Hwf as [Hd Hv]. apply Z.ltb_lt in Hd.
  destruct (chunk_flags_facts7 v) as (Hf & Fv & Fr).
  set (h := {| ch7_flags := chunk_flags v; ch7_size := Z.of_nat (length d) |}).
  assert (Hh : ch7_in_range h = true) by (unfold ch7_in_range, h; cbn [ch7_flags ch7_size]; lia).
  assert (Hassert : negb (Z.shiftr (Z.of_nat (length d)) CHUNK_SIZE_BITS =? 0) = false).
  { apply negb_false_iff, Z.eqb_eq. rewrite Z.shiftr_div_pow2 by (unfold CHUNK_SIZE_BITS; lia).
    apply Z.div_small. unfold CHUNK_SIZE_BITS. change (2 ^ 12) with 4096. lia. }
  rewrite Hassert. destruct v as [[s r]|]; cbv beta iota zeta.
  - change (Z.lor (bool_flag true CHUNKFLAG_VITAL) (bool_flag r CHUNKFLAG_RESEND)) with (chunk_flags (Some (s, r))). fold h.
    destruct (chv7_pack_unpack {| chv7_h := h; chv7_sequence := s |}) as (p & -> & Eu & _);
      [unfold chv7_in_range; cbn [chv7_h chv7_sequence vital_wf] in *; rewrite Hh; lia|].
    destruct p as [a b c3]. cbn [ChunkHeaderVitalPacked7_as_bytes chvp7_flags_size chvp7_sequence_size chvp7_sequence app length].
    split; [reflexivity|]. split.
    + intros cap Hcap. rewrite (write_chunk_fits cap [a; b; c3] d Hcap). reflexivity.
    + intros tail. unfold read_chunk_header7. cbn [ChunkHeaderPacked7_of_bytes ChunkHeaderVitalPacked7_of_bytes].
      destruct (ChunkHeaderPacked7_unpack_warn _) as [hd w0] eqn:E0.
      replace (ch7_flags hd) with (chunk_flags (Some (s, r)))
        by (change hd with (fst (hd, w0)); rewrite <- E0, (ch7_flags_vital a b c3), Eu; reflexivity).
      rewrite Fv, Eu. reflexivity.
  - change (Z.lor (bool_flag false CHUNKFLAG_VITAL) (bool_flag false CHUNKFLAG_RESEND)) with (chunk_flags None). fold h.
    destruct (ch7_pack_unpack h Hh) as (p & -> & Eu & _).
    destruct p as [a b]. cbn [ChunkHeaderPacked7_as_bytes chp7_flags_size chp7_padding_size app length].
    split; [reflexivity|]. split.
    + intros cap Hcap. rewrite (write_chunk_fits cap [a; b] d Hcap). reflexivity.
    + intros tail. unfold read_chunk_header7. cbn [ChunkHeaderPacked7_of_bytes]. rewrite Eu.
      cbn [ch7_flags h]. rewrite Fv. reflexivity.
Qed.

Lemma chunk_enc7_len c : chunk_wf7 c = true -> (2 <= length (chunk_enc7 c))%nat.
Proof.
  intros Hwf. destruct (chunk_hdr7_spec c Hwf) as (Hl & _). unfold chunk_enc7. rewrite app_length, Hl.
  destruct (ch_vital c); lia.
Qed.

Lemma chunks_next7_enc c rest it : chunk_wf7 c = true ->
  ci7_data it = chunk_enc7 c ++ rest -> i32_min <= ci7_remaining it - 1 ->
  exists v, chunks_next7 it
    = Ok (Some (c, v),
          {| ci7_data := rest; ci7_pos := (ci7_pos it + length (chunk_enc7 c))%nat;
             ci7_remaining := ci7_remaining it - 1; ci7_checked := ci7_checked it |}, []).
Proof.
  intros Hwf Ed Hrem. destruct (chunk_hdr7_spec c Hwf) as (_ & _ & Hrd). pose proof (chunk_enc7_len c Hwf) as Hl.
  unfold chunks_next7. rewrite Ed.
  destruct (chunk_enc7 c ++ rest) as [|x xs] eqn:Enz;
    [apply (f_equal (@length Z)) in Enz; rewrite app_length in Enz; cbn [length] in Enz; lia|].
  rewrite <- Enz. unfold chunk_enc7 in *. rewrite <- app_assoc, Hrd. cbn [ch7_size ch7_flags].
  rewrite !(proj2 (Z.ltb_ge _ _)) by (rewrite ?app_length; lia).
  rewrite Nat2Z.id, firstn_app_exact, skipn_app_exact.
  destruct (chunk_flags_facts7 (ch_vital c)) as (_ & _ & ->).
  rewrite chunk_eta, app_length, Nat.add_assoc. eexists. reflexivity.
Qed.

Lemma chunks_next7_nil it : ci7_data it = [] -> ci7_remaining it = 0 ->
  exists it', chunks_next7 it = Ok (None, it', []).
Proof. intros Ed Hr. unfold chunks_next7. rewrite Ed, Hr. destruct (negb (ci7_checked it)); eexists; reflexivity. Qed.

Lemma flat_enc7_len cs : forallb chunk_wf7 cs = true ->
  (2 * length cs <= length (flat_map chunk_enc7 cs))%nat.
Proof.
  induction cs as [|c cs IH]; cbn [forallb flat_map length]; intros H; [lia|].
  apply andb_true_iff in H as [Hc Hcs]. rewrite app_length. pose proof (chunk_enc7_len c Hc). specialize (IH Hcs). lia.
Qed.

(* chunks written one after the other by write_chunk are iterated back unchanged, in
   order, without a warning *)
Theorem chunks_roundtrip7 cs : forallb chunk_wf7 cs = true ->
  (forall c cap, In c cs -> (length (chunk_enc7 c) <= cap)%nat ->
     write_chunk7 (ch_data c) (ch_vital c) cap = Ok (chunk_enc7 c))
  /\ exists cvs it', chunks_iter_all7 (flat_map chunk_enc7 cs) (Z.of_nat (length cs)) = Ok (cvs, [], it')
       /\ map fst cvs = cs.
Proof.
  intros Hwf. split.
  - intros c cap Hin Hcap. rewrite forallb_forall in Hwf.
    destruct (chunk_hdr7_spec c (Hwf c Hin)) as (_ & Hw & _). apply Hw, Hcap.
  - unfold chunks_iter_all7. rewrite chunks_all7_loop_eq.
    apply (all_loop_enc _ ci7_data ci7_remaining chunk_wf7 chunk_enc7 chunks_next7_nil); try assumption; try reflexivity.
    + intros c rest it Hc Ed Hrem. destruct (chunks_next7_enc c rest it Hc Ed Hrem) as [v ->].
      eexists _, _. repeat split.
    + rewrite Nat.div2_div. pose proof (flat_enc7_len cs Hwf) as Hl.
      apply Nat.lt_succ_r. apply Nat.div_le_lower_bound; lia.
Qed.
