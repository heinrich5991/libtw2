(* C18, totality: parse_response, the seven Info*Response::parse and the helpers
   return a value or nothing for every byte string: no Panic site is reachable
   and the client loop never runs out of fuel. By structural case analysis of the
   model; nothing is sampled. *)
From LibTw2 Require Import Base.Res Model.Varint Model.Packer Model.ServerBrowse
  Proofs.VarintArith Proofs.VarintProofs Proofs.PackerProofs Proofs.ServerBrowseParse.
From Coq Require Import ZArith Lia Bool List Arith.
Open Scope Z_scope.

Definition datagram_ok (bs : bytes) : bool :=
  bytes_ok bs && (Z.of_nat (length bs) <? 2147483648).

(* a value with Q, or nothing: no panic, fuel left *)
Definition ok_with {A} (Q : A -> Prop) (m : res unit A) : Prop :=
  match m with Ok a => Q a | Err _ => True | _ => False end.

Lemma ok_with_bind {A B} (Q : A -> Prop) (P : res unit B -> Prop) m (f : A -> res unit B) :
  ok_with Q m -> P (Err tt) -> (forall a, Q a -> P (f a)) -> P (bind m f).
Proof. destruct m as [a|[]|?|]; cbn; intros H E K; [apply K, H|exact E|contradiction|contradiction]. Qed.

Lemma total_bind {A B} (m : res unit A) (f : A -> res unit B) :
  ok_or_err m -> (forall a, ok_or_err (f a)) -> ok_or_err (bind m f).
Proof. intros Hm Hf. apply (ok_with_bind (fun _ => True)); [exact Hm|exact I|intros a _; apply Hf]. Qed.

Lemma ok_with_total {A} (Q : A -> Prop) m : ok_with Q m -> ok_or_err m.
Proof. destruct m; cbn; auto. Qed.

(* what a reader that was given at most n bytes returns: a value with g and the rest of the
   input, which is again bytes, no more than n of them *)
Definition leaves {A} (g : A -> Prop) (n : nat) : A * bytes -> Prop :=
  fun '(a, r) => g a /\ bytes_ok r = true /\ (length r <= n)%nat.

Definition rd_spec {A} (g : A -> Prop) (n : nat) : res unit (A * bytes) -> Prop := ok_with (leaves g n).

Lemma rd_ok {A} (g : A -> Prop) n x r :
  g x -> bytes_ok r = true -> (length r <= n)%nat -> rd_spec g n (Ok (x, r)).
Proof. cbn. auto. Qed.

(* one `let* (x, r) := m in ..` of a parser: m meets a reader's specification (by tac); go on
   with the value x and the rest r *)
Ltac rd_by tac x r := eapply ok_with_bind; [tac|exact I|intros [x r] (? & ? & ?)].
Ltac rd L x r := rd_by ltac:(apply L; [assumption|eassumption || apply Nat.le_refl]) x r.
(* the same for a block of the parser that is not a single reader: show `leaves g n` of it first *)
Ltac rd_block g n x r := eapply (ok_with_bind (leaves g n)); [|exact I|intros [x r] (? & ? & ?)].

Lemma split_nul_inv bs : forall s r, split_nul bs = Some (s, r) -> bs = s ++ 0 :: r.
Proof.
  induction bs as [|b bs IH]; cbn [split_nul]; intros s r H; [discriminate|].
  destruct (b =? 0) eqn:E.
  - injection H as <- <-. apply Z.eqb_eq in E. subst b. reflexivity.
  - destruct (split_nul bs) as [[s' r']|]; [|discriminate].
    injection H as <- <-. cbn [app]. f_equal. apply IH. reflexivity.
Qed.

(* a string read takes at least its NUL *)
Lemma read_str_spec bs s r : bytes_ok bs = true -> read_str bs = Some (s, r) ->
  bytes_ok r = true /\ (length r < length bs)%nat.
Proof.
  unfold read_str. intros Hok H.
  destruct (split_nul bs) as [[s' r']|] eqn:E; [|discriminate].
  destruct (utf8_valid s'); [|discriminate]. injection H as <- <-.
  apply split_nul_inv in E. subst bs.
  apply bytes_ok_app_inv in Hok as [_ Hr]. apply andb_true_iff in Hr as [_ Hr].
  split; [exact Hr|]. rewrite app_length. cbn [length]. lia.
Qed.

Lemma read_int_with_spec ri bs n : bytes_ok bs = true -> (length bs <= n)%nat ->
  rd_spec (fun v => is_i32 v = true) n (read_int_with ri bs).
Proof.
  intros Hok Hn. unfold read_int_with, rd_spec, ok_with, leaves. destruct ri.
  - destruct (read_str bs) as [[s r]|] eqn:E; [|exact I].
    destruct (parse_i32 s) as [v|] eqn:P; [|exact I].
    destruct (read_str_spec _ _ _ Hok E) as [Hr Hl].
    split; [exact (parse_i32_range _ _ P)|]. split; [exact Hr|lia].
  - rewrite read_int_arith by exact Hok.
    pose proof (read_int_a_total bs) as T.
    destruct (read_int_a bs) as [[[v ws] r]| |?|] eqn:E; try exact I; try contradiction.
    destruct (read_int_a_consumes _ _ _ _ E) as [Hs [_ Hv]].
    split; [exact Hv|].
    pose proof (f_equal (@length Z) Hs) as Hlen. rewrite app_length in Hlen.
    rewrite Hs in Hok. apply bytes_ok_app_inv in Hok as [_ Hr]. split; [exact Hr|lia].
Qed.

(* truncated_arraystring never overfills the ArrayString *)
Lemma str_field_spec cap bs n : bytes_ok bs = true -> (length bs <= n)%nat ->
  rd_spec (fun _ => True) n (str_field cap bs).
Proof.
  intros Hok Hn. unfold str_field, rd_spec, ok_with, leaves.
  destruct (read_str bs) as [[s r]|] eqn:E; [|exact I].
  destruct (truncated_arraystring_spec cap s) as (k & -> & _). cbn [bind].
  destruct (read_str_spec _ _ _ Hok E) as [Hr Hl]. split; [exact I|]. split; [exact Hr|lia].
Qed.

Lemma skip_extra_spec version bs n : bytes_ok bs = true -> (length bs <= n)%nat ->
  ok_with (fun r => bytes_ok r = true /\ (length r <= n)%nat) (skip_extra version bs).
Proof.
  intros Hok Hn. unfold skip_extra. destruct (has_extra_info version); [|cbn; auto].
  rd (str_field_spec 0) t r. cbn. auto.
Qed.

Lemma rd_opt {A} (g : A -> Prop) n (c : bool) (m : res unit (A * bytes)) r0 :
  rd_spec g n m -> bytes_ok r0 = true -> (length r0 <= n)%nat ->
  rd_spec (fun _ => True) n (if c then let* (x, r) := m in Ok (Some x, r) else Ok (None, r0)).
Proof.
  intros Hm Hr Hl. destruct c; [|apply rd_ok; trivial].
  rd_by ltac:(exact Hm) x r. apply rd_ok; trivial.
Qed.
Ltac rd_option L x r := rd_by ltac:(eapply rd_opt; [apply L|..]; eassumption) x r.

Lemma shl1_ok site n : 0 <= n < 64 -> shl1_u64 site n = Ok (Z.shiftl 1 n).
Proof.
  intros H. unfold shl1_u64.
  replace ((0 <=? n) && (n <? 64)) with true by lia. reflexivity.
Qed.

Lemma parse_header_spec version ri token bs n : bytes_ok bs = true -> (length bs <= n)%nat ->
  rd_spec (fun x => 0 <= snd x <= i32_max) n (parse_header version ri token bs).
Proof.
  intros Hok Hn. unfold parse_header.
  rd (str_field_spec CAP_info_version) ver r1. rd (str_field_spec CAP_info_name) name r2.
  rd_option (str_field_spec CAP_info_hostname) hostname r3. rd (str_field_spec CAP_info_map) mapname r4.
  rd_block (fun _ : option Z * option Z => True) n cs r5.
  { destruct (has_extended_map_info version); [|apply rd_ok; trivial].
    rd read_int_with_spec crc r. rd read_int_with_spec size r'.
    destruct (size <? 0) eqn:E; [exact I|].
    (* the size is an i32 that is not negative: assert_u32 holds *)
    assert (Hs : is_i32 size = true) by assumption. unfold is_i32, i32_max in Hs.
    replace (u32_max <? size) with false by (unfold u32_max; lia). apply rd_ok; trivial. }
  destruct cs as [crc size].
  rd (str_field_spec CAP_info_game_type) game_type r6. rd read_int_with_spec flags r7.
  rd_option read_int_with_spec progression r8. rd_option read_int_with_spec skill r9.
  rd read_int_with_spec num_players r10. rd read_int_with_spec max_players r11.
  rd_block (fun _ : Z * Z => True) n cs r12.
  { destruct (has_extended_player_info version); [|apply rd_ok; trivial].
    rd read_int_with_spec nc r. rd read_int_with_spec mc r'. apply rd_ok; trivial. }
  destruct cs as [num_clients max_clients].
  rd_block (fun v => is_i32 v = true) n raw_offset r13.
  { destruct (has_offset version); [apply read_int_with_spec; assumption|apply rd_ok; trivial]. }
  destruct (_ || _); [exact I|]. destruct (raw_offset <? 0) eqn:E; [exact I|].
  assert (Ho : is_i32 raw_offset = true) by assumption. unfold is_i32 in Ho.
  apply rd_ok; [cbn [snd]; lia|assumption|assumption].
Qed.

Lemma clients_loop_total version ri : forall fuel j rest,
  bytes_ok rest = true -> (length rest < fuel)%nat ->
  0 <= j -> j + Z.of_nat (length rest) < u32_max ->
  ok_or_err (clients_loop fuel version ri j rest).
Proof.
  induction fuel as [|fuel IH]; intros j rest Hok Hfuel Hj0 Hj; [lia|].
  cbn [clients_loop].
  replace (u32_max <=? j) with false by lia.
  destruct (read_str rest) as [[n r]|] eqn:E; [|exact I].
  destruct (read_str_spec _ _ _ Hok E) as [Hr Hl].
  destruct (truncated_arraystring_spec CAP_client_name n) as (k & -> & _). cbn [bind].
  (* the name took a byte of the input, so the fuel is enough for whatever the rest of the round leaves *)
  assert (Hrec : forall r', bytes_ok r' = true -> (length r' <= length r)%nat ->
                 ok_or_err (clients_loop fuel version ri (j + 1) r')).
  { intros r' Hr' Hl'. apply IH; [exact Hr'|lia|lia|lia]. }
  rd_block (fun _ : bytes * Z => True) (length r) cc r1.
  { destruct (has_extended_player_info version); [|apply rd_ok; trivial].
    rd (str_field_spec CAP_client_clan) clan r'. rd read_int_with_spec country r''. apply rd_ok; trivial. }
  destruct cc as [clan country]. rd read_int_with_spec score r2.
  rd_block (fun v => is_i32 v = true) (length r) flags r3.
  { destruct (has_extended_player_info version); [|apply rd_ok; trivial].
    destruct (has_full_client_flags version); [apply read_int_with_spec; assumption|].
    rd read_int_with_spec is_player r'. apply rd_ok; [destruct (is_player =? 0); reflexivity|assumption|assumption]. }
  eapply ok_with_bind; [apply skip_extra_spec; eassumption|exact I|intros r4 [? ?]].
  destruct (siv_eqb version V664).
  - destruct (MAX_CLIENTS_6_64 <=? j) eqn:E64; [apply Hrec; assumption|].
    unfold MAX_CLIENTS_6_64 in E64. rewrite shl1_ok by lia. cbn [bind].
    apply total_bind; [apply Hrec; assumption|intros []; exact I].
  - apply total_bind; [apply Hrec; assumption|intros []; exact I].
Qed.

Lemma parse_server_info_total ri rv bs : datagram_ok bs = true ->
  ok_or_err (parse_server_info ri rv bs).
Proof.
  unfold datagram_ok. intros H. apply andb_true_iff in H as [Hok Hlen].
  apply Z.ltb_lt in Hlen. unfold parse_server_info.
  rd read_int_with_spec token r0.
  (* the clients are numbered from an offset below 2^31 (64-player legacy) or from 0, and there are
     fewer of them than bytes: the u32 counter does not overflow *)
  rd_block (fun x : sinfo * Z * Z => 0 <= snd (fst x) < 64 /\ 0 <= snd x <= i32_max) (length bs) ipo r1.
  { destruct rv as [v|]; cbn [rsiv_version].
    - rd parse_header_spec io r. destruct io as [info offset].
      apply rd_ok; [cbn [fst snd] in *; lia|assumption|assumption].
    - rd read_int_with_spec packet_no r. destruct (_ || _) eqn:E; [exact I|].
      apply rd_ok; [cbn [fst snd]; unfold i32_max; lia|assumption|assumption]. }
  destruct ipo as [[info packet_no] offset]. cbn [fst snd] in *.
  eapply ok_with_bind; [apply skip_extra_spec; eassumption|exact I|intros r2 [? ?]].
  apply total_bind; [|intros received].
  { destruct (siv_eqb _ V6Ex); [rewrite shl1_ok by lia|]; exact I. }
  apply total_bind; [|intros [cs bits]; exact I].
  apply clients_loop_total; [assumption|lia|lia|unfold u32_max, i32_max in *; lia].
Qed.

Theorem parse_info_total k bs : datagram_ok bs = true -> ok_or_err (parse_info k bs).
Proof.
  intros H. unfold parse_info.
  apply total_bind; [apply parse_server_info_total, H|intros p; exact I].
Qed.

Lemma slice_to_ok n bs : (n <= length bs)%nat -> slice_to n bs = Ok (firstn n bs).
Proof. intros H. unfold slice_to. replace (length bs <? n)%nat with false by (symmetry; apply Nat.ltb_ge; exact H). reflexivity. Qed.
Lemma slice_from_ok n bs : (n <= length bs)%nat -> slice_from n bs = Ok (skipn n bs).
Proof. intros H. unfold slice_from. replace (length bs <? n)%nat with false by (symmetry; apply Nat.ltb_ge; exact H). reflexivity. Qed.

Lemma chunks_length sz : forall count d, (sz * count <= length d)%nat ->
  Forall (fun c => length c = sz) (chunks sz count d).
Proof.
  induction count as [|count IH]; intros d H; cbn [chunks]; constructor.
  - rewrite firstn_length. lia.
  - apply IH. rewrite skipn_length. lia.
Qed.

Lemma parse_list_ok sz data : (0 < sz)%nat ->
  exists cs, parse_list sz data = Ok cs /\ Forall (fun c => length c = sz) cs.
Proof.
  intros Hsz. unfold parse_list.
  assert (Hm : (length data mod sz <= length data)%nat) by (apply Nat.mod_le; lia).
  rewrite slice_to_ok by lia. cbn [bind].
  set (d := firstn (length data - length data mod sz) data).
  assert (Hd : length d = (sz * (length data / sz))%nat).
  { unfold d. rewrite firstn_length.
    pose proof (Nat.div_mod (length data) sz ltac:(lia)) as E. lia. }
  replace (length d mod sz =? 0)%nat with true.
  2:{ symmetry. apply Nat.eqb_eq. rewrite Hd, Nat.mul_comm. apply Nat.mod_mul. lia. }
  cbn [negb]. eexists; split; [reflexivity|].
  apply chunks_length. apply Nat.mul_div_le. lia.
Qed.

Lemma map_res_total {A B} (f : A -> res unit B) (P : A -> Prop) l :
  (forall a, P a -> exists b, f a = Ok b) -> Forall P l -> exists bs, map_res f l = Ok bs.
Proof.
  intros Hf. induction 1 as [|a l Ha Hl IH]; cbn [map_res]; [eexists; reflexivity|].
  destruct (Hf a Ha) as [b ->]. destruct IH as [bs ->]. cbn [bind]. eexists; reflexivity.
Qed.

Lemma unpack5_ok c : length c = 6%nat -> exists a, unpack5 c = Ok a.
Proof.
  destruct c as [|a [|b [|c' [|d [|p0 [|p1 [|x r]]]]]]]; cbn [length]; intros H; try discriminate.
  eexists; reflexivity.
Qed.

Lemma unpack6_ok c : length c = 18%nat -> exists a, unpack6 c = Ok a.
Proof.
  intros H. unfold unpack6.
  assert (H2 : length (skipn 16 c) = 2%nat) by (rewrite skipn_length; lia).
  destruct (skipn 16 c) as [|p0 [|p1 [|x r]]]; cbn [length] in H2; try discriminate.
  replace (length (firstn 16 c) =? 16)%nat with true
    by (symmetry; apply Nat.eqb_eq; rewrite firstn_length; lia).
  eexists; reflexivity.
Qed.

(* address lists always parse: the remainder is dropped, every chunk has the packed size *)
Lemma parse_list_map_ok {B} sz (f : bytes -> res unit B) data : (0 < sz)%nat ->
  (forall c, length c = sz -> exists a, f c = Ok a) ->
  exists l, (let* cs := parse_list sz data in map_res f cs) = Ok l.
Proof.
  intros Hsz Hf. destruct (parse_list_ok sz data Hsz) as [cs [-> Hcs]]. cbn [bind].
  exact (map_res_total f _ cs Hf Hcs).
Qed.

Theorem parse_list5_ok data : exists l, parse_list5 data = Ok l.
Proof. exact (parse_list_map_ok 6 unpack5 data ltac:(lia) unpack5_ok). Qed.

Theorem parse_list6_ok data : exists l, parse_list6 data = Ok l.
Proof. exact (parse_list_map_ok 18 unpack6 data ltac:(lia) unpack6_ok). Qed.

Theorem parse_count_total data : ok_or_err (parse_count data).
Proof. unfold parse_count. destruct data as [|d0 [|d1 r]]; exact I. Qed.

Theorem parse_token7_total data : ok_or_err (parse_token7 data).
Proof.
  unfold parse_token7. destruct (length data <? 4)%nat eqn:E; [exact I|].
  apply Nat.ltb_ge in E. rewrite slice_to_ok by exact E. exact I.
Qed.

(* the payload that an info response hands to Info*Response::parse is a suffix of the datagram *)
Definition payload_of (data : bytes) (r : response) : Prop :=
  match response_info r with Some (_, p) => exists n, p = skipn n data | None => True end.

(* address lists, counts and tokens carry none *)
Lemma no_payload_spec {A} data (m : res unit A) (k : A -> response) :
  ok_or_err m -> (forall a, response_info (k a) = None) ->
  ok_with (payload_of data) (let* a := m in Ok (k a)).
Proof.
  intros Hm Hk. apply (ok_with_bind (fun _ => True)); [exact Hm|exact I|].
  intros a _. cbn [ok_with]. unfold payload_of. rewrite Hk. exact I.
Qed.

Lemma parse_list5_total data : ok_or_err (parse_list5 data).
Proof. destruct (parse_list5_ok data) as [l ->]. exact I. Qed.
Lemma parse_list6_total data : ok_or_err (parse_list6 data).
Proof. destruct (parse_list6_ok data) as [l ->]. exact I. Qed.

Lemma parse_response_6_spec data : ok_with (payload_of data) (parse_response_6 data).
Proof.
  unfold parse_response_6. destruct (length data <? 14)%nat eqn:E; [exact I|].
  apply Nat.ltb_ge in E. destruct data as [|b0 data']; [cbn [length] in E; lia|].
  destruct (Z.land b0 PACKETFLAG_CONNLESS =? 0); [exact I|].
  rewrite slice_to_ok, slice_from_ok by exact E. cbn [bind].
  repeat match goal with |- ok_with _ (if ?c then _ else _) => destruct c end;
    try exact I; try (exists 14%nat; reflexivity).
  - apply no_payload_spec; [apply parse_list5_total|reflexivity].
  - apply no_payload_spec; [apply parse_list6_total|reflexivity].
  - apply no_payload_spec; [apply parse_count_total|reflexivity].
Qed.

Lemma parse_response_7_spec data : ok_with (payload_of data) (parse_response_7 data).
Proof.
  unfold parse_response_7. destruct (length data <? 17)%nat eqn:E; [exact I|].
  apply Nat.ltb_ge in E. rewrite slice_from_ok, slice_to_ok by exact E. cbn [bind].
  repeat match goal with |- ok_with _ (if ?c then _ else _) => destruct c end; try exact I.
  - apply no_payload_spec; [apply parse_list6_total|reflexivity].
  - exists 17%nat; reflexivity.
  - apply no_payload_spec; [apply parse_count_total|reflexivity].
Qed.

Lemma parse_response_token7_spec data : ok_with (payload_of data) (parse_response_token7 data).
Proof.
  unfold parse_response_token7. destruct (length data <? 8)%nat eqn:E; [exact I|].
  apply Nat.ltb_ge in E. rewrite slice_from_ok, slice_to_ok by exact E. cbn [bind].
  destruct (bytes_eqb _ TOKEN_7); [|exact I].
  apply no_payload_spec; [apply parse_token7_total|reflexivity].
Qed.

Theorem parse_response_spec data : ok_with (payload_of data) (parse_response data).
Proof.
  unfold parse_response. destruct data as [|b data']; [apply parse_response_6_spec|].
  destruct (b =? 4); [apply parse_response_token7_spec|].
  destruct (b =? 33); [apply parse_response_7_spec|apply parse_response_6_spec].
Qed.

Theorem parse_response_total data : ok_or_err (parse_response data).
Proof. exact (ok_with_total _ _ (parse_response_spec data)). Qed.

Lemma bytes_ok_skipn n bs : bytes_ok bs = true -> bytes_ok (skipn n bs) = true.
Proof.
  intros H. rewrite <- (firstn_skipn n bs) in H. apply bytes_ok_app_inv in H. apply H.
Qed.

Lemma datagram_ok_skipn n bs : datagram_ok bs = true -> datagram_ok (skipn n bs) = true.
Proof.
  unfold datagram_ok. intros H. apply andb_true_iff in H as [H1 H2].
  apply andb_true_iff. split; [apply bytes_ok_skipn, H1|].
  apply Z.ltb_lt in H2. apply Z.ltb_lt. rewrite skipn_length. lia.
Qed.

Theorem response_info_total data r k payload : datagram_ok data = true ->
  parse_response data = Ok r -> response_info r = Some (k, payload) ->
  ok_or_err (parse_info k payload).
Proof.
  intros Hd Hr Hi. pose proof (parse_response_spec data) as H.
  rewrite Hr in H. cbn [ok_with] in H. unfold payload_of in H. rewrite Hi in H. destruct H as [n ->].
  apply parse_info_total, datagram_ok_skipn, Hd.
Qed.

(* merge has no panic site at all; get_info / take_info panic only on more than i32::MAX clients *)
Theorem merge_total rep a b : ok_or_err (snd (merge_gen rep a b)).
Proof.
  unfold merge_gen.
  repeat match goal with |- context [if ?c then _ else _] => destruct c; cbn [snd]; try exact I end.
Qed.

Theorem get_info_total p : Z.of_nat (length (i_clients (p_info p))) <= i32_max ->
  ok_or_err (get_info p) /\ ok_or_err (take_info p).
Proof.
  intros H. unfold take_info, get_info.
  replace (i32_max <? Z.of_nat (length (i_clients (p_info p)))) with false by lia.
  destruct (negb _); cbn [bind]; split; exact I.
Qed.
