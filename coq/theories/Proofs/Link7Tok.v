(* The two ends of the 0.7 link agree on the tokens: in every admissible history, once both ends are
   online, each end puts the other end's own token on its datagrams (o_their of one = o_own of the
   other). Every end draws its own token once (Op7Connect / the first TokenMsg it answers) and never
   changes it; it learns the peer's token only from a TokenMsg or a Connect that the peer really
   sent, and those always carry the sender's own token. Needed for progress (C02): a datagram with
   the wrong token is ignored. Mirror of Link6Tok.v. *)
From LibTw2 Require Import Base.Res Model.PacketTypes Model.ConnCore Model.Conn6 Model.Conn7 Model.LinkGhost Model.Link7
  Proofs.ConnCoreInv Proofs.Conn7Inv Proofs.LinkArith Proofs.LinkCore Proofs.Link7Inv Proofs.ConnProgress
  Proofs.LinkHealCore Proofs.Link7Heal.
From Coq Require Import ZArith Lia Bool List.
Open Scope Z_scope.

(* r is the token the endpoint expects on what it receives (a disconnected endpoint stays disconnected) *)
Definition own_is (st : state7) (r : token) : Prop :=
  match st with Disconnected7 => True | _ => own_token st = Some r end.

Definition learns (fed : option dgram) (t : token) : Prop :=
  exists tk a, fed = Some (DControl tk a (TokenMsg t)) \/ fed = Some (DControl tk a (Connect (Some t))).

Definition move7 (fed : option dgram) (st st' : state7) : Prop :=
  (forall r, own_is st r -> own_is st' r) /\
  (forall t, their_token st' = Some t -> their_token st = Some t \/ learns fed t).

Definition keep7 (st st' : state7) : Prop :=
  (forall r, own_is st r -> own_is st' r) /\ (forall t, their_token st' = Some t -> their_token st = Some t).

Lemma keep7_refl st : keep7 st st.
Proof. split; intros; assumption. Qed.

Lemma keep7_move fed st st' : keep7 st st' -> move7 fed st st'.
Proof. intros [A B]. split; [exact A|]. intros t H. left. apply B, H. Qed.

Lemma move7_keep fed a b c : move7 fed a b -> keep7 b c -> move7 fed a c.
Proof.
  intros [A1 A2] [B1 B2]. split.
  - intros r H. apply B1, A1, H.
  - intros t H. apply A2, B2, H.
Qed.

Lemma keep7_online o o' : o_own o' = o_own o -> o_their o' = o_their o -> keep7 (Online7 o) (Online7 o').
Proof. intros E1 E2. split; cbn; intros; congruence. Qed.

Lemma keep7_disc st : keep7 st Disconnected7.
Proof. split; [intros r _; exact I|intros t H; discriminate H]. Qed.

Definition ctl_ok7 (st' : state7) (d : dgram) : Prop :=
  match d with
  | DControl _ _ (TokenMsg r) => own_is st' r
  | DControl _ _ (Connect (Some r)) => own_is st' r
  | _ => True
  end.

Lemma benign_ctl7 st ds : Forall benign ds -> Forall (ctl_ok7 st) ds.
Proof.
  intros H. eapply Forall_impl; [|exact H]. intros d.
  destruct d as [t1 t2 p|tk a c|tk a rr n cs]; cbn; try (intros; exact I). destruct c; cbn; intros Hb; try exact I; contradiction.
Qed.

Lemma ack_keep7 st ack : keep7 st (match st with Online7 o => Online7 (ack_chunks o ack) | s => s end).
Proof. destruct st; try apply keep7_refl. destruct (ack_chunks_toks o ack). apply keep7_online; assumption. Qed.

(* The lemmas before feed7_moves have one shape: the state has moved legally so far, and the call ends
   in the given way; then the whole call is a legal move and what it sends is in order. *)

Lemma quiet_moves7 fed st c e evs ws r out : move7 fed st (c7_state c) ->
  Ok (mk7 c e [] evs ws r) = (Ok out : res unit outcome7) ->
  move7 fed st (c7_state (out7_conn out)) /\ Forall (ctl_ok7 (c7_state (out7_conn out))) (out7_sent out).
Proof. intros M H. injection H as <-. split; [exact M|constructor]. Qed.

Lemma control_moves7 fed st st0 ctl tok c e r out :
  (forall tk a, ctl_ok7 (c7_state c) (DControl tk a ctl)) ->
  move7 fed st (c7_state c) ->
  (let* d := send_control_with7 st0 ctl tok in Ok (mk7 c e d [] [] r)) = Ok out ->
  move7 fed st (c7_state (out7_conn out)) /\ Forall (ctl_ok7 (c7_state (out7_conn out))) (out7_sent out).
Proof.
  intros Hc M H. destruct (send_control_with7 st0 ctl tok) as [ds| | |] eqn:E; try discriminate H.
  apply send_control_with7_shape in E as ->. injection H as <-.
  split; [exact M|]. constructor; [apply Hc|constructor].
Qed.

(* the endpoint stays online with its two tokens, and sends only chunks *)
Lemma online_moves7 fed st o o' sd e ds evs r out :
  o_own o' = o_own o /\ o_their o' = o_their o /\ Forall benign ds -> move7 fed st (Online7 o) ->
  Ok (mk7 {| c7_state := Online7 o'; c7_send := sd |} e ds evs [] r) = (Ok out : res unit outcome7) ->
  move7 fed st (c7_state (out7_conn out)) /\ Forall (ctl_ok7 (c7_state (out7_conn out))) (out7_sent out).
Proof.
  intros [E1 [E2 B]] M H. injection H as <-.
  split; [exact (move7_keep _ _ _ _ M (keep7_online o o' E1 E2))|apply benign_ctl7, B].
Qed.

Lemma tick_action7_moves fed st c e out : move7 fed st (c7_state c) -> tick_action7 c e = Ok out ->
  move7 fed st (c7_state (out7_conn out)) /\ Forall (ctl_ok7 (c7_state (out7_conn out))) (out7_sent out).
Proof.
  destruct c as [st1 sd]. unfold tick_action7. cbn [c7_state]. intros M.
  destruct st1 as [|own|own|own their|own their|o|]; try apply quiet_moves7, M.
  - apply control_moves7; [|exact M]. intros tk a. reflexivity.
  - apply control_moves7; [|exact M]. intros tk a. reflexivity.
  - apply control_moves7; [|exact M]. intros tk a. exact I.
  - destruct (can_send o); [|apply control_moves7; [|exact M]; intros tk a; exact I].
    destruct (online_flush params7 o) as [[o' d]| | |] eqn:Ef; cbn [bind]; try discriminate.
    apply flush_toks in Ef. eapply online_moves7; [exact Ef|exact M].
Qed.

Lemma resend_or_not7 (rr : bool) o sd e c3 sent :
  (if rr then do_resend7 {| c7_state := Online7 o; c7_send := sd |} e o
   else Ok ({| c7_state := Online7 o; c7_send := sd |}, [])) = Ok (c3, sent) ->
  exists o3, c7_state c3 = Online7 o3 /\ o_own o3 = o_own o /\ o_their o3 = o_their o /\ Forall benign sent.
Proof.
  destruct rr; intros H.
  - unfold do_resend7 in H.
    destruct (online_resend params7 (e_now e) o) as [[[o3 ds] ts]| | |] eqn:Er; cbn [bind] in H; try discriminate H.
    injection H as <- <-. exists o3. split; [reflexivity|exact (resend_toks _ _ _ _ _ _ Er)].
  - injection H as <- <-. exists o. split; [reflexivity|]. split; [reflexivity|]. split; [reflexivity|constructor].
Qed.

(* what feed7 does with the chunks of a datagram once the endpoint is online *)
Lemma chunks7_moves fed st o sd (rr : bool) e cs out : move7 fed st (Online7 o) ->
  (let* (c3, sent) := (if rr then do_resend7 {| c7_state := Online7 o; c7_send := sd |} e o
                       else Ok ({| c7_state := Online7 o; c7_send := sd |}, [])) in
   match c7_state c3 with
   | Online7 o3 =>
     let* (ack', rr', evs) := recv_chunks (o_ack o3) (o_rr o3) cs in
     Ok (mk7 {| c7_state := Online7 (o_set_ack o3 ack' rr'); c7_send := c7_send c3 |} e sent evs [] R7Ok)
   | _ => Ok (mk7 c3 e sent [] [] R7Ok)
   end) = Ok out ->
  move7 fed st (c7_state (out7_conn out)) /\ Forall (ctl_ok7 (c7_state (out7_conn out))) (out7_sent out).
Proof.
  intros M. destruct (if rr then _ else _) as [[c3 sent]| | |] eqn:Er; cbn [bind]; try discriminate.
  apply resend_or_not7 in Er as [o3 [E0 T]]. rewrite E0.
  destruct (recv_chunks (o_ack o3) (o_rr o3) cs) as [[[ack' rr'] evs]| | |]; cbn [bind]; try discriminate.
  eapply online_moves7; [exact T|exact M].
Qed.

Lemma feed7_moves c e d out : feed7 c e d = Ok out ->
  move7 (Some d) (c7_state c) (c7_state (out7_conn out)) /\ Forall (ctl_ok7 (c7_state (out7_conn out))) (out7_sent out).
Proof.
  destruct c as [st sd]. unfold feed7. cbn [c7_state c7_send].
  assert (Hsame : move7 (Some d) st st) by apply keep7_move, keep7_refl.
  pose proof (fun ack => keep7_move (Some d) _ _ (ack_keep7 st ack)) as Hack.
  destruct d as [t1 t2 pl|tk ack ctl|tk ack rr n cs].
  - destruct (negb _); [apply quiet_moves7, Hsame|]. destruct (negb _); apply quiet_moves7, Hsame.
  - destruct (negb _); [apply quiet_moves7, Hsame|].
    destruct ((ack <? 0) || (SEQ_MOD <=? ack)); [discriminate|].
    destruct ctl as [|resp| | |reason|their]; try apply quiet_moves7, (Hack ack).
    + destruct st as [|own|own|own their|own their|o|]; try apply quiet_moves7, (Hack ack).
      destruct resp as [t|]; [|apply quiet_moves7, (Hack ack)].
      apply tick_action7_moves. split.
      * intros r Hr. exact Hr.
      * intros t' Ht. injection Ht as <-. right. exists tk, ack. right. reflexivity.
    + (* Accept: a connecting endpoint goes online with the two tokens it has, a move by computation *)
      destruct st as [|own|own|own their|own their|o|]; apply quiet_moves7, (Hack ack).
    + apply quiet_moves7, keep7_move, keep7_disc.
    + destruct st as [|own|own|own their0|own their0|o|]; try apply quiet_moves7, (Hack ack).
      * destruct (token_random7 (e_rand e)) as [[nt rnd']| | |]; cbn [bind]; try discriminate.
        apply control_moves7; [intros tk' a'; reflexivity|]. split.
        -- intros r Hr. discriminate Hr.
        -- intros t Ht. discriminate Ht.
      * apply tick_action7_moves. split.
        -- intros r Hr. exact Hr.
        -- intros t' Ht. injection Ht as <-. right. exists tk, ack. left. reflexivity.
      * apply control_moves7; [intros tk' a'; reflexivity|exact Hsame].
  - destruct (negb _); [apply quiet_moves7, Hsame|].
    destruct ((ack <? 0) || (SEQ_MOD <=? ack)); [discriminate|].
    destruct st as [|own|own|own their|own their|o|]; cbn [c7_state]; try apply quiet_moves7, Hsame.
    + (* the first chunks put a pending endpoint online with the two tokens it has *)
      apply chunks7_moves, Hsame.
    + apply chunks7_moves, (Hack ack).
Qed.

Lemma app7_moves c e op out : app_op7 op -> step7 c e op = Ok out ->
  move7 None (c7_state c) (c7_state (out7_conn out)) /\ Forall (ctl_ok7 (c7_state (out7_conn out))) (out7_sent out).
Proof.
  destruct c as [st sd]. intros Ha. unfold step7. cbn [c7_state c7_send].
  destruct op as [|data vital| | |reason|data|d| |]; try contradiction.
  - destruct st; try discriminate.
    destruct (token_random7 (e_rand e)) as [[t rnd']| | |]; cbn [bind]; try discriminate.
    apply tick_action7_moves. split.
    + intros r Hr. discriminate Hr.
    + intros t' Ht. discriminate Ht.
  - destruct st as [|own|own|own their|own their|o|]; try discriminate.
    destruct (online_send params7 (e_now e) o data vital) as [[[o' ds] r]| | |] eqn:Es; cbn [bind]; try discriminate.
    apply send_toks in Es. eapply online_moves7; [exact Es|apply keep7_move, keep7_refl].
  - destruct st as [|own|own|own their|own their|o|]; try discriminate.
    destruct (online_flush params7 o) as [[o' ds]| | |] eqn:Ef; cbn [bind]; try discriminate.
    apply flush_toks in Ef. eapply online_moves7; [exact Ef|apply keep7_move, keep7_refl].
  - destruct (match st with
              | Online7 o => match queue_back (o_queue o) with Some rc => triggered (rc_next rc) (e_now e) | None => false end
              | _ => false end) eqn:Ers.
    + destruct st as [|own|own|own their|own their|o|]; try discriminate Ers. unfold do_resend7.
      destruct (online_resend params7 (e_now e) o) as [[[o' ds] ts]| | |] eqn:Er; cbn [bind]; try discriminate.
      apply resend_toks in Er. eapply online_moves7; [exact Er|apply keep7_move, keep7_refl].
    + destruct (triggered sd (e_now e)); [|apply quiet_moves7, keep7_move, keep7_refl].
      apply tick_action7_moves, keep7_move, keep7_refl.
  - destruct st as [|own|own|own their|own their|o|]; try discriminate; (destruct (existsb _ reason); [discriminate|]);
      (apply control_moves7; [intros tk a; exact I|apply keep7_move, keep7_disc]).
  - destruct st as [|own|own|own their|own their|o|]; try discriminate.
    destruct (MAX_PAYLOAD <? _); intros H; injection H as <-; cbn; (split; [apply keep7_move, keep7_refl|]); repeat constructor.
Qed.

(* x: an endpoint, y: its peer, bagy: the datagrams y has sent *)
Record pair_inv7 (x y : state7) (bagy : list flight) : Prop := {
  pj7_tm : forall f tk a r, In f bagy -> f_d f = DControl tk a (TokenMsg r) -> own_is y r;
  pj7_co : forall f tk a r, In f bagy -> f_d f = DControl tk a (Connect (Some r)) -> own_is y r;
  pj7_their : forall t, their_token x = Some t -> own_is y t;
}.

Lemma tok_pair_step7 (z p : state7) (bagz bagp : list flight) z' new fed :
  pair_inv7 p z bagz -> pair_inv7 z p bagp ->
  move7 fed z z' -> Forall (fun f => ctl_ok7 z' (f_d f)) new ->
  (forall d, fed = Some d -> exists f, In f bagp /\ f_d f = d) ->
  pair_inv7 p z' (bagz ++ new) /\ pair_inv7 z' p bagp.
Proof.
  intros [A1 A2 A3] [B1 B2 B3] [M1 M2] Hnew Hfed. rewrite Forall_forall in Hnew. split; constructor.
  - intros f tk a r Hin Hd. apply in_app_or in Hin as [Hin|Hin].
    + eapply M1, A1; eassumption.
    + specialize (Hnew f Hin). rewrite Hd in Hnew. exact Hnew.
  - intros f tk a r Hin Hd. apply in_app_or in Hin as [Hin|Hin].
    + eapply M1, A2; eassumption.
    + specialize (Hnew f Hin). rewrite Hd in Hnew. exact Hnew.
  - intros t Ht. apply M1, A3, Ht.
  - exact B1.
  - exact B2.
  - intros t Ht. destruct (M2 t Ht) as [Hk|[tk [a [Hl|Hl]]]].
    + apply B3, Hk.
    + destruct (Hfed _ Hl) as [f [Hin Hd]]. eapply B1; eassumption.
    + destruct (Hfed _ Hl) as [f [Hin Hd]]. eapply B2; eassumption.
Qed.

Lemma pair_inv7_incl x y bag bag' : pair_inv7 x y bag -> incl bag' bag -> pair_inv7 x y bag'.
Proof.
  intros [A1 A2 A3] Hi. constructor; try assumption.
  - intros f tk a r Hin. eapply A1, Hi, Hin.
  - intros f tk a r Hin. eapply A2, Hi, Hin.
Qed.

Definition tok_inv7 (w : link7) : Prop :=
  pair_inv7 (c7_state (l7_conn (k7_a w))) (c7_state (l7_conn (k7_b w))) (k7_ba w) /\
  pair_inv7 (c7_state (l7_conn (k7_b w))) (c7_state (l7_conn (k7_a w))) (k7_ab w).

Lemma tok_inv7_new ra rb : tok_inv7 (link7_new ra rb).
Proof.
  split; constructor; cbn; try (intros; contradiction); intros; discriminate.
Qed.

Lemma remove_nth7_incl {A} k (l : list A) : incl (remove_nth7 k l) l.
Proof.
  revert k. induction l as [|x l IH]; intros k; destruct k; cbn; try apply incl_refl.
  - apply incl_tl, incl_refl.
  - intros y [<-|H]; [left; reflexivity|right; apply (IH k), H].
Qed.

Lemma tok_side_step7 now z op z' fl (p : state7) bagz bagp :
  side_step7 now z op = Ok (z', fl) ->
  (app_op7 op \/ exists f, In f bagp /\ op = Op7Feed (f_d f)) ->
  pair_inv7 p (c7_state (l7_conn z)) bagz -> pair_inv7 (c7_state (l7_conn z)) p bagp ->
  pair_inv7 p (c7_state (l7_conn z')) (bagz ++ fl) /\ pair_inv7 (c7_state (l7_conn z')) p bagp.
Proof.
  intros H Hop P1 P2. apply side_step_inv7 in H as [out [Hs [-> ->]]].
  change (l7_conn (after7 z op out)) with (out7_conn out).
  destruct Hop as [Ha|[f [Hin ->]]].
  - destruct (app7_moves _ _ _ _ Ha Hs) as [M S].
    eapply (tok_pair_step7 _ p bagz bagp _ _ None P1 P2 M); [|intros d Hd; discriminate Hd].
    apply Forall_map. exact S.
  - unfold step7 in Hs. destruct (feed7_moves _ _ _ _ Hs) as [M S].
    eapply (tok_pair_step7 _ p bagz bagp _ _ _ P1 P2 M); [apply Forall_map; exact S|].
    intros d Hd. injection Hd as <-. exists f. split; [exact Hin|reflexivity].
Qed.

Lemma tok_inv7_at w s : tok_inv7 w <->
  pair_inv7 (c7_state (l7_conn (get7 w (other7 s)))) (c7_state (l7_conn (get7 w s))) (bag7 w s) /\
  pair_inv7 (c7_state (l7_conn (get7 w s))) (c7_state (l7_conn (get7 w (other7 s)))) (bag7 w (other7 s)).
Proof. unfold tok_inv7. destruct s; cbn [get7 bag7 other7]; tauto. Qed.

Theorem tok_inv7_step w l w' : tok_inv7 w -> admissible7 w l -> link_step7 w l = Ok w' -> tok_inv7 w'.
Proof.
  intros Hi Hadm Hs. destruct l as [s o|dt|from k|from k]; cbn [link_step7] in Hs.
  - destruct Hadm as [Happ _].
    destruct (side_step7 (k7_now w) (get7 w s) o) as [[z' fl]| | |] eqn:E; try discriminate. injection Hs as <-.
    apply (tok_inv7_at _ s) in Hi as [P1 P2]. apply (tok_inv7_at _ s).
    rewrite get_set_same7, get_set_other7, bag_set_same7, bag_set_other7.
    exact (tok_side_step7 _ _ _ _ _ _ _ _ E (or_introl Happ) P1 P2).
  - injection Hs as <-. exact Hi.
  - destruct (nth_error (bag7 w from) k) as [f|] eqn:Ek; [|injection Hs as <-; exact Hi].
    destruct (side_step7 (k7_now w) (get7 w (other7 from)) (Op7Feed (f_d f))) as [[z' fl]| | |] eqn:E; try discriminate.
    injection Hs as <-. apply nth_error_In in Ek.
    apply (tok_inv7_at _ (other7 from)) in Hi as [P1 P2]. apply (tok_inv7_at _ (other7 from)).
    rewrite get_set_same7, get_set_other7, bag_set_same7, bag_set_other7. rewrite other_other7 in *.
    exact (tok_side_step7 _ _ _ _ _ _ _ _ E (or_intror (ex_intro _ f (conj Ek eq_refl))) P1 P2).
  - injection Hs as <-. apply (tok_inv7_at _ from) in Hi as [P1 P2]. apply (tok_inv7_at _ from).
    destruct from; (split; [eapply pair_inv7_incl; [exact P1|apply remove_nth7_incl]|exact P2]).
Qed.

Theorem tok_inv7_run ls : forall w w', tok_inv7 w -> admissible_run7 w ls -> link_run7 w ls = Ok w' -> tok_inv7 w'.
Proof.
  induction ls as [|l ls IH]; intros w w' Hi Ha Hr; cbn [admissible_run7 link_run7] in *.
  - injection Hr as <-. exact Hi.
  - destruct Ha as [Ha1 Ha2]. destruct (link_step7 w l) as [w1| | |] eqn:E; try discriminate.
    eapply IH; [eapply tok_inv7_step; eassumption|exact Ha2|exact Hr].
Qed.

Theorem tokens_agree7 ra rb ls w oa ob :
  admissible_run7 (link7_new ra rb) ls -> link_run7 (link7_new ra rb) ls = Ok w ->
  c7_state (l7_conn (k7_a w)) = Online7 oa -> c7_state (l7_conn (k7_b w)) = Online7 ob ->
  o_their oa = o_own ob /\ o_their ob = o_own oa.
Proof.
  intros Ha Hr Hoa Hob. destruct (tok_inv7_run ls _ w (tok_inv7_new ra rb) Ha Hr) as [PA PB].
  destruct (link_run_inv7 ls _ (link7_new_inv ra rb) Ha) as [w0 [Hr0 [IA [IB _]]]].
  rewrite Hr in Hr0. injection Hr0 as <-.
  pose proof (sv7_conn _ _ _ _ _ IA) as CA. pose proof (sv7_conn _ _ _ _ _ IB) as CB.
  unfold conn_ok7 in CA, CB. rewrite Hoa in CA. rewrite Hob in CB.
  destruct CA as [_ [_ [[ta [TA _]] _]]]. destruct CB as [_ [_ [[tb [TB _]] _]]].
  pose proof (pj7_their _ _ _ PA ta) as H1. rewrite Hoa, Hob in H1. cbn in H1. specialize (H1 TA).
  pose proof (pj7_their _ _ _ PB tb) as H2. rewrite Hoa, Hob in H2. cbn in H2. specialize (H2 TB).
  split; congruence.
Qed.
