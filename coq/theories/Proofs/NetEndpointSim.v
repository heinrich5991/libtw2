(* C20: every call of the endpoint is, for each address, one step (or a stutter) of that
   address's isolated slot; by induction, the projection of any history. *)
From LibTw2 Require Import Base.Res Model.PacketTypes Model.ConnCore Model.Conn6 Model.NetEndpoint
  Proofs.ConnCoreInv Proofs.Conn6Inv Proofs.NetEndpointSpec Proofs.NetEndpointPids.
From Coq Require Import ZArith Lia Bool List Permutation.
Open Scope Z_scope.

Definition sim_at (n : net) (e : env) (o : nop) (out : nout) (a : addr) : Prop :=
  match proj_op n a o with
  | Some ao => exists aout, astep (n_accept n) (view n a) e ao = Ok aout /\
                 ao_slot aout = view (no_net out) a /\ ao_sent aout = sent_to a (no_sent out) /\
                 ao_events aout = events_of a (no_events out) /\ ao_warns aout = warns_of a (no_warns out) /\
                 ao_res aout = no_res out
  | None => view (no_net out) a = view n a /\ sent_to a (no_sent out) = [] /\
            events_of a (no_events out) = [] /\ warns_of a (no_warns out) = []
  end.

(* All calls but Net::tick concern one address. `shows n out a0 aout`: what the call returned is,
   at a0, what the slot's step aout returned, and nothing at any other address. *)
Definition shows (n : net) (out : nout) (a0 : addr) (aout : aout) : Prop :=
  tab_upd (n_peers n) (n_peers (no_net out)) a0 (ao_slot aout) /\ n_accept (no_net out) = n_accept n /\
  (forall a, sent_to a (no_sent out) = if a0 =? a then ao_sent aout else []) /\
  (forall a, events_of a (no_events out) = if a0 =? a then ao_events aout else []) /\
  (forall a, warns_of a (no_warns out) = if a0 =? a then ao_warns aout else []) /\
  ao_res aout = no_res out.

Lemma shows_sim n e o out a0 ao aout :
  (forall a, proj_op n a o = if a0 =? a then Some ao else None) ->
  astep (n_accept n) (view n a0) e ao = Ok aout -> shows n out a0 aout ->
  tab_ok (n_peers (no_net out)) /\ n_accept (no_net out) = n_accept n /\ forall a, sim_at n e o out a.
Proof.
  intros Hp Hs [[Hok Hv] [Hacc [S [E [W R]]]]]. split; [exact Hok|]. split; [exact Hacc|].
  intros a. unfold sim_at, view. rewrite Hp, Hv, S, E, W. destruct (a0 =? a) eqn:Ea.
  - apply Z.eqb_eq in Ea. subst a. exists aout. repeat split; try reflexivity; assumption.
  - repeat split; reflexivity.
Qed.

Lemma shows_intro n n' a0 s' sent evs ws r po :
  tab_upd (n_peers n) (n_peers n') a0 s' -> n_accept n' = n_accept n ->
  Forall (fun x => fst x = a0) sent -> Forall (fun ev => ne_addr ev = a0) evs -> Forall (fun w => nwarn_addr w = a0) ws ->
  shows n (nmk n' sent evs ws r po) a0 (amk s' (map snd sent) (map ne_kind evs) (map nwarn_kind ws) r).
Proof.
  intros Hu Hacc Hs He Hw. split; [exact Hu|]. split; [exact Hacc|].
  split; [intros a; apply filter_at, Hs|]. split; [intros a; apply filter_at, He|]. split; [intros a; apply filter_at, Hw|reflexivity].
Qed.

(* the usual case: everything the call shows comes from one outcome of the peer's connection *)
Lemma shows_conn n n' a0 pid s' ds evs ws r po :
  tab_upd (n_peers n) (n_peers n') a0 s' -> n_accept n' = n_accept n ->
  shows n (nmk n' (to_addr a0 ds) (conn_events a0 pid evs) (conn_warns a0 pid ws) r po) a0
        (amk s' ds (map NKConn evs) (map (pair true) ws) r).
Proof.
  intros Hu Hacc.
  destruct (to_addr_at a0 ds) as [Hs Es], (conn_events_at a0 pid evs) as [He <-], (conn_warns_at a0 pid ws) as [Hw <-].
  rewrite <- Es at 2. apply shows_intro; assumption.
Qed.

(* Net::feed_impl's stateless front door *)
Lemma stateless_sim n a0 r out : tab_ok (n_peers n) ->
  feed_stateless n a0 (match view n a0 with Some _ => true | None => false end) r = Ok out ->
  exists aout, a_stateless (n_accept n) (view n a0) r = Ok aout /\ shows n out a0 aout.
Proof.
  intros Hok. unfold feed_stateless, a_stateless.
  pose proof (fun n' s' => shows_intro n n' a0 s' [] : forall evs ws r po, _) as Hshow.
  pose proof (tab_upd_refl _ a0 Hok : tab_upd _ _ a0 (view n a0)) as Hsame.
  destruct (r None) as [[t1 t2 payload|tok ack [|resp| | |reason|resp]|tok ack rr nc cs]|];
    try (intros H; injection H as <-; eexists; split; [reflexivity|]; apply Hshow; [exact Hsame|reflexivity|repeat constructor..]).
  destruct (view n a0) as [sl|] eqn:Ev in Hsame |- *; destruct (n_accept n) eqn:Ea;
    try (intros H; injection H as <-; eexists; split; [reflexivity|]; apply Hshow; [exact Hsame|exact Ea|repeat constructor..]).
  intros H. apply bind_ok in H as [[n' pid] [En H]]. injection H as <-. destruct (new_peer_inv _ _ _ _ _ En) as [Hg [Hps Hacc]].
  eexists. split; [reflexivity|]. apply Hshow; [|congruence|repeat constructor..].
  rewrite Hps. exact (upd_new _ pid (peer_new a0 _) Hok Ev Hg).
Qed.

Lemma tick_all_sim e acc ps ps' s : tick_all e ps = Ok (ps', s) -> NoDup (addrs ps) ->
  forall a, astep acc (view_tab ps a) e ATick = Ok (amk (view_tab ps' a) (sent_to a s) [] [] ROk).
Proof.
  intros Ht. pattern ps, ps', s. apply (tick_all_ind e); [reflexivity| |exact Ht].
  clear. intros pid p out r r' s Es _ IH Hnd a. cbn [addrs map snd] in Hnd. inversion Hnd as [|? ? Hni Hnd']; subst.
  specialize (IH Hnd' a). rewrite !view_tab_head, sent_to_app, sent_to_addr. cbn [with_conn p_addr p_conn p_token].
  destruct (p_addr p =? a) eqn:E; [|exact IH].
  apply Z.eqb_eq in E. subst a. apply view_tab_None in Hni. rewrite Hni in IH. injection IH as _ <-.
  cbn [astep]. rewrite Es, app_nil_r. reflexivity.
Qed.

Lemma shows_sim_pid n e o out pid p ao aout : tab_ok (n_peers n) -> get_peer (n_peers n) pid = Some p ->
  (forall a, proj_op n a o = pid_op n a pid ao) ->
  astep (n_accept n) (Some (p_conn p, p_token p)) e ao = Ok aout -> shows n out (p_addr p) aout ->
  tab_ok (n_peers (no_net out)) /\ n_accept (no_net out) = n_accept n /\ forall a, sim_at n e o out a.
Proof.
  intros Hok Hg Hp Hs. apply (shows_sim n e o out (p_addr p) ao).
  - intros a. rewrite Hp. unfold pid_op. rewrite Hg. reflexivity.
  - unfold view. rewrite (view_of_get _ _ _ Hok Hg). exact Hs.
Qed.

Theorem step_sim n e o out :
  tab_ok (n_peers n) -> connect_ok n o -> net_step n e o = Ok out ->
  tab_ok (n_peers (no_net out)) /\ n_accept (no_net out) = n_accept n /\ forall a, sim_at n e o out a.
Proof.
  intros Hok Hc H. destruct (leaves o) as [pid|] eqn:Eo.
  { (* disconnect, reject, ignore *)
    destruct (leaves_after_call n e o out pid H Eo) as [p [ao [Hg [Hp [n' [ds [Er [-> Hs]]]]]]]].
    apply (shows_sim_pid n e o _ pid p ao _ Hok Hg Hp Hs). apply remove_peer_inv in Er as [ps' [Hs' ->]].
    apply (shows_conn n _ _ pid None ds [] []); [exact (upd_remove _ _ _ _ Hok Hg Hs')|reflexivity]. }
  destruct (stays o) as [pid|] eqn:Est.
  { (* accept, send, flush *)
    destruct (stays_after_call n e o out pid H Est) as [p [o6 [ao [Hg [-> [_ [Hp Hs]]]]]]].
    apply (shows_sim_pid n e o _ pid p ao _ Hok Hg Hp Hs). apply shows_conn; [exact (upd_set_conn _ _ _ _ Hok Hg)|reflexivity]. }
  destruct o as [a0 r|a0| | | | | | |a0 d|]; try discriminate Eo; try discriminate Est; cbn [net_step] in H.
  - enough (exists aout, astep (n_accept n) (view n a0) e (AFeed r) = Ok aout /\ shows n out a0 aout) as [aout [Hs Hsh]]
      by exact (shows_sim n e (NFeed a0 r) out a0 _ aout (fun a => eq_refl) Hs Hsh).
    pose proof (stateless_sim n a0 r out Hok) as Hst. unfold net_feed in H. unfold view, view_tab in *. cbn [astep].
    destruct (pid_from_addr (n_peers n) a0) as [[pid p]|] eqn:Ef; [|exact (Hst H)].
    destruct (is_unconnected (p_conn p)); [exact (Hst H)|]. clear Hst.
    destruct (pid_from_addr_get _ _ _ _ (proj1 Hok) Ef) as [Hg <-].
    apply feed_peer_inv in H as [o6 [n' [Ec [Hn' ->]]]]. rewrite Ec. eexists. split; [reflexivity|].
    unfold of_conn. destruct (existsb is_disconnect (out_events o6)).
    + apply remove_peer_inv in Hn' as [ps' [Hs ->]]. apply shows_conn; [exact (upd_remove _ _ _ _ Hok Hg Hs)|reflexivity].
    + subst n'. apply shows_conn; [exact (upd_set_conn _ _ _ _ Hok Hg)|reflexivity].
  - cbn [connect_ok] in Hc.
    apply bind_ok in H as [[n1 pid] [En H]]. apply bind_ok in H as [o6 [Es H]]. injection H as <-.
    destruct (new_peer_inv _ _ _ _ _ En) as [Hg [Hps Hacc]].
    eapply (shows_sim n e _ _ a0 AConnect); [reflexivity|cbn [astep]; rewrite Hc, Es; reflexivity|].
    apply (shows_conn n _ a0 pid _ _ [] []); [|exact Hacc]. cbn [with_peers n_peers]. rewrite Hps, (set_conn_app_new _ _ _ _ Hg).
    exact (upd_new _ pid (with_conn (peer_new a0 false) (out_conn o6)) Hok Hc Hg).
  - destruct (MAX_PAYLOAD <? Z.of_nat (length d)) eqn:El; injection H as <-;
      (eapply (shows_sim n e _ _ a0 (ASendConnless d)); [reflexivity|cbn [astep]; rewrite El; reflexivity|]).
    + apply (shows_conn n n a0 0 _ [] [] []); [apply tab_upd_refl, Hok|reflexivity].
    + apply (shows_conn n n a0 0 _ [_] [] []); [apply tab_upd_refl, Hok|reflexivity].
  - apply bind_ok in H as [[ps' s] [Et H]]. injection H as <-.
    split; [exact (tick_all_tab_ok _ _ _ _ Et Hok)|]. split; [reflexivity|].
    intros a. unfold sim_at. cbn [proj_op]. eexists. split; [exact (tick_all_sim e _ _ _ _ Et (proj2 Hok) a)|].
    repeat split; reflexivity.
Qed.

Theorem run_sim tr : forall n now n' now' recs a,
  tab_ok (n_peers n) -> one_peer_per_addr n now tr ->
  run_net n now tr = Ok (n', now', recs) ->
  tab_ok (n_peers n') /\ n_accept n' = n_accept n /\
  run_addr (n_accept n) (view n a) now (map (label_for a) recs) = Ok (view n' a, now', map (obs_for a) recs).
Proof.
  induction tr as [|l tr IH]; intros n now n' now' recs a Hok Hv H.
  - cbn [run_net] in H. injection H as <- <- <-. split; [exact Hok|]. split; reflexivity.
  - destruct l as [dt|rnd o]; cbn [run_net one_peer_per_addr] in H, Hv.
    + destruct (run_net n (now + dt) tr) as [[[n1 now1] recs1]| | |] eqn:Er; try discriminate.
      injection H as <- <- <-. destruct (IH _ _ _ _ _ a Hok Hv Er) as [Hok' [Hacc Hr]].
      split; [exact Hok'|]. split; [exact Hacc|].
      cbn [map label_for nr_label run_addr]. rewrite Hr. reflexivity.
    + destruct Hv as [Hc Hv].
      destruct (net_step n (mkenv now rnd) o) as [out| | |] eqn:Es; try discriminate.
      destruct (run_net (no_net out) now tr) as [[[n1 now1] recs1]| | |] eqn:Er; try discriminate.
      injection H as <- <- <-.
      destruct (step_sim n (mkenv now rnd) o out Hok Hc Es) as [Hok1 [Hacc1 Hsim]].
      destruct (IH _ _ _ _ _ a Hok1 Hv Er) as [Hok' [Hacc Hr]].
      split; [exact Hok'|]. split; [congruence|].
      cbn [map]. unfold label_for at 1, obs_for at 1. cbn [nr_label nr_pre nr_out nr_post].
      specialize (Hsim a). unfold sim_at in Hsim. rewrite Hacc1 in Hr.
      destruct (proj_op n a o) as [ao|].
      * destruct Hsim as [aout [Ha [Hsl [Hse [Hev [Hw Hre]]]]]].
        cbn [run_addr]. rewrite Ha, Hsl, Hr. rewrite <- Hse, <- Hev, <- Hw, <- Hre, <- Hsl. reflexivity.
      * destruct Hsim as [Hvw [Hse [Hev Hw]]].
        cbn [run_addr]. rewrite <- Hvw, Hr. rewrite Hse, Hev, Hw, Hvw. reflexivity.
Qed.
