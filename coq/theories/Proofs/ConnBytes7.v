(* C04 at the byte level (0.7): a datagram the 0.7 connection layer emits (dgram_ok params7),
   written by the library's own Packet::write (Model/Packet7.v), is at most 1400 bytes and is
   read back by Packet::read as the same value without a single warning, and its chunks iterate
   back bit-identical. Bridges Proofs/Conn7Inv.v (what is emitted) with Props/C05 (packet codec
   round trip). Twin of ConnBytes6.v.

   What `dgram_ok params7` does not say about an emitted datagram -- that the response token of a
   Connect / Token message is a 4-byte token other than TOKEN_NONE (ff ff ff ff: the writer
   asserts that), and that the two tokens of a connectionless datagram are 4 bytes -- is the
   explicit, decidable hypothesis `tokens_wf7`. That a 0.7 datagram always carries a token
   (`tok = Some _`, the response token of Connect is `Some _`) is part of `encode7 d = Some p`. *)
From LibTw2 Require Import Base.Res Model.PacketTypes Model.PacketBase Model.Packet7 Model.PacketInst
  Model.ConnCore Proofs.ConnCoreInv Proofs.ConnBytesCore
  Proofs.PktBits6 Proofs.PktBits7 Proofs.Packet7Write Proofs.Packet7Read Proofs.Packet7Chunks Proofs.PacketInstProofs.
From LibTw2 Require Gen.Consts7 Gen.Bits7.
From Coq Require Import ZArith Lia Bool List.
Open Scope Z_scope.

Definition ctl7_of (c : control) : option control7 :=
  match c with
  | KeepAlive => Some C7KeepAlive
  | Connect (Some r) => Some (C7Connect r)
  | Connect None => None                 (* 0.6 only *)
  | ConnectAccept => None                (* 0.6 only *)
  | Accept => Some C7Accept
  | Close r => Some (C7Close r)
  | TokenMsg r => Some (C7Token r)
  end.

(* the packet value handed to Packet::write for an abstract datagram; every 0.7 packet carries
   a token, a connectionless one carries two *)
Definition encode7 (d : dgram) : option packet7 :=
  match d with
  | DConnless (Some t) (Some r) p => Some (P7Connless p t r)
  | DConnless _ _ _ => None
  | DControl (Some tok) ack c =>
    match ctl7_of c with Some c7 => Some (P7Connected ack tok (P7Control c7)) | None => None end
  | DControl None _ _ => None
  | DChunks (Some tok) ack rr n cs => Some (P7Connected ack tok (P7Chunks rr n (flat_map chunk_enc7 cs)))
  | DChunks None _ _ _ _ => None
  end.

Definition obytes_ok (t : option token) : bool := match t with Some x => bytes_ok x | None => true end.

(* payloads, tokens and response tokens are byte strings (the model keeps bytes as Z) *)
Definition dgram_bytes_ok7 (d : dgram) : bool :=
  match d with
  | DConnless tok resp p => obytes_ok tok && obytes_ok resp && bytes_ok p
  | DControl tok _ c =>
    obytes_ok tok
    && match c with
       | Close r => bytes_ok r
       | Connect resp => obytes_ok resp
       | TokenMsg r => bytes_ok r
       | _ => true
       end
  | DChunks tok _ _ _ cs => obytes_ok tok && forallb (fun c => bytes_ok (ch_data c)) cs
  end.

(* a response token that Packet::write accepts: four bytes, not TOKEN_NONE *)
Definition resp_ok7 (r : token) : bool := token_ok r && negb (bytes_eqb r PacketTypes.TOKEN_NONE).
Definition otoken_ok (t : option token) : bool := match t with Some x => token_ok x | None => true end.

(* the facts about tokens that dgram_ok does not record *)
Definition tokens_wf7 (d : dgram) : bool :=
  match d with
  | DConnless tok resp _ => otoken_ok tok && otoken_ok resp
  | DControl _ _ (Connect (Some r)) => resp_ok7 r
  | DControl _ _ (TokenMsg r) => resp_ok7 r
  | _ => true
  end.

Lemma bytes_eqb_true a : forall b, bytes_eqb a b = true <-> a = b.
Proof.
  induction a as [|x a IH]; intros [|y b]; cbn [bytes_eqb]; split; intros H; try reflexivity; try discriminate.
  - apply andb_true_iff in H as [Hx Hr]. apply IH in Hr. apply Z.eqb_eq in Hx. subst. reflexivity.
  - injection H as -> ->. rewrite Z.eqb_refl. apply IH. reflexivity.
Qed.

Lemma resp_ok7_iff r : resp_ok7 r = true <-> length r = 4%nat /\ r <> TOKEN_NONE.
Proof.
  unfold resp_ok7, token_ok. rewrite andb_true_iff, negb_true_iff, Nat.eqb_eq, <- not_true_iff_false, bytes_eqb_true.
  reflexivity.
Qed.

Lemma chunks_ok_wf7 cs : Forall (chunk_ok params7) cs -> forallb chunk_wf7 cs = true.
Proof.
  intros H. apply forallb_forall. intros c Hin. rewrite Forall_forall in H.
  destruct (H c Hin) as [[_ H2] Hv]. unfold chunk_wf7, vital_wf. cbn [params7 p_size_bits] in H2.
  change (2 ^ 12) with 4096 in H2. destruct (ch_vital c) as [[s r]|]; unfold SEQ_MOD in Hv; lia.
Qed.

Lemma chunk_hdr7_length c : chunk_wf7 c = true -> Z.of_nat (length (chunk_hdr7 c)) = chunk_hdr (is_vital c).
Proof.
  intros Hc. rewrite (proj1 (chunk_hdr7_spec c Hc)). unfold is_vital. destruct (ch_vital c); reflexivity.
Qed.

Lemma chunk_hdr7_bytes_ok c : chunk_wf7 c = true -> bytes_ok (chunk_hdr7 c) = true.
Proof.
  destruct c as [d v]. unfold chunk_wf7, chunk_hdr7. cbn [ch_data ch_vital].
  intros Hwf. apply andb_true_iff in Hwf as [Hd Hv]. apply Z.ltb_lt in Hd.
  destruct (chunk_flags_facts7 v) as (Hf & _ & _).
  set (h := {| Bits7.ch7_flags := chunk_flags v; Bits7.ch7_size := Z.of_nat (length d) |}).
  assert (Hh : PktBits7.ch7_in_range h = true)
    by (unfold PktBits7.ch7_in_range, h; cbn [Bits7.ch7_flags Bits7.ch7_size]; lia).
  destruct v as [[s r]|].
  - cbn [vital_wf] in Hv.
    assert (Hhv : PktBits7.chv7_in_range {| Bits7.chv7_h := h; Bits7.chv7_sequence := s |} = true).
    { unfold PktBits7.chv7_in_range. cbn [Bits7.chv7_h Bits7.chv7_sequence]. rewrite Hh. lia. }
    destruct (PktBits7.chv7_pack_unpack _ Hhv) as ([a b c] & -> & _ & Hb & _). exact (byteb3 a b c Hb).
  - destruct (PktBits7.ch7_pack_unpack _ Hh) as ([a b] & -> & _ & Hb & _). exact (byteb2 a b Hb).
Qed.

Theorem emitted_expressible7 d p :
  dgram_ok params7 d -> tokens_wf7 d = true -> encode7 d = Some p ->
  expressible7 p = true /\ K05_7 p = false /\ K06_7 p = false /\ K06T_7 p = false.
Proof.
  intros Hok Hwf He.
  destruct d as [[t|] [r|] pl|[tok|] ack c|[tok|] ack rr n cs]; cbn [encode7] in He; try discriminate.
  - injection He as <-.
    cbn [dgram_ok] in Hok. unfold MAX_PAYLOAD in Hok. cbn [tokens_wf7 otoken_ok] in Hwf.
    cbn [expressible7 K05_7 K06_7 K06T_7]. apply andb_true_iff in Hwf as [-> ->]. rewrite !andb_true_r.
    unfold Consts7.MAX_PACKETSIZE, Consts7.HEADER_SIZE_CONNLESS, Consts7.MAX_PAYLOAD. repeat split; lia.
  - destruct (ctl7_of c) as [c7|] eqn:Ec; [|discriminate]. injection He as <-.
    destruct Hok as (Htok & Hack & _ & Hcl). cbn [expressible7 K05_7 K06_7].
    rewrite (header_expressible (Some tok) ack Htok Hack). cbn [andb].
    destruct c as [|[resp|]| | |reason|resp]; try discriminate Ec; injection Ec as <-;
      cbn [K06T_7 tokens_wf7] in *; try (repeat split; reflexivity).
    + apply andb_true_iff in Hwf as [H1 H2]. apply negb_true_iff in H2. repeat split; assumption.
    + destruct Hcl as [Hnul Hlen]. rewrite (has_nul_of_forallb _ Hnul). cbn [negb andb].
      unfold Consts7.CTRLMSG_CLOSE_REASON_LENGTH. repeat split; lia.
    + apply andb_true_iff in Hwf as [H1 H2]. apply negb_true_iff in H2. repeat split; assumption.
  - injection He as <-.
    destruct Hok as (Htok & Hack & Hn & Hn255 & Hcs & Hsz & Hne).
    cbn [expressible7 K05_7 K06_7 K06T_7].
    rewrite (header_expressible (Some tok) ack Htok Hack), (flushed_not_k05 rr n Hne). cbn [andb].
    split; [|repeat split; reflexivity].
    rewrite <- (flat_enc_length chunk_wf7 chunk_hdr7 chunk_enc7 (fun _ => eq_refl) chunk_hdr7_length cs
                  (chunks_ok_wf7 cs Hcs)) in Hsz.
    unfold chunks_dgram_size, MAX_PACKETSIZE in Hsz. cbn [params7 p_v7 p_header] in Hsz.
    unfold Consts7.MAX_PACKETSIZE, Consts7.HEADER_SIZE. lia.
Qed.

Lemma emitted_bytes_ok7 d p :
  dgram_ok params7 d -> dgram_bytes_ok7 d = true -> encode7 d = Some p -> packet_bytes_ok7 p = true.
Proof.
  intros Hok Hb He.
  destruct d as [[t|] [r|] pl|[tok|] ack c|[tok|] ack rr n cs]; cbn [encode7] in He; try discriminate.
  - injection He as <-.
    cbn [dgram_bytes_ok7 obytes_ok] in Hb. cbn [packet_bytes_ok7].
    apply andb_true_iff in Hb as [Hb ->]. apply andb_true_iff in Hb as [-> ->]. reflexivity.
  - destruct (ctl7_of c) as [c7|] eqn:Ec; [|discriminate]. injection He as <-.
    cbn [dgram_bytes_ok7 obytes_ok] in Hb. cbn [packet_bytes_ok7].
    destruct c as [|[resp|]| | |reason|resp]; try discriminate Ec; injection Ec as <-; exact Hb.
  - injection He as <-.
    cbn [dgram_bytes_ok7 obytes_ok] in Hb. apply andb_true_iff in Hb as [Hb1 Hb2].
    cbn [packet_bytes_ok7]. rewrite Hb1. destruct Hok as (_ & _ & _ & _ & Hcs & _).
    exact (flat_enc_bytes_ok chunk_wf7 chunk_hdr7 chunk_enc7 (fun _ => eq_refl) chunk_hdr7_bytes_ok cs
             (chunks_ok_wf7 cs Hcs) Hb2).
Qed.

Theorem emitted_reads_back7 d p :
  dgram_ok params7 d -> dgram_bytes_ok7 d = true -> tokens_wf7 d = true -> encode7 d = Some p ->
  exists out,
    write7_tw p 1400 = Ok out /\ (length out <= 1400)%nat
    /\ (exists views, read7_tw out 1400 = ([], Ok (p, views)))
    /\ match d with
       | DChunks _ _ _ n cs =>
         exists cvs it', chunks_iter_all7 (flat_map chunk_enc7 cs) n = Ok (cvs, [], it') /\ map fst cvs = cs
       | _ => True
       end.
Proof.
  intros Hok Hb Hwf He.
  pose proof (emitted_expressible7 d p Hok Hwf He) as (Hx & Hk5 & Hk6 & Hk6t).
  pose proof (Packet7Write.write7_ok tw_comp p 1400 Hx Hk6 Hk6t (le_n _)) as [Hw Hlen].
  exists (Packet7Write.encoding7 tw_comp p). split; [exact Hw|]. split; [exact Hlen|]. split.
  - eexists. unfold read7_tw.
    rewrite (Packet7Read.read_encoding7 tw_comp tw_decomp PacketInstProofs.tw_rt p 1400 Hx
               (emitted_bytes_ok7 d p Hok Hb He) Hk6t (le_n _)).
    unfold Packet7Read.k05_warnings7. rewrite Hk5. reflexivity.
  - destruct d as [t r pl|tok ack c|tok ack rr n cs]; try exact I.
    destruct Hok as (_ & _ & -> & _ & Hcs & _). apply chunks_roundtrip7, chunks_ok_wf7, Hcs.
Qed.

(* the size the connection layer reckons with (ConnCore.control_size, which decides the
   builder-capacity panic) is the size Packet::write produces -- including the padding of a
   token request (header token TOKEN_NONE) to TOKEN_REQUEST_PACKET_SIZE = 519 bytes *)
Theorem control_size7_exact tok ack c c7 :
  dgram_ok params7 (DControl (Some tok) ack c) -> tokens_wf7 (DControl (Some tok) ack c) = true ->
  ctl7_of c = Some c7 ->
  Z.of_nat (length (Packet7Write.encoding7 tw_comp (P7Connected ack tok (P7Control c7))))
  = control_size params7 (Some tok) c.
Proof.
  intros Hok Hwf Ec. destruct Hok as [Htok [Hack _]]. cbn [tok_ok] in Htok. unfold SEQ_MOD in Hack.
  assert (Hr : ph7_in_range {| Bits7.ph7_flags := Consts7.PACKETFLAG_CONTROL; Bits7.ph7_ack := ack;
                               Bits7.ph7_num_chunks := 0; Bits7.ph7_token := tok |} = true).
  { unfold ph7_in_range, byteb, Consts7.PACKETFLAG_CONTROL. cbn [Bits7.ph7_flags Bits7.ph7_ack Bits7.ph7_num_chunks]. lia. }
  destruct (Packet7Write.hdr_bytes7_ok _ Hr) as (hp & _ & _ & _ & Hl7). cbn [Bits7.ph7_token] in Hl7. rewrite Htok in Hl7.
  cbn [Packet7Write.encoding7]. rewrite app_length, Hl7.
  unfold control_size, params7. cbn [p_v7]. unfold Packet7Write.control_body7.
  change (Z.to_nat TOKEN_REQUEST_ADDITIONAL) with 507%nat.
  destruct c as [|[resp|]| | |reason|resp]; cbn [ctl7_of] in Ec; try discriminate; injection Ec as <-;
    cbn [tokens_wf7] in Hwf; try apply resp_ok7_iff in Hwf as [Hl4 _];
    repeat (progress (rewrite ?app_length; cbn [length])); try lia.
  change Consts7.TOKEN_NONE with TOKEN_NONE.
  destruct (list_eq_dec Z.eq_dec tok TOKEN_NONE) as [E|E].
  - apply bytes_eqb_true in E. rewrite E, repeat_length. lia.
  - destruct (bytes_eqb tok TOKEN_NONE) eqn:E'; [apply bytes_eqb_true in E'; contradiction|]. cbn [length]. lia.
Qed.
