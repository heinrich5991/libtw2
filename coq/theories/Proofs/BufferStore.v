(* with_buffer on a backing store: opening the view (Vec / ArrayVec / slice /
   slice reference, capped any number of times), running the closure, Drop of
   the intermediate object. *)
From LibTw2 Require Import Base.Res Model.Buffer Proofs.BufferMem Proofs.BufferOps Proofs.BufferRun.
From Coq Require Import List Arith Lia Bool ZArith.
Import ListNotations.
Open Scope nat_scope.

Fixpoint store_mem (s : store) : bytes :=
  match s with
  | SVec d sp | SArrayVec d sp => d ++ sp
  | SSlice m | SSliceRef m => m
  | SCapAt _ s' => store_mem s'
  end.

Fixpoint store_data (s : store) : bytes :=
  match s with
  | SVec d _ | SArrayVec d _ => d
  | SSlice _ | SSliceRef _ => []
  | SCapAt _ s' => store_data s'
  end.

Fixpoint store_spare (s : store) : nat :=
  match s with
  | SVec _ sp | SArrayVec _ sp => length sp
  | SSlice m | SSliceRef m => length m
  | SCapAt _ s' => store_spare s'
  end.

(* the capacity the property promises: the spare capacity, capped *)
Fixpoint store_cap (s : store) : Z :=
  match s with
  | SCapAt n s' => Z.min n (store_cap s')
  | _ => Z.of_nat (store_spare s)
  end.

Fixpoint store_owner (s : store) : owner :=
  match s with
  | SVec d _ => OVec (length d)
  | SArrayVec d _ => OArrayVec (length d)
  | SSlice _ => OSlice
  | SSliceRef _ => OSliceRef
  | SCapAt _ s' => store_owner s'
  end.

Lemma store_mem_length s : length (store_mem s) = length (store_data s) + store_spare s.
Proof. induction s; cbn [store_mem store_data store_spare length]; try rewrite app_length; lia. Qed.

Lemma store_mem_data s j : j < length (store_data s) -> nth_error (store_mem s) j = nth_error (store_data s) j.
Proof.
  induction s; cbn [store_mem store_data length]; intros Hj; try lia; try (apply nth_error_app1, Hj).
  apply IHs, Hj.
Qed.

Lemma owner_data s : match store_owner s with
                     | OVec len | OArrayVec len => len = length (store_data s)
                     | _ => store_data s = []
                     end.
Proof. induction s; cbn [store_owner store_data]; try reflexivity. exact IHs. Qed.

Lemma open_store_spec s :
  exists v, open_store s = (store_mem s, store_owner s, Ok v)
    /\ view_ok (length (store_mem s)) v /\ v_init v = 0 /\ v_off v = length (store_data s)
    /\ v_cap v <= store_spare s
    /\ (store_wf s = true -> Z.of_nat (v_cap v) = store_cap s).
Proof.
  induction s as [d sp|d sp|m|m|n s IH]; cbn [open_store store_mem store_owner store_data store_spare store_cap store_wf].
  1-4: eexists; split; [reflexivity|]; unfold view_ok; cbn [v_off v_cap v_init length];
       try rewrite app_length; repeat split; lia.
  destruct IH as [v [E [Hv [H0 [Hoff [Hcap Hwf]]]]]]. rewrite E.
  destruct (cap_view_spec v n _ Hv H0) as [c [Ec [Ho [Hi [Hc Hn]]]]].
  exists c. split; [rewrite Ec; reflexivity|]. split; [|split; [exact Hi|split; [lia|split; [lia|]]]].
  - destruct Hv. unfold view_ok. lia.
  - intros Hw. apply andb_true_iff in Hw as [Hn0 Hw]. rewrite Hn by (unfold is_usize in Hn0; lia).
    rewrite (Hwf Hw). reflexivity.
Qed.

(* Drop of the intermediate object, for every owner: set_len / the narrowed slice take the old
   contents and `init` more bytes off the front of the memory; a plain slice stays whole *)
Lemma release_spec s m init : length (store_data s) + init <= length m ->
  exists d r, release (store_owner s) m init = Ok (d, r) /\ d ++ r = m
    /\ d = match store_owner s with OSlice => m | _ => firstn (length (store_data s) + init) m end.
Proof.
  intros H. pose proof (owner_data s) as Ho. unfold release.
  destruct (store_owner s) as [len|len| |]; [subst len|subst len|rewrite Ho in *|rewrite Ho in *];
    cbn [length Nat.add] in *;
    try (replace (length m <? _) with false by (symmetry; apply Nat.ltb_ge; exact H));
    eexists _, _; (split; [reflexivity|]); (split; [|reflexivity]);
    first [apply firstn_skipn|apply app_nil_r].
Qed.

Lemma firstn_two_parts (m d a : bytes) :
  length d + length a <= length m ->
  (forall j, j < length d -> nth_error m j = nth_error d j) ->
  (forall i, i < length a -> nth_error m (length d + i) = nth_error a i) ->
  firstn (length d + length a) m = d ++ a.
Proof.
  intros Hl Hd Ha. apply list_ext_nth_error.
  - rewrite firstn_length, app_length. lia.
  - intros i Hi. rewrite firstn_length in Hi. rewrite nth_error_firstn_lt by lia.
    destruct (Nat.lt_ge_cases i (length d)).
    + rewrite nth_error_app1 by lia. apply Hd. assumption.
    + rewrite nth_error_app2 by lia. rewrite <- Ha by lia. f_equal. lia.
Qed.

Lemma run_store_parts s p :
  exists v d r, let o := before [EOpen (room v)] [] [] (run (store_mem s) v [] p) in
    good (length (store_mem s)) (store_mem s) v [] o
    /\ view_ok (length (store_mem s)) v /\ v_init v = 0 /\ v_off v = length (store_data s) /\ v_cap v <= store_spare s
    /\ (store_wf s = true -> Z.of_nat (v_cap v) = store_cap s)
    /\ d ++ r = s_mem o
    /\ d = match store_owner s with OSlice => s_mem o | _ => firstn (length (store_data s) + s_init o) (s_mem o) end
    /\ run_store s p =
       {| r_evs := s_evs o; r_exit := s_exit o; r_data := d; r_rest := r;
          r_init := s_init o; r_acc := s_acc o; r_views := s_views o; r_reports := s_reports o |}.
Proof.
  destruct (open_store_spec s) as [v [E [Hv [H0 [Hoff [Hcap Hwf]]]]]].
  pose proof (run_good _ p _ v [] eq_refl Hv (acc_ok_nil _ _ H0)) as G.
  apply (good_before _ _ _ _ _ [EOpen (room v)] [] []) in G; [|constructor|constructor|constructor].
  pose proof (store_mem_length s) as Hml.
  destruct (release_spec s (s_mem (before [EOpen (room v)] [] [] (run (store_mem s) v [] p)))
                         (s_init (before [EOpen (room v)] [] [] (run (store_mem s) v [] p)))) as (d & r & Er & Hdr & Hd).
  { destruct G. lia. }
  exists v, d, r. cbn zeta. repeat (split; [assumption|]).
  unfold run_store. rewrite E. unfold finish. rewrite Er. reflexivity.
Qed.

Record store_good (s : store) (r : result) : Prop := mk_store_good {
  sg_views : Forall (view_ok (length (store_mem s))) (r_views r);
  sg_reports : Forall report_ok (r_reports r);
  sg_exit : safe_exit (r_exit r);
  sg_count : length (r_acc r) = r_init r;
  sg_cap : r_init r <= store_spare s;
  sg_cap_wf : store_wf s = true -> (Z.of_nat (r_init r) <= store_cap s)%Z;
  sg_size : length (r_data r) + length (r_rest r) = length (store_mem s);
  sg_exact : firstn (r_init r) (skipn (length (store_data s)) (r_data r ++ r_rest r)) = r_acc r;
  sg_release :
    match store_owner s with
    | OVec len | OArrayVec len =>
        r_data r = store_data s ++ r_acc r /\ length (r_data r) = len + r_init r
    | OSliceRef => r_data r = r_acc r /\ length (r_data r) = r_init r
    | OSlice => length (r_data r) = length (store_mem s) /\ firstn (r_init r) (r_data r) = r_acc r
    end;
  (* every slice handed out lies in the part of the container that was added and is still intact
     when everything has been released *)
  sg_held : Forall (report_held (r_data r ++ r_rest r) (length (store_data s))
                                (length (store_data s) + r_init r)) (r_reports r);
  (* the memory before the view's window (the old contents) and behind the capped window is untouched *)
  sg_frame : forall j, j < length (store_data s) \/ length (store_data s) + store_spare s <= j ->
             nth_error (r_data r ++ r_rest r) j = nth_error (store_mem s) j }.

Theorem run_store_good s p : store_good s (run_store s p).
Proof.
  destruct (run_store_parts s p) as (v & d & r & G & _ & H0 & Hoff & Hcap & Hwf & Hdr & Hd & ->).
  set (o := before _ _ _ _) in *. clearbody o.
  destruct G as [Hlen _ Hhi [Lc Nc] _ Hf Hx Hvs Hrs Hh].
  rewrite Hoff in Hh. cbn [with_init v_off v_cap v_init] in Lc, Nc. rewrite Hoff in Nc.
  pose proof (store_mem_length s) as Hml.
  assert (Hfirst : firstn (length (store_data s) + s_init o) (s_mem o) = store_data s ++ s_acc o).
  { rewrite <- Lc. apply firstn_two_parts; [lia| |].
    - intros j Hj. rewrite Hf by lia. apply store_mem_data, Hj.
    - intros i Hi. apply Nc. lia. }
  constructor; cbn [r_views r_reports r_exit r_acc r_init r_data r_rest]; rewrite ?Hdr; try assumption; try lia.
  - intros Hw. rewrite <- (Hwf Hw). lia.
  - rewrite <- app_length, Hdr. exact Hlen.
  - rewrite firstn_skipn_comm, Hfirst, skipn_app, skipn_all, Nat.sub_diag. reflexivity.
  - pose proof (owner_data s) as Ho.
    destruct (store_owner s) as [len|len| |]; subst d; rewrite ?Ho in *; cbn [length Nat.add app] in *.
    + split; [exact Hfirst|]. rewrite Hfirst, app_length. lia.
    + split; [exact Hfirst|]. rewrite Hfirst, app_length. lia.
    + split; [lia|exact Hfirst].
    + split; [exact Hfirst|]. rewrite Hfirst. exact Lc.
  - intros j Hj. apply Hf. rewrite Hoff, H0. lia.
Qed.

Fixpoint pwrites (ws : list bytes) (k : prog) : prog :=
  match ws with
  | [] => k
  | w :: ws' => PWrite false w (pwrites ws' k)
  end.

Lemma firstn_app_room (a b : bytes) n :
  firstn n (a ++ b) = firstn n a ++ firstn (n - length (firstn n a)) b.
Proof.
  rewrite firstn_app. f_equal. rewrite firstn_length.
  destruct (Nat.le_ge_cases n (length a)).
  - rewrite Nat.min_l by assumption. replace (n - length a) with 0 by lia. rewrite Nat.sub_diag. reflexivity.
  - rewrite Nat.min_r by assumption. reflexivity.
Qed.

Lemma pwrites_run total : forall ws m v acc, length m = total -> view_ok total v -> acc_ok m v acc ->
  let o := run m v acc (pwrites ws PInit) in
  s_acc o = acc ++ firstn (room v) (concat ws)
  /\ s_reports o = [(v_off v, s_acc o, s_acc o)]
  /\ s_exit o = XOk
  /\ exists evs, s_evs o = evs ++ [EBytes (s_acc o)].
Proof.
  induction ws as [|w ws IH]; intros m v acc Hl Hv Ha; cbn [pwrites concat].
  - cbn [run]. rewrite firstn_nil, app_nil_r.
    rewrite (initialized_spec m v acc) by (try rewrite Hl; assumption).
    cbn [stop s_acc s_reports s_exit s_evs]. repeat split. exists []. reflexivity.
  - cbn [run]. pose proof Hv as [Hi Ht].
    assert (Hg : length (firstn (room v) w) <= room v) by (rewrite firstn_length; lia).
    destruct (spare_store total m v acc _ Hl Hv Ha Hg) as (m' & E & L & Ha' & _).
    rewrite (extend_store w m m' v Hi E), andb_false_r. cbn [before s_acc s_reports s_exit s_evs app].
    assert (Hle : v_init v + length (firstn (room v) w) <= v_cap v)
      by (revert Hg; generalize (length (firstn (room v) w)); unfold room; lia).
    destruct (IH m' (with_init v (v_init v + length (firstn (room v) w))) (acc ++ firstn (room v) w))
      as [H1 [H2 [H3 [evs H4]]]]; [exact L|apply with_init_ok; assumption|exact Ha'|].
    split; [|split; [exact H2|split; [exact H3|]]].
    + rewrite H1. rewrite firstn_app_room, app_assoc. f_equal. f_equal.
      generalize (length (firstn (room v) w)). intros LL. unfold room, with_init. cbn [v_cap v_init]. lia.
    + eexists. rewrite H4. rewrite app_comm_cons. reflexivity.
Qed.

(* with_buffer(store, |b| { b.write(w1); ...; b.write(wn); b.initialized() }) on any (capped) store *)
Theorem run_store_pwrites s ws : store_wf s = true ->
  let r := run_store s (pwrites ws PInit) in
  r_acc r = firstn (Z.to_nat (store_cap s)) (concat ws)
  /\ r_reports r = [(length (store_data s), r_acc r, r_acc r)]
  /\ r_exit r = XOk
  /\ exists evs, r_evs r = evs ++ [EBytes (r_acc r)].
Proof.
  intros Hw. destruct (run_store_parts s (pwrites ws PInit)) as (v & d & r & _ & Hv & H0 & Hoff & _ & Hwf & _ & _ & ->).
  destruct (pwrites_run _ ws (store_mem s) v [] eq_refl Hv (acc_ok_nil _ _ H0)) as [H1 [H2 [H3 [evs H4]]]].
  cbn [r_acc r_reports r_exit r_evs before s_acc s_reports s_exit s_evs app] in *.
  replace (Z.to_nat (store_cap s)) with (room v) by (unfold room; rewrite <- (Hwf Hw); lia).
  rewrite <- Hoff. repeat split; try assumption.
  exists (EOpen (room v) :: evs). rewrite H4. reflexivity.
Qed.

(* what has to hold of a BufferRef for each `[a..b]` (and each checked subtraction / unsafe
   precondition) applied to it to be in bounds; `total` is the size of the root allocation *)
Record index_obligations (total : nat) (v : view) : Prop := mk_index_obligations {
  ob_lib_extend : v_init v <= v_cap v;             (* lib.rs extend:            &mut self.buffer[*self.initialized_..] *)
  ob_lib_uninitialized_mut : v_init v <= v_cap v;  (* lib.rs uninitialized_mut: &mut self.buffer[*self.initialized_..] *)
  ob_lib_initialized : v_init v <= v_cap v;        (* lib.rs initialized:       &self.buffer[..*self.initialized_] *)
  ob_lib_remaining : v_init v <= v_cap v;          (* lib.rs remaining:         self.buffer.len() - *self.initialized_ *)
  ob_buffer_ref_buffer : v_init v <= v_cap v;      (* buffer_ref.rs buffer:     &mut self.buffer.buffer[len..] *)
  ob_lib_cap_at : forall n, v_init v = 0 ->        (* lib.rs cap_at:            &mut self.buffer[..index], index = min(n, len) *)
      exists c, cap_view v n = Ok c /\ v_cap c <= v_cap v /\ v_off c = v_off v;
  ob_raw_window : v_off v + v_cap v <= total;      (* vec.rs / arrayvec.rs from_raw_parts_mut(start, remaining), wildly_unsafe:
                                                      the window lies inside the allocation *)
  ob_write_in_window : forall i, i < v_cap v -> v_off v + i < total   (* every byte extend / a reader touches *) }.

Lemma view_ok_obligations total v : view_ok total v -> index_obligations total v.
Proof.
  intros Hv. pose proof Hv as [Hi Ht]. constructor; try assumption.
  - intros n H0. destruct (cap_view_spec v n total Hv H0) as [c [E [Ho [_ [Hc _]]]]].
    exists c. repeat split; assumption.
  - intros i Hlt. lia.
Qed.

Definition checked_sites : list Z :=
  [site_extend_index; site_uninit_index; site_initialized_index; site_cap_at_index;
   site_sliceref_index; site_nested_index; site_remaining_sub; site_cap_at_assert;
   site_arrayvec_set_len; site_vec_set_len; site_parent_counter; site_mem_oob].

Lemma safe_exit_panic x site : safe_exit x -> x = XPanic site ->
  site = site_advance_overflow \/ site = site_advance_assert.
Proof.
  intros [H|[H|[H|H]]] Hx; rewrite Hx in H; try discriminate H; injection H as ->; [left|right]; reflexivity.
Qed.

Lemma safe_exit_not_checked x site : safe_exit x -> In site checked_sites -> x <> XPanic site.
Proof.
  intros Hs Hin Hx. vm_compute in Hin.
  destruct (safe_exit_panic x site Hs Hx) as [-> | ->];
    repeat (destruct Hin as [Hin|Hin]; [discriminate Hin|]); contradiction.
Qed.
