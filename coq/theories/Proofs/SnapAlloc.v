(* What the readers build is never larger than what they were given (the model-level part of
   C11's allocation clause: every buffer the code grows is one of these, and it only grows). *)
From LibTw2 Require Import Base.Res Model.Varint Model.Snap Proofs.SnapRep.
From Coq Require Import ZArith List Lia.
Import ListNotations.
Open Scope Z_scope.

(* words held by a snapshot: one map entry per item, plus the data *)
Definition held (S : rawsnap) : Z := Z.of_nat (length (rs_buf S)) + Z.of_nat (length (rs_offs S)).

Lemma rfi_item_ok idata il prev off S S' : rfi_item idata il prev off S = Ok S' ->
  match prev with Some p => p < off <= il | None => off = 0 end.
Proof.
  unfold rfi_item. destruct prev as [p|].
  - destruct (Z.leb_spec off p); [discriminate|]. destruct (Z.ltb_spec il off); [discriminate|lia].
  - destruct (Z.eqb_spec off 0); [trivial|discriminate].
Qed.

(* pv is the previous offset, 0 before the first one *)
Lemma rfi_item_held idata il prev pv off S S' : length idata = Z.to_nat il ->
  match prev with Some p => p = pv | None => pv = 0 end -> 0 <= pv ->
  rfi_item idata il prev off S = Ok S' -> held S' = held S + (off - pv).
Proof.
  intros Hl Hpv Hp E. pose proof (rfi_item_ok _ _ _ _ _ _ E) as Ho. revert E. unfold rfi_item. destruct prev as [p|].
  - subst p. destruct (off <=? pv); [discriminate|]. destruct (il <? off); [discriminate|].
    destruct (nth_error idata (Z.to_nat pv)) as [kk|]; [|discriminate].
    rewrite add_item_eq. destruct (aget _ (rs_offs S)) eqn:Hn; [discriminate|].
    destruct (_ <? _); [discriminate|]. destruct (_ <? _); [discriminate|]. cbn [lift_b]. intros [= <-].
    destruct (pushed_length S (key (key_to_raw_type_id kk) (key_to_id kk))
               (firstn (Z.to_nat (off - pv - 1)) (skipn (Z.to_nat (pv + 1)) idata)) Hn) as [L1 L2].
    unfold held. rewrite L1, L2, firstn_length, skipn_length. lia.
  - subst off pv. intros [= <-]. lia.
Qed.

Lemma rfi_loop_held idata il : length idata = Z.to_nat il -> forall offs prev pv S S',
  match prev with Some p => p = pv | None => pv = 0 end -> 0 <= pv <= il ->
  rfi_loop idata il offs prev S = Ok S' -> held S' <= held S + il - pv.
Proof.
  intros Hl. induction offs as [|o offs IH]; intros prev pv S S' Hpv Hr E; cbn [rfi_loop] in E.
  - apply (rfi_item_held _ _ _ pv) in E; [lia|exact Hl|exact Hpv|lia].
  - destruct (Z.ltb_spec o 0); [discriminate|]. destruct (negb _); [discriminate|].
    destruct (rfi_item idata il prev (o / 4) S) as [S1| | |] eqn:E1; cbn [bind] in E; try discriminate.
    pose proof (rfi_item_ok _ _ _ _ _ _ E1) as Ho. apply (rfi_item_held _ _ _ pv) in E1; [|exact Hl|exact Hpv|lia].
    assert (0 <= o / 4) by (apply Z.div_pos; lia).
    apply (IH (Some (o / 4)) (o / 4)) in E; [lia|reflexivity|destruct prev; lia].
Qed.

Theorem read_from_ints_size ints S ws : raw_read_from_ints ints = (Ok S, ws) ->
  held S <= Z.of_nat (length ints).
Proof.
  unfold raw_read_from_ints. destruct ints as [|ds [|ni rest]]; try discriminate.
  - destruct (ds <? 0); discriminate.
  - destruct (Z.ltb_spec ds 0); [discriminate|]. destruct (Z.ltb_spec ni 0); [discriminate|].
    destruct (Z.ltb_spec (Z.of_nat (length rest)) ni); [discriminate|].
    destruct (negb _); [discriminate|].
    destruct (Z.ltb_spec (Z.of_nat (length rest)) (ni + ds / 4)); [discriminate|].
    assert (Hd : 0 <= ds / 4) by (apply Z.div_pos; lia).
    intros E.
    destruct (rfi_loop (firstn (Z.to_nat (ds / 4)) (skipn (Z.to_nat ni) rest)) (ds / 4) (firstn (Z.to_nat ni) rest) None raw_empty)
      as [S0| | |] eqn:E0; [|destruct (_ <? _); discriminate..].
    assert (S0 = S) as -> by (destruct (_ <? _); injection E as <- _; reflexivity).
    apply (rfi_loop_held _ (ds / 4)) with (pv := 0) in E0; [|rewrite firstn_length, skipn_length; lia|reflexivity|lia].
    unfold held in *. cbn [raw_empty rs_buf rs_offs length] in *. lia.
Qed.

Definition dheld (d : delta) : Z :=
  Z.of_nat (length (d_buf d)) + Z.of_nat (length (d_upd d)) + Z.of_nat (length (d_del d)).

Lemma ains_length_le {V} k (v : V) l : (length (ains k v l) <= Datatypes.S (length l))%nat.
Proof.
  induction l as [|[k' v'] l IH]; cbn [ains length]; [lia|].
  destruct (k <? k'); [cbn [length]; lia|]. destruct (k =? k'); cbn [length]; lia.
Qed.
Lemma sins_length_le k l : (length (sins k l) <= Datatypes.S (length l))%nat.
Proof.
  induction l as [|k' l IH]; cbn [sins length]; [lia|].
  destruct (k <? k'); [cbn [length]; lia|]. destruct (k =? k'); cbn [length]; lia.
Qed.

Definition wsz {A} (P : A -> Prop) (r : wres A) : Prop := match fst r with Ok a => P a | _ => True end.
Lemma wsz_bind {A B} (Q : A -> Prop) (P : B -> Prop) (m : wres A) (f : A -> wres B) :
  wsz Q m -> (forall a, Q a -> wsz P (f a)) -> wsz P (wbind m f).
Proof.
  destruct m as [[a|e|s|] ws]; unfold wsz; cbn [fst wbind]; intros Hm Hf; try exact I.
  specialize (Hf a Hm). destruct (f a) as [r ws']. exact Hf.
Qed.
Lemma wsz_weaken {A} (Q P : A -> Prop) (r : wres A) : (forall a, Q a -> P a) -> wsz Q r -> wsz P r.
Proof. unfold wsz. destruct (fst r); auto. Qed.
Lemma wsz_ret {A} (P : A -> Prop) a : P a -> wsz P (wret a).
Proof. intros H. exact H. Qed.
Lemma wsz_err {A} (P : A -> Prop) e : wsz P (@werr A e).
Proof. exact I. Qed.
Lemma wsz_warn_if (c : bool) w : wsz (fun _ : unit => True) (if c then wwarn w else wret tt).
Proof. destruct c; exact I. Qed.
Lemma wsz_ok {A} (P : A -> Prop) (r : wres A) a : wsz P r -> fst r = Ok a -> P a.
Proof. unfold wsz. intros H E. rewrite E in H. exact H. Qed.

Lemma read_loop_rest : forall k i st st', read_loop k i st = Ok st' -> (length (r_rest st') <= length (r_rest st))%nat.
Proof.
  induction k as [|k IH]; intros i st st' H; cbn [read_loop] in H; [injection H as <-; lia|].
  destruct (Z.land (r_src st) 128 =? 0); [injection H as <-; lia|].
  destruct (r_rest st) as [|b rest] eqn:Er; [discriminate|]. apply IH in H. cbn [r_rest length] in *. lia.
Qed.

Lemma read_int_consumes bs v ws rest : read_int bs = Ok (v, ws, rest) -> (length rest < length bs)%nat.
Proof.
  unfold read_int. destruct bs as [|b0 bs]; [discriminate|].
  destruct (read_loop 4 0 _) as [st| | |] eqn:El; try discriminate. intros [= _ _ <-].
  apply read_loop_rest in El. cbn [r_rest length] in *. lia.
Qed.

(* Delta::read_impl records an update: the data goes to the end of buf, its range into the map *)
Definition dpush (d : delta) (k : Z) (data : list Z) : delta :=
  {| d_del := d_del d; d_upd := ains k (length (d_buf d), length (d_buf d ++ data)) (d_upd d); d_buf := d_buf d ++ data |}.

Section ReaderSize.
  Variable St : Type.
  Variable rd_int : St -> res unit (Z * list pwarn * St).
  Variable rd_size : St -> nat.
  (* every successful read uses up at least one unit of the input *)
  Hypothesis R2 : forall p v ws p', rd_int p = Ok (v, ws, p') -> (rd_size p' < rd_size p)%nat.

  Notation rie := (read_int_err St rd_int).

  Lemma rie_size p e : wsz (fun vp => (rd_size (snd vp) < rd_size p)%nat) (rie p e).
  Proof.
    unfold read_int_err. destruct (rd_int p) as [[[v ws] p']| | |] eqn:E; unfold wsz; cbn [fst snd]; try exact I.
    apply (R2 p v ws p' E).
  Qed.

  Lemma read_delta_header_size p :
    wsz (fun h => (rd_size (snd h) + 3 <= rd_size p)%nat) (read_delta_header St rd_int p).
  Proof.
    unfold read_delta_header.
    eapply wsz_bind; [apply rie_size|]. intros [nd p1] A1. destruct (nd <? 0); [apply wsz_err|].
    eapply wsz_bind; [apply rie_size|]. intros [nu p2] B1. destruct (nu <? 0); [apply wsz_err|].
    eapply wsz_bind; [apply rie_size|]. intros [z p3] C1.
    eapply wsz_bind; [apply wsz_warn_if|]. intros _ _. apply wsz_ret. cbn [snd] in *. lia.
  Qed.

  Lemma read_deleted_size : forall fuel n p del,
    wsz (fun pd => (length (snd pd) + rd_size (fst pd) <= length del + rd_size p)%nat) (read_deleted St rd_int fuel n p del).
  Proof.
    induction fuel as [|fuel IH]; intros n p del; cbn [read_deleted]; destruct (n <=? 0); try exact I; try (apply wsz_ret; cbn; lia).
    eapply wsz_bind; [apply rie_size|]. intros [v p'] H1.
    eapply wsz_weaken; [|apply IH]. intros [p2 d2] H2. pose proof (sins_length_le v del). cbn [fst snd] in *. lia.
  Qed.

  Lemma read_data_size : forall fuel n p acc,
    wsz (fun pd => (length (snd pd) + rd_size (fst pd) <= length acc + rd_size p)%nat) (read_data St rd_int fuel n p acc).
  Proof.
    induction fuel as [|fuel IH]; intros n p acc; cbn [read_data]; destruct (n <=? 0); try exact I;
      try (apply wsz_ret; cbn [fst snd]; rewrite rev_length; lia).
    eapply wsz_bind; [apply rie_size|]. intros [v p'] H1.
    eapply wsz_weaken; [|apply IH]. intros [p2 d2] H2. cbn [fst snd length] in *. lia.
  Qed.

  Lemma read_size_size (sz : osize) ty p :
    wsz (fun sp => (rd_size (snd sp) <= rd_size p)%nat)
        (match sz ty with
         | Some s => wret (s, p)
         | None => let+ (s, p3) := rie p ItemDiffsUnpacking in if s <? 0 then werr NegativeSize else wret (s, p3)
         end).
  Proof.
    destruct (sz ty); [apply wsz_ret; cbn; lia|].
    eapply wsz_bind; [apply rie_size|]. intros [s p3] C1. destruct (s <? 0); [apply wsz_err|apply wsz_ret; cbn [snd] in *; lia].
  Qed.

  Variable rd_empty : St -> bool.
  (* any property of the delta under construction that recording one more update keeps *)
  Variable J : delta -> Prop.
  Hypothesis J_upd : forall d k data, J d -> J (dpush d k data).

  Lemma read_updates_size sz : forall fuel p d num, J d ->
    wsz (fun dn => dheld (fst dn) <= dheld d + Z.of_nat (rd_size p) /\ J (fst dn))
        (read_updates St rd_empty rd_int rd_size fuel sz p d num).
  Proof.
    induction fuel as [|fuel IH]; intros p d num Hd; cbn [read_updates]; destruct (rd_empty p); try exact I;
      try (apply wsz_ret; cbn [fst]; split; [lia|exact Hd]).
    eapply wsz_bind; [apply rie_size|]. intros [ty p1] A1.
    eapply wsz_bind; [apply rie_size|]. intros [id p2] B1.
    destruct (negb (is_u16 ty)); [apply wsz_err|]. destruct (negb (is_u16 id)); [apply wsz_err|].
    eapply wsz_bind; [apply read_size_size|]. intros [size p3] D1.
    destruct (u32_max <? _); [apply wsz_err|]. destruct (u32_max <? _); [apply wsz_err|].
    eapply wsz_bind; [apply (read_data_size (rd_size p3) size p3 [])|]. intros [p4 data] E1.
    eapply (wsz_bind (fun _ : unit => True)); [destruct (aget (key ty id) (d_upd d)); exact I|]. intros _ _.
    eapply (wsz_bind (fun _ : unit => True)); [apply wsz_warn_if|]. intros _ _.
    destruct (num =? i32_max); [exact I|].
    eapply wsz_weaken; [|apply IH, J_upd, Hd]. intros [d' n'] [H HJ]. split; [|exact HJ].
    pose proof (ains_length_le (key ty id) (length (d_buf d), length (d_buf d ++ data)) (d_upd d)).
    unfold dheld in *. cbn [fst snd length d_buf d_upd d_del] in *. rewrite app_length in *. unfold range in *. lia.
  Qed.

  Theorem read_delta_size sz p : (forall del, J {| d_del := del; d_upd := []; d_buf := [] |}) ->
    wsz (fun d => dheld d <= Z.of_nat (rd_size p) /\ J d) (read_delta St rd_empty rd_int rd_size sz p).
  Proof.
    intros J0. unfold read_delta.
    eapply wsz_bind; [apply read_delta_header_size|]. intros [[nd nu] p1] A1.
    eapply wsz_bind; [apply (read_deleted_size (rd_size p1) nd p1 [])|]. intros [p2 del] B1.
    eapply (wsz_bind (fun _ : unit => True)); [apply wsz_warn_if|]. intros _ _.
    eapply wsz_bind; [apply (read_updates_size sz (rd_size p2) p2 _ 0 (J0 del))|]. intros [d num] [Hd HJ].
    eapply (wsz_bind (fun _ : unit => True)); [apply wsz_warn_if|]. intros _ _. apply wsz_ret. split; [|exact HJ].
    unfold dheld in Hd at 2. cbn [fst snd length d_buf d_upd d_del] in *. lia.
  Qed.
End ReaderSize.

(* the two readers of the code: the unit of input is the int, resp. the byte (one more, so that the
   fuel is never zero) *)
Lemma int_rd_shrinks p v ws p' : int_rd_int p = Ok (v, ws, p') -> (Datatypes.S (length p') < Datatypes.S (length p))%nat.
Proof. destruct p; [discriminate|]. intros [= _ _ <-]. cbn [length]. lia. Qed.
Lemma byte_rd_shrinks p v ws p' : read_int p = Ok (v, ws, p') -> (Datatypes.S (length p') < Datatypes.S (length p))%nat.
Proof. intros H. apply read_int_consumes in H. lia. Qed.

Lemma fst_pair {A B} (x : A * B) a b : x = (a, b) -> fst x = a.
Proof. intros ->. reflexivity. Qed.

Theorem delta_read_from_ints_size sz ints d ws : delta_read_from_ints sz ints = (Ok d, ws) ->
  dheld d <= Z.of_nat (length ints) + 1.
Proof.
  intros E. apply fst_pair in E.
  apply (wsz_ok _ _ _ (read_delta_size _ _ _ int_rd_shrinks _ (fun _ => True) (fun _ _ _ _ => I) sz ints (fun _ => I))) in E. lia.
Qed.

Theorem delta_read_bytes_size sz bs d ws : bytes_ok bs = true -> delta_read_bytes sz bs = (Ok d, ws) ->
  dheld d <= Z.of_nat (length bs) + 1.
Proof.
  intros _ E. apply fst_pair in E.
  apply (wsz_ok _ _ _ (read_delta_size _ _ _ byte_rd_shrinks _ (fun _ => True) (fun _ _ _ _ => I) sz bs (fun _ => I))) in E. lia.
Qed.

Lemma bytes_to_ints_size : forall fuel bs acc ws ints ws',
  bytes_to_ints fuel bs acc ws = Ok (ints, ws') -> (length ints <= length acc + length bs)%nat.
Proof.
  induction fuel as [|fuel IH]; intros bs acc ws ints ws' E; destruct bs as [|b bs']; try discriminate;
    try (injection E as <- _; rewrite rev_length; lia).
  cbn [bytes_to_ints] in E. destruct (read_int (b :: bs')) as [[[v pw] rest]| | |] eqn:Er; try discriminate.
  - apply read_int_consumes in Er. apply IH in E. cbn [length] in *. lia.
  - injection E as <- _. rewrite rev_length. lia.
Qed.

Lemma read_bytes_held bs S : fst (raw_read_bytes bs) = Ok S -> held S <= Z.of_nat (length bs).
Proof.
  unfold raw_read_bytes. destruct (bytes_to_ints (length bs) bs [] []) as [[ints ws1]| | |] eqn:Eb; try discriminate.
  apply bytes_to_ints_size in Eb. destruct (raw_read_from_ints ints) as [r ws2] eqn:Er. cbn [fst]. intros ->.
  apply read_from_ints_size in Er. cbn [length] in Eb. lia.
Qed.

Theorem read_bytes_size bs S ws : bytes_ok bs = true -> raw_read_bytes bs = (Ok S, ws) ->
  held S <= Z.of_nat (length bs).
Proof. intros _ E. apply read_bytes_held, (fst_pair _ _ _ E). Qed.

(* read_with_delta: at most one new item per item copied and per update *)
Lemma prepare_item_offs S k size Sr : prepare_item S k size = Ok Sr ->
  (length (rs_offs (fst Sr)) <= Datatypes.S (length (rs_offs S)))%nat.
Proof.
  unfold prepare_item, prepare_vacant. destruct (aget _ _); [intros [= <-]; cbn [fst]; lia|].
  destruct (_ <? _); [discriminate|]. destruct (_ <? _); [discriminate|]. intros [= <-]. apply ains_length_le.
Qed.

Lemma rwd_copy_offs fbuf d : forall from_offs S ndel Sn, rwd_copy fbuf d from_offs S ndel = Ok Sn ->
  (length (rs_offs (fst Sn)) <= length (rs_offs S) + length from_offs)%nat.
Proof.
  induction from_offs as [|[k r] t IH]; intros S ndel Sn E; cbn [rwd_copy length] in *; [injection E as <-; cbn [fst]; lia|].
  destruct (slice fbuf r) as [data| | |]; try discriminate. cbn [bind] in E.
  destruct (smem _ _); [apply IH in E; lia|].
  destruct (prepare_item S _ (length data)) as [[S1 ro]| | |] eqn:Ep; try discriminate. apply prepare_item_offs in Ep.
  cbn [bind fst] in *. destruct (write_range _ _ _); try discriminate. apply IH in E. cbn [bind rs_offs] in E. lia.
Qed.

Lemma rwd_update_offs from dbuf : forall upd S S', rwd_update from dbuf upd S = Ok S' ->
  (length (rs_offs S') <= length (rs_offs S) + length upd)%nat.
Proof.
  induction upd as [|[k r] t IH]; intros S S' E; cbn [rwd_update length] in *; [injection E as <-; lia|].
  destruct (slice dbuf r) as [diff| | |]; try discriminate. cbn [bind] in E.
  destruct (prepare_item S _ (length diff)) as [[S1 ro]| | |] eqn:Ep; try discriminate. apply prepare_item_offs in Ep.
  cbn [bind fst] in *. destruct (slice (rs_buf S1) ro); try discriminate. cbn [bind] in E.
  destruct (negb _); [discriminate|]. destruct (raw_item from _ _); try discriminate. cbn [bind] in E.
  destruct (apply_item_delta _ _ _); try discriminate. cbn [bind] in E.
  destruct (write_range _ _ _); try discriminate. apply IH in E. cbn [rs_offs] in E. lia.
Qed.

Lemma read_with_delta_offs from d R : fst (raw_read_with_delta from d) = Ok R ->
  (length (rs_offs R) <= length (rs_offs from) + length (d_upd d))%nat.
Proof.
  unfold raw_read_with_delta.
  destruct (rwd_copy (rs_buf from) d (rs_offs from) raw_empty 0) as [[S1 ndel]| | |] eqn:Ec; try discriminate.
  apply rwd_copy_offs in Ec. cbn [wlift wbind fst] in *.
  destruct (rwd_update from (d_buf d) (d_upd d) S1) as [R'| | |] eqn:Eu; destruct (negb _); try discriminate;
    intros [= <-]; apply rwd_update_offs in Eu; cbn [raw_empty rs_offs length] in Ec; lia.
Qed.
