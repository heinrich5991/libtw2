(* RawSnap::read_with_delta on a delta that was not made by Delta::create_raw: its updates may come in
   any order of keys and may leave out items that A and B share (CreateDelta omits unchanged items and
   lists the others in the reference's item order).  Applied to A it still yields the items of B. *)
From LibTw2 Require Import Base.Res Model.Varint Model.Snap Model.SnapRef Proofs.SnapBase Proofs.SnapRep Proofs.SnapDelta
  Proofs.SnapApply Proofs.SnapTotal.
From Coq Require Import ZArith List Lia Bool Permutation.
Import ListNotations.
Open Scope Z_scope.

Lemma wsub_zero a b : is_i32 a = true -> is_i32 b = true -> wsub a b = 0 -> a = b.
Proof.
  intros Ha Hb. apply is_i32_iff in Ha. apply is_i32_iff in Hb. unfold wsub, i32_of, u32_of, two31, two32.
  destruct (Z.ltb_spec ((a - b) mod 4294967296) 2147483648); intros Hz; Z.div_mod_to_equations; lia.
Qed.

Lemma zip_wsub_zero : forall d f, length f = length d -> forallb is_i32 f = true -> forallb is_i32 d = true ->
  needed (zip_with wsub d f) = false -> d = f.
Proof.
  induction d as [|a d IH]; intros [|b f] Hl Hf Hd Hn; try discriminate; [reflexivity|].
  cbn [forallb] in Hf, Hd. apply andb_true_iff in Hf. apply andb_true_iff in Hd.
  destruct Hf as [Hb Hf]. destruct Hd as [Ha Hd].
  unfold needed, zip_with in Hn. cbn [combine map existsb fst snd] in Hn. apply orb_false_iff in Hn.
  destruct Hn as [H0 Hn]. apply negb_false_iff, Z.eqb_eq in H0.
  f_equal; [apply wsub_zero; assumption|]. apply IH; [cbn in Hl; lia|exact Hf|exact Hd|exact Hn].
Qed.

Lemma good_data_i32 S ch k d : good S -> rep S ch -> aget k ch = Some d -> forallb is_i32 d = true.
Proof. intros G R. apply flat_i32. rewrite <- (rep_buf _ _ R). apply (g_buf _ G). Qed.

(* an entry (key, data) of such a delta: the data is the difference to B's item under that key *)
Definition ent (chA chB : items) (e : Z * list Z) : Prop :=
  exists dB, aget (fst e) chB = Some dB /\ snd e = diff_of chA (fst e, dB) /\ is_i32 (fst e) = true.
Definition sliced (chA chB : items) (dbuf : list Z) (kr : Z * range) : Prop :=
  exists df, (forall E, @slice E dbuf (snd kr) = Ok df) /\ ent chA chB (fst kr, df).

Theorem apply_gen A B chA chB d :
  good A -> good B -> rep A chA -> rep B chB -> same_len chA chB ->
  (forall k, smem k (d_del d) = true <-> (In k (map fst (rs_offs A)) /\ absent chB k = true)) ->
  length (d_del d) = length (filter (absent chB) (map fst (rs_offs A))) ->
  NoDup (map fst (d_upd d)) ->
  Forall (sliced chA chB (d_buf d)) (d_upd d) ->
  (forall k dB, aget k chB = Some dB -> ~ In k (map fst (d_upd d)) -> aget k chA = Some dB) ->
  exists B' ch', raw_read_with_delta A d = (Ok B', []) /\ rep B' ch' /\ (forall k, aget k ch' = aget k chB).
Proof.
  intros GA GB HA HB Hsl Hdel Hlen _ Hslc Hsame.
  apply (apply_delta A B chA chB d HA HB (g_keys _ GA) (g_buf _ GA) (g_buf _ GB) (good_lim B chB GB HB) Hsl Hdel Hlen);
    [|exact Hsame].
  eapply Forall_impl; [|exact Hslc]. intros kr (df & Hs & dB & HkB & Hdf & Hki). cbn [fst snd] in *. subst df.
  exists dB. auto.
Qed.
