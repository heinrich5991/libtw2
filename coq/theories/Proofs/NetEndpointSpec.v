(* C20: the specification side. One remote address seen in isolation: a slot that holds at most
   one `conn6` (plus the token flag of its connect request) and is driven ONLY by the labels
   that concern this address, through Conn6.step. Histories of the endpoint, their validity
   (`valid_net_api`: the API contract read off net.rs' asserts) and their projection onto one
   address. Definitions, and the basic facts about the peer table and the endpoint's helper functions. *)
From LibTw2 Require Import Base.Res Model.PacketTypes Model.ConnCore Model.Conn6 Model.NetEndpoint
  Proofs.ConnCoreInv Proofs.Conn6Inv.
From Coq Require Import ZArith Lia Bool List Permutation.
Open Scope Z_scope.

Inductive aop :=
| AFeed (r : raw)                 (* a datagram from this address *)
| AConnect                        (* Net::connect(this address) *)
| AAccept
| AReject (reason : bytes)
| ADisconnect (reason : bytes)
| AIgnore
| ASend (d : bytes) (vital : bool)
| AFlush
| ASendConnless (d : bytes)
| ATick.

Definition aslot := option (conn6 * bool).

Record aout := {
  ao_slot : aslot;
  ao_sent : list dgram;
  ao_events : list nevk;
  ao_warns : list (bool * cwarn);     (* true: Warning::Peer, false: Warning::Connless *)
  ao_res : api_res;
}.
Definition amk s d evs ws r := {| ao_slot := s; ao_sent := d; ao_events := evs; ao_warns := ws; ao_res := r |}.

(* nobody holds a connection for the address (no peer, or a peer the application has not decided
   about): the stateless front door of Net::feed_impl *)
Definition a_stateless (accepting : bool) (s : aslot) (r : raw) : res unit aout :=
  match r None with
  | None => Ok (amk s [] [] [] ROk)
  | Some (DConnless _ _ payload) => Ok (amk s [] [NKConn (EvConnless payload)] [] ROk)
  | Some (DControl tok _ (Connect _)) =>
    match s with
    | Some _ => Ok (amk s [] [] [] ROk)
    | None =>
      if accepting
      then Ok (amk (Some (conn6_new, match tok with Some _ => true | None => false end)) [] [NKConnect] [] ROk)
      else Ok (amk s [] [] [(false, WUnexpected)] ROk)
    end
  | Some _ => Ok (amk s [] [] [(false, WUnexpected)] ROk)
  end.

Definition of_conn (tok : bool) (out : outcome) (gone : bool) (r : api_res) : aout :=
  amk (if gone then None else Some (out_conn out, tok)) (out_sent out) (map NKConn (out_events out))
      (map (fun w => (true, w)) (out_warns out)) r.

Definition astep (accepting : bool) (s : aslot) (e : env) (o : aop) : res unit aout :=
  match o with
  | AFeed r =>
    match s with
    | Some (c, tok) =>
      if is_unconnected c then a_stateless accepting s r
      else let* out := conn_feed_raw c e r in
           Ok (of_conn tok out (existsb is_disconnect (out_events out)) ROk)
    | None => a_stateless accepting s r
    end
  | AConnect =>
    match s with
    | None => let* out := step conn6_new e OpConnect in Ok (amk (Some (out_conn out, false)) (out_sent out) [] [] ROk)
    | Some _ => Err tt                       (* outside the contract: a second peer for one address *)
    end
  | AAccept =>
    match s with
    | None => Panic site_invalid_pid
    | Some (c, tok) =>
      if negb (is_unconnected c) then Panic site_accept_not_pending else
      let* out := step c e (OpFeed (canonical_connect tok)) in
      match out_warns out, out_events out with
      | [], [] => Ok (of_conn tok out false (out_res out))
      | _ :: _, _ => Panic site_accept_warning
      | [], _ :: _ => Panic site_accept_event
      end
    end
  | AReject reason =>
    match s with
    | None => Panic site_invalid_pid
    | Some (c, tok) =>
      if negb (is_unconnected c) then Panic site_reject_not_pending else
      if existsb (fun b => b =? 0) reason then Panic site_reason_nul else
      if MAX_PACKETSIZE <? control_size params6 None (Close reason) then Panic site_builder_capacity else
      Ok (amk None [DControl None 0 (Close reason)] [] [] ROk)
    end
  | ADisconnect reason =>
    match s with
    | None => Panic site_invalid_pid
    | Some (c, tok) =>
      if is_unconnected c then Panic site_disconnect_pending else
      let* out := step c e (OpDisconnect reason) in
      Ok (amk None (out_sent out) [] [] ROk)
    end
  | AIgnore =>
    match s with
    | None => Panic site_invalid_pid
    | Some _ => Ok (amk None [] [] [] ROk)
    end
  | ASend d vital =>
    match s with
    | None => Panic site_invalid_pid
    | Some (c, tok) => let* out := step c e (OpSend d vital) in Ok (of_conn tok out false (out_res out))
    end
  | AFlush =>
    match s with
    | None => Panic site_invalid_pid
    | Some (c, tok) => let* out := step c e OpFlush in Ok (of_conn tok out false (out_res out))
    end
  | ASendConnless d =>
    if MAX_PAYLOAD <? Z.of_nat (length d) then Ok (amk s [] [] [] RTooLongData)
    else Ok (amk s [DConnless None None d] [] [] ROk)
  | ATick =>
    match s with
    | None => Ok (amk None [] [] [] ROk)
    | Some (c, tok) =>
      let* out := step c e OpTick in
      Ok (amk (Some (out_conn out, tok)) (out_sent out) [] [] ROk)
    end
  end.

Definition slot_tick (s : aslot) : timeout :=
  match s with Some (c, _) => needs_tick c | None => None end.

(* every call carries the values `secure_random` will return during the call *)
Inductive nlabel := NClock (dt : Z) | NCall (rnd : list token) (o : nop).
Inductive alabel := AClock (dt : Z) | ACall (rnd : list token) (o : aop) | ASkip.   (* ASkip: a call that concerns other addresses *)

Definition mkenv (now : Z) (rnd : list token) : env := {| e_now := now; e_rand := rnd |}.

Record nrec := { nr_pre : net; nr_now : Z; nr_label : nlabel; nr_out : option nout; nr_post : net }.

Fixpoint run_net (n : net) (now : Z) (tr : list nlabel) : res unit (net * Z * list nrec) :=
  match tr with
  | [] => Ok (n, now, [])
  | NClock dt :: r =>
    match run_net n (now + dt) r with
    | Ok (n', now', recs) =>
      Ok (n', now', {| nr_pre := n; nr_now := now; nr_label := NClock dt; nr_out := None; nr_post := n |} :: recs)
    | x => x
    end
  | NCall rnd o :: r =>
    match net_step n (mkenv now rnd) o with
    | Ok out =>
      match run_net (no_net out) now r with
      | Ok (n', now', recs) =>
        Ok (n', now', {| nr_pre := n; nr_now := now; nr_label := NCall rnd o; nr_out := Some out;
                         nr_post := no_net out |} :: recs)
      | x => x
      end
    | Err x => Err x | Panic s => Panic s | OutOfFuel => OutOfFuel
    end
  end.

Record aobs := {
  ab_sent : list dgram;
  ab_events : list nevk;
  ab_warns : list (bool * cwarn);
  ab_res : option api_res;           (* None: the call was not about this address *)
  ab_tick : timeout;                 (* the address's deadline after the step *)
}.

Fixpoint run_addr (accepting : bool) (s : aslot) (now : Z) (tr : list alabel) : res unit (aslot * Z * list aobs) :=
  match tr with
  | [] => Ok (s, now, [])
  | AClock dt :: r =>
    match run_addr accepting s (now + dt) r with
    | Ok (s', now', obs) =>
      Ok (s', now', {| ab_sent := []; ab_events := []; ab_warns := []; ab_res := None; ab_tick := slot_tick s |} :: obs)
    | x => x
    end
  | ASkip :: r =>
    match run_addr accepting s now r with
    | Ok (s', now', obs) =>
      Ok (s', now', {| ab_sent := []; ab_events := []; ab_warns := []; ab_res := None; ab_tick := slot_tick s |} :: obs)
    | x => x
    end
  | ACall rnd o :: r =>
    match astep accepting s (mkenv now rnd) o with
    | Ok out =>
      match run_addr accepting (ao_slot out) now r with
      | Ok (s', now', obs) =>
        Ok (s', now', {| ab_sent := ao_sent out; ab_events := ao_events out; ab_warns := ao_warns out;
                         ab_res := Some (ao_res out); ab_tick := slot_tick (ao_slot out) |} :: obs)
      | x => x
      end
    | Err x => Err x | Panic s => Panic s | OutOfFuel => OutOfFuel
    end
  end.

Definition view_tab (ps : ptable) (a : addr) : aslot :=
  match pid_from_addr ps a with
  | Some (_, p) => Some (p_conn p, p_token p)
  | None => None
  end.
Definition view (n : net) (a : addr) : aslot := view_tab (n_peers n) a.

Definition pid_op (n : net) (a : addr) (pid : Z) (ao : aop) : option aop :=
  match get_peer (n_peers n) pid with
  | Some p => if p_addr p =? a then Some ao else None
  | None => None
  end.

(* which calls concern address a, and as what (pids resolved in the state before the call) *)
Definition proj_op (n : net) (a : addr) (o : nop) : option aop :=
  match o with
  | NFeed a' r => if a' =? a then Some (AFeed r) else None
  | NConnect a' => if a' =? a then Some AConnect else None
  | NAccept pid => pid_op n a pid AAccept
  | NReject pid reason => pid_op n a pid (AReject reason)
  | NDisconnect pid reason => pid_op n a pid (ADisconnect reason)
  | NIgnore pid => pid_op n a pid AIgnore
  | NSend pid d v => pid_op n a pid (ASend d v)
  | NFlush pid => pid_op n a pid AFlush
  | NSendConnless a' d => if a' =? a then Some (ASendConnless d) else None
  | NTick => Some ATick
  end.

Definition label_for (a : addr) (r : nrec) : alabel :=
  match nr_label r with
  | NClock dt => AClock dt
  | NCall rnd o => match proj_op (nr_pre r) a o with Some ao => ACall rnd ao | None => ASkip end
  end.

Definition sent_to (a : addr) (l : list (addr * dgram)) : list dgram :=
  map snd (filter (fun x => fst x =? a) l).
Definition events_of (a : addr) (l : list nev) : list nevk :=
  map ne_kind (filter (fun e => ne_addr e =? a) l).
Definition nwarn_addr (w : nwarn) : addr := match w with NWPeer a _ _ => a | NWConnless a _ => a end.
Definition nwarn_kind (w : nwarn) : bool * cwarn :=
  match w with NWPeer _ _ c => (true, c) | NWConnless _ c => (false, c) end.
Definition warns_of (a : addr) (l : list nwarn) : list (bool * cwarn) :=
  map nwarn_kind (filter (fun w => nwarn_addr w =? a) l).

(* events, outgoing datagrams with destination a, warnings about a, a's deadline *)
Definition obs_for (a : addr) (r : nrec) : aobs :=
  match nr_label r, nr_out r with
  | NCall _ o, Some out =>
    {| ab_sent := sent_to a (no_sent out); ab_events := events_of a (no_events out);
       ab_warns := warns_of a (no_warns out);
       ab_res := match proj_op (nr_pre r) a o with Some _ => Some (no_res out) | None => None end;
       ab_tick := slot_tick (view (nr_post r) a) |}
  | _, _ => {| ab_sent := []; ab_events := []; ab_warns := []; ab_res := None;
               ab_tick := slot_tick (view (nr_post r) a) |}
  end.

Definition raw_ok (r : raw) : Prop := forall h d, r h = Some d -> dgram_in_ok d.
Definition reason_ok (r : bytes) : Prop := existsb (fun b => b =? 0) r = false /\ (length r <= 127)%nat.
Definition room (n : net) : Prop := Z.of_nat (length (n_peers n)) < U32.   (* not all 2^32 ids in use *)

Definition valid_nop (n : net) (e : env) (o : nop) : Prop :=
  match o with
  | NFeed a r => raw_ok r /\ rand_ok e /\ room n
  | NConnect a => view n a = None /\ room n            (* at most one live peer per remote address *)
  | NAccept pid => exists p, get_peer (n_peers n) pid = Some p /\ is_unconnected (p_conn p) = true /\ rand_ok e
  | NReject pid r => exists p, get_peer (n_peers n) pid = Some p /\ is_unconnected (p_conn p) = true /\ reason_ok r
  | NDisconnect pid r => exists p, get_peer (n_peers n) pid = Some p /\ is_unconnected (p_conn p) = false /\ reason_ok r
  | NIgnore pid => exists p, get_peer (n_peers n) pid = Some p
  | NSend pid _ _ | NFlush pid => exists p on, get_peer (n_peers n) pid = Some p /\ c_state (p_conn p) = Online on
  | NSendConnless _ _ | NTick => True
  end.

(* validity of a history is checked along the run (it depends on the states passed through) *)
Fixpoint valid_net_api (n : net) (now : Z) (tr : list nlabel) : Prop :=
  match tr with
  | [] => True
  | NClock dt :: r => valid_net_api n (now + dt) r
  | NCall rnd o :: r =>
    valid_nop n (mkenv now rnd) o /\
    match net_step n (mkenv now rnd) o with
    | Ok out => valid_net_api (no_net out) now r
    | _ => True
    end
  end.

(* the part of the contract the isolation statement needs: one live peer per address *)
Definition connect_ok (n : net) (o : nop) : Prop :=
  match o with NConnect a => view n a = None | _ => True end.
Fixpoint one_peer_per_addr (n : net) (now : Z) (tr : list nlabel) : Prop :=
  match tr with
  | [] => True
  | NClock dt :: r => one_peer_per_addr n (now + dt) r
  | NCall rnd o :: r =>
    connect_ok n o /\
    match net_step n (mkenv now rnd) o with
    | Ok out => one_peer_per_addr (no_net out) now r
    | _ => True
    end
  end.

Lemma valid_one_peer tr : forall n now, valid_net_api n now tr -> one_peer_per_addr n now tr.
Proof.
  induction tr as [|l tr IH]; intros n now H; [exact I|].
  destruct l as [dt|rnd o]; cbn [valid_net_api one_peer_per_addr] in *.
  - apply IH, H.
  - destruct H as [Hv Hr]. split.
    + destruct o; try exact I. exact (proj1 Hv).
    + destruct (net_step n (mkenv now rnd) o); try exact I. apply IH, Hr.
Qed.

Definition pids (ps : ptable) : list Z := map fst ps.
Definition addrs (ps : ptable) : list addr := map (fun x => p_addr (snd x)) ps.
Definition tab_ok (ps : ptable) : Prop := NoDup (pids ps) /\ NoDup (addrs ps).

Lemma get_peer_In ps pid p : get_peer ps pid = Some p -> In (pid, p) ps.
Proof.
  induction ps as [|[q x] r IH]; cbn [get_peer]; [discriminate|].
  destruct (q =? pid) eqn:E; intros H.
  - injection H as <-. apply Z.eqb_eq in E. subst. left; reflexivity.
  - right; apply IH, H.
Qed.

Lemma get_peer_None ps pid : get_peer ps pid = None <-> ~ In pid (pids ps).
Proof.
  induction ps as [|[q x] r IH]; cbn [get_peer pids map fst]; [split; [intros _ H; exact H|reflexivity]|].
  destruct (q =? pid) eqn:E.
  - apply Z.eqb_eq in E. split; [discriminate|]. intros H. exfalso. apply H. left; exact E.
  - apply Z.eqb_neq in E. unfold pids in IH. rewrite IH. cbn [In]. tauto.
Qed.

Lemma In_get_peer ps pid p : NoDup (pids ps) -> In (pid, p) ps -> get_peer ps pid = Some p.
Proof.
  induction ps as [|[q x] r IH]; cbn [get_peer pids map fst]; intros Hnd Hin; [contradiction|].
  inversion Hnd as [|? ? Hni Hnd']; subst. destruct Hin as [Hin|Hin].
  - injection Hin as -> ->. rewrite Z.eqb_refl. reflexivity.
  - destruct (q =? pid) eqn:E.
    + apply Z.eqb_eq in E. subst. exfalso. apply Hni. change pid with (fst (pid, p)). apply in_map, Hin.
    + apply IH; assumption.
Qed.

Lemma pid_from_addr_In ps a pid p : pid_from_addr ps a = Some (pid, p) -> In (pid, p) ps /\ p_addr p = a.
Proof.
  induction ps as [|[q x] r IH]; cbn [pid_from_addr]; [discriminate|].
  destruct (p_addr x =? a) eqn:E; intros H.
  - injection H as <- <-. apply Z.eqb_eq in E. split; [left; reflexivity|exact E].
  - destruct (IH H) as [H1 H2]. split; [right; exact H1|exact H2].
Qed.

Lemma pid_from_addr_None ps a : pid_from_addr ps a = None <-> ~ In a (addrs ps).
Proof.
  induction ps as [|[q x] r IH]; cbn [pid_from_addr addrs map snd]; [split; [intros _ H; exact H|reflexivity]|].
  destruct (p_addr x =? a) eqn:E.
  - apply Z.eqb_eq in E. split; [discriminate|]. intros H. exfalso. apply H. left; exact E.
  - apply Z.eqb_neq in E. unfold addrs in IH. rewrite IH. cbn [In]. tauto.
Qed.

Lemma In_pid_from_addr ps pid p : NoDup (addrs ps) -> In (pid, p) ps -> pid_from_addr ps (p_addr p) = Some (pid, p).
Proof.
  induction ps as [|[q x] r IH]; cbn [pid_from_addr addrs map snd]; intros Hnd Hin; [contradiction|].
  inversion Hnd as [|? ? Hni Hnd']; subst. destruct Hin as [Hin|Hin].
  - injection Hin as -> ->. rewrite Z.eqb_refl. reflexivity.
  - destruct (p_addr x =? p_addr p) eqn:E.
    + apply Z.eqb_eq in E. exfalso. apply Hni. rewrite E.
      change (p_addr p) with ((fun y : Z * peer => p_addr (snd y)) (pid, p)). apply in_map, Hin.
    + apply IH; assumption.
Qed.

(* the peer Net::feed finds by address is the one its pid names *)
Lemma pid_from_addr_get ps a pid p : NoDup (pids ps) -> pid_from_addr ps a = Some (pid, p) ->
  get_peer ps pid = Some p /\ p_addr p = a.
Proof. intros Hnd H. destruct (pid_from_addr_In _ _ _ _ H) as [Hin Ha]. split; [apply In_get_peer; assumption|exact Ha]. Qed.

Lemma view_tab_None ps a : view_tab ps a = None <-> ~ In a (addrs ps).
Proof.
  unfold view_tab. rewrite <- pid_from_addr_None. destruct (pid_from_addr ps a) as [[q x]|]; split; intros H; try discriminate; reflexivity.
Qed.

Lemma view_of_get ps pid p : tab_ok ps -> get_peer ps pid = Some p -> view_tab ps (p_addr p) = Some (p_conn p, p_token p).
Proof. intros [_ Ha] Hg. unfold view_tab. rewrite (In_pid_from_addr ps pid p Ha (get_peer_In _ _ _ Hg)). reflexivity. Qed.

(* With distinct keys a lookup does not depend on the storage order. Every change of the table is,
   up to order, a change of the first entry: that is how the lemmas below see it. *)
Lemma perm_tab_ok ps ps' : Permutation ps ps' -> tab_ok ps -> tab_ok ps'.
Proof.
  intros Hp [H1 H2]. split.
  - eapply Permutation_NoDup; [apply Permutation_map, Hp|exact H1].
  - eapply Permutation_NoDup; [apply (Permutation_map (fun x => p_addr (snd x))), Hp|exact H2].
Qed.

Lemma get_peer_perm ps ps' q : NoDup (pids ps) -> Permutation ps ps' -> get_peer ps' q = get_peer ps q.
Proof.
  intros Hnd Hp. pose proof (Permutation_map fst Hp) as Hk.
  destruct (get_peer ps q) as [p|] eqn:E.
  - apply In_get_peer; [exact (Permutation_NoDup Hk Hnd)|]. apply (Permutation_in _ Hp), get_peer_In, E.
  - apply get_peer_None. apply get_peer_None in E. intros Hin. apply E, (Permutation_in _ (Permutation_sym Hk)), Hin.
Qed.

Lemma view_tab_perm ps ps' a : NoDup (addrs ps) -> Permutation ps ps' -> view_tab ps' a = view_tab ps a.
Proof.
  intros Hnd Hp. pose proof (Permutation_map (fun x => p_addr (snd x)) Hp) as Hk. unfold view_tab at 2.
  destruct (pid_from_addr ps a) as [[q x]|] eqn:E.
  - destruct (pid_from_addr_In _ _ _ _ E) as [Hin <-]. unfold view_tab.
    rewrite (In_pid_from_addr ps' q x (Permutation_NoDup Hk Hnd) (Permutation_in _ Hp Hin)). reflexivity.
  - apply view_tab_None. apply pid_from_addr_None in E. intros Hin. apply E, (Permutation_in _ (Permutation_sym Hk)), Hin.
Qed.

Lemma set_conn_pids ps pid c : pids (set_conn ps pid c) = pids ps.
Proof.
  induction ps as [|[q x] r IH]; [reflexivity|]. cbn [set_conn]. destruct (q =? pid); cbn [pids map fst] in *; [reflexivity|].
  f_equal. exact IH.
Qed.
Lemma set_conn_addrs ps pid c : addrs (set_conn ps pid c) = addrs ps.
Proof.
  induction ps as [|[q x] r IH]; [reflexivity|]. cbn [set_conn]. destruct (q =? pid); cbn [addrs map snd with_conn p_addr] in *; [reflexivity|].
  f_equal. exact IH.
Qed.
Lemma set_conn_length ps pid c : length (set_conn ps pid c) = length ps.
Proof. rewrite <- (map_length fst), <- (map_length fst ps). apply (f_equal (@length Z)), set_conn_pids. Qed.

Lemma set_conn_perm ps pid p c : get_peer ps pid = Some p ->
  exists rest, Permutation ps ((pid, p) :: rest) /\ Permutation (set_conn ps pid c) ((pid, with_conn p c) :: rest).
Proof.
  induction ps as [|[q y] r IH]; cbn [get_peer set_conn]; [discriminate|].
  destruct (q =? pid) eqn:E; intros H.
  - apply Z.eqb_eq in E. subst q. injection H as ->. exists r. split; apply Permutation_refl.
  - destruct (IH H) as [rest [P1 P2]]. exists ((q, y) :: rest).
    split; (eapply perm_trans; [apply perm_skip; eassumption|apply perm_swap]).
Qed.

Lemma get_peer_set_conn ps pid c p : get_peer ps pid = Some p -> get_peer (set_conn ps pid c) pid = Some (with_conn p c).
Proof.
  induction ps as [|[q y] r IH]; cbn [get_peer set_conn]; [discriminate|].
  destruct (q =? pid) eqn:E; intros H.
  - injection H as ->. cbn [get_peer]. rewrite E. reflexivity.
  - cbn [get_peer]. rewrite E. apply IH, H.
Qed.
Lemma get_peer_set_conn_other ps pid c q : q <> pid -> get_peer (set_conn ps pid c) q = get_peer ps q.
Proof.
  intros Hq. induction ps as [|[k y] r IH]; [reflexivity|]. cbn [set_conn]. destruct (k =? pid) eqn:E; cbn [get_peer].
  - apply Z.eqb_eq in E. subst k. replace (pid =? q) with false by (symmetry; apply Z.eqb_neq; congruence). reflexivity.
  - destruct (k =? q); [reflexivity|exact IH].
Qed.

Lemma split_last_app {A} (l : list A) : match split_last l with
                                         | None => l = []
                                         | Some (front, x) => l = front ++ [x]
                                         end.
Proof.
  induction l as [|y r IH]; [reflexivity|]. cbn [split_last]. destruct (split_last r) as [[front x]|]; subst r; reflexivity.
Qed.

Lemma swap_remove_perm ps pid p : get_peer ps pid = Some p ->
  exists ps', swap_remove ps pid = Some ps' /\ Permutation ps ((pid, p) :: ps').
Proof.
  induction ps as [|[q y] r IH]; cbn [get_peer swap_remove]; [discriminate|].
  destruct (q =? pid) eqn:E; intros H.
  - injection H as ->. apply Z.eqb_eq in E. subst q.
    pose proof (split_last_app r) as Hs. destruct (split_last r) as [[front x]|].
    + eexists. split; [reflexivity|]. subst r. apply perm_skip.
      apply Permutation_sym, Permutation_cons_append.
    + eexists. split; [reflexivity|]. subst r. apply Permutation_refl.
  - destruct (IH H) as [ps' [Hs Hp]]. rewrite Hs. eexists. split; [reflexivity|].
    apply (perm_trans (l' := (q, y) :: (pid, p) :: ps')); [apply perm_skip, Hp|apply perm_swap].
Qed.

Lemma swap_remove_None ps pid : get_peer ps pid = None -> swap_remove ps pid = None.
Proof.
  induction ps as [|[q y] r IH]; cbn [get_peer swap_remove]; [reflexivity|].
  destruct (q =? pid); [discriminate|]. intros H. rewrite (IH H). reflexivity.
Qed.

Lemma swap_remove_inv ps pid ps' : swap_remove ps pid = Some ps' ->
  exists p, get_peer ps pid = Some p /\ Permutation ps ((pid, p) :: ps').
Proof.
  intros Hs. destruct (get_peer ps pid) as [p|] eqn:Hg; [|rewrite (swap_remove_None _ _ Hg) in Hs; discriminate].
  destruct (swap_remove_perm ps pid p Hg) as [ps2 [Hs2 Hp]]. exists p. split; [reflexivity|congruence].
Qed.

(* the removed entry is the only one swap_remove looks at: a connection stored just before is lost with it *)
Lemma swap_remove_set_conn ps pid c : swap_remove (set_conn ps pid c) pid = swap_remove ps pid.
Proof.
  induction ps as [|[q y] r IH]; [reflexivity|]. cbn [set_conn]. destruct (q =? pid) eqn:E; cbn [swap_remove]; rewrite E; [reflexivity|].
  rewrite IH. reflexivity.
Qed.

Lemma swap_remove_pids ps pid ps' : NoDup (pids ps) -> swap_remove ps pid = Some ps' -> NoDup (pids ps') /\ ~ In pid (pids ps').
Proof.
  intros Hnd Hs. destruct (swap_remove_inv _ _ _ Hs) as [p [_ Hp]].
  pose proof (Permutation_NoDup (Permutation_map fst Hp) Hnd) as H. inversion H; split; assumption.
Qed.

Lemma get_peer_remove ps pid ps' q : NoDup (pids ps) -> swap_remove ps pid = Some ps' ->
  get_peer ps' q = if pid =? q then None else get_peer ps q.
Proof.
  intros Hnd Hs. destruct (swap_remove_inv _ _ _ Hs) as [p [_ Hp]].
  rewrite <- (get_peer_perm _ _ q Hnd Hp). cbn [get_peer]. destruct (pid =? q) eqn:E; [|reflexivity].
  apply Z.eqb_eq in E. subst q. apply get_peer_None, (swap_remove_pids _ _ _ Hnd Hs).
Qed.

Lemma get_peer_app ps pid q x : get_peer (ps ++ [(q, x)]) pid =
  match get_peer ps pid with Some p => Some p | None => if q =? pid then Some x else None end.
Proof.
  induction ps as [|[k y] r IH]; cbn [app get_peer]; [reflexivity|].
  destruct (k =? pid); [reflexivity|exact IH].
Qed.

(* Net::connect stores the first result of the new peer's connection right away *)
Lemma set_conn_app_new ps pid x c : get_peer ps pid = None -> set_conn (ps ++ [(pid, x)]) pid c = ps ++ [(pid, with_conn x c)].
Proof.
  induction ps as [|[q y] r IH]; cbn [get_peer set_conn app]; [rewrite Z.eqb_refl; reflexivity|].
  destruct (q =? pid); [discriminate|]. intros H. rewrite (IH H). reflexivity.
Qed.

Definition tab_upd (ps ps' : ptable) (a0 : addr) (s' : aslot) : Prop :=
  tab_ok ps' /\ forall a, view_tab ps' a = if a0 =? a then s' else view_tab ps a.

Lemma tab_upd_refl ps a0 : tab_ok ps -> tab_upd ps ps a0 (view_tab ps a0).
Proof. intros H. split; [exact H|]. intros a. destruct (a0 =? a) eqn:E; [apply Z.eqb_eq in E; subst a|]; reflexivity. Qed.

Lemma view_tab_head pid p r a :
  view_tab ((pid, p) :: r) a = if p_addr p =? a then Some (p_conn p, p_token p) else view_tab r a.
Proof. unfold view_tab. cbn [pid_from_addr]. destruct (p_addr p =? a); reflexivity. Qed.

Lemma upd_set_conn ps pid p c : tab_ok ps -> get_peer ps pid = Some p ->
  tab_upd ps (set_conn ps pid c) (p_addr p) (Some (c, p_token p)).
Proof.
  intros Hok Hg. destruct (set_conn_perm ps pid p c Hg) as [rest [P1 P2]].
  assert (Hok2 : tab_ok ((pid, with_conn p c) :: rest)) by exact (perm_tab_ok _ _ P1 Hok).
  split; [exact (perm_tab_ok _ _ (Permutation_sym P2) Hok2)|]. intros a.
  rewrite (view_tab_perm _ _ a (proj2 Hok2) (Permutation_sym P2)), <- (view_tab_perm _ _ a (proj2 Hok) P1), !view_tab_head.
  cbn [with_conn p_addr p_conn p_token]. destruct (p_addr p =? a); reflexivity.
Qed.

Lemma upd_remove ps pid p ps' : tab_ok ps -> get_peer ps pid = Some p -> swap_remove ps pid = Some ps' ->
  tab_upd ps ps' (p_addr p) None.
Proof.
  intros Hok Hg Hs. destruct (swap_remove_perm ps pid p Hg) as [ps2 [Hs2 Hp]]. rewrite Hs in Hs2. injection Hs2 as <-.
  pose proof (perm_tab_ok _ _ Hp Hok) as [Hp2 Ha2]. cbn [pids addrs map fst snd] in Hp2, Ha2.
  inversion Hp2 as [|? ? _ Hp']; subst. inversion Ha2 as [|? ? Hnia Ha']; subst.
  split; [split; assumption|]. intros a. rewrite <- (view_tab_perm _ _ a (proj2 Hok) Hp), view_tab_head.
  destruct (p_addr p =? a) eqn:E; [|reflexivity]. apply Z.eqb_eq in E. subst a. apply view_tab_None, Hnia.
Qed.

Lemma upd_new ps pid x : tab_ok ps -> view_tab ps (p_addr x) = None -> get_peer ps pid = None ->
  tab_upd ps (ps ++ [(pid, x)]) (p_addr x) (Some (p_conn x, p_token x)).
Proof.
  intros [Hp Ha] Hv Hg. pose proof (Permutation_cons_append ps (pid, x)) as Hperm.
  assert (Hok2 : tab_ok ((pid, x) :: ps)).
  { split; cbn [pids addrs map fst snd]; constructor; try assumption; [apply get_peer_None, Hg|apply view_tab_None, Hv]. }
  split; [exact (perm_tab_ok _ _ Hperm Hok2)|]. intros a. rewrite (view_tab_perm _ _ a (proj2 Hok2) Hperm). apply view_tab_head.
Qed.

Lemma new_peer_loop_vacant fuel : forall ps next pid next',
  new_peer_loop fuel ps next = Ok (pid, next') -> get_peer ps pid = None.
Proof.
  induction fuel as [|f IH]; intros ps next pid next'; cbn [new_peer_loop]; [discriminate|].
  destruct (get_peer ps next) eqn:E; [apply IH|]. intros H. injection H as <- _. exact E.
Qed.

Lemma new_peer_inv n a tok n' pid : new_peer n a tok = Ok (n', pid) ->
  get_peer (n_peers n) pid = None /\ n_peers n' = n_peers n ++ [(pid, peer_new a tok)] /\ n_accept n' = n_accept n.
Proof.
  unfold new_peer. intros H. apply bind_ok in H as [[q nx] [E H]]. injection H as <- <-.
  split; [eapply new_peer_loop_vacant, E|]. split; reflexivity.
Qed.

Lemma remove_peer_inv n pid n' : remove_peer n pid = Ok n' ->
  exists ps', swap_remove (n_peers n) pid = Some ps' /\ n' = with_peers n ps'.
Proof.
  unfold remove_peer. destruct (swap_remove (n_peers n) pid) as [ps'|]; [|discriminate].
  intros H. injection H as <-. exists ps'. split; reflexivity.
Qed.

Lemma remove_stored n pid c : remove_peer (with_peers n (set_conn (n_peers n) pid c)) pid = remove_peer n pid.
Proof. unfold remove_peer. cbn [with_peers n_peers n_next n_accept]. rewrite swap_remove_set_conn. reflexivity. Qed.

Lemma peer_call_inv n e pid p o o1 : peer_call n e pid p o = Ok o1 ->
  exists out, step (p_conn p) e o = Ok out /\ o1 = nmk (with_peers n (set_conn (n_peers n) pid (out_conn out)))
      (to_addr (p_addr p) (out_sent out)) (conn_events (p_addr p) pid (out_events out))
      (conn_warns (p_addr p) pid (out_warns out)) (out_res out) None.
Proof. unfold peer_call. intros H. apply bind_ok in H as [out [E H]]. injection H as <-. exists out. split; [exact E|reflexivity]. Qed.

Lemma feed_peer_inv n e a pid p r out : feed_peer n e a pid p r = Ok out ->
  exists o6 n', conn_feed_raw (p_conn p) e r = Ok o6 /\
    (if existsb is_disconnect (out_events o6) then remove_peer n pid = Ok n'
     else n' = with_peers n (set_conn (n_peers n) pid (out_conn o6))) /\
    out = nmk n' (to_addr a (out_sent o6)) (conn_events a pid (out_events o6)) (conn_warns a pid (out_warns o6)) ROk None.
Proof.
  unfold feed_peer. intros H. apply bind_ok in H as [o6 [E H]]. apply bind_ok in H as [n' [En H]]. injection H as <-.
  exists o6, n'. split; [exact E|]. split; [|reflexivity].
  destruct (existsb is_disconnect (out_events o6)); [rewrite remove_stored in En; exact En|injection En as <-; reflexivity].
Qed.

(* Net::tick visits the entries in storage order: a fact about the pass is proved entry by entry *)
Lemma tick_all_ind e (R : ptable -> ptable -> list (addr * dgram) -> Prop) :
  R [] [] [] ->
  (forall pid p out r r' s, step (p_conn p) e OpTick = Ok out -> tick_all e r = Ok (r', s) -> R r r' s ->
     R ((pid, p) :: r) ((pid, with_conn p (out_conn out)) :: r') (to_addr (p_addr p) (out_sent out) ++ s)) ->
  forall ps ps' s, tick_all e ps = Ok (ps', s) -> R ps ps' s.
Proof.
  intros H0 Hs. induction ps as [|[pid p] r IH]; intros ps' s H; cbn [tick_all] in H.
  - injection H as <- <-. exact H0.
  - apply bind_ok in H as [out [Eo H]]. apply bind_ok in H as [[r' s'] [Er H]]. injection H as <- <-.
    apply Hs; [exact Eo|exact Er|apply IH, Er].
Qed.

Lemma tick_all_keys e ps ps' s : tick_all e ps = Ok (ps', s) -> pids ps' = pids ps /\ addrs ps' = addrs ps.
Proof.
  intros Ht. pattern ps, ps', s. apply (tick_all_ind e); [split; reflexivity| |exact Ht].
  clear. intros pid p out r r' s _ _ [Hp Ha]. unfold pids, addrs in *. cbn [map fst snd with_conn p_addr]. rewrite Hp, Ha. split; reflexivity.
Qed.
Lemma tick_all_tab_ok e ps ps' s : tick_all e ps = Ok (ps', s) -> tab_ok ps -> tab_ok ps'.
Proof. intros Ht. unfold tab_ok. destruct (tick_all_keys _ _ _ _ Ht) as [-> ->]. exact (fun H => H). Qed.

(* what is addressed to a0 shows at a0 and at no other address: sent_to, events_of, warns_of alike *)
Lemma filter_at {A B} (addr_of : A -> addr) (f : A -> B) a0 a l : Forall (fun x => addr_of x = a0) l ->
  map f (filter (fun x => addr_of x =? a) l) = if a0 =? a then map f l else [].
Proof.
  induction 1 as [|x r Hx _ IH]; cbn [filter map]; [destruct (a0 =? a); reflexivity|].
  rewrite Hx. destruct (a0 =? a); cbn [map]; [f_equal|]; exact IH.
Qed.

Lemma to_addr_at a ds : Forall (fun x => fst x = a) (to_addr a ds) /\ map snd (to_addr a ds) = ds.
Proof. unfold to_addr. split; [apply Forall_map, Forall_forall; reflexivity|rewrite map_map; apply map_id]. Qed.
Lemma conn_events_at a pid evs : Forall (fun ev => ne_addr ev = a) (conn_events a pid evs) /\ map ne_kind (conn_events a pid evs) = map NKConn evs.
Proof. unfold conn_events. split; [apply Forall_map, Forall_forall; reflexivity|rewrite map_map; reflexivity]. Qed.
Lemma conn_warns_at a pid ws : Forall (fun w => nwarn_addr w = a) (conn_warns a pid ws) /\ map nwarn_kind (conn_warns a pid ws) = map (pair true) ws.
Proof. unfold conn_warns. split; [apply Forall_map, Forall_forall; reflexivity|rewrite map_map; reflexivity]. Qed.

Lemma sent_to_addr a a0 ds : sent_to a (to_addr a0 ds) = if a0 =? a then ds else [].
Proof. destruct (to_addr_at a0 ds) as [H E]. rewrite <- E at 2. exact (filter_at fst snd a0 a _ H). Qed.
Lemma sent_to_app a l1 l2 : sent_to a (l1 ++ l2) = sent_to a l1 ++ sent_to a l2.
Proof. unfold sent_to. rewrite filter_app, map_app. reflexivity. Qed.
