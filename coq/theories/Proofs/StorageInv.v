(* C13: the invariant of the link (sender Storage + channel + Manager) and its preservation by
   every label.  Every snapshot the receiving side stores or hands out for tick t is a copy
   (`like`) of the one the sender built for t; every message in flight belongs to a transfer the
   sender really made; a transfer in progress in the DeltaReceiver is such a transfer. *)
From LibTw2 Require Import Base.Res Model.Receiver Proofs.ReceiverBase Proofs.ReceiverChunks
  Proofs.ReceiverSteps Proofs.ReceiverXfer Proofs.ReceiverProofs Proofs.StorageRecv.
From LibTw2 Require Import Model.Varint Model.Packer Model.Snap Proofs.SnapBase Proofs.SnapRep Proofs.SnapDelta
  Proofs.SnapApply Proofs.SnapTotal Proofs.SnapTotal2 Proofs.SnapWire Proofs.SnapWireInst
  Proofs.SnapReg Proofs.SnapObs Proofs.SnapBuilder Proofs.SnapBuilder2 Proofs.SnapC10.
From LibTw2 Require Import Model.Storage Proofs.StorageSnap Proofs.StorageBase.
From Coq Require Import ZArith List Lia Bool ZifyBool ZifyNat.
Import ListNotations.
Open Scope Z_scope.

Section Inv.
Variable sz : osize.

Definition hist := list (Z * hrec).

Definition x_of (t : Z) (e : hrec) : xfer :=
  {| x_tick := t; x_base := h_base e; x_crc := Snap.crc (sn_raw (h_snap e)); x_data := h_bytes e |}.

Definition genuine (h : hist) (x : xfer) : Prop :=
  exists e, aget (x_tick x) h = Some e /\ x = x_of (x_tick x) e.

Lemma genuine_uniq h x y : genuine h x -> genuine h y -> x_tick x = x_tick y -> x = y.
Proof. intros (e & He & ->) (e' & He' & ->) Ht. cbn [x_tick x_of] in *. rewrite Ht in He. congruence. Qed.

(* a snapshot the receiving side may hold for the base tick b *)
Definition base_like (h : hist) (b : Z) (A' : snap) : Prop :=
  (b = -1 /\ A' = snap_empty) \/ (0 <= b /\ exists eb, aget b h = Some eb /\ like (h_snap eb) A').

Record entry_ok (h : hist) (t : Z) (e : hrec) : Prop := {
  eo_tick : 0 <= t <= i32_max;
  eo_base : -1 <= h_base e < t;
  eo_built : built (h_snap e);
  eo_len : Z.of_nat (length (h_bytes e)) <= 65536;
  eo_ne : h_bytes e <> [];
  eo_apply : exists d, delta_read_bytes sz (h_bytes e) = (Ok d, [])
    /\ forall A', base_like h (h_base e) A' ->
         exists X, snap_read_with_delta A' d = (Ok X, []) /\ like (h_snap e) X
}.

Definition hist_ok (h : hist) : Prop :=
  forall t e, aget t h = Some e -> entry_ok h t e /\ t <= hist_last h.

Lemma aget_cons_other {V} k k' (v : V) l : k <> k' -> aget k ((k', v) :: l) = aget k l.
Proof. intros H. cbn [aget]. replace (k =? k') with false by lia. reflexivity. Qed.

Lemma aget_cons_same {V} k (v : V) l : aget k ((k, v) :: l) = Some v.
Proof. cbn [aget]. rewrite Z.eqb_refl. reflexivity. Qed.

Lemma hist_ok_nil : hist_ok [].
Proof. intros t e H. discriminate. Qed.

(* the history only grows, at the front, with a larger tick: older bases stay what they were *)
Lemma base_like_cons h t e b A' : b < t -> base_like ((t, e) :: h) b A' -> base_like h b A'.
Proof.
  intros Hlt [HB|(Hb & eb & Heb & Hl)]; [left; exact HB|right].
  rewrite aget_cons_other in Heb by lia. eauto.
Qed.

Lemma hist_ok_cons h t e : hist_ok h -> hist_last h < t -> entry_ok ((t, e) :: h) t e -> hist_ok ((t, e) :: h).
Proof.
  intros Hok Hlt He t' e' H. destruct (Z.eq_dec t' t) as [->|Hne].
  - rewrite aget_cons_same in H. injection H as <-. split; [exact He|cbn [hist_last]; lia].
  - rewrite aget_cons_other in H by exact Hne. destruct (Hok t' e' H) as [E Hle].
    split; [|cbn [hist_last]; lia].
    destruct E as [E1 E2 E3 E4 E5 (d & Ed & Hap)]. split; try assumption.
    exists d. split; [exact Ed|]. intros A' HB. apply Hap, (base_like_cons _ t e); [lia|exact HB].
Qed.

Lemma aget_hist_cons h t e t' e' : hist_ok h -> hist_last h < t -> aget t' h = Some e' ->
  aget t' ((t, e) :: h) = Some e'.
Proof. intros Hok Hlt He'. destruct (Hok _ _ He') as [_ Hle]. rewrite aget_cons_other by lia. exact He'. Qed.

Record sinv (sd : sender) : Prop := {
  si_hist : hist_ok (sd_hist sd);
  si_snaps : forall t X, In (t, X) (st_snaps (sd_store sd)) ->
               exists e, aget t (sd_hist sd) = Some e /\ h_snap e = X;
  si_free : forall f, In f (st_free (sd_store sd)) -> exists X, f = FClean X /\ built X;
  si_dtick : forall d, st_dtick (sd_store sd) = Some d ->
               0 <= d /\ exists X, last_opt (st_snaps (sd_store sd)) = Some (d, X)
}.

Lemma sinv_init t0 : sinv (sender_init t0).
Proof.
  split; cbn [sender_init sd_hist sd_store storage_new st_snaps st_free st_dtick].
  - apply hist_ok_nil.
  - intros t X [].
  - intros f [].
  - intros d H. discriminate.
Qed.

Lemma sinv_snap_built sd t X : sinv sd -> In (t, X) (st_snaps (sd_store sd)) -> built X.
Proof.
  intros I Hin. destruct (si_snaps _ I t X Hin) as (e & He & <-).
  destruct (si_hist _ I t e He) as [E _]. apply (eo_built _ _ _ E).
Qed.

Lemma set_delta_tick_sinv sd v : sinv sd ->
  sinv {| sd_store := fst (set_delta_tick (sd_store sd) v); sd_tick := sd_tick sd; sd_world := sd_world sd;
          sd_hist := sd_hist sd |}.
Proof.
  intros I. unfold set_delta_tick. destruct (v <? 0) eqn:Hneg.
  - cbn [fst]. split; cbn [sd_store sd_hist st_snaps st_free st_dtick]; try apply I. intros d H. discriminate.
  - destruct (split_old v (st_snaps (sd_store sd))) as [kept old] eqn:Es.
    destruct (split_old_incl _ _ _ _ Es) as [Hk Ho].
    assert (Hfree : forall f, In f (push_free old (st_free (sd_store sd))) -> exists X, f = FClean X /\ built X).
    { intros f Hf. apply push_free_In in Hf. destruct Hf as [Hf|(t & X & Hin & ->)]; [apply (si_free _ I f Hf)|].
      exists X. split; [reflexivity|]. apply (sinv_snap_built sd t X I). apply Ho, Hin. }
    assert (Hsn : forall t X, In (t, X) kept -> exists e, aget t (sd_hist sd) = Some e /\ h_snap e = X).
    { intros t X Hin. apply (si_snaps _ I). apply Hk, Hin. }
    destruct (last_opt kept) as [[t X]|] eqn:El; [destruct (t =? v) eqn:Et|]; cbn [fst];
      split; cbn [sd_store sd_hist st_snaps st_free st_dtick]; try apply I; try assumption; try (intros d H; discriminate).
    intros d [= <-]. split; [lia|]. exists X. replace v with t by lia. exact El.
Qed.

Lemma new_builder_sinv sd : sinv sd ->
  exists st1 b0, new_builder (sd_store sd) = (st1, Ok b0) /\ bgood b0
    /\ st_snaps st1 = st_snaps (sd_store sd) /\ st_dtick st1 = st_dtick (sd_store sd)
    /\ incl (st_free st1) (st_free (sd_store sd)).
Proof.
  intros I. unfold new_builder. destruct (st_free (sd_store sd)) as [|f fr] eqn:Ef.
  - destruct (built_recycle snap_empty built_empty) as (b & Eb & Gb). rewrite Eb.
    exists (sd_store sd), b. split; [reflexivity|]. split; [exact Gb|]. split; [reflexivity|]. split; [reflexivity|].
    intros z Hz. rewrite Ef in Hz. destruct Hz.
  - destruct (si_free _ I f) as (X & -> & HX); [rewrite Ef; left; reflexivity|].
    destruct (built_recycle X HX) as (b & Eb & Gb). rewrite Eb.
    eexists _, b. split; [reflexivity|]. cbn [st_snaps st_dtick st_free].
    split; [exact Gb|]. split; [reflexivity|]. split; [reflexivity|].
    intros z Hz. right. exact Hz.
Qed.

Lemma delta_write_bytes_len d cap bs : delta_write_bytes sz d cap = Ok bs -> (length bs <= cap)%nat.
Proof.
  unfold delta_write_bytes. destruct (delta_ints sz d) as [l| | |]; try discriminate.
  destruct (ints_to_bytes l) as [b| | |]; try discriminate.
  destruct (cap <? length b)%nat eqn:E; [discriminate|]. intros [= <-]. lia.
Qed.

(* unfolded in the goal: from an unfolding in a hypothesis Qed has to compare Z.to_nat 65536 with itself in unary *)
Lemma SENDER_BUFFER_Z : Z.of_nat SENDER_BUFFER = 65536.
Proof. unfold SENDER_BUFFER. apply Z2Nat.id. discriminate. Qed.

Lemma sender_buffer_fits d bs : delta_write_bytes sz d SENDER_BUFFER = Ok bs -> Z.of_nat (length bs) <= 65536.
Proof. intros H. apply delta_write_bytes_len, Nat2Z.inj_le in H. rewrite SENDER_BUFFER_Z in H. exact H. Qed.

Lemma add_snap_base st tick X base : sender_base st = Some base ->
  add_snap st tick X
  = let* d := create_raw (sn_raw base) (sn_raw X) in
    Ok ({| st_snaps := (tick, X) :: st_snaps st; st_free := st_free st; st_ack := st_ack st;
           st_dtick := st_dtick st |}, d).
Proof.
  unfold add_snap, sender_base. destruct (st_dtick st); [|intros [= <-]; reflexivity].
  destruct (st_snaps st) as [|y l]; [discriminate|]. rewrite (last_opt_cons (tick, X)) by discriminate.
  destruct (last_opt (y :: l)) as [[t0 b]|]; [intros [= <-]; reflexivity|discriminate].
Qed.

Lemma sender_send_eq st tick w st1 b0 b base d bs :
  new_builder st = (st1, Ok b0) -> build_world b0 w = Ok b -> 0 <= tick <= i32_max ->
  sender_base st1 = Some base -> create_raw (sn_raw base) (sn_raw (builder_finish b)) = Ok d ->
  delta_write_bytes sz d SENDER_BUFFER = Ok bs ->
  sender_send sz st tick w
  = Ok ({| st_snaps := (tick, builder_finish b) :: st_snaps st1; st_free := st_free st1; st_ack := st_ack st1;
           st_dtick := st_dtick st1 |},
        {| sn_tick := tick; sn_base := match st_dtick st1 with Some t => t | None => -1 end;
           sn_snap := builder_finish b; sn_crc := Snap.crc (sn_raw (builder_finish b)); sn_delta := d; sn_bytes := bs;
           sn_msgs := xfer_msgs tick (wrap32 (tick - match st_dtick st1 with Some t => t | None => -1 end))
                        (Snap.crc (sn_raw (builder_finish b))) bs |}).
Proof.
  intros Enb Ebw Ht Esb Ecr Ew. unfold sender_send. rewrite Enb. cbn [bind]. rewrite Ebw. cbn [bind].
  replace (negb ((0 <=? tick) && (tick <=? i32_max))) with false by lia.
  rewrite (add_snap_base _ _ _ _ Esb), Ecr. cbn [bind]. rewrite Ew. cbn [bind].
  rewrite delta_chunks_spec; [reflexivity|].
  pose proof (sender_buffer_fits d bs Ew) as Hlen. pose proof (nparts_le bs 100) as Hnl.
  rewrite PACK_eq in Hnl. unfold i32_max. lia.
Qed.

Lemma sinv_base sd : sinv sd ->
  let bt := match st_dtick (sd_store sd) with Some t => t | None => -1 end in
  exists base, sender_base (sd_store sd) = Some base /\ built base
    /\ (bt = -1 \/ 0 <= bt <= hist_last (sd_hist sd))
    /\ forall A', base_like (sd_hist sd) bt A' -> like base A'.
Proof.
  intros I. cbv zeta. unfold sender_base. destruct (st_dtick (sd_store sd)) as [d|] eqn:Ed.
  - destruct (si_dtick _ I d Ed) as (Hd0 & Xb & El). rewrite El.
    destruct (si_snaps _ I d Xb (last_opt_In _ _ El)) as (eb & Heb & <-).
    destruct (si_hist _ I d eb Heb) as [Eeb Hle].
    exists (h_snap eb). split; [reflexivity|]. split; [apply (eo_built _ _ _ Eeb)|]. split; [right; lia|].
    intros A' [(Hb1 & _)|(_ & eb' & Heb' & HL)]; [lia|]. rewrite Heb in Heb'. injection Heb' as <-. exact HL.
  - exists snap_empty. split; [reflexivity|]. split; [apply built_empty|]. split; [left; reflexivity|].
    intros A' [(_ & ->)|(Hb0 & _)]; [apply like_refl, good_empty|lia].
Qed.

(* send_snapshots: under the caller's obligations it succeeds, and what it sends is a transfer every
   receiver holding a copy of the announced base turns into a copy of the new snapshot *)
Theorem sender_send_ok sd : sinv sd -> send_api_ok sz sd = true ->
  exists st' x,
    sender_send sz (sd_store sd) (sd_tick sd) (sd_world sd) = Ok (st', x)
    /\ sn_tick x = sd_tick sd
    /\ hist_last (sd_hist sd) < sd_tick sd
    /\ let e := {| h_snap := sn_snap x; h_base := sn_base x; h_bytes := sn_bytes x |} in
       sn_msgs x = x_msgs (x_of (sd_tick sd) e)
       /\ sinv {| sd_store := st'; sd_tick := sd_tick sd; sd_world := sd_world sd;
                  sd_hist := (sd_tick sd, e) :: sd_hist sd |}.
Proof.
  intros I Hapi. unfold send_api_ok in Hapi.
  destruct (new_builder_sinv sd I) as (st1 & b0 & Enb & Gb0 & Esn & Edt & Hfr).
  rewrite Enb in Hapi.
  apply andb_true_iff in Hapi. destruct Hapi as [Hapi Hrest].
  apply andb_true_iff in Hapi. destruct Hapi as [Hapi Hitems].
  assert (Hlast : hist_last (sd_hist sd) < sd_tick sd) by lia.
  assert (Ht0 : 0 <= sd_tick sd <= i32_max) by lia. clear Hapi.
  pose proof (build_world_bgood (sd_world sd) b0 Gb0 Hitems) as Hbw.
  destruct (build_world b0 (sd_world sd)) as [b|eb|sb|] eqn:Ebw; try contradiction; [|discriminate].
  assert (HX : built (builder_finish b)) by (exists b; split; [exact Hbw|reflexivity]).
  destruct (built_facts _ HX) as (GX & _ & EcX).
  apply andb_true_iff in Hrest. destruct Hrest as [Hsizes Hrest].
  destruct (sinv_base sd I) as (base & Esb & Hbb & Hbt & Hlike). cbv zeta in Hbt, Hlike. rewrite <- Edt in Hbt, Hlike.
  assert (Esb1 : sender_base st1 = Some base) by (unfold sender_base in *; rewrite Esn, Edt; exact Esb).
  rewrite Esb1 in Hrest. destruct (built_facts base Hbb) as (Gbase & _ & _).
  apply andb_true_iff in Hrest. destruct Hrest as [Hk09 Hfit]. apply negb_true_iff in Hk09.
  destruct (send_recv_core sz base _ Gbase GX EcX Hk09 Hsizes) as (d & l & Ecr & Edi & Hli & Hl3 & Eib & Erd & Hap).
  rewrite Ecr in Hfit.
  pose proof (delta_write_bytes_enc sz d l SENDER_BUFFER Edi Eib) as Ew. rewrite Ew in Hfit.
  destruct (SENDER_BUFFER <? length (enc l))%nat; [discriminate|]. clear Hfit.
  eexists _, _. split; [apply (sender_send_eq _ _ _ _ _ _ _ _ _ Enb Ebw Ht0 Esb1 Ecr Ew)|].
  cbn [sn_tick sn_snap sn_base sn_bytes sn_msgs].
  split; [reflexivity|]. split; [exact Hlast|]. split; [reflexivity|].
  set (bt := match st_dtick st1 with Some t => t | None => -1 end) in *.
  set (e := {| h_snap := builder_finish b; h_base := bt; h_bytes := enc l |}).
  assert (Hbt' : -1 <= bt < sd_tick sd) by (clear - Hbt Hlast Ht0; lia).
  assert (Hentry : entry_ok ((sd_tick sd, e) :: sd_hist sd) (sd_tick sd) e).
  { split; cbn [e h_snap h_base h_bytes]; try assumption.
    - apply (sender_buffer_fits d (enc l) Ew).
    - intros E0. pose proof (enc_length l Hli) as Hel. rewrite E0 in Hel. cbn [length] in Hel.
      clear - Hel Hl3. lia.
    - exists d. split; [exact Erd|]. intros A' HB.
      apply Hap, Hlike, (base_like_cons _ (sd_tick sd) e); [apply Hbt'|exact HB]. }
  split; cbn [sd_store sd_hist st_snaps st_free st_dtick].
  - apply hist_ok_cons; [apply I|exact Hlast|exact Hentry].
  - intros t Y [[= <- <-]|Hin].
    + exists e. split; [apply aget_cons_same|reflexivity].
    + rewrite Esn in Hin. destruct (si_snaps _ I t Y Hin) as (e' & He' & HY).
      exists e'. split; [apply aget_hist_cons; [apply I|exact Hlast|exact He']|exact HY].
  - intros f Hf. apply (si_free _ I). apply Hfr, Hf.
  - intros dd Hd. rewrite Edt in Hd. destruct (si_dtick _ I dd Hd) as (H0 & Y & El). split; [exact H0|].
    exists Y. rewrite Esn. rewrite last_opt_cons; [exact El|]. intros E0. rewrite E0 in El. discriminate.
Qed.

Definition snaps_like (h : hist) (l : list (Z * snap)) : Prop :=
  forall t X, In (t, X) l -> exists e, aget t h = Some e /\ like (h_snap e) X.

Record minv (h : hist) (mg : manager) : Prop := {
  mi_recv : rinv (genuine h) (m_recv mg);
  mi_snaps : snaps_like h (st_snaps (m_store mg));
  mi_seen : forall t, newest_seen (m_recv mg) = Some t -> t <= hist_last h
}.

Lemma minv_init h : minv h manager_new.
Proof. split; [apply rinv_idle; reflexivity|intros t X []|intros t H; discriminate]. Qed.

Lemma add_delta_genuine h st t e d :
  hist_ok h -> snaps_like h (st_snaps st) -> aget t h = Some e ->
  delta_read_bytes sz (h_bytes e) = (Ok d, []) ->
  let r := add_delta st (Some (Snap.crc (sn_raw (h_snap e)))) (h_base e) t d in
  snaps_like h (st_snaps (fst r)) /\ snd (snd r) = []
  /\ match fst (snd r) with
     | Ok X => like (h_snap e) X
     | Err e' => e' = SOldDelta \/ e' = SUnknownSnap
     | _ => False
     end.
Proof.
  intros Hok Hsn He Ed. destruct (Hok t e He) as [E _].
  destruct (eo_apply _ _ _ E) as (d' & Ed' & Hap). rewrite Ed in Ed'. injection Ed' as <-.
  pose proof (eo_base _ _ _ E) as Hb. cbv zeta.
  assert (Hw : weird_warn (h_base e) = []).
  { unfold weird_warn. destruct (h_base e <? 0) eqn:E0; [|reflexivity]. replace (h_base e =? -1) with true by lia. reflexivity. }
  destruct (add_delta_cases st (Some (Snap.crc (sn_raw (h_snap e)))) (h_base e) t d)
    as [[_ ->]|(_ & snaps1 & free1 & Hincl & [[_ ->]|(b & Hbase & H)])]; cbn [fst snd st_snaps].
  - split; [exact Hsn|]. split; [reflexivity|]. left. reflexivity.
  - split; [intros t0 X0 Hin; apply Hsn, Hincl, Hin|]. split; [reflexivity|]. right. reflexivity.
  - (* the base the storage finds is a copy of the sender's: the delta applies and the checksum fits *)
    assert (HBL : base_like h (h_base e) b).
    { destruct (0 <=? h_base e) eqn:Hb0; [right; split; [lia|apply Hsn, Hincl, Hbase]|left; split; [lia|exact Hbase]]. }
    destruct (Hap b HBL) as (X & Eap & HL). destruct (like_same _ _ HL) as (_ & _ & Hcrc & _).
    rewrite Eap, Hcrc, Z.eqb_refl, Hw in H. destruct H as (st' & -> & _ & _ & Hincl'). cbn [fst snd].
    split; [|split; [reflexivity|exact HL]].
    intros t0 X0 Hin. apply Hincl' in Hin. destruct Hin as [[= <- <-]|Hin]; [exists e; split; assumption|apply Hsn, Hincl, Hin].
Qed.

(* the only ways a message the sender made can be refused: it is old, a duplicate part, part of a
   transfer of more than 32 parts, or its base is not (any longer) held - never a checksum failure,
   never a delta that does not parse or apply *)
Definition refusal (e : merr) : bool :=
  match e with
  | MReceiver OldDelta | MReceiver DuplicatePart | MReceiver InvalidNumParts
  | MStorage SOldDelta | MStorage SUnknownSnap => true
  | _ => false
  end.

Definition only_receiver_warnings (ws : list mwarn) : bool :=
  forallb (fun w => match w with MWReceiver _ => true | _ => false end) ws.

Lemma receiver_warnings_only rws : only_receiver_warnings (map MWReceiver rws) = true.
Proof. induction rws; [reflexivity|assumption]. Qed.

Theorem manager_feed_genuine h mg x m :
  hist_ok h -> minv h mg -> genuine h x -> In m (x_msgs x) ->
  let r := manager_feed sz mg m in
  minv h (fst r) /\ msg_tick m = x_tick x /\ only_receiver_warnings (snd (snd r)) = true
  /\ match fst (snd r) with
     | Ok (Some X) => exists e, aget (x_tick x) h = Some e /\ like (h_snap e) X
     | Ok None => True
     | Err e => refusal e = true
     | _ => False
     end.
Proof.
  intros Hok [Hr Hs Hseen] Hg Hin. pose proof Hg as (e & He & Ex).
  destruct (Hok _ e He) as [E Hle].
  assert (Hb32 : is_i32 (x_base x) = true).
  { rewrite Ex. cbn [x_base x_of]. pose proof (eo_base _ _ _ E). pose proof (eo_tick _ _ _ E).
    unfold is_i32, i32_min, i32_max in *. lia. }
  destruct (recv_genuine (genuine h) (genuine_uniq h) (m_recv mg) x m Hr Hg Hb32 Hin) as (Hr' & Hrd).
  pose proof (proj1 (xfer_msgs_facts _ _ _ _ _ Hin)) as Htick.
  assert (Hseen' : forall t, newest_seen (fst (recv_step (m_recv mg) m)) = Some t -> t <= hist_last h).
  { intros t Ht. destruct (newest_seen_step (m_recv mg) m) as [Hn|Hn]; rewrite Hn in Ht.
    - apply Hseen, Ht.
    - injection Ht as <-. rewrite Htick. exact Hle. }
  cbv zeta. unfold manager_feed.
  destruct (recv_step (m_recv mg) m) as [r' [res rws]]. cbn [fst snd] in Hr', Hrd, Hseen'.
  destruct res as [[rd|]|e0|s0|]; try contradiction.
  - subst rd.
    unfold mgr_add_delta, x_rd, delivered. cbn [rd_data_and_crc rd_delta_tick rd_tick].
    rewrite Ex. cbn [x_data x_of x_crc x_base x_tick].
    destruct (h_bytes e) as [|b0 bs0] eqn:Eb; [exfalso; apply (eo_ne _ _ _ E), Eb|]. rewrite <- Eb.
    destruct (eo_apply _ _ _ E) as (d & Ed & _). rewrite Ed.
    destruct (add_delta_genuine h (m_store mg) (x_tick x) e d Hok Hs He Ed) as (Hs' & HW & HX).
    destruct (add_delta (m_store mg) (Some (Snap.crc (sn_raw (h_snap e)))) (h_base e) (x_tick x) d) as [st' [r2 ws2]].
    cbn [fst snd] in *. subst ws2. cbn [map app]. rewrite app_nil_r.
    split; [split; assumption|]. split; [exact Htick|]. split; [apply receiver_warnings_only|].
    destruct r2 as [X|e2|s2|]; cbn [lift_st]; try contradiction; [eauto|destruct HX as [-> | ->]; reflexivity].
  - split; [split; assumption|]. split; [exact Htick|]. split; [apply receiver_warnings_only|exact I].
  - split; [split; assumption|]. split; [exact Htick|]. split; [apply receiver_warnings_only|].
    destruct Hrd as [->|[->|[-> _]]]; reflexivity.
Qed.

Record linv (s : link) : Prop := {
  li_sender : sinv (l_sender s);
  li_mgr : minv (sd_hist (l_sender s)) (l_mgr s);
  li_chan : forall m, In m (l_chan s) -> exists x, genuine (sd_hist (l_sender s)) x /\ In m (x_msgs x);
  li_acc : snaps_like (sd_hist (l_sender s)) (l_accepted s)
}.

Lemma linv_init t0 : linv (link_init t0).
Proof.
  split; cbn [link_init l_sender l_mgr l_chan l_accepted].
  - apply sinv_init.
  - apply minv_init.
  - intros m [].
  - intros t X [].
Qed.

Lemma genuine_cons h t e x : hist_ok h -> hist_last h < t -> genuine h x -> genuine ((t, e) :: h) x.
Proof. intros Hok Hlt (e' & He' & Ex). exists e'. split; [apply aget_hist_cons; assumption|exact Ex]. Qed.

Lemma snaps_like_cons h t e l : hist_ok h -> hist_last h < t -> snaps_like h l -> snaps_like ((t, e) :: h) l.
Proof.
  intros Hok Hlt Hl t0 X Hin. destruct (Hl t0 X Hin) as (e' & He' & HL). exists e'.
  split; [apply aget_hist_cons; assumption|exact HL].
Qed.

Theorem lstep_linv s l : linv s -> api_ok sz s l = true ->
  exists s' o, lstep sz s l = Ok (s', o) /\ linv s'.
Proof.
  intros [Is Im Ic Ia] Hapi. destruct l as [w| |k|k| |k|k|v| |mi]; cbn [lstep api_ok] in *; try discriminate;
    try (destruct (nth_error _ k) as [x|] eqn:En);
    (* the labels that change nothing the invariant speaks of *)
    try (eexists _, _; split; [reflexivity|]; split; assumption).
  - eexists _, _. split; [reflexivity|]. split; cbn [l_sender l_mgr l_chan l_accepted sd_hist]; try assumption.
    split; cbn [sd_hist sd_store]; apply Is.
  - destruct (sender_send_ok (l_sender s) Is Hapi) as (st' & x & Es & Ht & Hlt & Hm & Is').
    rewrite Es. cbn [bind]. eexists _, _. split; [reflexivity|].
    pose proof (si_hist _ Is) as Hok.
    rewrite Ht. split; cbn [l_sender l_mgr l_chan l_accepted sd_hist].
    + exact Is'.
    + destruct Im as [Hr Hsn Hseen]. split.
      * apply (rinv_mono (genuine (sd_hist (l_sender s)))); [|exact Hr]. intros y Hy. apply genuine_cons; assumption.
      * apply snaps_like_cons; assumption.
      * intros t Hnt. specialize (Hseen t Hnt). cbn [hist_last]. lia.
    + intros m Hin. apply in_app_or in Hin. destruct Hin as [Hin|Hin].
      * destruct (Ic m Hin) as (y & Hy & Hmy). exists y. split; [apply genuine_cons; assumption|exact Hmy].
      * rewrite Hm in Hin. eexists. split; [|exact Hin].
        eexists. cbn [x_tick x_of]. split; [apply aget_cons_same|reflexivity].
    + apply snaps_like_cons; assumption.
  - apply nth_error_In in En. destruct (Ic x En) as (y & Hg & Hmx).
    destruct (manager_feed_genuine _ (l_mgr s) y x (si_hist _ Is) Im Hg Hmx) as (Im' & Htick & _ & HX).
    unfold deliver.
    destruct (manager_feed sz (l_mgr s) x) as [mg' [r ws]]. cbn [fst snd] in *.
    destruct r as [[X|]|e0|s0|]; try contradiction; eexists _, _; (split; [reflexivity|]);
      split; cbn [l_sender l_mgr l_chan l_accepted]; try assumption.
    intros t0 X0 [[= <- <-]|Hin]; [|apply Ia, Hin]. rewrite Htick. exact HX.
  - eexists _, _. split; [reflexivity|]. split; cbn [l_sender l_mgr l_chan l_accepted]; try assumption.
    intros m Hin. apply Ic. apply (remove_nth_incl _ _ _ Hin).
  - pose proof (set_delta_tick_sinv (l_sender s) x Is) as Is'.
    destruct (set_delta_tick (sd_store (l_sender s)) x) as [st' [r weird]]. cbn [fst] in Is'.
    eexists _, _. split; [reflexivity|]. split; cbn [l_sender l_mgr l_chan l_accepted sd_hist]; assumption.
  - eexists _, _. split; [reflexivity|]. split; cbn [l_sender l_mgr l_chan l_accepted]; try assumption.
    destruct Im as [[Hwf _] _ _]. split; cbn [manager_reset m_recv m_store storage_reset st_snaps].
    + apply rinv_idle; reflexivity.
    + intros t X [].
    + intros t H. discriminate.
Qed.

Theorem deliver_refusals s k s' tick r ws ack : linv s ->
  lstep sz s (Deliver k) = Ok (s', ODeliver tick (r, ws) ack) ->
  (forall e, r = Err e -> refusal e = true) /\ only_receiver_warnings ws = true.
Proof.
  intros [Is Im Ic Ia]. cbn [lstep]. destruct (nth_error (l_chan s) k) as [m|] eqn:En; [|discriminate].
  apply nth_error_In in En. destruct (Ic m En) as (x & Hg & Hmx).
  destruct (manager_feed_genuine _ (l_mgr s) x m (si_hist _ Is) Im Hg Hmx) as (_ & _ & HW & HE).
  unfold deliver. destruct (manager_feed sz (l_mgr s) m) as [mg' [r0 ws0]]. cbn [fst snd] in *.
  destruct r0 as [[X|]|e0|s0|]; try discriminate; intros [= _ _ <- <- _]; (split; [|exact HW]); intros e [= <-]; exact HE.
Qed.


Lemma add_delta_full st crc tick d X : front_tick st < tick ->
  snap_read_with_delta snap_empty d = (Ok X, []) -> crc = Snap.crc (sn_raw X) ->
  exists st', add_delta st (Some crc) (-1) tick d = (st', (Ok X, [])) /\ st_ack st' = Some tick.
Proof.
  intros Hf Eap ->.
  destruct (add_delta_cases st (Some (Snap.crc (sn_raw X))) (-1) tick d)
    as [[Hle _]|(_ & snaps1 & free1 & _ & [[H0 _]|(b & Hb & H)])]; try lia.
  cbn in Hb. subst b. rewrite Eap, Z.eqb_refl in H. destruct H as (st' & E & Hack & _). eauto.
Qed.

(* after a SendTick whose delta is taken against the empty snapshot (the client acknowledged nothing,
   or its acknowledgement was cleared and -1 came through) and fits one message: delivering that
   message - whatever else has happened on the link - makes the Manager accept the snapshot and
   acknowledge its tick *)
Theorem fresh_single_accepted s s1 x :
  linv s -> api_ok sz s SendTick = true -> lstep sz s SendTick = Ok (s1, OSent x) ->
  sn_base x = -1 -> (length (sn_bytes x) <= 900)%nat ->
  exists s2 X ws,
    lstep sz s1 (Deliver (length (l_chan s))) = Ok (s2, ODeliver (sn_tick x) (Ok (Some X), ws) (Some (sn_tick x)))
    /\ like (sn_snap x) X.
Proof.
  intros [Is Im Ic Ia] Hapi Hstep Hbase Hlen. cbn [api_ok] in Hapi.
  destruct (sender_send_ok (l_sender s) Is Hapi) as (st' & x' & Es & Ht & Hlt & Hm & Is').
  cbn [lstep] in Hstep. rewrite Es in Hstep. cbn [bind] in Hstep. injection Hstep as <- <-.
  set (e := {| h_snap := sn_snap x'; h_base := sn_base x'; h_bytes := sn_bytes x' |}) in *.
  set (T := sd_tick (l_sender s)) in *.
  destruct (si_hist _ Is' T e (aget_cons_same _ _ _)) as [E _]. cbn [sd_hist] in E.
  pose proof (eo_ne _ _ _ E) as Hne. cbn [e h_bytes] in Hne.
  pose proof (eo_tick _ _ _ E) as HT.
  destruct (eo_apply _ _ _ E) as (d & Ed & Hap). cbn [e h_bytes h_base h_snap] in Ed, Hap.
  destruct (Hap snap_empty (or_introl (conj Hbase eq_refl))) as (X & Eap & HL).
  destruct (like_same _ _ HL) as (_ & _ & Hcrc & _).
  assert (Hmsg : sn_msgs x' = [MSnapSingle T (wrap32 (T - -1)) (Snap.crc (sn_raw (sn_snap x'))) (sn_bytes x')]).
  { rewrite Hm. unfold x_msgs, x_of, x_dt. cbn [x_tick x_base x_crc x_data e h_base h_snap h_bytes]. rewrite Hbase.
    destruct (xfer_msgs_cases T (wrap32 (T - -1)) (Snap.crc (sn_raw (sn_snap x'))) (sn_bytes x'))
      as [[E0 _]|[(_ & _ & ->)|[Hn _]]]; [contradiction|reflexivity|].
    pose proof (nparts_le (sn_bytes x') 1) as H1. rewrite PACK_eq in H1. lia. }
  cbn [lstep l_chan]. rewrite Hmsg.
  rewrite nth_error_app2 by lia. rewrite Nat.sub_diag. cbn [nth_error].
  assert (Hcan : can_receive (m_recv (l_mgr s)) T = true).
  { apply (newer_can_receive _ (hist_last (sd_hist (l_sender s)))); [apply (mi_seen _ _ Im)|exact Hlt]. }
  assert (Hfront : front_tick (m_store (l_mgr s)) < T).
  { unfold front_tick. destruct (st_snaps (m_store (l_mgr s))) as [|[t0 X0] r] eqn:Esn; [lia|].
    destruct (mi_snaps _ _ Im t0 X0) as (e0 & He0 & _); [rewrite Esn; left; reflexivity|].
    destruct (si_hist _ Is t0 e0 He0) as [_ Hle]. lia. }
  destruct (add_delta_full (m_store (l_mgr s)) (Snap.crc (sn_raw (sn_snap x'))) T d X Hfront Eap (eq_sym Hcrc)) as (st2 & Ead & Hack).
  unfold deliver, manager_feed. cbn [l_mgr recv_step]. rewrite snap_single_ok by exact Hcan.
  unfold mgr_add_delta. cbn [rd_data_and_crc rd_delta_tick rd_tick].
  rewrite Ed. rewrite wrap32_sub_sub by reflexivity. rewrite Ead. cbn [lift_st msg_tick].
  eexists _, X, _. split; [|exact HL]. rewrite Ht. unfold manager_ack. cbn [m_store]. rewrite Hack. reflexivity.
Qed.

Theorem lrun_linv tr : forall s, linv s -> follows_api sz s tr = true ->
  exists s', lrun sz s tr = Ok s' /\ linv s'.
Proof.
  induction tr as [|l tr IH]; intros s I Hf; [exists s; split; [reflexivity|exact I]|].
  cbn [follows_api] in Hf. apply andb_true_iff in Hf. destruct Hf as [Hapi Hf].
  destruct (lstep_linv s l I Hapi) as (s1 & o & Es & I1). rewrite Es in Hf.
  cbn [lrun]. rewrite Es. cbn [bind]. apply IH; assumption.
Qed.

Corollary reachable_linv t0 tr s :
  follows_api sz (link_init t0) tr = true -> lrun sz (link_init t0) tr = Ok s -> linv s.
Proof.
  intros Hf Hr. destruct (lrun_linv tr (link_init t0) (linv_init t0) Hf) as (s' & Hr' & I).
  rewrite Hr in Hr'. injection Hr' as <-. exact I.
Qed.

End Inv.
