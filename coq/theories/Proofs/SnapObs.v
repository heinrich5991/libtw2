(* Observational equality of snapshots with the same contents; the wire round trip at the
   level of Snap (C10, C11). *)
From LibTw2 Require Import Base.Res Model.Varint Model.Packer Model.Snap Proofs.SnapBase Proofs.SnapRep Proofs.SnapDelta
  Proofs.SnapApply Proofs.SnapOk Proofs.SnapTotal Proofs.SnapTotal2 Proofs.SnapC09 Proofs.SnapSer Proofs.SnapReg
  Proofs.SnapWire Proofs.SnapWireInst.
From Coq Require Import ZArith List Lia Bool Permutation.
Import ListNotations.
Open Scope Z_scope.

Definition consistent (S : snap) : Prop := exists ws, build_from_raw (sn_raw S) = (Ok S, ws).

Lemma wbind_inv {A B} (m : wres A) (f : A -> wres B) b ws : wbind m f = (Ok b, ws) ->
  exists a w1 w2, m = (Ok a, w1) /\ f a = (Ok b, w2) /\ ws = w1 ++ w2.
Proof.
  destruct m as [[a|e|s|] w1]; cbn [wbind]; try discriminate.
  destruct (f a) as [r w2] eqn:E. intros [= -> <-]. exists a, w1, w2. repeat split; assumption.
Qed.

Lemma build_from_raw_raw R S ws : build_from_raw R = (Ok S, ws) -> sn_raw S = R.
Proof.
  unfold build_from_raw. intros H. apply wbind_inv in H. destruct H as (ext & w1 & w2 & _ & H & _).
  injection H as <- _. reflexivity.
Qed.

Lemma accepted_consistent (m : wres rawsnap) S ws : (let+ R := m in build_from_raw R) = (Ok S, ws) ->
  consistent S /\ exists w1, m = (Ok (sn_raw S), w1).
Proof.
  intros H. apply wbind_inv in H. destruct H as (R & w1 & w2 & Hm & Hb & _).
  pose proof (build_from_raw_raw _ _ _ Hb) as <-. split; [exists w2; exact Hb|exists w1; exact Hm].
Qed.

Section Same.
  Variables (S S' : snap) (ch ch' : items).
  Hypothesis R : rep (sn_raw S) ch.
  Hypothesis R' : rep (sn_raw S') ch'.
  Hypothesis Hlook : forall k, aget k ch = aget k ch'.
  Hypothesis Hext : sn_ext S = sn_ext S'.

  Lemma same_type_id {E} ty : @snap_type_id E S ty = @snap_type_id E S' ty.
  Proof.
    unfold snap_type_id. destruct (ty =? TYPE_ID_EX); [reflexivity|]. destruct (ty <? OFFSET_EXTENDED_TYPE_ID); [reflexivity|].
    rewrite (raw_item_rep _ ch _ _ R), (raw_item_rep _ ch' _ _ R'), Hlook. reflexivity.
  Qed.

  Lemma same_items_loop {E} : forall l rem, @items_loop E S l rem = @items_loop E S' l rem.
  Proof.
    induction l as [|[k d] l IH]; intros rem; [reflexivity|]. cbn [items_loop]. rewrite same_type_id.
    destruct (snap_type_id S' (key_to_raw_type_id k)) as [[ty|]| | |]; cbn [bind]; try reflexivity.
    - destruct (rem <=? 0); [reflexivity|]. rewrite IH. reflexivity.
    - apply IH.
  Qed.

  Theorem same_observables :
    (forall E, @snap_items E S = @snap_items E S')
    /\ (forall E t id, @snap_item E S t id = @snap_item E S' t id)
    /\ crc (sn_raw S) = crc (sn_raw S')
    /\ (forall E, @raw_items E (sn_raw S) = @raw_items E (sn_raw S')).
  Proof.
    destruct (same_lookups _ _ _ _ R R' Hlook) as (Hv & Hc & Hk).
    assert (Hn : length (rs_offs (sn_raw S)) = length (rs_offs (sn_raw S'))).
    { rewrite <- (map_length fst), Hk, map_length. reflexivity. }
    split; [|split; [|split; [exact Hc|]]].
    - intros E. unfold snap_items. rewrite Hn, Hext, (raw_items_rep _ ch R), (raw_items_rep _ ch' R'), Hv.
      destruct (_ <? _); [reflexivity|]. cbn [bind]. rewrite same_items_loop. reflexivity.
    - intros E t id. unfold snap_item, snap_raw_type_id. rewrite Hext.
      destruct t as [o|u].
      + destruct ((0 <? o) && (o <? OFFSET_EXTENDED_TYPE_ID)); [|reflexivity]. cbn [bind].
        rewrite (raw_item_rep _ ch _ _ R), (raw_item_rep _ ch' _ _ R'), Hlook. reflexivity.
      + cbn [bind]. destruct (aget u (sn_ext S')); [|reflexivity].
        rewrite (raw_item_rep _ ch _ _ R), (raw_item_rep _ ch' _ _ R'), Hlook. reflexivity.
    - intros E. rewrite (raw_items_rep _ ch R), (raw_items_rep _ ch' R'), Hv. reflexivity.
  Qed.
End Same.

Lemma snap_read_bytes_enc l : forallb is_i32 l = true -> snap_read_bytes (enc l) = snap_read_from_ints l.
Proof. intros Hi. unfold snap_read_bytes. rewrite (read_bytes_enc l Hi). reflexivity. Qed.

Theorem consistent_roundtrip S ws : good (sn_raw S) -> build_from_raw (sn_raw S) = (Ok S, ws) ->
  exists l S', snap_ints (sn_raw S) = Ok l /\ forallb is_i32 l = true
    /\ 4 * Z.of_nat (length l) <= MAX_SNAPSHOT_SIZE
    /\ snap_read_from_ints l = (Ok S', ws) /\ sn_ext S' = sn_ext S /\ good (sn_raw S')
    /\ exists ch ch', rep (sn_raw S) ch /\ rep (sn_raw S') ch' /\ (forall k, aget k ch' = aget k ch).
Proof.
  intros G Hc. destruct (g_rep _ G) as [ch R].
  destruct (snap_wire_roundtrip (sn_raw S) ch G R) as (l & R1 & ch1 & El & Hli & Hlen & Erd & Rr & Hlook).
  exists l, {| sn_raw := R1; sn_ext := sn_ext S |}. repeat (split; [assumption|]).
  split; [|split; [reflexivity|split]].
  - unfold snap_read_from_ints. rewrite Erd, wbind_ok. apply (build_from_raw_like S ch R1 ch1 ws); assumption.
  - pose proof (read_from_ints_good l Hli) as Hg. rewrite Erd in Hg. exact Hg.
  - exists ch, ch1. auto.
Qed.

Theorem consistent_after_delta A S ws : good A -> good (sn_raw S) -> build_from_raw (sn_raw S) = (Ok S, ws) ->
  k09 A (sn_raw S) = false ->
  exists d S', create_raw A (sn_raw S) = Ok d /\ dgood d
    /\ (let+ R := raw_read_with_delta A d in build_from_raw R) = (Ok S', ws)
    /\ sn_ext S' = sn_ext S /\ good (sn_raw S')
    /\ exists ch ch', rep (sn_raw S) ch /\ rep (sn_raw S') ch' /\ (forall k, aget k ch' = aget k ch).
Proof.
  intros GA G Hc Hk. destruct (g_rep _ GA) as [chA HA]. destruct (g_rep _ G) as [ch R].
  pose proof (k09_false _ _ _ _ HA R Hk) as Hsl.
  destruct (apply_created A (sn_raw S) chA ch HA R (g_keys _ GA) (g_keys _ G) (g_buf _ GA) (g_buf _ G)
              (good_lim _ _ G R) Hsl) as (R1 & ch1 & Eap & R1' & Hlook).
  pose proof (dgood_created A (sn_raw S) chA ch HA R (g_buf _ G)) as D.
  exists (created A (sn_raw S) chA ch), {| sn_raw := R1; sn_ext := sn_ext S |}.
  split; [apply create_raw_spec; try assumption; [apply (g_keys _ GA)|apply (g_keys _ G)]|]. split; [exact D|].
  split; [|split; [reflexivity|split]].
  - rewrite Eap, wbind_ok. apply (build_from_raw_like S ch R1 ch1 ws); assumption.
  - apply (wpost_ok _ _ _ _ (read_with_delta_good A _ GA D) Eap).
  - exists ch, ch1. auto.
Qed.

(* the delta create_raw returns has a wire form as soon as its sizes agree with the table,
   and they do when B's sizes do *)
Lemma created_wire sz A B d : good A -> good B -> create_raw A B = Ok d ->
  exists del dch, d = delta_of del dch
    /\ (sizes_respected sz B = true -> Forall (size_ok sz) dch)
    /\ (Forall (size_ok sz) dch -> wire_pre sz del dch).
Proof.
  intros GA GB Hcr. destruct (g_rep _ GA) as [chA HA]. destruct (g_rep _ GB) as [chB HB].
  destruct (create_raw_ok _ _ chA chB d HA HB (g_keys _ GA) (g_keys _ GB) Hcr) as [Hk ->].
  pose proof (k09_false _ _ _ _ HA HB Hk) as Hsl.
  exists (d_del (created A B chA chB)), (diffs chA (view B chB)). split; [reflexivity|]. split.
  - apply (diffs_sizes sz chA B chB HB (good_lim _ _ GB HB) Hsl).
  - apply (created_wire_pre sz A B chA chB HA HB (g_keys _ GA) (g_keys _ GB) (g_buf _ GB)
             (good_lim _ _ GA HA) (good_lim _ _ GB HB) Hsl).
Qed.

Theorem snap_roundtrip S : good (sn_raw S) -> consistent S ->
  exists l bs S' ws,
    snap_ints (sn_raw S) = Ok l /\ ints_to_bytes l = Ok bs
    /\ 4 * Z.of_nat (length l) <= MAX_SNAPSHOT_SIZE
    /\ snap_read_from_ints l = (Ok S', ws) /\ snap_read_bytes bs = (Ok S', ws)
    /\ build_from_raw (sn_raw S) = (Ok S, ws)
    /\ sn_ext S' = sn_ext S
    /\ (forall E, @snap_items E S' = @snap_items E S)
    /\ (forall E t id, @snap_item E S' t id = @snap_item E S t id)
    /\ crc (sn_raw S') = crc (sn_raw S)
    /\ good (sn_raw S').
Proof.
  intros G [ws Hc].
  destruct (consistent_roundtrip S ws G Hc) as (l & S' & El & Hli & Hlen & Ers & Hext & G' & ch & ch' & R & R' & Hlook).
  destruct (same_observables S' S ch' ch R' R Hlook Hext) as (O1 & O2 & O3 & _).
  exists l, (enc l), S', ws. rewrite (snap_read_bytes_enc l Hli), (ints_to_bytes_enc l Hli).
  repeat (split; [assumption || reflexivity|]). exact G'.
Qed.
