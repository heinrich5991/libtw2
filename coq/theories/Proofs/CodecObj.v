(* C14: snapshot objects.  An object whose struct has no bool field is re-exposed by
   `encode` as exactly the words it was decoded from; with a bool field the padding bytes
   of the repr(C) struct show through (K14). *)
From LibTw2 Require Import Base.Res Model.Varint Model.Packer Model.Codec
  Proofs.VarintArith Proofs.VarintProofs Proofs.PackerProofs Proofs.CodecDecode Proofs.CodecEncode.
From Coq Require Import ZArith Lia Bool List ZifyBool.
Open Scope Z_scope.

Lemma word_of_le32 w : is_i32 w = true ->
  let u := u32_of w in
  word_of (u mod 256) ((u / 256) mod 256) ((u / 65536) mod 256) ((u / 16777216) mod 256) = w.
Proof.
  unfold is_i32, i32_min, i32_max, word_of, i32_of, u32_of, two31, two32. intros H.
  destruct (_ <? 2147483648) eqn:E; Z.div_mod_to_equations; lia.
Qed.

Lemma words_of_le32 us : forallb is_i32 us = true -> forall fuel, (length us <= fuel)%nat ->
  words_of fuel (flat_map le32 us) = us.
Proof.
  induction us as [|w us IH]; intros Hu fuel Hf.
  - destruct fuel; reflexivity.
  - cbn [forallb] in Hu. apply andb_true_iff in Hu as [Hw Hu]. cbn [length] in Hf.
    destruct fuel as [|fuel]; [lia|]. cbn [flat_map le32 app words_of].
    rewrite (word_of_le32 w Hw). f_equal. apply IH; [exact Hu|lia].
Qed.

Lemma length_le32_flat us : length (flat_map le32 us) = (4 * length us)%nat.
Proof. induction us as [|w us IH]; [reflexivity|]. cbn [flat_map le32 app length]. lia. Qed.

Fixpoint agree (is : list iop) (us : list Z) (vs : list value) : Prop :=
  match is, us, vs with
  | [], [], [] => True
  | i :: is', w :: us', v :: vs' => check_int i w = Ok v /\ agree is' us' vs'
  | _, _, _ => False
  end.

Lemma decode_words_inv is : forall ws r vs, decode_words is ws = (r, Ok vs) ->
  exists us, ws = us ++ r /\ agree is us vs.
Proof.
  induction is as [|i is IH]; intros ws r vs H; cbn [decode_words] in H.
  - injection H as <- <-. exists []. split; [reflexivity|exact I].
  - destruct ws as [|w ws]; [discriminate|].
    destruct (check_int i w) as [v| | |] eqn:Ec; try discriminate.
    destruct (decode_words is ws) as [r' [vs'| | |]] eqn:Ed; try discriminate.
    injection H as <- <-. destruct (IH _ _ _ Ed) as [us [-> Ha]].
    exists (w :: us). split; [reflexivity|]. cbn [agree]. split; assumption.
Qed.

Lemma agree_typed is : forall us vs, agree is us vs -> forallb is_i32 us = true ->
  well_typed (map MI is) vs = true.
Proof.
  induction is as [|i is IH]; intros [|w us] [|v vs] Ha Hu; cbn [agree] in Ha; try contradiction; [reflexivity|].
  destruct Ha as [Hc Ha]. cbn [forallb] in Hu. apply andb_true_iff in Hu as [Hw Hu].
  cbn [map well_typed typed]. rewrite (check_int_typed i w v Hc Hw). exact (IH us vs Ha Hu).
Qed.

Lemma obj_asserts_pass is vs : well_typed (map MI is) vs = true -> forall asl,
  forallb (fun ka => match nth_error is (fst ka) with Some i => oassert_fits i (snd ka) | None => false end) asl = true ->
  obj_asserts vs asl = Ok tt.
Proof.
  intros Ht. induction asl as [|[k a] asl IH]; intros H; cbn [obj_asserts]; [reflexivity|].
  cbn [forallb fst snd] in H. apply andb_true_iff in H as [H1 H2].
  destruct (nth_error is k) as [i|] eqn:En; [|discriminate].
  assert (Hn : nth_error (map MI is) k = Some (MI i)) by (rewrite nth_error_map, En; reflexivity).
  destruct (well_typed_nth _ _ _ _ Ht Hn) as [v [Hv Htv]]. rewrite Hv.
  unfold oassert_fits in H1. rewrite (check_assert_fits (MI i) a v Htv H1). apply IH, H2.
Qed.

Definition not_bool (i : iop) : bool := match i with IBool => false | _ => true end.
Definition is_f32 (f : nat * fty) : bool := match snd f with F32 => true | F8 => false end.

Lemma gap4 q : align_gap (4 * q) 4 = 0%nat.
Proof. unfold align_gap. rewrite Nat.mul_comm, Nat.mod_mul by discriminate. reflexivity. Qed.

(* in memory a member that is not a bool is the word it was decoded from:
   an enum's discriminant is the constant that from_i32 matched *)
Lemma field_mem_f32 i w v : check_int i w = Ok v -> not_bool i = true -> mop_ok (MI i) = true ->
  v = VInt w /\ field_mem i F32 v = Ok (le32 w).
Proof.
  intros Hc Hb Hm.
  assert (Hv : v = VInt w) by (apply (check_int_val i w v Hc); destruct i; discriminate).
  subst v. split; [reflexivity|].
  destruct i; cbn [field_mem]; try reflexivity; try discriminate.
  cbn [check_int] in Hc. destruct (elookup t w) as [r|] eqn:E; [|discriminate].
  cbn [mop_ok] in Hm. unfold etbl_ok in Hm. rewrite forallb_forall in Hm.
  specialize (Hm r (elookup_in _ _ _ E)). pose proof (elookup_from _ _ _ E).
  replace (ediscr r) with w by lia. reflexivity.
Qed.

(* the members is, which stand at positions k.. of the struct IS, laid out from offset 4q *)
Lemma layout_f32 pad IS VS : forall is us vs fs k q,
  skipn k IS = is -> skipn k VS = vs ->
  agree is us vs -> forallb not_bool is = true -> forallb (fun i => mop_ok (MI i)) is = true ->
  seq_layout fs k = true -> length fs = length is -> forallb is_f32 fs = true ->
  layout_fields pad IS VS fs (4 * q) =
  Ok (map (fun b => (false, b)) (flat_map le32 us), (4 * (q + length us))%nat).
Proof.
  induction is as [|i is IH]; intros [|w us] [|v vs] fs k q HI HV Ha Hb Hm Hs Hlen Hf;
    cbn [agree] in Ha; try contradiction.
  - destruct fs; [|discriminate]. cbn [layout_fields flat_map map length]. rewrite Nat.add_0_r. reflexivity.
  - destruct Ha as [Hc Ha]. destruct fs as [|[k' ft] fs]; [discriminate|].
    cbn [forallb] in Hb, Hm, Hf. apply andb_true_iff in Hb as [Hb1 Hb2]. apply andb_true_iff in Hm as [Hm1 Hm2].
    apply andb_true_iff in Hf as [Hf1 Hf2]. destruct ft; [|discriminate].
    cbn [seq_layout] in Hs. apply andb_true_iff in Hs as [Hk Hs]. apply Nat.eqb_eq in Hk. subst k'.
    destruct (field_mem_f32 i w v Hc Hb1 Hm1) as [-> Hfm].
    apply skipn_nth in HI as [H1 HI]. apply skipn_nth in HV as [H2 HV]. injection Hlen as Hlen.
    cbn [layout_fields]. rewrite H1, H2, Hfm, gap4.
    cbn [pad_bytes app le32 length]. replace (4 * q + 0 + 4)%nat with (4 * S q)%nat by (clear; lia).
    rewrite (IH us vs fs (S k) (S q)) by assumption.
    cbn [flat_map length]. rewrite map_app, Nat.add_succ_comm. reflexivity.
Qed.

Lemma fits_not_bool IS : forall is fs k, skipn k IS = is ->
  seq_layout fs k = true -> length fs = length is -> forallb is_f32 fs = true ->
  forallb (fun kf => match nth_error IS (fst kf) with Some i => fty_fits i (snd kf) | None => false end) fs = true ->
  forallb not_bool is = true.
Proof.
  induction is as [|i is IH]; intros [|[j ft] fs] k HI Hs Hl Hf Hfit; try discriminate; [reflexivity|].
  cbn [seq_layout] in Hs. apply andb_true_iff in Hs as [Hj Hs]. apply Nat.eqb_eq in Hj. subst j.
  cbn [forallb fst snd] in Hf, Hfit. apply andb_true_iff in Hf as [Hf1 Hf2]. apply andb_true_iff in Hfit as [Hfit1 Hfit2].
  destruct ft; [|discriminate]. apply skipn_nth in HI as [H1 HI]. rewrite H1 in Hfit1. injection Hl as Hl.
  cbn [forallb]. rewrite (IH fs (S k)) by assumption. destruct i; try reflexivity. discriminate.
Qed.

(* objects without a bool member: encode returns the words that were decoded *)
Theorem obj_words o ws vs pad : wf_ocodec o = true -> no_bool o = true -> o_dec o <> [] ->
  forallb is_i32 ws = true -> decode_obj o ws = (Ok vs, false) ->
  encode_obj o vs pad = Ok ws.
Proof.
  unfold wf_ocodec, no_bool. fold is_f32. intros Hwf Hnb Hne Hws Hd.
  rewrite !andb_true_iff in Hwf. destruct Hwf as [[[[[[Hmok Hseq] Hlen] Hfits] Hasserts] _] _].
  apply Nat.eqb_eq in Hlen.
  unfold decode_obj in Hd. destruct (decode_words (o_dec o) ws) as [r [vs'| | |]] eqn:Edw; try discriminate.
  destruct r; [|discriminate]. injection Hd as ->.
  destruct (decode_words_inv _ _ _ _ Edw) as [us [Hus Ha]]. rewrite app_nil_r in Hus. subst us.
  pose proof (fits_not_bool (o_dec o) (o_dec o) (o_layout o) 0 eq_refl Hseq Hlen Hnb Hfits) as Hnbool.
  assert (Hal : struct_align (o_layout o) = 4%nat).
  { unfold struct_align. destruct (o_layout o) as [|[k ft] l].
    - destruct (o_dec o); [contradiction|discriminate].
    - cbn [forallb] in Hnb. unfold is_f32 in Hnb at 1. cbn [existsb snd] in *.
      destruct ft; [reflexivity|discriminate]. }
  unfold encode_obj, encode_obj_bytes, struct_bytes.
  rewrite (obj_asserts_pass (o_dec o) vs (agree_typed _ _ _ Ha Hws) (o_asserts o) Hasserts).
  pose proof (layout_f32 pad (o_dec o) vs (o_dec o) ws vs (o_layout o) 0 0
                eq_refl eq_refl Ha Hnbool Hmok Hseq Hlen Hnb) as Hlay.
  change (4 * 0)%nat with 0%nat in Hlay. rewrite Hlay, Hal. cbn [Nat.add]. rewrite gap4. cbn [pad_bytes]. rewrite app_nil_r, map_length, length_le32_flat.
  rewrite Nat.mul_comm, Nat.mod_mul by discriminate. cbn [Nat.eqb andb].
  rewrite map_map. cbn [snd]. rewrite map_id.
  f_equal. apply words_of_le32; [exact Hws|]. rewrite map_length, length_le32_flat. clear - ws. lia.
Qed.

Fixpoint words_typed (is : list iop) (ws : list Z) : bool :=
  match is, ws with
  | [], [] => true
  | i :: is', w :: ws' =>
    is_i32 w && match check_int i w with Ok _ => true | _ => false end && words_typed is' ws'
  | _, _ => false
  end.

Lemma decode_words_typed is : forall ws, words_typed is ws = true ->
  forallb is_i32 ws = true /\ exists vs, decode_words is ws = ([], Ok vs).
Proof.
  induction is as [|i is IH]; intros [|w ws] H; cbn [words_typed] in H; try discriminate.
  - split; [reflexivity|]. exists []. reflexivity.
  - apply andb_true_iff in H as [H Hr]. apply andb_true_iff in H as [Hw Hc].
    destruct (check_int i w) as [v| | |] eqn:E; try discriminate.
    destruct (IH ws Hr) as [Hi [vs Hvs]]. cbn [forallb decode_words]. rewrite Hw, E, Hvs.
    split; [exact Hi|]. exists (v :: vs). reflexivity.
Qed.

Theorem obj_roundtrip o ws pad : wf_ocodec o = true -> no_bool o = true -> o_dec o <> [] ->
  words_typed (o_dec o) ws = true ->
  exists vs, decode_obj o ws = (Ok vs, false) /\ encode_obj o vs pad = Ok ws.
Proof.
  intros Hwf Hnb Hne Hw. destruct (decode_words_typed _ _ Hw) as [Hi [vs Hd]].
  assert (Hdo : decode_obj o ws = (Ok vs, false)) by (unfold decode_obj; rewrite Hd; reflexivity).
  exists vs. split; [exact Hdo|]. apply obj_words; assumption.
Qed.

Lemma decode_words_reject ipre : forall pre i is w post e, words_typed ipre pre = true ->
  check_int i w = Err e ->
  snd (decode_words (ipre ++ i :: is) (pre ++ w :: post)) = Err e.
Proof.
  induction ipre as [|i0 ipre IH]; intros [|w0 pre] i is w post e H Hc; cbn [words_typed] in H; try discriminate.
  - cbn [app decode_words]. rewrite Hc. reflexivity.
  - apply andb_true_iff in H as [H Hr]. apply andb_true_iff in H as [_ H0].
    destruct (check_int i0 w0) as [v| | |] eqn:E; try discriminate.
    cbn [app decode_words]. rewrite E.
    specialize (IH pre i is w post e Hr Hc).
    destruct (decode_words (ipre ++ i :: is) (pre ++ w :: post)) as [r [vs| | |]]; cbn [snd] in *; try discriminate; exact IH.
Qed.

Theorem obj_rejects o ipre i is pre w post e : o_dec o = ipre ++ i :: is ->
  words_typed ipre pre = true -> check_int i w = Err e ->
  decode_obj o (pre ++ w :: post) = (Err e, false).
Proof.
  intros Ho Hp Hc. unfold decode_obj. rewrite Ho.
  pose proof (decode_words_reject ipre pre i is w post e Hp Hc) as H.
  destruct (decode_words (ipre ++ i :: is) (pre ++ w :: post)) as [r [vs| | |]]; cbn [snd] in H; try discriminate.
  injection H as ->. reflexivity.
Qed.

(* K14: the objects whose struct has a bool field *)
From Coq Require Import String.

Definition k14 (o : ocodec) : bool := negb (no_bool o).

Fixpoint k14_names (names : list string) (os : list ocodec) : list string :=
  match names, os with
  | n :: names', o :: os' => if k14 o then n :: k14_names names' os' else k14_names names' os'
  | _, _ => []
  end.
