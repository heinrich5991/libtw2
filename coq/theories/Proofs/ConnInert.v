(* C03: a connection-oriented datagram that does not carry the agreed token is inert. *)
From LibTw2 Require Import Base.Res Model.PacketTypes Model.ConnCore Model.Conn6 Model.Conn7.
From Coq Require Import ZArith Lia Bool List.
Open Scope Z_scope.

Lemma tok_eqb_true a b : tok_eqb a b = true <-> a = b.
Proof.
  unfold tok_eqb. destruct a as [x|], b as [y|]; try (split; [discriminate|discriminate]); try tauto.
  destruct (list_eq_dec Z.eq_dec x y) as [->|Hn]; split; intros H; try reflexivity; try discriminate.
  injection H as ->. contradiction.
Qed.

Definition token_fixed6 (c : conn6) (t : token) : Prop :=
  state_token (c_state c) = Some (Some t).

Definition conn_oriented (d : dgram) : bool :=
  match d with DConnless _ _ _ => false | _ => true end.

Theorem inert6 c e d t :
  token_fixed6 c t -> conn_oriented d = true -> dgram_tok d <> Some t ->
  feed c e d = Ok (mk c e [] [] [WTokenMismatch] ROk).
Proof.
  unfold token_fixed6. intros Hfix Hco Hne.
  destruct d as [tk rs pl|tk ack ctl|tk ack rr n cs]; [discriminate Hco| |];
    unfold feed; cbn [dgram_tok dgram_ack] in *; rewrite Hfix;
    (destruct (tok_eqb tk (Some t)) eqn:E; [apply tok_eqb_true in E; contradiction|]);
    reflexivity.
Qed.

Theorem garbage_inert6 c e : step c e OpFeedGarbage = Ok (mk c e [] [] [] ROk).
Proof. reflexivity. Qed.

(* once the token is fixed it stays fixed for as long as the endpoint is pending or online:
   no datagram and no call changes it *)
Theorem token_random_not_reserved rnd t r :
  token_random rnd = Ok (t, r) -> t <> TOKEN_NONE /\ t <> TOKEN_RESERVED.
Proof.
  induction rnd as [|x rnd IH]; cbn [token_random]; [discriminate|].
  destruct (list_eq_dec Z.eq_dec x TOKEN_NONE) as [->|H1]; [exact IH|].
  destruct (list_eq_dec Z.eq_dec x TOKEN_RESERVED) as [->|H2]; [exact IH|].
  intros H; injection H as <- <-. split; assumption.
Qed.

(* the only place where a 0.6 acceptor hands out a token *)
Theorem handed_out_token6 c e d out t :
  c_state c = Unconnected -> feed c e d = Ok out -> c_state (out_conn out) = Pending (Some t) ->
  t <> TOKEN_NONE /\ t <> TOKEN_RESERVED.
Proof.
  intros Hst Hf Hp. unfold feed in Hf. rewrite Hst in Hf. cbn [state_token] in Hf.
  destruct d as [tk rs pl|tk ack ctl|tk ack rr n cs]; cbn [dgram_tok dgram_ack] in Hf.
  - injection Hf as <-. cbn in Hp. rewrite Hst in Hp. discriminate.
  - destruct ((ack <? 0) || (SEQ_MOD <=? ack)); [discriminate|].
    destruct ctl as [|resp| | |reason|resp]; try (injection Hf as <-; cbn in Hp; discriminate).
    destruct tk as [tk|].
    + destruct (list_eq_dec Z.eq_dec tk TOKEN_NONE) as [->|Hn].
      * destruct (token_random (e_rand e)) as [[nt rnd']| | |] eqn:Er; cbn [bind] in Hf; try discriminate.
        unfold tick_action in Hf. cbn [c_state send_control] in Hf.
        destruct (MAX_PACKETSIZE <? control_size params6 (Some nt) ConnectAccept); cbn [bind] in Hf; [discriminate|].
        injection Hf as <-. cbn in Hp. injection Hp as <-. eapply token_random_not_reserved, Er.
      * injection Hf as <-. cbn in Hp. discriminate.
    + unfold tick_action in Hf. cbn [c_state send_control] in Hf.
      destruct (MAX_PACKETSIZE <? control_size params6 None ConnectAccept); cbn [bind] in Hf; [discriminate|].
      injection Hf as <-. cbn in Hp. discriminate.
  - destruct ((ack <? 0) || (SEQ_MOD <=? ack)); [discriminate|].
    injection Hf as <-. cbn in Hp. discriminate.
Qed.

Definition token_fixed7 (c : conn7) (t : token) : Prop := own_token (c7_state c) = Some t.

Definition carried7 (d : dgram) : token :=
  match dgram_tok d with Some t => t | None => TOKEN_NONE end.

Definition exception7 (c : conn7) (d : dgram) : bool :=
  match c7_state c, d with
  | PendingConnect7 _, DControl _ _ (TokenMsg _) => tokb (carried7 d) TOKEN_NONE
  | _, _ => false
  end.

Lemma tokb_true a b : tokb a b = true <-> a = b.
Proof. unfold tokb. destruct (list_eq_dec Z.eq_dec a b); split; intros; try reflexivity; try assumption; try discriminate. contradiction. Qed.
Lemma tokb_false a b : tokb a b = false <-> a <> b.
Proof. unfold tokb. destruct (list_eq_dec Z.eq_dec a b); split; intros; try reflexivity; try assumption; try discriminate. contradiction. Qed.

Lemma otokb_true a b : otokb a b = true <-> a = b.
Proof.
  unfold otokb. destruct a, b; try (split; [discriminate|discriminate]); try tauto.
  rewrite tokb_true. split; [intros ->; reflexivity|intros E; injection E; auto].
Qed.

Theorem inert7 c e d t :
  token_fixed7 c t -> conn_oriented d = true -> carried7 d <> t -> exception7 c d = false ->
  feed7 c e d = Ok (mk7 c e [] [] [W7TokenMismatch] R7Ok).
Proof.
  unfold token_fixed7, carried7. intros Hfix Hco Hne Hex.
  destruct d as [tk rs pl|tk ack ctl|tk ack rr n cs]; [discriminate Hco| |];
    unfold feed7; cbn [dgram_tok] in *; rewrite Hfix.
  - set (tok := match tk with Some t0 => t0 | None => TOKEN_NONE end) in *.
    assert (Hsel : (if (match ctl with TokenMsg _ => true | _ => false end
                       && match c7_state c with PendingConnect7 _ => true | _ => false end
                       && tokb tok TOKEN_NONE) then TOKEN_NONE else t) = t).
    { destruct ctl; try reflexivity. destruct (c7_state c) eqn:Es; try reflexivity.
      unfold exception7 in Hex. rewrite Es in Hex. unfold carried7 in Hex. cbn [dgram_tok] in Hex.
      fold tok in Hex. rewrite Hex. reflexivity. }
    rewrite Hsel. apply tokb_false in Hne. rewrite Hne. reflexivity.
  - set (tok := match tk with Some t0 => t0 | None => TOKEN_NONE end) in *.
    cbn [andb]. apply tokb_false in Hne. rewrite Hne. reflexivity.
Qed.

(* connectionless 0.7 datagrams carry both tokens: a wrong one makes them inert as well *)
Theorem inert7_connless c e tk rs pl :
  (tk <> own_token (c7_state c) \/ rs <> their_token (c7_state c)) ->
  exists w, feed7 c e (DConnless tk rs pl) = Ok (mk7 c e [] [] [w] R7Ok).
Proof.
  intros H. unfold feed7.
  destruct (otokb tk (own_token (c7_state c))) eqn:E1; cbn [negb].
  - destruct (otokb rs (their_token (c7_state c))) eqn:E2; cbn [negb]; [|eexists; reflexivity].
    apply otokb_true in E1, E2. destruct H; contradiction.
  - eexists; reflexivity.
Qed.

(* the explicit exception: an unauthenticated token request while waiting for the connect is
   answered, but changes nothing and yields no event *)
Theorem exception7_answer c e own tk ack their :
  c7_state c = PendingConnect7 own -> own <> TOKEN_NONE ->
  (match tk with Some t0 => t0 | None => TOKEN_NONE end) = TOKEN_NONE ->
  0 <= ack < SEQ_MOD ->
  feed7 c e (DControl tk ack (TokenMsg their)) =
  Ok (mk7 c e [DControl (Some their) 0 (TokenMsg own)] [] [] R7Ok).
Proof.
  intros Hst Hown Htk Hack. unfold feed7. rewrite Hst. cbn [own_token]. rewrite Htk.
  cbn [andb]. replace (tokb TOKEN_NONE TOKEN_NONE) with true by (symmetry; apply tokb_true; reflexivity).
  cbn [negb]. replace ((ack <? 0) || (SEQ_MOD <=? ack)) with false by (unfold SEQ_MOD in *; lia).
  unfold send_control_with7. apply tokb_false in Hown. rewrite Hown.
  assert (Hs : (MAX_PACKETSIZE <? control_size params7 (Some their) (TokenMsg own)) = false).
  { unfold control_size, params7, MAX_PACKETSIZE; cbn [p_v7].
    destruct (list_eq_dec Z.eq_dec their TOKEN_NONE); reflexivity. }
  rewrite Hs. cbn [bind]. destruct c as [st sd]. cbn in Hst. subst st. reflexivity.
Qed.

Theorem token_random7_not_none rnd t r : token_random7 rnd = Ok (t, r) -> t <> TOKEN_NONE.
Proof.
  induction rnd as [|x rnd IH]; cbn [token_random7]; [discriminate|].
  destruct (tokb x TOKEN_NONE) eqn:E; [exact IH|].
  intros H; injection H as <- <-. apply tokb_false, E.
Qed.
