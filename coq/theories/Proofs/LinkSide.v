(* What the C01 invariant says of one endpoint, over what 0.6 and 0.7 have in common: the phase
   of the connection (never online, online with its record, closed) and the ghost histories.
   Link6Inv.v and Link7Inv.v read their side off through phase6 / hist6 and phase7 / hist7. *)
From LibTw2 Require Import Base.Res Model.PacketTypes Model.ConnCore Model.LinkGhost
  Proofs.ConnCoreInv Proofs.LinkArith Proofs.LinkCore.
From Coq Require Import ZArith Lia Bool List.
Open Scope Z_scope.

Inductive phase := Fresh | On (o : online) | Closed.

Record hist := {
  h_sub : list bytes; h_del : list bytes; h_nvs : list bytes; h_nvr : list bytes; h_ready : Z
}.

(* the online record fits the histories: it holds the chunks a+1 .. |sub|, the peer has been given
   at least a of them, and it acknowledges what has been delivered here *)
Definition on_inv (o : online) (sub del nvs delY : list bytes) : Prop :=
  exists a, snd_inv o sub nvs a /\ a <= zlen delY /\ o_ack o = seqof (zlen del).

(* relative to the peer's histories, and to whether the peer has answered the handshake *)
Record hist_inv (ph : phase) (h : hist) (subY delY nvsY : list bytes) (ansY : bool) : Prop := {
  hv_fresh : ph = Fresh -> h_sub h = [] /\ h_del h = [] /\ h_nvs h = [] /\ h_ready h = 0;
  hv_online : forall o, ph = On o -> on_inv o (h_sub h) (h_del h) (h_nvs h) delY;
  hv_prefix : h_del h = firstn (Z.to_nat (zlen (h_del h))) subY;
  hv_dle : zlen (h_del h) <= zlen subY;
  hv_gap : zlen (h_sub h) - zlen delY <= 511;
  hv_nvr : incl (h_nvr h) nvsY;
  hv_ready : 0 <= h_ready h <= 1;
  hv_ans : 1 <= h_ready h -> ansY = true;
}.

Definition hgrows (h h' : hist) : Prop :=
  (exists e, h_sub h' = h_sub h ++ e) /\ (exists e, h_del h' = h_del h ++ e) /\ incl (h_nvs h) (h_nvs h').

(* the two ways a call changes the histories: a send is accepted, events are handed out *)
Definition h_send (h : hist) (d : bytes) (vital : bool) : hist :=
  {| h_sub := if vital then h_sub h ++ [d] else h_sub h; h_del := h_del h;
     h_nvs := if vital then h_nvs h else d :: h_nvs h; h_nvr := h_nvr h; h_ready := h_ready h |}.
Definition h_recv (h : hist) (evs : list ev) : hist :=
  {| h_sub := h_sub h; h_del := h_del h ++ vital_payloads evs; h_nvs := h_nvs h;
     h_nvr := h_nvr h ++ nonvital_payloads evs; h_ready := h_ready h + ready_events evs |}.

Definition still (evs : list ev) : Prop :=
  vital_payloads evs = [] /\ nonvital_payloads evs = [] /\ ready_events evs = 0.

Lemma h_recv_still h evs : still evs -> h_recv h evs = h.
Proof.
  intros [E1 [E2 E3]]. destruct h. unfold h_recv. cbn. rewrite E1, E2, E3, !app_nil_r, Z.add_0_r. reflexivity.
Qed.

Lemma hgrows_refl h : hgrows h h.
Proof. repeat split; try (exists []; symmetry; apply app_nil_r). apply incl_refl. Qed.

Lemma hgrows_send h d vital : hgrows h (h_send h d vital).
Proof.
  destruct vital; (split; [|split]); cbn; try (exists []; symmetry; apply app_nil_r); try apply incl_refl.
  - eexists; reflexivity.
  - apply incl_tl, incl_refl.
Qed.

Lemma hgrows_recv h evs : hgrows h (h_recv h evs).
Proof. split; [exists []; symmetry; apply app_nil_r|]. split; [eexists; reflexivity|apply incl_refl]. Qed.

Lemma hist_inv_peer ph h hY hY' ansY ansY' :
  hist_inv ph h (h_sub hY) (h_del hY) (h_nvs hY) ansY -> hgrows hY hY' -> (ansY = true -> ansY' = true) ->
  hist_inv ph h (h_sub hY') (h_del hY') (h_nvs hY') ansY'.
Proof.
  intros [F O P D G N R A] [[es ->] [[ed ->] Hn]] Ha. pose proof (zlen_nonneg es). pose proof (zlen_nonneg ed).
  constructor; rewrite ?zlen_app; try assumption; try lia.
  - intros o Ho. destruct (O o Ho) as [a [H1 [H2 H3]]]. exists a. rewrite zlen_app. split; [exact H1|]. split; [lia|exact H3].
  - rewrite firstn_app_old; [exact P|]. unfold zlen in *. lia.
  - intros z Hz. apply Hn, N, Hz.
  - intros H1. apply Ha, A, H1.
Qed.

(* what the phase after the call has to satisfy for the invariant to carry over *)
Definition phase_next (ph ph' : phase) (h : hist) (delY : list bytes) : Prop :=
  match ph' with
  | Fresh => ph = Fresh
  | On o' => on_inv o' (h_sub h) (h_del h) (h_nvs h) delY
  | Closed => True
  end.

Lemma hist_inv_phase ph ph' h subY delY nvsY ansY :
  hist_inv ph h subY delY nvsY ansY -> phase_next ph ph' h delY -> hist_inv ph' h subY delY nvsY ansY.
Proof.
  intros [F O P D G N R A] Hn. constructor; try assumption.
  - intros ->. apply F, Hn.
  - intros o ->. exact Hn.
Qed.

Lemma phase_next_same ph h subY delY nvsY ansY : hist_inv ph h subY delY nvsY ansY -> phase_next ph ph h delY.
Proof. intros Hi. destruct ph as [|o|]; [reflexivity|apply (hv_online _ _ _ _ _ _ Hi), eq_refl|exact I]. Qed.

(* the acknowledgement number on a control datagram *)
Definition phase_ack (ph : phase) : Z := match ph with On o => o_ack o | _ => 0 end.

Lemma phase_ack_seqof ph h subY delY nvsY ansY :
  hist_inv ph h subY delY nvsY ansY -> ph <> Closed -> phase_ack ph = seqof (zlen (h_del h)).
Proof.
  intros Hi Hc. destruct ph as [|o|]; [|destruct (hv_online _ _ _ _ _ _ Hi o eq_refl) as [a [_ [_ E]]]; exact E|contradiction].
  destruct (hv_fresh _ _ _ _ _ _ Hi eq_refl) as [_ [-> _]]. reflexivity.
Qed.

Lemma hist_inv_send on o' h d vital subY delY nvsY ansY :
  hist_inv (On on) h subY delY nvsY ansY -> (vital = true -> zlen (o_queue on) < 511) ->
  on_inv o' (h_sub (h_send h d vital)) (h_del h) (h_nvs (h_send h d vital)) delY ->
  hist_inv (On o') (h_send h d vital) subY delY nvsY ansY.
Proof.
  intros [F O P D G N R A] Hw Ho'. constructor; cbn [h_send h_del h_nvr h_ready]; try assumption; try discriminate.
  - intros o E. injection E as <-. exact Ho'.
  - (* (W) keeps the sender less than 512 chunks ahead of what the peer has delivered *)
    destruct vital; cbn; [|exact G]. rewrite zlen_app. change (zlen [d]) with 1.
    destruct (O on eq_refl) as [a [Hs [Ha _]]]. pose proof (queue_is_len _ _ _ _ (si_queue _ _ _ _ Hs)).
    specialize (Hw eq_refl). lia.
Qed.

(* o3 is the receiver's record once the datagram's acknowledgement (and a resend it may have asked
   for) is dealt with; f was emitted by the peer, whose histories are subY delY nvsY *)
Lemma hist_inv_recv ph h subY delY nvsY ansY f o3 ack' rr' evs :
  hist_inv ph h subY delY nvsY ansY ->
  flight_ok f (zlen subY) (zlen delY) subY nvsY ->
  (forall c s r, In c (dgram_chunks (f_d f)) -> ch_vital c = Some (s, r) ->
     zlen (h_del h) - idx_of (f_n f) s < 768) ->
  zlen subY - zlen (h_del h) <= 511 ->
  on_inv o3 (h_sub h) (h_del h) (h_nvs h) delY ->
  recv_chunks (o_ack o3) (o_rr o3) (dgram_chunks (f_d f)) = Ok (ack', rr', evs) ->
  hist_inv (On (o_set_ack o3 ack' rr')) (h_recv h evs) subY delY nvsY ansY.
Proof.
  intros [F O P D G N R A] [Hfn [_ [_ [Hflen Hfch]]]] Hold Hgap [a3 [Hs3 [Ha3 Hack3]]] Hrc.
  rewrite Hack3 in Hrc.
  pose proof (zlen_nonneg (h_del h)) as Hnn.
  assert (Hlen : zlen (dgram_chunks (f_d f)) + 0 <= 255) by (unfold zlen; lia).
  assert (Hold' : forall c s r, In c (dgram_chunks (f_d f)) -> ch_vital c = Some (s, r) ->
                    zlen (h_del h) - idx_of (f_n f) s < 768 + 0).
  { intros c s r Hin Hv. specialize (Hold c s r Hin Hv). lia. }
  destruct (recv_link _ _ _ _ _ _ _ _ _ 0 Hrc Hfch (conj Hnn D) (proj2 Hfn) Hgap Hlen (Z.le_refl 0) Hold')
    as [d' [Hd1 [Hd2 [_ [Hd4 [Hd5 Hd6]]]]]].
  assert (Hz : zlen (h_del h ++ vital_payloads evs) = d') by (rewrite zlen_app; lia).
  pose proof (recv_no_ready _ _ _ _ _ _ Hrc) as Hrdy.
  constructor; cbn [h_recv h_sub h_del h_nvs h_nvr h_ready]; rewrite ?Hz, ?Hrdy, ?Z.add_0_r; try assumption; try discriminate.
  - intros o E. injection E as <-. exists a3. split; [apply o_set_ack_snd, Hs3|]. split; [exact Ha3|]. cbn. rewrite Hz. exact Hd1.
  - rewrite P at 1. exact Hd4.
  - lia.
  - apply incl_app; assumption.
Qed.

Lemma on_inv_new h own their subY delY nvsY ansY :
  hist_inv Fresh h subY delY nvsY ansY -> on_inv (online_new own their) (h_sub h) (h_del h) (h_nvs h) delY.
Proof.
  intros Hi. destruct (hv_fresh _ _ _ _ _ _ Hi eq_refl) as [-> [-> [-> _]]]. exists 0.
  split; [apply snd_inv_new|]. split; [apply zlen_nonneg|reflexivity].
Qed.

Lemma hist_inv_ready h own their subY delY nvsY ansY :
  hist_inv Fresh h subY delY nvsY ansY -> ansY = true ->
  hist_inv (On (online_new own their)) (h_recv h [EvReady]) subY delY nvsY ansY.
Proof.
  intros Hi Hans. pose proof (on_inv_new h own their _ _ _ _ Hi) as Hon. destruct Hi as [F O P D G N R A].
  destruct (F eq_refl) as [_ [_ [_ Hr]]].
  constructor; cbn [h_recv h_sub h_del h_nvs h_nvr h_ready vital_payloads nonvital_payloads flat_map app];
    rewrite ?app_nil_r; try assumption; try discriminate.
  - intros o E. injection E as <-. exact Hon.
  - rewrite Hr. change (ready_events [EvReady]) with 1. lia.
  - intros _. exact Hans.
Qed.

Definition hist_new : hist := {| h_sub := []; h_del := []; h_nvs := []; h_nvr := []; h_ready := 0 |}.

Lemma hist_inv_new subY delY nvsY ansY : hist_inv Fresh hist_new subY delY nvsY ansY.
Proof.
  pose proof (zlen_nonneg subY). pose proof (zlen_nonneg delY).
  constructor; cbn; try discriminate; try lia; try reflexivity; try (repeat split; reflexivity).
  intros z [].
Qed.

Lemma flight_ok_grow f h h' :
  flight_ok f (zlen (h_sub h)) (zlen (h_del h)) (h_sub h) (h_nvs h) -> hgrows h h' ->
  flight_ok f (zlen (h_sub h')) (zlen (h_del h')) (h_sub h') (h_nvs h').
Proof.
  intros [H1 [H2 [H3 [H4 H5]]]] [[es ->] [[ed ->] Hn]]. unfold flight_ok. rewrite !zlen_app.
  pose proof (zlen_nonneg es). pose proof (zlen_nonneg ed).
  split; [lia|]. split; [lia|]. split; [exact H3|]. split; [exact H4|].
  eapply Forall_impl; [|exact H5]. intros c Hc.
  apply (chunk_is_mono c (f_n f) (f_n f) 1024 1024 (h_sub h) (h_sub h ++ es) (h_nvs h) (h_nvs h') Hc); try lia;
    [intros i Hi; apply subn_app_old, Hi|exact Hn].
Qed.

Lemma bare_flight_ok d n dc sub nvs :
  dgram_chunks d = [] -> (forall a, dgram_ack_of d = Some a -> a = seqof dc) -> 0 <= n -> 0 <= dc ->
  flight_ok (mk_flight n dc d) n dc sub nvs.
Proof.
  intros Hc Ha Hn Hd. unfold flight_ok, mk_flight. cbn [f_d f_n f_c]. rewrite Hc.
  split; [lia|]. split; [lia|]. split; [exact Ha|]. split; [cbn; lia|constructor].
Qed.

(* datagrams emitted now, stamped with the present counters *)
Definition flights_ok (sub del nvs : list bytes) (ds : list dgram) : Prop :=
  Forall (fun d => flight_ok (mk_flight (zlen sub) (zlen del) d) (zlen sub) (zlen del) sub nvs) ds.

Lemma control_flights_ok ph h subY delY nvsY ansY tok c :
  hist_inv ph h subY delY nvsY ansY -> ph <> Closed ->
  flights_ok (h_sub h) (h_del h) (h_nvs h) [DControl tok (phase_ack ph) c].
Proof.
  intros Hi Hc. constructor; [|constructor]. apply bare_flight_ok; try apply zlen_nonneg; [reflexivity|].
  intros a E. injection E as <-. eapply phase_ack_seqof; eassumption.
Qed.

Lemma connless_flights_ok sub del nvs tok resp p : flights_ok sub del nvs [DConnless tok resp p].
Proof. constructor; [|constructor]. apply bare_flight_ok; try apply zlen_nonneg; [reflexivity|discriminate]. Qed.

Lemma still_nil : still [].
Proof. repeat split. Qed.

Lemma flush_on pp o o' ds sub del nvs delY :
  online_flush pp o = Ok (o', ds) -> pk_count_ok (o_packet o) -> on_inv o sub del nvs delY ->
  on_inv o' sub del nvs delY /\ flights_ok sub del nvs ds.
Proof.
  intros Hf Hc [a [Hs [Ha Hack]]].
  destruct (flush_link _ _ _ _ _ _ _ _ Hf Hc Hs Hack (zlen_nonneg del)) as [Hs' [Hack' [_ [_ Hfl]]]].
  split; [exists a; split; [exact Hs'|]; split; [exact Ha|congruence]|exact Hfl].
Qed.

Lemma resend_on pp now o o' ds ts sub del nvs delY :
  online_resend pp now o = Ok (o', ds, ts) -> pk_count_ok (o_packet o) -> pk_count_ok (o_packet_nv o) ->
  on_inv o sub del nvs delY ->
  on_inv o' sub del nvs delY /\ flights_ok sub del nvs ds.
Proof.
  intros Hr Hc Hcnv [a [Hs [Ha Hack]]].
  destruct (resend_link _ _ _ _ _ _ _ _ _ _ Hr Hc Hcnv Hs Hack (zlen_nonneg del)) as [Hs' [Hack' [_ Hfl]]].
  split; [exists a; split; [exact Hs'|]; split; [exact Ha|congruence]|exact Hfl].
Qed.

Lemma ack_on o sub del nvs delY c :
  on_inv o sub del nvs delY -> 0 <= c <= zlen delY -> zlen sub - c < 1024 -> zlen delY <= zlen sub ->
  on_inv (ack_chunks o (seqof c)) sub del nvs delY.
Proof.
  intros [a [Hs [Ha Hack]]] Hc Hf Hle. exists (Z.max a c).
  split; [apply ack_link; [exact Hs|lia|exact Hf]|]. split; [lia|].
  destruct (ack_chunks_same o (seqof c)) as [_ [E _]]. congruence.
Qed.

Lemma send_on pp now o o' ds r data vital h delY :
  online_send pp now o data vital = Ok (o', ds, r) -> pk_count_ok (o_packet o) ->
  on_inv o (h_sub h) (h_del h) (h_nvs h) delY -> (vital = true -> zlen (o_queue o) < 511) ->
  flights_ok (h_sub h) (h_del h) (h_nvs h) ds /\
  match r with
  | SendTooLong => o' = o
  | SendOk => on_inv o' (h_sub (h_send h data vital)) (h_del h) (h_nvs (h_send h data vital)) delY
  end.
Proof.
  intros Hsd Hc [a [Hs [Ha Hack]]] Hw.
  destruct (send_link _ _ _ _ _ _ _ _ _ _ _ _ Hsd Hc Hs Hack (zlen_nonneg _) Hw) as [Hack' [Hfl Hres]].
  split; [exact Hfl|]. destruct r; [|apply Hres].
  exists a. split; [destruct vital; exact Hres|]. split; [exact Ha|congruence].
Qed.
