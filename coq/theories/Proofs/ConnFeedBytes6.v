(* C03 at the byte level (0.6): feeding BYTES = the library's packet reader (Model/Packet6.v, with
   the token hint the connection passes) followed by the connection's feed on the value it returns. *)
From LibTw2 Require Import Base.Res Model.PacketTypes Model.PacketBase Model.Packet6 Model.PacketInst
  Model.ConnCore Model.Conn6 Proofs.ConnInert Proofs.Packet6Chunks Proofs.Packet6Total.
From Coq Require Import ZArith Lia Bool List.
Open Scope Z_scope.

Definition ctl_of6 (c : control6) : control :=
  match c with
  | C6KeepAlive => KeepAlive | C6Connect => Connect None | C6ConnectAccept => ConnectAccept
  | C6Accept => Accept | C6Close r => Close r
  end.

(* the value feed_impl works on: the packet as read, its chunks as the chunk iterator yields them *)
Definition abstract6 (p : packet6) : dgram :=
  match p with
  | P6Connless pl => DConnless None None pl
  | P6Connected ack tok (P6Control c) => DControl tok ack (ctl_of6 c)
  | P6Connected ack tok (P6Chunks rr n payload) =>
    DChunks tok ack rr n (match chunks_iter_all6 payload n with Ok (cvs, _, _) => map fst cvs | _ => [] end)
  end.

(* Connection::feed passes `self.state.token().map(|t| t.is_some())` as the token hint *)
Definition hint6 (c : conn6) : option bool :=
  match state_token (c_state c) with
  | Some (Some _) => Some true
  | Some None => Some false
  | None => None
  end.

Definition feed_bytes6 (c : conn6) (e : env) (bs : bytes) : res unit outcome :=
  match snd (read6_tw bs (hint6 c) 1400) with
  | Ok (p, _) => step c e (OpFeed (abstract6 p))
  | Err _ => step c e OpFeedGarbage            (* Warning::Read(e); nothing else happens *)
  | Panic s => Panic s
  | OutOfFuel => OutOfFuel
  end.

Definition carried_token6 (c : conn6) (bs : bytes) : option token :=
  match snd (read6_tw bs (hint6 c) 1400) with
  | Ok (P6Connected _ tok _, _) => tok
  | _ => None
  end.
Definition reads_connless6 (c : conn6) (bs : bytes) : bool :=
  match snd (read6_tw bs (hint6 c) 1400) with Ok (P6Connless _, _) => true | _ => false end.

Lemma read6_tw_total bs hint : bytes_ok bs = true ->
  match snd (read6_tw bs hint 1400) with Ok _ | Err _ => True | _ => False end.
Proof.
  intros Hb. pose proof (Packet6Total.read6_good tw_decomp bs hint 1400 None Hb (le_n _) I) as H.
  unfold Packet6Total.good_result6 in H. unfold read6_tw.
  destruct (snd (read6 tw_decomp bs hint 1400)) as [[p vs]| | |]; tauto.
Qed.

(* every byte string: truncated, mutated, compressed, random ... *)
Theorem inert6_bytes c e bs t :
  token_fixed6 c t -> bytes_ok bs = true -> reads_connless6 c bs = false -> carried_token6 c bs <> Some t ->
  exists ws, feed_bytes6 c e bs = Ok (mk c e [] [] ws ROk).
Proof.
  intros Hfix Hb Hnc Htok. unfold feed_bytes6, carried_token6, reads_connless6 in *.
  pose proof (read6_tw_total bs (hint6 c) Hb) as Hgood.
  destruct (snd (read6_tw bs (hint6 c) 1400)) as [[p vs]|er|s|]; try contradiction.
  - destruct p as [pl|ack tok ty]; [discriminate Hnc|].
    exists [WTokenMismatch]. unfold step. apply inert6 with (t := t); [exact Hfix| |].
    + destruct ty; reflexivity.
    + destruct ty; cbn; exact Htok.
  - exists []. reflexivity.
Qed.
