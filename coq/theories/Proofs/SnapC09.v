(* C09 assembled: create, wire, apply. *)
From LibTw2 Require Import Base.Res Model.Varint Model.Packer Model.Snap Proofs.SnapBase Proofs.SnapRep Proofs.SnapDelta
  Proofs.SnapApply Proofs.SnapOk Proofs.SnapWire Proofs.SnapWireInst.
From Coq Require Import ZArith List Lia Bool Permutation.
Import ListNotations.
Open Scope Z_scope.

Lemma diffs_flat_length chA v : (forall k d, In (k, d) v -> length (diff_of chA (k, d)) = length d) ->
  length (flat (diffs chA v)) = length (flat v).
Proof.
  induction v as [|[k d] v IH]; intros H; [reflexivity|].
  cbn [diffs map flat flat_map snd fst]. fold (diffs chA v) (flat (diffs chA v)) (flat v).
  rewrite !app_length, (H k d) by (left; reflexivity). f_equal. apply IH. intros k' d' Hin. apply H. right. exact Hin.
Qed.

(* the delta between two snapshots without a size change, item by item as long as B's data *)
Lemma diffs_same_len chA B chB k d : rep B chB -> same_len chA chB -> In (k, d) (view B chB) ->
  length (diff_of chA (k, d)) = length d.
Proof. intros HB Hsl Hin. apply diff_len. intros f Hf. apply (Hsl k f d Hf), (in_view B chB k d HB Hin). Qed.

(* data as long as the item B holds under the key has a size the table and the wire format allow *)
Lemma respected_size_ok sz B chB k dB df : rep B chB -> lim_ok chB -> sizes_respected sz B = true ->
  aget k chB = Some dB -> length df = length dB -> size_ok sz (k, df).
Proof.
  intros HB [_ L2] Hsr HkB Hl. unfold size_ok. cbn [fst snd]. rewrite Hl.
  destruct (rep_get_some _ _ _ _ HB HkB) as (r & Hr & Hrl & _).
  unfold sizes_respected in Hsr. rewrite forallb_forall in Hsr. specialize (Hsr (k, r) (aget_in _ _ _ Hr)).
  cbn [fst snd] in Hsr. destruct (sz (key_to_raw_type_id k)).
  - apply Z.eqb_eq in Hsr. rewrite Hsr, Hrl. reflexivity.
  - assert (length dB <= length (flat chB))%nat; [|unfold MAX_SNAPSHOT_SIZE, ser_size, i32_max in *; lia].
    apply aget_in, in_split in HkB. destruct HkB as (l1 & l2 & ->).
    rewrite flat_app. cbn [flat flat_map snd]. rewrite !app_length. lia.
Qed.

Lemma diffs_sizes sz chA B chB : rep B chB -> lim_ok chB -> same_len chA chB -> sizes_respected sz B = true ->
  Forall (size_ok sz) (diffs chA (view B chB)).
Proof.
  intros HB LB Hsl Hsz. apply Forall_forall. intros [k df] Hin. destruct (in_diffs _ _ _ _ Hin) as (dB & HinB & ->).
  apply (respected_size_ok sz B chB k dB _ HB LB Hsz (in_view B chB k dB HB HinB)), (diffs_same_len chA B chB k dB HB Hsl HinB).
Qed.

(* `created` meets the wire precondition as soon as its sizes agree with the table *)
Lemma created_wire_pre sz A B chA chB :
  rep A chA -> rep B chB -> keys_i32 A -> keys_i32 B -> forallb is_i32 (rs_buf B) = true ->
  lim_ok chA -> lim_ok chB -> same_len chA chB -> Forall (size_ok sz) (diffs chA (view B chB)) ->
  wire_pre sz (d_del (created A B chA chB)) (diffs chA (view B chB)).
Proof.
  intros HA HB IA IB HbB LA LB Hsl Hsz.
  assert (Hkeys : map fst (diffs chA (view B chB)) = map fst (rs_offs B)).
  { rewrite diffs_keys. apply view_keys. }
  destruct (rep_lengths _ _ HA) as [LA1 LA2]. destruct (rep_lengths _ _ HB) as [LB1 LB2].
  destruct LA as [LA3 LA4]. destruct LB as [LB3 LB4]. unfold ser_size, MAX_SNAPSHOT_SIZE, MAX_SNAPSHOT_ITEMS, i32_max in *.
  assert (Hfl : length (flat (diffs chA (view B chB))) = length (flat chB)).
  { rewrite diffs_flat_length by (intros k d; apply diffs_same_len; assumption). apply length_flat_perm, view_perm, HB. }
  cbn [created d_del]. split; rewrite ?Hkeys.
  - apply sortedb_filter, (rep_sorted _ _ HA).
  - apply forallb_filter, IA.
  - apply (rep_sorted _ _ HB).
  - apply IB.
  - apply diffs_i32, view_flat_i32; assumption.
  - exact Hsz.
  - intros k Hin Hd. apply filter_In in Hd. destruct Hd as [_ Hd].
    apply (rep_in_keys _ _ _ HB) in Hin. unfold absent in Hd. destruct (aget k chB); [discriminate|congruence].
  - pose proof (filter_length_le' (absent chB) (map fst (rs_offs A))) as Hle. rewrite map_length in Hle. unfold i32_max. lia.
  - unfold diffs, view. rewrite !map_length. unfold i32_max. lia.
  - rewrite Hfl. unfold i32_max. lia.
Qed.

Theorem created_pre sz A B chA chB :
  rep A chA -> rep B chB -> keys_i32 A -> keys_i32 B ->
  forallb is_i32 (rs_buf A) = true -> forallb is_i32 (rs_buf B) = true ->
  lim_ok chA -> lim_ok chB -> same_len chA chB -> sizes_respected sz B = true ->
  created A B chA chB = delta_of (d_del (created A B chA chB)) (diffs chA (view B chB))
  /\ wire_pre sz (d_del (created A B chA chB)) (diffs chA (view B chB)).
Proof.
  intros HA HB IA IB _ HbB LA LB Hsl Hsz. split; [reflexivity|].
  apply created_wire_pre; try assumption. apply (diffs_sizes sz chA B chB HB LB Hsl Hsz).
Qed.

Theorem c09_main sz A B : raw_ok A = true -> raw_ok B = true -> k09 A B = false ->
  exists d B',
    create_raw A B = Ok d
    /\ raw_read_with_delta A d = (Ok B', [])
    /\ (forall E, @raw_items E B' = @raw_items E B)
    /\ (forall E ty id, @raw_item E B' ty id = @raw_item E B ty id)
    /\ crc B' = crc B
    /\ (sizes_respected sz B = true ->
        exists l bs, delta_ints sz d = Ok l /\ ints_to_bytes l = Ok bs
                     /\ delta_read_from_ints sz l = (Ok d, []) /\ delta_read_bytes sz bs = (Ok d, [])).
Proof.
  intros OA OB Hk.
  destruct (raw_ok_rep A OA) as (chA & HA & IA & HbA & LA).
  destruct (raw_ok_rep B OB) as (chB & HB & IB & HbB & LB).
  pose proof (k09_false _ _ _ _ HA HB Hk) as Hsl.
  destruct (apply_created A B chA chB HA HB IA IB HbA HbB LB Hsl) as (B' & ch' & Eap & R' & Hlook).
  exists (created A B chA chB), B'. split; [apply create_raw_spec; assumption|]. split; [exact Eap|].
  destruct (same_lookups _ _ _ _ R' HB Hlook) as (Hv & Hc & _).
  split; [intros E; rewrite (raw_items_rep B' ch' R'), (raw_items_rep B chB HB), Hv; reflexivity|].
  split; [intros E ty id; rewrite (raw_item_rep B' ch' ty id R'), (raw_item_rep B chB ty id HB), Hlook; reflexivity|].
  split; [exact Hc|]. intros Hsz.
  destruct (created_pre sz A B chA chB HA HB IA IB HbA HbB LA LB Hsl Hsz) as [E W].
  rewrite E. apply wire_roundtrip, W.
Qed.

Theorem c09_k09 A B : raw_ok A = true -> raw_ok B = true -> k09 A B = true ->
  exists s, create_raw A B = Panic s.
Proof.
  intros OA OB Hk.
  destruct (raw_ok_rep A OA) as (chA & HA & IA & _). destruct (raw_ok_rep B OB) as (chB & HB & IB & _).
  apply (create_raw_k09 A B chA chB); assumption.
Qed.
