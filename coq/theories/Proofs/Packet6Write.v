(* 0.6 writer: Packet::write in closed form. Whenever write returns Ok, the output is
   `encoding6 p` (header bytes ++ body), and for values inside the size limits the
   writer succeeds as soon as the buffer is large enough. *)
From LibTw2 Require Import Base.Res Base.Bits Model.PacketTypes Model.PacketBase Gen.Consts6 Gen.Bits6
  Model.Packet6 Proofs.PktSweep Proofs.PktBits6.
From LibTw2 Require Export Proofs.PacketShared.
From Coq Require Import ZArith Lia Bool List.
Open Scope Z_scope.

Lemma wstep6_ok t bs k t' : wstep6 t bs k = (t', Ok tt) ->
  k (wb_ext t bs) = (t', Ok tt) /\ (length bs <= wb_cap t - length (wb_data t))%nat.
Proof.
  unfold wstep6. destruct (wb_write t bs) as [t1 ok] eqn:E. destruct ok; [|discriminate].
  apply wb_write_true in E as [-> Hl]. intros H. split; assumption.
Qed.

Lemma wstep6_fits t bs k : (length (wb_data t) + length bs <= wb_cap t)%nat ->
  wstep6 t bs k = k (wb_ext t bs).
Proof. intros H. unfold wstep6. rewrite wb_write_fits by exact H. reflexivity. Qed.

Lemma wstep6_app t a b k : wstep6 t a (fun t' => wstep6 t' b k) = wstep6 t (a ++ b) k.
Proof. unfold wstep6. rewrite wb_write_app. destruct (wb_write t a) as [t1 [|]]; reflexivity. Qed.

Lemma wb_new_data cap : wb_data (wb_new cap) = [].
Proof. reflexivity. Qed.

Definition hdr_bytes6 (h : PacketHeader6) : bytes :=
  match PacketHeader6_pack h with Ok hp => PacketHeaderPacked6_as_bytes hp | _ => [] end.

Definition opt_bytes (o : option bytes) : bytes := match o with Some b => b | None => [] end.
Definition is_some {A} (o : option A) : bool := match o with Some _ => true | None => false end.

Lemma hdr_bytes6_ok h : ph6_in_range h = true ->
  exists hp, PacketHeader6_pack h = Ok hp /\ hdr_bytes6 h = PacketHeaderPacked6_as_bytes hp
    /\ PacketHeaderPacked6_unpack_warn hp = (h, []) /\ length (hdr_bytes6 h) = 3%nat.
Proof.
  intros Hr. destruct (ph6_pack_unpack h Hr) as (hp & Ep & Eu & _).
  exists hp. unfold hdr_bytes6. rewrite Ep. repeat split; try assumption.
Qed.

(* header, then one body, then a final check that leaves the buffer alone: the shape of
   both connected writers *)
Lemma write_header6_ok t h k t' : write_header6 t h k = (t', Ok tt) ->
  k (wb_ext t (hdr_bytes6 h)) = (t', Ok tt)
  /\ (length (hdr_bytes6 h) <= wb_cap t - length (wb_data t))%nat.
Proof.
  unfold write_header6, hdr_bytes6. destruct (PacketHeader6_pack h) as [hp|e|s|]; try discriminate.
  - apply wstep6_ok.
  - destruct e.
Qed.

Lemma write_header6_ext t h k k' : (forall t1, k t1 = k' t1) -> write_header6 t h k = write_header6 t h k'.
Proof.
  intros H. unfold write_header6, wstep6. destruct (PacketHeader6_pack h); try reflexivity.
  destruct (wb_write t _) as [t1 [|]]; [apply H|reflexivity].
Qed.

Lemma write_hb6_ok cap h body fin t' :
  (forall t, fin t = (t', Ok tt) -> t' = t) ->
  write_header6 (wb_new cap) h (fun t => wstep6 t body fin) = (t', Ok tt) ->
  wb_data t' = hdr_bytes6 h ++ body /\ (length (hdr_bytes6 h ++ body) <= cap)%nat.
Proof.
  intros Hfin E. apply write_header6_ok in E as [E H1]. apply wstep6_ok in E as [E H2].
  apply Hfin in E. subst t'. cbn [wb_ext wb_data wb_new wb_cap app length] in *.
  split; [reflexivity|]. rewrite app_length. lia.
Qed.

Lemma write_hb6_fits h body fin : ph6_in_range h = true ->
  (forall cap, (length (hdr_bytes6 h ++ body) <= cap)%nat ->
     write_header6 (wb_new cap) h (fun t => wstep6 t body fin)
     = fin {| wb_data := hdr_bytes6 h ++ body; wb_cap := cap |})
  /\ length (hdr_bytes6 h ++ body) = (3 + length body)%nat.
Proof.
  intros Hr. destruct (hdr_bytes6_ok h Hr) as (hp & Ep & Eh & _ & Hl).
  rewrite app_length, Hl. split; [|reflexivity]. intros cap Hc. unfold write_header6. rewrite Ep, <- Eh.
  rewrite wstep6_fits by (cbn [wb_new wb_data wb_cap length]; lia).
  rewrite wstep6_fits by (cbn [wb_ext wb_new wb_data wb_cap app]; lia). reflexivity.
Qed.

Section Enc.
Variable comp : HuffC.

Definition chunks_compressed6 (payload' : bytes) : bool :=
  match comp payload' ARRAYVEC_CAP with Some s => (length s <? length payload')%nat | None => false end.

Definition chunks_body6 (payload' : bytes) : bytes :=
  if chunks_compressed6 payload' then opt_bytes (comp payload' ARRAYVEC_CAP) else payload'.

Definition chunks_flags6 (resend : bool) (payload' : bytes) : Z :=
  Z.lor (bool_flag resend PACKETFLAG_REQUEST_RESEND) (bool_flag (chunks_compressed6 payload') PACKETFLAG_COMPRESSION).

Definition control_body6 (c : control6) (tok : option token) : bytes :=
  [ctrl_magic6 c]
  ++ (if is_connect6 c && is_some tok then CTRLMSG_TOKEN_MAGIC else [])
  ++ (match c with C6Close m => m ++ [0] | _ => [] end)
  ++ opt_bytes tok.

Definition encoding6 (p : packet6) : bytes :=
  match p with
  | P6Connless payload => repeat 255 6 ++ payload
  | P6Connected ack tok (P6Chunks resend nc payload) =>
    let payload' := chunks_payload6 tok payload in
    hdr_bytes6 {| ph6_flags := chunks_flags6 resend payload'; ph6_ack := ack; ph6_num_chunks := nc |}
    ++ chunks_body6 payload'
  | P6Connected ack tok (P6Control c) =>
    hdr_bytes6 {| ph6_flags := PACKETFLAG_CONTROL; ph6_ack := ack; ph6_num_chunks := 0 |}
    ++ control_body6 c tok
  end.

Lemma write_chunks6_steps ack tok resend nc payload t :
  write_connected6 comp ack tok (P6Chunks resend nc payload) t
  = let payload' := chunks_payload6 tok payload in
    write_header6 t {| ph6_flags := chunks_flags6 resend payload'; ph6_ack := ack; ph6_num_chunks := nc |}
      (fun t => wstep6 t (chunks_body6 payload') wdone6).
Proof. reflexivity. Qed.

(* ControlPacket::write ends with assert!(result.len() <= MAX_PACKETSIZE) *)
Definition finish6 (t : wbuf) : wres6 :=
  if Z.of_nat (length (wb_data t)) >? MAX_PACKETSIZE then (t, Panic site6_control_too_long) else wdone6 t.

Definition close_nul6 (c : control6) : bool := match c with C6Close m => has_nul m | _ => false end.

(* the pieces ControlPacket::write writes one by one are the pieces of control_body6 *)
Lemma write_control6_steps c tok ack t : close_nul6 c = false ->
  write_control6 c tok ack t
  = write_header6 t {| ph6_flags := PACKETFLAG_CONTROL; ph6_ack := ack; ph6_num_chunks := 0 |}
      (fun t => wstep6 t (control_body6 c tok) finish6).
Proof.
  intros Hn. unfold write_control6, control_body6. apply write_header6_ext. intros t1.
  destruct c as [| | | |m], tok as [tk|]; cbn [close_nul6] in Hn; rewrite ?Hn;
    cbn [is_connect6 is_some andb opt_bytes]; rewrite ?wstep6_app, ?app_nil_r; reflexivity.
Qed.

Lemma write_control6_nul c tok ack t r : close_nul6 c = true -> write_control6 c tok ack t <> (r, Ok tt).
Proof.
  intros Hn E. destruct c as [| | | |m]; try discriminate Hn. unfold write_control6 in E.
  apply write_header6_ok in E as [E _]. apply wstep6_ok in E as [E _].
  cbn [is_connect6 andb close_nul6] in *. rewrite Hn in E. discriminate E.
Qed.

Theorem write6_ok_encoding p cap out : write6 comp p cap = Ok out ->
  out = encoding6 p /\ (length out <= cap)%nat.
Proof.
  unfold write6, write6_full.
  destruct (match p with P6Connless _ => _ | P6Connected _ _ _ => _ end) as [t [[]| | |]] eqn:E; try discriminate.
  intros H. injection H as <-. destruct p as [payload|ack tok [resend nc payload|c]].
  - unfold write_connless6 in E. destruct (Z.of_nat (length payload) >? MAX_PAYLOAD); [discriminate|].
    apply wstep6_ok in E as [E H1]. apply wstep6_ok in E as [E H2]. injection E as <-.
    change (Z.to_nat (HEADER_SIZE + PADDING_SIZE_CONNLESS)) with 6%nat in *.
    cbn [wb_ext wb_data wb_new wb_cap app repeat length] in *. split; [reflexivity|]. cbn [length]. lia.
  - rewrite write_chunks6_steps in E. apply write_hb6_ok in E as [-> Hl]; [split; [reflexivity|exact Hl]|].
    intros t0 H. injection H as <-. reflexivity.
  - unfold write_connected6 in E. destruct (close_nul6 c) eqn:Hn.
    + exfalso. exact (write_control6_nul _ _ _ _ _ Hn E).
    + rewrite write_control6_steps in E by exact Hn.
      apply write_hb6_ok in E as [-> Hl]; [split; [reflexivity|exact Hl]|].
      intros t0. unfold finish6. destruct (_ >? _); [discriminate|]. intros H. injection H as <-. reflexivity.
Qed.

Lemma chunks_flags6_range resend payload' : 0 <= chunks_flags6 resend payload' < 16.
Proof. unfold chunks_flags6. destruct resend, (chunks_compressed6 payload'); vm_compute; split; congruence. Qed.

Lemma chunks_body6_len payload' : (length (chunks_body6 payload') <= length payload')%nat.
Proof.
  unfold chunks_body6, chunks_compressed6. destruct (comp payload' ARRAYVEC_CAP) as [s|]; cbn [opt_bytes].
  - destruct (length s <? length payload')%nat eqn:E; [apply Nat.ltb_lt in E; lia|lia].
  - lia.
Qed.

Lemma chunks_payload6_expr tok payload :
  Z.of_nat (length payload) + (match tok with Some _ => TOKEN_SIZE | None => 0 end) <= MAX_PACKETSIZE - HEADER_SIZE ->
  match tok with Some t => token_ok t | None => true end = true ->
  chunks_payload6 tok payload = payload ++ opt_bytes tok
  /\ Z.of_nat (length (chunks_payload6 tok payload)) <= MAX_PACKETSIZE - HEADER_SIZE.
Proof.
  unfold chunks_payload6, token_ok, TOKEN_SIZE, MAX_PACKETSIZE, HEADER_SIZE. intros Hl Ht. destruct tok as [tk|]; cbn [opt_bytes].
  - apply Nat.eqb_eq in Ht. rewrite firstn_all2 by (rewrite app_length; unfold ARRAYVEC_CAP; lia).
    split; [reflexivity|]. rewrite app_length. lia.
  - rewrite app_nil_r. split; [reflexivity|lia].
Qed.

Lemma ph6_in_range_iff f a n :
  ph6_in_range {| ph6_flags := f; ph6_ack := a; ph6_num_chunks := n |} = true
  <-> 0 <= f < 16 /\ 0 <= a < 1024 /\ 0 <= n < 256.
Proof. unfold ph6_in_range, byteb. cbn [ph6_flags ph6_ack ph6_num_chunks]. lia. Qed.

Lemma ph6_control_in_range ack : 0 <= ack < 1024 ->
  ph6_in_range {| ph6_flags := PACKETFLAG_CONTROL; ph6_ack := ack; ph6_num_chunks := 0 |} = true.
Proof. intros H. apply ph6_in_range_iff. unfold PACKETFLAG_CONTROL. lia. Qed.

Lemma expressible6_connected ack (tok : option token) ty :
  expressible6 (P6Connected ack tok ty) = true
  <-> 0 <= ack < 1024
      /\ match tok with Some t => token_ok t | None => true end = true
      /\ match ty with
         | P6Chunks _ n payload =>
           (0 <=? n) && (n <? 256)
           && (Z.of_nat (length payload) + (match tok with Some _ => TOKEN_SIZE | None => 0 end)
               <=? MAX_PACKETSIZE - HEADER_SIZE)
         | P6Control (C6Close reason) =>
           negb (has_nul reason) && (Z.of_nat (length reason) <=? CTRLMSG_CLOSE_REASON_LENGTH)
         | P6Control _ => true
         end = true.
Proof. cbn [expressible6]. rewrite !andb_true_iff, Z.leb_le, Z.ltb_lt. tauto. Qed.

(* control byte, token magic, close reason with its NUL, token *)
Lemma control_body6_len ack tok c : expressible6 (P6Connected ack tok (P6Control c)) = true ->
  close_nul6 c = false /\ (1 <= length (control_body6 c tok) <= 1 + 4 + 128 + 4)%nat.
Proof.
  intros Hx. apply expressible6_connected in Hx as (_ & Htok & Hty).
  unfold control_body6, token_ok, CTRLMSG_CLOSE_REASON_LENGTH, CTRLMSG_TOKEN_MAGIC in *.
  assert (Htl : (length (opt_bytes tok) <= 4)%nat) by (destruct tok; cbn [opt_bytes length]; [apply Nat.eqb_eq in Htok|]; lia).
  assert (Hm : close_nul6 c = false /\ (length (match c with C6Close m => m ++ [0%Z] | _ => [] end) <= 128)%nat).
  { destruct c as [| | | |m]; cbn [close_nul6 length]; try (split; [reflexivity|lia]).
    apply andb_true_iff in Hty as [Hn Hml]. apply negb_true_iff in Hn. rewrite app_length. cbn [length]. split; [exact Hn|lia]. }
  destruct Hm as [Hn Hm]. split; [exact Hn|].
  rewrite !app_length. destruct (is_connect6 c && is_some tok); cbn [length]; lia.
Qed.

Lemma write6_fits p : expressible6 p = true -> K06_6 p = false ->
  Z.of_nat (length (encoding6 p)) <= MAX_PACKETSIZE
  /\ forall cap, (length (encoding6 p) <= cap)%nat -> write6 comp p cap = Ok (encoding6 p).
Proof.
  intros Hx Hk. unfold write6, write6_full, MAX_PACKETSIZE. destruct p as [payload|ack tok [resend nc payload|c]].
  - cbn [K06_6] in Hk. unfold write_connless6, MAX_PAYLOAD in *. rewrite Hk.
    change (Z.to_nat (HEADER_SIZE + PADDING_SIZE_CONNLESS)) with 6%nat.
    cbn [encoding6 repeat app length]. split; [lia|]. intros cap Hcap.
    rewrite wstep6_fits by (cbn; lia). rewrite wstep6_fits by (cbn; lia). reflexivity.
  - apply expressible6_connected in Hx as (Hack & Htok & Hty).
    apply andb_true_iff in Hty as [Hnc Hlen]. apply Z.leb_le in Hlen.
    pose proof (chunks_payload6_expr tok payload Hlen Htok) as [_ Hpl]. unfold MAX_PACKETSIZE, HEADER_SIZE in Hpl.
    cbn [encoding6]. set (pl' := chunks_payload6 tok payload) in *.
    pose proof (chunks_flags6_range resend pl') as Hf. pose proof (chunks_body6_len pl') as Hb.
    assert (Hr : ph6_in_range {| ph6_flags := chunks_flags6 resend pl'; ph6_ack := ack; ph6_num_chunks := nc |} = true)
      by (apply ph6_in_range_iff; lia).
    pose proof (write_hb6_fits _ (chunks_body6 pl') wdone6 Hr) as [E Hle]. rewrite Hle. split; [lia|].
    intros cap Hcap. rewrite write_chunks6_steps. fold pl'. cbv zeta. rewrite E by lia. reflexivity.
  - pose proof (control_body6_len ack tok c Hx) as [Hn Hl].
    apply expressible6_connected in Hx as (Hack & _).
    pose proof (write_hb6_fits _ (control_body6 c tok) finish6 (ph6_control_in_range ack Hack)) as [E Hle]. cbn [encoding6]. rewrite Hle.
    split; [lia|]. intros cap Hcap.
    unfold write_connected6. rewrite write_control6_steps, E by (assumption || lia).
    unfold finish6. cbn [wb_data]. rewrite Z.gtb_ltb, (proj2 (Z.ltb_ge _ _)) by (unfold MAX_PACKETSIZE; lia).
    reflexivity.
Qed.

Theorem write6_ok p cap : expressible6 p = true -> K06_6 p = false -> (1400 <= cap)%nat ->
  write6 comp p cap = Ok (encoding6 p) /\ (length (encoding6 p) <= 1400)%nat.
Proof.
  intros Hx Hk Hcap. pose proof (write6_fits p Hx Hk) as [L W]. unfold MAX_PACKETSIZE in L.
  split; [apply W|]; lia.
Qed.

End Enc.
