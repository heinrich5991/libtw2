(* A toy coder (run-length on all-zero strings) that satisfies the hypotheses the packet
   theorems make about the Huffman coder: used only to show that those hypotheses are
   satisfiable and that BOTH compression branches of the writer are covered by the theorems. *)
From LibTw2 Require Import Base.Res Model.PacketBase.
From Coq Require Import ZArith Lia Bool List.
Open Scope Z_scope.

Definition toy_comp (x : bytes) (cap : nat) : option bytes :=
  if forallb (fun b => b =? 0) x && (1 <=? cap)%nat then Some [Z.of_nat (length x)] else None.

Definition toy_decomp (y : bytes) (cap : nat) : option bytes :=
  match y with
  | [n] => if (0 <=? n) && (n <=? Z.of_nat cap) then Some (repeat 0 (Z.to_nat n)) else None
  | _ => None
  end.

Lemma all_zero_repeat x : forallb (fun b => b =? 0) x = true -> x = repeat 0 (length x).
Proof.
  induction x as [|b x IH]; cbn [forallb length repeat]; intros H; [reflexivity|].
  apply andb_true_iff in H as [Hb Hx]. apply Z.eqb_eq in Hb. subst b. f_equal. apply IH, Hx.
Qed.

Lemma toy_rt : forall x c y, toy_comp x c = Some y ->
  forall c', (length x <= c')%nat -> toy_decomp y c' = Some x.
Proof.
  intros x c y H c' Hc. unfold toy_comp in H.
  destruct (forallb (fun b => b =? 0) x) eqn:Ez; cbn [andb] in H; [|discriminate].
  destruct (1 <=? c)%nat; [|discriminate]. injection H as <-.
  unfold toy_decomp. rewrite (proj2 (andb_true_iff _ _)) by (split; apply Z.leb_le; lia).
  rewrite Nat2Z.id. f_equal. symmetry. apply all_zero_repeat, Ez.
Qed.

Lemma toy_ok : forall y c d, toy_decomp y c = Some d -> (length d <= c)%nat /\ bytes_ok d = true.
Proof.
  intros y c d. unfold toy_decomp. destruct y as [|n [|? ?]]; try discriminate.
  destruct ((0 <=? n) && (n <=? Z.of_nat c)) eqn:E; [|discriminate].
  intros H. injection H as <-. rewrite repeat_length. split; [lia|].
  induction (Z.to_nat n) as [|k IH]; [reflexivity|exact IH].
Qed.
