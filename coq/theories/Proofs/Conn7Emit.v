(* 0.7: every datagram connection7.rs emits (Proofs/Conn7Inv.emit_wf7, along every valid history)
   satisfies Proofs/ConnBytes7.tokens_wf7 and is encodable (encode7). *)
From LibTw2 Require Import Base.Res Model.PacketTypes Model.PacketBase Model.ConnCore Model.Conn7
  Proofs.ConnCoreInv Proofs.Conn7Inv Proofs.ConnBytes7.
From Coq Require Import ZArith Lia Bool List.
Open Scope Z_scope.

Lemma emit_wf7_tokens d : emit_wf7 d -> tokens_wf7 d = true.
Proof.
  destruct d as [t r pl|tok ack c|tok ack rr n cs]; cbn [emit_wf7 tokens_wf7]; try reflexivity.
  - intros [[a [-> Ha]] [b [-> Hb]]]. unfold tlen in *. cbn [otoken_ok]. unfold token_ok. rewrite Ha, Hb. reflexivity.
  - intros [_ H]. destruct c as [|[r|]| | |r|r]; try reflexivity; apply resp_ok7_iff; exact H.
Qed.

Lemma emit_wf7_encodable d : emit_wf7 d -> exists p, encode7 d = Some p.
Proof.
  destruct d as [t r pl|tok ack c|tok ack rr n cs]; cbn [emit_wf7 encode7].
  - intros [[a [-> _]] [b [-> _]]]. eexists; reflexivity.
  - intros [[a [-> _]] H]. destruct c as [|[r|]| | |r|r]; try contradiction; cbn [ctl7_of]; eexists; reflexivity.
  - intros [a [-> _]]. eexists; reflexivity.
Qed.
