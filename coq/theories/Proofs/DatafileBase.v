(* Basic facts for the datafile model: machine arithmetic, Z-indexed lists, the
   little-endian word codec, the read callback. *)
From LibTw2 Require Import Base.Res Model.Datafile.
From Coq Require Import ZArith List Lia Bool.
Import ListNotations.
Open Scope Z_scope.

Definition no_panic {E A} (r : res E A) : Prop :=
  match r with Panic _ => False | OutOfFuel => False | _ => True end.

Lemma no_panic_bind {E A B} (r : res E A) (f : A -> res E B) :
  no_panic r -> (forall a, r = Ok a -> no_panic (f a)) -> no_panic (bind r f).
Proof. destruct r; cbn; auto; intros; exact I. Qed.

Lemma bind_ok {E A B} (r : res E A) (f : A -> res E B) b :
  bind r f = Ok b -> exists a, r = Ok a /\ f a = Ok b.
Proof. destruct r; cbn; try discriminate. eauto. Qed.

Lemma bind_assoc {E A B C} (r : res E A) (f : A -> res E B) (g : B -> res E C) :
  bind (bind r f) g = bind r (fun a => bind (f a) g).
Proof. destruct r; reflexivity. Qed.

Lemma no_panic_ok {E A} (a : A) : no_panic (@Ok E A a).
Proof. exact I. Qed.
Lemma no_panic_err {E A} (e : E) : no_panic (@Err E A e).
Proof. exact I. Qed.
#[export] Hint Resolve no_panic_ok no_panic_err : core.

Lemma two32_eq : two32 = 2 ^ 32. Proof. reflexivity. Qed.
Lemma two31_eq : two31 = 2 ^ 31. Proof. reflexivity. Qed.
Lemma two64_eq : two64 = 2 ^ 64. Proof. reflexivity. Qed.

Lemma is_i32_iff v : is_i32 v = true <-> -2147483648 <= v <= 2147483647.
Proof. unfold is_i32, i32_min, i32_max. lia. Qed.

Lemma as_usize_id z : 0 <= z < two64 -> as_usize z = z.
Proof. apply Z.mod_small. Qed.

Lemma as_usize_small z : 0 <= z <= 2147483647 -> as_usize z = z.
Proof. intros. apply as_usize_id. rewrite two64_eq. lia. Qed.

Lemma as_usize_i32 z : 0 <= z -> is_i32 z = true -> as_usize z = z.
Proof. intros H0 H. apply is_i32_iff in H. apply as_usize_small. lia. Qed.

Lemma u32_of_small z : 0 <= z <= 2147483647 -> u32_of z = z.
Proof. intros. apply Z.mod_small. rewrite two32_eq. lia. Qed.

Lemma i32_of_range u : 0 <= u < two32 -> is_i32 (i32_of u) = true.
Proof.
  rewrite two32_eq. intros H. apply is_i32_iff. unfold i32_of. rewrite two31_eq, two32_eq.
  destruct (u <? 2 ^ 31) eqn:E; lia.
Qed.

Lemma i32_of_u32_of v : is_i32 v = true -> i32_of (u32_of v) = v.
Proof.
  intros H. apply is_i32_iff in H. unfold i32_of, u32_of. rewrite two31_eq, two32_eq.
  destruct (v mod 2 ^ 32 <? 2 ^ 31) eqn:E; revert E; Z.div_mod_to_equations; lia.
Qed.

Lemma u32_of_i32_of u : 0 <= u < two32 -> u32_of (i32_of u) = u.
Proof.
  rewrite two32_eq. intros H. unfold i32_of, u32_of. rewrite two31_eq, two32_eq.
  destruct (u <? 2 ^ 31); Z.div_mod_to_equations; lia.
Qed.

(* every checked operation of the model is a test guarding a value: it succeeds exactly
   when the test does, and then returns that value *)
Lemma guard_ok {E A} (b : bool) (a : A) s : b = true -> (if b then Ok a else @Panic E A s) = Ok a.
Proof. intros ->. reflexivity. Qed.
Lemma guard_inv {E A} (b : bool) (a c : A) s : (if b then Ok a else @Panic E A s) = Ok c -> b = true /\ a = c.
Proof. destruct b; [intros [= ->]; auto|discriminate]. Qed.

(* the same with the test negated, as the slices and indices have it *)
Lemma nguard_ok {E A} (b : bool) (a : A) s : b = false -> (if b then @Panic E A s else Ok a) = Ok a.
Proof. intros ->. reflexivity. Qed.
Lemma nguard_inv {E A} (b : bool) (a c : A) s : (if b then @Panic E A s else Ok a) = Ok c -> b = false /\ a = c.
Proof. destruct b; [discriminate|intros [= ->]; auto]. Qed.

Section Prims.
Context {EE : Type}.

Lemma i32_add_ok a b : is_i32 (a + b) = true -> @i32_add EE a b = Ok (a + b).
Proof. apply guard_ok. Qed.
Lemma i32_sub_ok a b : is_i32 (a - b) = true -> @i32_sub EE a b = Ok (a - b).
Proof. apply guard_ok. Qed.
Lemma i32_mul_ok a b : is_i32 (a * b) = true -> @i32_mul EE a b = Ok (a * b).
Proof. apply guard_ok. Qed.
Lemma usize_add_ok a b : a + b < 2 ^ 64 -> @usize_add EE a b = Ok (a + b).
Proof. rewrite <- two64_eq. intros H. apply guard_ok. lia. Qed.
Lemma usize_sub_ok a b : 0 <= a - b -> @usize_sub EE a b = Ok (a - b).
Proof. intros H. apply guard_ok. lia. Qed.
Lemma usize_mul_ok a b : a * b < 2 ^ 64 -> @usize_mul EE a b = Ok (a * b).
Proof. rewrite <- two64_eq. intros H. apply guard_ok. lia. Qed.
Lemma assert_usize_ok a : 0 <= a -> @assert_usize EE a = Ok a.
Proof. intros H. apply guard_ok. lia. Qed.
Lemma assert_u16_ok a : 0 <= a < 65536 -> @assert_u16 EE a = Ok a.
Proof. intros H. apply guard_ok. lia. Qed.
Lemma assert_u32_ok a : 0 <= a < two32 -> @assert_u32 EE a = Ok a.
Proof. intros H. apply guard_ok. lia. Qed.
Lemma rsom_1_4_ok m : 0 <= m < 2 ^ 64 -> m mod 4 = 0 -> @rsom EE m 1 4 = Ok (m / 4).
Proof.
  intros Hm H4. unfold rsom. rewrite usize_mul_ok by lia. cbn [bind].
  rewrite Z.mul_1_r. apply guard_ok. lia.
Qed.

Lemma i32_add_inv a b c : @i32_add EE a b = Ok c -> c = a + b /\ is_i32 c = true.
Proof. intros H. apply guard_inv in H. destruct H as [H <-]. auto. Qed.
Lemma usize_add_inv a b c : @usize_add EE a b = Ok c -> c = a + b /\ c < two64.
Proof. intros H. apply guard_inv in H. lia. Qed.
Lemma usize_sub_inv a b c : @usize_sub EE a b = Ok c -> c = a - b /\ 0 <= c.
Proof. intros H. apply guard_inv in H. lia. Qed.
Lemma assert_usize_inv a c : @assert_usize EE a = Ok c -> c = a /\ 0 <= a.
Proof. intros H. apply guard_inv in H. lia. Qed.
Lemma rsom_1_4_inv m c : 0 <= m -> @rsom EE m 1 4 = Ok c -> c = m / 4 /\ m mod 4 = 0.
Proof.
  intros Hm H. unfold rsom in H. apply bind_ok in H. destruct H as (p & Hp & H).
  apply guard_inv in Hp. apply guard_inv in H. rewrite Z.mul_1_r in Hp. destruct Hp as [_ <-]. lia.
Qed.

Lemma zlen_nonneg {A} (l : list A) : 0 <= zlen l.
Proof. unfold zlen. lia. Qed.
Lemma zlen_nil {A} : zlen (@nil A) = 0.
Proof. reflexivity. Qed.
Lemma zlen_cons {A} (x : A) l : zlen (x :: l) = 1 + zlen l.
Proof. unfold zlen. cbn [length]. lia. Qed.
Lemma zlen_app {A} (l1 l2 : list A) : zlen (l1 ++ l2) = zlen l1 + zlen l2.
Proof. unfold zlen. rewrite app_length. lia. Qed.

Lemma zlen_snoc {A} (l : list A) x : zlen (l ++ [x]) = zlen l + 1.
Proof. rewrite zlen_app, zlen_cons, zlen_nil. lia. Qed.

Lemma znth_nth_error {A} (l : list A) : forall i, 0 <= i -> znth l i = nth_error l (Z.to_nat i).
Proof.
  induction l as [|x l IH]; intros i Hi; cbn [znth].
  - destruct (Z.to_nat i); reflexivity.
  - destruct (i =? 0) eqn:E.
    + replace i with 0 by lia. reflexivity.
    + rewrite IH by lia. replace (Z.to_nat i) with (S (Z.to_nat (i - 1))) by lia. reflexivity.
Qed.

Lemma znth_some {A} (l : list A) i : 0 <= i < zlen l -> exists x, znth l i = Some x.
Proof.
  intros H. rewrite znth_nth_error by lia.
  destruct (nth_error l (Z.to_nat i)) eqn:E; eauto.
  apply nth_error_None in E. unfold zlen in H. lia.
Qed.

Lemma znth_lt {A} (l : list A) i x : 0 <= i -> znth l i = Some x -> i < zlen l.
Proof.
  intros Hi H. rewrite znth_nth_error in H by lia.
  assert (Z.to_nat i < length l)%nat by (apply nth_error_Some; congruence).
  unfold zlen. lia.
Qed.

Lemma znth_In {A} (l : list A) : forall i x, znth l i = Some x -> In x l.
Proof.
  induction l as [|y l IH]; intros i x H; cbn [znth] in H; [discriminate|].
  destruct (i =? 0); [left; congruence|right; exact (IH _ _ H)].
Qed.

Lemma index_of_znth {A} (l : list A) i s x : 0 <= i -> znth l i = Some x -> @index EE A l i s = Ok x.
Proof. intros Hi Hz. unfold index. rewrite Hz. apply nguard_ok. lia. Qed.

Lemma index_ok {A} (l : list A) i s : 0 <= i < zlen l -> exists x, @index EE A l i s = Ok x /\ znth l i = Some x.
Proof.
  intros H. destruct (znth_some l i H) as [x Hx]. exists x. split; [apply index_of_znth; [lia|]|]; exact Hx.
Qed.

Lemma index_inv {A} (l : list A) i s x : @index EE A l i s = Ok x -> 0 <= i /\ znth l i = Some x.
Proof.
  unfold index. destruct (i <? 0) eqn:E; [discriminate|].
  destruct (znth l i); [|discriminate]. split; [lia|congruence].
Qed.

Lemma slice_from_ok {A} (l : list A) a s : 0 <= a <= zlen l -> @slice_from EE A l a s = Ok (skipn (Z.to_nat a) l).
Proof. intros H. apply nguard_ok. lia. Qed.
Lemma slice_to_ok {A} (l : list A) b s : 0 <= b <= zlen l -> @slice_to EE A l b s = Ok (firstn (Z.to_nat b) l).
Proof. intros H. apply nguard_ok. lia. Qed.
Lemma slice_from_inv {A} (l : list A) a s x : @slice_from EE A l a s = Ok x -> 0 <= a <= zlen l /\ x = skipn (Z.to_nat a) l.
Proof. intros H. apply nguard_inv in H. split; [lia|symmetry; tauto]. Qed.
Lemma slice_to_inv {A} (l : list A) b s x : @slice_to EE A l b s = Ok x -> 0 <= b <= zlen l /\ x = firstn (Z.to_nat b) l.
Proof. intros H. apply nguard_inv in H. split; [lia|symmetry; tauto]. Qed.
End Prims.

Lemma zlen_skipn {A} (l : list A) a : 0 <= a <= zlen l -> zlen (skipn (Z.to_nat a) l) = zlen l - a.
Proof. unfold zlen. intros H. rewrite skipn_length. lia. Qed.
Lemma zlen_firstn {A} (l : list A) b : 0 <= b <= zlen l -> zlen (firstn (Z.to_nat b) l) = b.
Proof. unfold zlen. intros H. rewrite firstn_length. lia. Qed.

Lemma zlen_map {A B} (f : A -> B) l : zlen (map f l) = zlen l.
Proof. unfold zlen. rewrite map_length. reflexivity. Qed.

Lemma znth_app_r {A} (pre : list A) x post : znth (pre ++ x :: post) (zlen pre) = Some x.
Proof.
  induction pre as [|y pre IH]; cbn [app znth]; [reflexivity|].
  rewrite zlen_cons. pose proof (zlen_nonneg pre).
  destruct (1 + zlen pre =? 0) eqn:E; [lia|]. replace (1 + zlen pre - 1) with (zlen pre) by lia. exact IH.
Qed.

Lemma skipn_zlen_app {A} (a b : list A) : skipn (Z.to_nat (zlen a)) (a ++ b) = b.
Proof. unfold zlen. rewrite Nat2Z.id, skipn_app, Nat.sub_diag, skipn_all. reflexivity. Qed.

Lemma firstn_zlen_app {A} (a b : list A) : firstn (Z.to_nat (zlen a)) (a ++ b) = a.
Proof. unfold zlen. rewrite Nat2Z.id, firstn_app, Nat.sub_diag, firstn_all. cbn. apply app_nil_r. Qed.

Lemma skipn_skipn' {A} (x y : nat) (l : list A) : skipn x (skipn y l) = skipn (y + x) l.
Proof.
  revert l. induction y; intros l; [reflexivity|]. destruct l; cbn [skipn plus].
  - destruct x; reflexivity.
  - apply IHy.
Qed.

Lemma list_ind4 {A} (P : list A -> Prop) :
  P [] -> (forall a, P [a]) -> (forall a b, P [a; b]) -> (forall a b c, P [a; b; c]) ->
  (forall a b c d r, P r -> P (a :: b :: c :: d :: r)) -> forall l, P l.
Proof.
  intros H0 H1 H2 H3 H4.
  fix IH 1. intros l.
  destruct l as [|a [|b [|c [|d r]]]]; [exact H0|apply H1|apply H2|apply H3|apply H4, IH].
Qed.

Lemma byte_ok_iff b : byte_ok b = true <-> 0 <= b < 256.
Proof. unfold byte_ok. lia. Qed.

Lemma bytes_ok_cons b bs : bytes_ok (b :: bs) = true <-> (0 <= b < 256) /\ bytes_ok bs = true.
Proof. unfold bytes_ok. cbn [forallb]. rewrite andb_true_iff, byte_ok_iff. tauto. Qed.

Lemma bytes_ok_app a b : bytes_ok (a ++ b) = true <-> bytes_ok a = true /\ bytes_ok b = true.
Proof. unfold bytes_ok. rewrite forallb_app, andb_true_iff. tauto. Qed.

Lemma bytes_ok_firstn n bs : bytes_ok bs = true -> bytes_ok (firstn n bs) = true.
Proof. intros H. rewrite <- (firstn_skipn n bs) in H. apply bytes_ok_app in H. tauto. Qed.
Lemma bytes_ok_skipn n bs : bytes_ok bs = true -> bytes_ok (skipn n bs) = true.
Proof. intros H. rewrite <- (firstn_skipn n bs) in H. apply bytes_ok_app in H. tauto. Qed.
Lemma bytes_ok_repeat0 n : bytes_ok (repeat 0 n) = true.
Proof. induction n; cbn; auto. Qed.

Lemma le_u32_range b0 b1 b2 b3 :
  0 <= b0 < 256 -> 0 <= b1 < 256 -> 0 <= b2 < 256 -> 0 <= b3 < 256 -> 0 <= le_u32 b0 b1 b2 b3 < two32.
Proof. unfold le_u32. rewrite two32_eq. lia. Qed.

Definition all_i32 (ws : list Z) : Prop := Forall (fun w => is_i32 w = true) ws.

Lemma all_i32_firstn n ws : all_i32 ws -> all_i32 (firstn n ws).
Proof. intros H. rewrite <- (firstn_skipn n ws) in H. apply Forall_app in H. tauto. Qed.
Lemma all_i32_skipn n ws : all_i32 ws -> all_i32 (skipn n ws).
Proof. intros H. rewrite <- (firstn_skipn n ws) in H. apply Forall_app in H. tauto. Qed.

Lemma all_i32_In ws w : all_i32 ws -> In w ws -> -2147483648 <= w <= 2147483647.
Proof. intros H Hin. apply is_i32_iff. revert w Hin. apply Forall_forall, H. Qed.

Lemma all_i32_znth ws i w : all_i32 ws -> znth ws i = Some w -> -2147483648 <= w <= 2147483647.
Proof. intros H Hz. eapply all_i32_In, znth_In; eauto. Qed.

Lemma words_of_bytes_i32 bs : bytes_ok bs = true -> all_i32 (words_of_bytes bs).
Proof.
  induction bs as [| | | |a b c d r IH] using list_ind4; cbn [words_of_bytes]; intros H; [constructor..|].
  rewrite !bytes_ok_cons in H. destruct H as (Ha & Hb & Hc & Hd & H).
  constructor; [apply i32_of_range, le_u32_range; assumption|apply IH, H].
Qed.

Lemma words_of_bytes_zlen bs : zlen (words_of_bytes bs) = zlen bs / 4.
Proof.
  induction bs as [| | | |a b c d r IH] using list_ind4; cbn [words_of_bytes]; try reflexivity.
  rewrite !zlen_cons, IH. pose proof (zlen_nonneg r). Z.div_mod_to_equations. lia.
Qed.

Lemma words_of_bytes_app a b : zlen a mod 4 = 0 -> words_of_bytes (a ++ b) = words_of_bytes a ++ words_of_bytes b.
Proof.
  induction a as [| x | x y | x y z |x y z w r IH] using list_ind4; intros H; try discriminate H.
  - reflexivity.
  - cbn [app words_of_bytes]. rewrite IH; [reflexivity|].
    rewrite !zlen_cons in H. revert H. Z.div_mod_to_equations. lia.
Qed.

Lemma cb_read_spec n cur :
  exists g r, cb_read n cur = (g, r) /\ cur = g ++ r /\ zlen g = Z.max 0 (Z.min n (zlen cur)).
Proof.
  unfold cb_read. pose proof (zlen_nonneg cur).
  destruct (zlen cur <=? n) eqn:E1.
  - exists cur, []. rewrite app_nil_r. repeat split; lia.
  - destruct (n <=? 0) eqn:E2.
    + exists [], cur. repeat split. rewrite zlen_nil. lia.
    + exists (firstn (Z.to_nat n) cur), (skipn (Z.to_nat n) cur).
      rewrite firstn_skipn. repeat split. rewrite zlen_firstn by lia. lia.
Qed.
