(* The concrete reader: fragmentation independence (instance of the generic theorem),
   no panics, and the caller's loop terminates within fuel_for. *)
From LibTw2 Require Import Base.Res Model.Varint Model.Packer Model.Teehistorian
  Proofs.TeehistFrag Proofs.TeehistParsers.
From Coq Require Import List Lia Arith ZArith Bool.
Import ListNotations.
Open Scope Z_scope.

Notation eofT := (FErr EUnexpectedEnd).

(* kinds whose record is reported inside a tick *)
Definition normal (k : ikind) : bool := negb (is_tick_skip k) && negb (is_finish k).

(* a player record whose cid does not exceed the previous one starts the next tick *)
Definition prevcond (r : reader) (k : ikind) : bool :=
  match player_cid k, r_prev r with
  | Some c, Some p => c <=? p
  | _, _ => false
  end.

Lemma prevcond_none r k : r_prev r = None -> prevcond r k = false.
Proof. unfold prevcond. intros ->. destruct (player_cid k); reflexivity. Qed.

(* before_item by its tests alone, without the case analysis on the kind *)
Lemma before_item_eq r k : before_item r k =
  if normal k && negb (r_in_tick r) then
    PreEmit (TickStart (r_tick r)) (set_in_tick true (set_next (Some k) r))
  else if prevcond r k then
    match checked_add (r_tick r) 1 with
    | None => PreErr ETickOverflow
    | Some t' => PreEmit (TickEnd (r_tick r))
                   (set_in_tick false (set_next (Some k) (set_prev None (set_tick t' r))))
    end
  else if is_finish k && r_in_tick r then
    PreEmit (TickEnd (r_tick r)) (set_in_tick false (set_next (Some k) r))
  else PreRead r.
Proof. destruct k; reflexivity. Qed.

(* case analysis along the tests the reader's transition functions make
   (ifs, map lookups, checked additions) *)
Ltac by_tests :=
  cbn beta iota zeta;
  repeat match goal with
         | |- context [aget ?c ?m] => destruct (aget c m) as [?|]
         | |- context [let (_, _) := ?p in _] => destruct p
         | |- context [if ?c then _ else _] => destruct c
         | |- context [match checked_add ?a ?b with _ => _ end] => destruct (checked_add a b)
         end.

Lemma before_item_frame r k it r' : before_item r k = PreEmit it r' ->
  is_marker it = true /\ r_next r' = Some k /\ r_version r' = r_version r
  /\ r_players r' = r_players r /\ r_inputs r' = r_inputs r.
Proof.
  rewrite before_item_eq. by_tests; intros H; try discriminate; injection H as <- <-; auto.
Qed.

Lemma before_item_read r k r' : before_item r k = PreRead r' -> r' = r.
Proof.
  rewrite before_item_eq. by_tests; intros H; try discriminate. injection H as <-. reflexivity.
Qed.

(* calls of Reader::read still needed for the item whose kind is known *)
Definition ph_of (r : reader) (k : ikind) : nat :=
  if normal k && negb (r_in_tick r)
  then (if prevcond r k then 4 else 2)
  else if prevcond r k then 3
  else if is_finish k && r_in_tick r then 2 else 1.

Definition ph (r : reader) : nat :=
  match r_next r with None => 0 | Some k => ph_of (set_next None r) k end.

Lemma ph_of_pos r k : (1 <= ph_of r k <= 4)%nat.
Proof.
  unfold ph_of. destruct (normal k && negb (r_in_tick r));
    destruct (prevcond r k); try destruct (is_finish k && r_in_tick r); lia.
Qed.

Lemma before_item_emit r k it r' : before_item r k = PreEmit it r' ->
  (ph_of (set_next None r') k < ph_of r k)%nat.
Proof.
  unfold before_item, ph_of, prevcond, normal.
  destruct k; cbn [is_tick_skip is_finish player_cid negb andb];
    destruct (r_in_tick r) eqn:Eit; cbn [negb andb];
    try (destruct (r_prev r) as [p|] eqn:Ep; [destruct (cid <=? p) eqn:Ec|]);
    try (destruct (checked_add (r_tick r) 1));
    cbn beta iota; intros H; try discriminate.
  all: try (injection H as <- <-).
  all: cbn [set_next set_in_tick set_prev set_tick r_next r_in_tick r_prev negb andb].
  all: rewrite ?Ep, ?Ec; cbn beta iota; lia.
Qed.

(* Reader::read first raises max_cid, which nothing below looks at *)
Lemma bump_cid_eq r f : exists c,
  match fitem_cid f with
  | Some c => set_max_cid (Z.max (r_max_cid r) c) r
  | None => r
  end = set_max_cid c r.
Proof.
  destruct (fitem_cid f) as [c|]; [eauto|]. exists (r_max_cid r). destruct r; reflexivity.
Qed.

Lemma after_item_res r f : match after_item r f with Ok _ | Err _ => True | _ => False end.
Proof. unfold after_item. destruct f; by_tests; exact I. Qed.

Lemma after_item_frame r f x r' : after_item r f = Ok (x, r') ->
  r_version r' = r_version r /\ r_next r' = r_next r.
Proof.
  unfold after_item. destruct (bump_cid_eq r f) as [c ->].
  destruct f; by_tests; intros H; try discriminate; injection H as _ <-; auto.
Qed.

Section WithHeader.
  Variable hdr : bytes -> hverdict.

  Notation parseT := (parse_at hdr).
  Notation runT := (run pfailure eofT pidx pty parseT).
  Notation retryT := (retry pfailure eofT).

  Theorem loop_t_frag fuel r b1 s1 b2 s2 :
    buf_ok b1 -> buf_ok b2 -> logical b1 s1 = logical b2 s2 ->
    loop_t hdr fuel r b1 s1 = loop_t hdr fuel r b2 s2.
  Proof.
    apply (frag_independent_io pfailure eofT pidx pty parseT
             (parsers_ok_stable hdr) (parsers_fail_stable hdr) reader item reader_read).
  Qed.

  (* a session: the header attempt, then the caller's loop from the empty reader of that version *)
  Lemma read_all_eq fuel s : read_all hdr fuel s =
    match retryT (parseT PHeader) empty_buffer s with
    | (Ok vn, b, s') =>
      match version_of vn with
      | Some v => loop_t hdr fuel (reader_empty v) b s'
      | None => ([], Err (FErr EUnknownVersion))
      end
    | (Err e, _, _) => ([], Err e)
    | (Panic z, _, _) => ([], Panic z)
    | (OutOfFuel, _, _) => ([], OutOfFuel)
    end.
  Proof.
    unfold read_all, run_t, reader_new, version_of. cbn [run].
    destruct (retryT (parseT PHeader) empty_buffer s) as [[[vn|e|z|] b] s']; try reflexivity.
    destruct (vn =? 1); [reflexivity|]. destruct (vn =? 2); reflexivity.
  Qed.

  Theorem read_all_frag fuel (stream : bytes) (f1 f2 : sched) :
    frags f1 = stream -> frags f2 = stream -> read_all hdr fuel f1 = read_all hdr fuel f2.
  Proof.
    intros E1 E2. rewrite !read_all_eq.
    assert (HL : logical empty_buffer f1 = logical empty_buffer f2)
      by (rewrite (logical_empty f1), (logical_empty f2); congruence).
    destruct (retry_same pfailure eofT pidx pty parseT (parsers_ok_stable hdr) (parsers_fail_stable hdr)
                PHeader empty_buffer f1 empty_buffer f2 buf_ok_empty buf_ok_empty HL) as [Hr Hio].
    destruct (retryT (parseT PHeader) empty_buffer f1) as [[r1 b1] s1].
    destruct (retryT (parseT PHeader) empty_buffer f2) as [[r2 b2] s2].
    cbn [fst snd] in Hr, Hio. subst r2. destruct r1 as [vn|e|z|]; try reflexivity.
    destruct (version_of vn); [|reflexivity].
    destruct (Hio eq_refl) as [O1 [O2 L]]. apply loop_t_frag; assumption.
  Qed.

  Lemma fuel_for_frags f1 f2 : frags f1 = frags f2 -> fuel_for f1 = fuel_for f2.
  Proof. unfold fuel_for, frags. intros ->. reflexivity. Qed.

  (* the part of Reader::read after the kind is known *)
  Definition go (r : reader) (k : ikind) : tprog (option item * reader) :=
    match before_item (set_next None r) k with
    | PreEmit it r' => Ret (Some it, r')
    | PreErr e => Bad (FErr e)
    | PreRead r' =>
      Read (PItem k) (fun f =>
        match after_item r' f with
        | Ok x => Ret x
        | Err e => Bad (FErr e)
        | Panic s => Bad (FPanic s)
        | OutOfFuel => Bad (FPanic site_oof)
        end)
    end.

  Lemma reader_read_go r : reader_read r =
    match r_next r with Some k => go r k | None => Read (PKind (r_version r)) (go r) end.
  Proof. reflexivity. Qed.

  Definition goodE (e : pfailure) : Prop := match e with FErr _ => True | FPanic _ => False end.

  Lemma good_parse p bs e : parseT p bs = PFail e -> goodE e.
  Proof.
    intros H. destruct e as [e|s]; [exact I|]. exact (parsers_no_panic hdr _ _ _ H).
  Qed.

  Lemma ok_bound p bs a n : parseT p bs = POk a n -> (n <= length bs)%nat.
  Proof. intros H. apply (parsers_ok_stable hdr p bs a n [] H). Qed.

  Lemma reader_read_good r : prog_good pfailure pidx pty goodE (reader_read r).
  Proof.
    assert (Hgo : forall k, prog_good pfailure pidx pty goodE (go r k)).
    { intros k. unfold go. destruct (before_item (set_next None r) k) as [it r'|e|r']; cbn; try exact I.
      intros f. pose proof (after_item_res r' f) as Ha. destruct (after_item r' f); cbn; try exact I; contradiction. }
    rewrite reader_read_go. destruct (r_next r) as [k|]; [apply Hgo|exact Hgo].
  Qed.

  Lemma retry_landsT p b s : buf_ok b -> lands pfailure goodE (retryT (parseT p) b s).
  Proof. exact (retry_lands pfailure eofT pidx pty parseT goodE ok_bound I good_parse p s b). Qed.

  Lemma run_landsT {R} (m : tprog R) b s : prog_good pfailure pidx pty goodE m -> buf_ok b ->
    lands pfailure goodE (runT m b s).
  Proof.
    intros Hg H. exact (run_lands pfailure eofT pidx pty parseT goodE ok_bound I good_parse m Hg b s H).
  Qed.

  Theorem read_all_no_panic fuel s :
    match snd (read_all hdr fuel s) with
    | Panic _ => False
    | Err (FPanic _) => False
    | _ => True
    end.
  Proof.
    rewrite read_all_eq. pose proof (retry_landsT PHeader empty_buffer s buf_ok_empty) as L.
    destruct (retryT (parseT PHeader) empty_buffer s) as [[[vn|[e|z]|z|] b] s']; try exact I; try exact L.
    destruct (version_of vn) as [v|]; [|exact I].
    pose proof (loop_lands pfailure eofT pidx pty parseT goodE ok_bound I good_parse
                  reader item reader_read reader_read_good fuel (reader_empty v) b s' L) as LL.
    unfold loop_t. destruct (snd (loop pfailure eofT pidx pty parseT reader item reader_read fuel (reader_empty v) b s'))
      as [x|[e|z]|z|]; try exact I; exact LL.
  Qed.

  (* an unpacked int takes at least one byte; kinds start with an int *)
  Lemma p_int_consumes bs v r : p_int bs = ROk v r -> (length r < length bs)%nat.
  Proof.
    unfold p_int, pbind, p_step. cbn [unpack_step]. pose proof (read_int_good bs) as G.
    destruct (read_int bs) as [[[v' ws] r']| | |]; try discriminate.
    unfold pret. intros H. injection H as _ <-. destruct G as [[c [-> Hl]] _]. rewrite app_length. lia.
  Qed.

  Lemma decode_kind_consumes v bs k r : decode_kind v bs = ROk k r -> (length r < length bs)%nat.
  Proof.
    unfold decode_kind. intros H. apply pbind_inv in H as [i [r1 [Hi H]]].
    apply p_int_consumes in Hi.
    match type of H with ?g r1 = _ => assert (Hs : pgood g) by auto 20 with pgood end.
    pose proof (pgood_suffix _ _ _ _ Hs H). lia.
  Qed.

  (* what fuel_for pays for: a call of Reader::read either works off one of the at most
     four calls the pending item still needs, or reads a kind, which takes a byte *)
  Definition measure (r : reader) (b : buffer) (s : sched) : nat := 5 * length (logical b s) + ph r.

  Lemma retry_inv p b s a b' s' : buf_ok b -> retryT (parseT p) b s = (Ok a, b', s') ->
    exists n, parseT p (logical b s) = POk a n /\ buf_ok b' /\ logical b' s' = skipn n (logical b s).
  Proof.
    apply (retry_ok_inv pfailure eofT pidx pty parseT (parsers_ok_stable hdr) (parsers_fail_stable hdr)).
  Qed.

  Lemma skipn_length_le {A} n (l : list A) : (length (skipn n l) <= length l)%nat.
  Proof. rewrite skipn_length. lia. Qed.

  Lemma go_step r k b s it r' b' s' : buf_ok b ->
    runT (go r k) b s = (Ok (Some it, r'), b', s') ->
    buf_ok b' /\ (5 * length (logical b' s') + ph r' < 5 * length (logical b s) + ph_of (set_next None r) k)%nat.
  Proof.
    intros Hok H. unfold go in H.
    destruct (before_item (set_next None r) k) as [it0 r0|e|r0] eqn:Eb; cbn [run] in H.
    - injection H as <- <- <- <-. split; [exact Hok|].
      destruct (before_item_frame _ _ _ _ Eb) as [_ [Hn _]]. pose proof (before_item_emit _ _ _ _ Eb).
      unfold ph. rewrite Hn. lia.
    - discriminate.
    - apply before_item_read in Eb. subst r0.
      destruct (retryT (parseT (PItem k)) b s) as [[x b1] s1] eqn:Er.
      destruct x as [f|e|z|]; try discriminate.
      destruct (retry_inv _ _ _ _ _ _ Hok Er) as [n [_ [O L]]].
      destruct (after_item (set_next None r) f) as [[x r1]|e|z|] eqn:Ea; cbn [run] in H; try discriminate.
      injection H as -> <- <- <-. split; [exact O|].
      apply after_item_frame in Ea as [_ Ea]. cbn [set_next r_next] in Ea. unfold ph. rewrite Ea.
      rewrite L. pose proof (skipn_length_le n (logical b s)). pose proof (ph_of_pos (set_next None r) k). lia.
  Qed.

  Lemma read_step r b s it r' b' s' : buf_ok b ->
    runT (reader_read r) b s = (Ok (Some it, r'), b', s') ->
    buf_ok b' /\ (measure r' b' s' < measure r b s)%nat.
  Proof.
    intros Hok H. rewrite reader_read_go in H. unfold measure.
    destruct (r_next r) as [k|] eqn:En.
    - destruct (go_step _ _ _ _ _ _ _ _ Hok H) as [O Hlt]. split; [exact O|].
      unfold ph at 2. rewrite En. exact Hlt.
    - cbn [run] in H.
      destruct (retryT (parseT (PKind (r_version r))) b s) as [[x b1] s1] eqn:Er.
      destruct x as [k|e|z|]; try discriminate.
      destruct (retry_inv _ _ _ _ _ _ Hok Er) as [n [Hp [O L]]].
      destruct (go_step _ _ _ _ _ _ _ _ O H) as [O' Hlt]. split; [exact O'|].
      cbn [parse_at] in Hp. unfold to_outcome in Hp.
      destruct (decode_kind (r_version r) (logical b s)) as [k' rest| | |] eqn:Ed; try discriminate.
      injection Hp as _ Hn. apply decode_kind_consumes in Ed.
      assert (Hl : (length (logical b1 s1) < length (logical b s))%nat).
      { rewrite L, skipn_length. lia. }
      pose proof (ph_of_pos (set_next None r) k). unfold ph at 2. rewrite En. lia.
  Qed.

  Lemma loop_fuel : forall fuel r b s, buf_ok b -> (measure r b s < fuel)%nat ->
    snd (loop_t hdr fuel r b s) <> OutOfFuel.
  Proof.
    induction fuel as [|fuel IH]; intros r b s Hok Hm; [lia|].
    unfold loop_t. cbn [loop].
    pose proof (run_landsT (reader_read r) b s (reader_read_good r) Hok) as L.
    destruct (runT (reader_read r) b s) as [[[[[it|] r']|e|z|] b'] s'] eqn:Er;
      cbn [snd]; try discriminate; try contradiction.
    destruct (read_step _ _ _ _ _ _ _ Hok Er) as [O Hlt].
    specialize (IH r' b' s' O ltac:(lia)). unfold loop_t in IH.
    destruct (loop pfailure eofT pidx pty parseT reader item reader_read fuel r' b' s') as [its fin].
    exact IH.
  Qed.

  Theorem read_all_terminates s : snd (read_all hdr (fuel_for s) s) <> OutOfFuel.
  Proof.
    rewrite read_all_eq. pose proof (retry_landsT PHeader empty_buffer s buf_ok_empty) as NP.
    destruct (retryT (parseT PHeader) empty_buffer s) as [[[vn|e|z|] b] s'] eqn:Ey;
      cbn [snd]; try discriminate; try contradiction.
    destruct (version_of vn) as [v|]; [|discriminate].
    destruct (retry_inv _ _ _ _ _ _ buf_ok_empty Ey) as [n [_ [O L]]].
    apply loop_fuel; [exact O|]. unfold measure, fuel_for. change (ph (reader_empty v)) with 0%nat.
    rewrite L, logical_empty. pose proof (skipn_length_le n (frags s)) as H. unfold frags in *. lia.
  Qed.
End WithHeader.
