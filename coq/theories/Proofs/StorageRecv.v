(* C13, the transfer layer: a DeltaReceiver that is only ever fed messages of genuine transfers
   (the messages delta_chunks made for ticks the sender really sent, one transfer per tick), in any
   order, with any loss and duplication, of older and newer ticks interleaved, hands out for a tick
   nothing but that tick's transfer - data, base tick and checksum.  Built from the per-transfer
   lemmas behind C12_exactly_once (multi_first / multi_inprog / step_wf). *)
From LibTw2 Require Import Base.Res Model.Receiver Proofs.ReceiverBase Proofs.ReceiverChunks
  Proofs.ReceiverSteps Proofs.ReceiverXfer Proofs.ReceiverProofs.
From Coq Require Import ZArith Lia Bool List ZifyBool ZifyNat.
Import ListNotations.
Open Scope Z_scope.

Record xfer := { x_tick : Z; x_base : Z; x_crc : Z; x_data : bytes }.
Definition x_dt (x : xfer) : Z := wrap32 (x_tick x - x_base x).
Definition x_msgs (x : xfer) : list snapmsg := xfer_msgs (x_tick x) (x_dt x) (x_crc x) (x_data x).
Definition x_rd (x : xfer) : received := delivered (x_tick x) (x_base x) (x_data x) (x_crc x).

Lemma x_rd_wire x : is_i32 (x_base x) = true ->
  x_rd x = {| rd_delta_tick := wrap32 (x_tick x - x_dt x); rd_tick := x_tick x;
              rd_data_and_crc := match x_data x with [] => None | _ => Some (x_data x, x_crc x) end |}.
Proof. intros Hb. unfold x_rd, delivered, x_dt. rewrite wrap32_sub_sub by exact Hb. reflexivity. Qed.

Lemma expect_cases n rd pre i :
  match fst (expect n rd pre i) with
  | Ok (Some rd') => rd' = rd
  | Ok None => True
  | Err e => e = OldDelta \/ e = DuplicatePart
  | _ => False
  end.
Proof.
  unfold expect. destruct (covers n pre); [left; reflexivity|]. destruct (seen pre i); [right; reflexivity|].
  destruct (covers n (pre ++ [Part i])); [reflexivity|exact I].
Qed.

Section Recv.
  Variable G : xfer -> Prop.

  (* no call can panic, and a transfer in progress is a genuine one of which exactly the parts of `pre` are held *)
  Definition rinv (s : receiver) : Prop :=
    wf s = true /\
    forall c, r_cur s = Some c ->
      exists x pre, G x /\ x_tick x = c_tick c /\ (2 <= nparts (x_data x) <= 32)%nat
        /\ inprog (x_tick x) (x_dt x) (x_crc x) (chunks_of (x_data x)) pre s
        /\ covers (nparts (x_data x)) pre = false.

  Hypothesis Guniq : forall x y, G x -> G y -> x_tick x = x_tick y -> x = y.

  Lemma rinv_idle s : wf s = true -> r_cur s = None -> rinv s.
  Proof. intros Hwf Hc. split; [exact Hwf|]. intros c H. congruence. Qed.

  Lemma phase_rinv x pre s : G x -> (2 <= nparts (x_data x) <= 32)%nat -> wf s = true -> any_part pre = true ->
    phase (x_tick x) (length (chunks_of (x_data x))) (inprog (x_tick x) (x_dt x) (x_crc x) (chunks_of (x_data x))) pre s ->
    rinv s.
  Proof.
    intros HG Hn Hwf Hany Hph. unfold phase in Hph. rewrite chunks_of_length in Hph.
    destruct (covers (nparts (x_data x)) pre) eqn:Hcov.
    - destruct Hph as [Hc _]. apply rinv_idle; assumption.
    - rewrite Hany in Hph. split; [exact Hwf|]. intros c Hc. exists x, pre.
      split; [exact HG|]. split.
      + destruct Hph as [Hcur _]. rewrite Hcur in Hc. injection Hc as <-. reflexivity.
      + split; [exact Hn|]. split; [exact Hph|exact Hcov].
  Qed.

  (* part i of a transfer of 2..32 parts: the answer is the one C12 gives, for the parts held so far *)
  Lemma recv_part s x i : rinv s -> G x -> (2 <= nparts (x_data x) <= 32)%nat -> (i < nparts (x_data x))%nat ->
    can_receive s (x_tick x) = true ->
    let m := part_msg (x_tick x) (x_dt x) (x_crc x) (chunks_of (x_data x)) i in
    exists pre,
      snd (recv_step s m)
      = expect (length (chunks_of (x_data x)))
          {| rd_delta_tick := wrap32 (x_tick x - x_dt x); rd_tick := x_tick x;
             rd_data_and_crc := Some (concat (chunks_of (x_data x)), x_crc x) |} pre i
      /\ phase (x_tick x) (length (chunks_of (x_data x)))
           (inprog (x_tick x) (x_dt x) (x_crc x) (chunks_of (x_data x))) (pre ++ [Part i]) (fst (recv_step s m)).
  Proof.
    intros [Hwf Hcur] HG Hn Hi Hc. cbv zeta.
    pose proof (chunks_of_length (x_data x)) as Hl. pose proof (chunks_max_data (x_data x)) as Hsm.
    destruct (cur_has_tick s (x_tick x)) eqn:Hct.
    - (* the transfer is in progress *)
      unfold cur_has_tick in Hct. destruct (r_cur s) as [c|] eqn:Ec; [|discriminate].
      destruct (Hcur c eq_refl) as (x' & pre & HG' & Ht' & Hn' & Hip & Hcov).
      assert (x' = x) by (apply Guniq; [exact HG'|exact HG|rewrite Ht'; apply Z.eqb_eq, Hct]). subst x'.
      exists pre. apply multi_inprog; rewrite ?Hl; (assumption || lia).
    - exists []. apply multi_first; rewrite ?Hl; try (assumption || lia || reflexivity).
      apply before_spec. split; assumption.
  Qed.

  (* a message of a genuine transfer: nothing but that transfer is handed out, and the only
     refusals are an old tick, a duplicate part and a transfer of more than 32 parts *)
  Theorem recv_genuine s x m :
    rinv s -> G x -> is_i32 (x_base x) = true -> In m (x_msgs x) ->
    rinv (fst (recv_step s m))
    /\ match fst (snd (recv_step s m)) with
       | Ok (Some rd) => rd = x_rd x
       | Ok None => True
       | Err e => e = OldDelta \/ e = DuplicatePart \/ (e = InvalidNumParts /\ (32 < nparts (x_data x))%nat)
       | _ => False
       end.
  Proof.
    intros Hinv HG Hb Hin. pose proof Hinv as [Hwf _]. rewrite (x_rd_wire x Hb). unfold x_msgs in Hin.
    destruct (can_receive s (msg_tick m)) eqn:Hc.
    2:{ rewrite (cannot_receive s m Hc). split; [exact Hinv|left; reflexivity]. }
    rewrite (proj1 (xfer_msgs_facts _ _ _ _ _ Hin)) in Hc.
    destruct (step_wf s m Hwf (xfer_msgs_small _ _ _ _ _ Hin)) as [Hwf' _].
    destruct (xfer_msgs_cases (x_tick x) (x_dt x) (x_crc x) (x_data x)) as [[E Em]|[(Hne & _ & Em)|[Hn Em]]];
      rewrite Em in Hin; clear Em.
    - destruct Hin as [<-|[]]. cbn [recv_step] in *. rewrite snap_empty_ok in * by exact Hc.
      split; [apply rinv_idle; [exact Hwf'|reflexivity]|]. rewrite E. reflexivity.
    - destruct Hin as [<-|[]]. cbn [recv_step] in *. rewrite snap_single_ok in * by exact Hc.
      split; [apply rinv_idle; [exact Hwf'|reflexivity]|]. destruct (x_data x); [contradiction|reflexivity].
    - unfold multi_msgs in Hin. apply in_map_iff in Hin. destruct Hin as [i [<- Hi]].
      apply in_seq in Hi. rewrite chunks_of_length in Hi.
      destruct (Nat.le_gt_cases (nparts (x_data x)) 32) as [Hn32|Hbig].
      2:{ (* more than 32 parts: every message is refused, the state stays *)
        unfold part_msg. cbn [recv_step]. rewrite chunks_of_length, snap_refused, Hc.
        replace ((0 <=? Z.of_nat (nparts (x_data x))) && (Z.of_nat (nparts (x_data x)) <=? 32)) with false by lia.
        split; [exact Hinv|]. right. right. split; [reflexivity|exact Hbig]. }
      destruct (recv_part s x i Hinv HG (conj Hn Hn32) (proj2 Hi) Hc) as (pre & Ho & Hph). split.
      + apply (phase_rinv x (pre ++ [Part i])); try assumption; [split; assumption|].
        rewrite any_part_app. apply orb_true_r.
      + rewrite Ho. pose proof (expect_cases (length (chunks_of (x_data x)))
          {| rd_delta_tick := wrap32 (x_tick x - x_dt x); rd_tick := x_tick x;
             rd_data_and_crc := Some (concat (chunks_of (x_data x)), x_crc x) |} pre i) as Hex.
        destruct (fst (expect _ _ pre i)) as [[rd|]|e| |]; try assumption; [|tauto].
        subst rd. rewrite chunks_of_concat. destruct (x_data x); [|reflexivity].
        rewrite (proj2 (nparts_zero [])) in Hn by reflexivity. lia.
  Qed.
End Recv.

Lemma rinv_mono (G G' : xfer -> Prop) s : (forall x, G x -> G' x) -> rinv G s -> rinv G' s.
Proof.
  intros HGG [Hwf Hcur]. split; [exact Hwf|]. intros c Hc.
  destruct (Hcur c Hc) as (x & pre & HG & H). exists x, pre. split; [apply HGG, HG|exact H].
Qed.
